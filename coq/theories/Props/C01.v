(* C01 -- SQLite SQL computes the same table as the Pandas executor.

   Model.  Model/Sem.v is one evaluator `sem_gen fl` for all backends; the record `fl : flavor` holds every convention in which
   they differ.  Pandas evaluation is modelled by `sem_gen fl_pandas p e`, the SQL of to_sql() run on SQLite by
   `sem_gen fl_sqlite p e`; each is compared with the real backend on every run of the check (correspondence, inside Coq).
   The property "same columns, same multiset of rows, same row order after a final order_rows" is then
        tables_agree ordered (sem_gen fl_pandas p e) (sem_gen fl_sqlite p e) = true.

   FULL STATEMENT (for all pipelines p and inputs e): FALSE for the faithful models -- the `..._refuted` theorems below give,
   for each differing convention, a pipeline and tables on which the two models return different tables (each was replayed on
   the real backends: they differ there too; listed as known findings, except the property's own accepted convention).

   PROVED (unbounded: every pipeline of any depth and operator mix, every environment, every flavour):
   Model/SemStrict.v instruments the evaluator: `causes fl p e` lists every place where the data reaches a convention
   (a null operand of a comparison / and / or / maximum / minimum / fmax / fmin whose value is used, `!=` against a null in a
   row filter, sum / count over a group without values, a running window function meeting a null, a null or a tie among sort
   keys that decide a limit or an ordered window, null join keys on both sides).  If that list
   is empty, ALL flavours compute the SAME table.  So on every input where no listed case arises the models of Pandas,
   SQLite and PostgreSQL coincide: no other source of disagreement exists in the models. *)
From Coq Require Import List Bool QArith String Permutation.
Import ListNotations.
From DA Require Import Base.PyRT Base.Val Model.Sem Model.SemStrict Proofs.AgreeP1 Proofs.AgreeP2 Proofs.AgreeP3 Proofs.AgreeP4.

(* the statement asked for: when the instrumented evaluator returns a table (no convention was reached), every backend's
   model returns the same columns and the same multiset of rows *)
Theorem C01_sql_agrees_with_pandas_on_insensitive_inputs :
  forall (p : op) (e : env) (t : table), sem_strict p e = Some t ->
  forall fl : flavor, exists t', sem_gen fl p e = Some t' /\ cols t' = cols t /\ Permutation (rows t') (rows t).
Proof. exact sem_strict_same_columns_and_rows. Qed.
Print Assumptions C01_sql_agrees_with_pandas_on_insensitive_inputs.

(* ... and the same row order after a final order_rows *)
Theorem C01_same_row_order_after_final_order_rows :
  forall (s : op) (cs rev : list string) (lim : option nat) (e : env) (t : table),
  sem_strict (OOrder s cs rev lim) e = Some t ->
  forall fl : flavor, exists t', sem_gen fl (OOrder s cs rev lim) e = Some t' /\ cols t' = cols t /\ rows t' = rows t.
Proof. exact sem_strict_final_order. Qed.
Print Assumptions C01_same_row_order_after_final_order_rows.

(* the strongest form: walking along ANY flavour fl0, if no cause is met every flavour computes the very same table *)
Theorem C01_no_convention_reached_then_all_backends_compute_one_table :
  forall (fl0 : flavor) (p : op) (e : env), causes fl0 p e = [] -> forall fl : flavor, sem_gen fl p e = sem_gen fl0 p e.
Proof. exact agree_core. Qed.
Print Assumptions C01_no_convention_reached_then_all_backends_compute_one_table.

(* in the words of the property: Pandas and SQLite agree (columns in order; rows as a list, hence also as a multiset) *)
Theorem C01_pandas_and_sqlite_models_agree :
  forall (p : op) (e : env), insensitive p e = true ->
  forall ordered : bool, tables_agree ordered (sem_gen fl_pandas p e) (sem_gen fl_sqlite p e) = true.
Proof. exact (fun p e H ordered => insensitive_tables_agree p e H fl_pandas fl_sqlite ordered). Qed.
Print Assumptions C01_pandas_and_sqlite_models_agree.

(* multisets only: an order_rows WITHOUT limit (and a null among its keys) does not matter as long as only row-wise steps,
   joins and concatenations sit above it -- in particular as the final step *)
Theorem C01_same_multiset_above_unlimited_order_rows :
  forall (p : op) (e : env) (t : table), insensitive_bag p e = true -> sem_gen fl_pandas p e = Some t ->
  forall fl : flavor, exists t', sem_gen fl p e = Some t' /\ cols t' = cols t /\ Permutation (rows t') (rows t).
Proof. exact insensitive_bag_same_columns_and_rows. Qed.
Print Assumptions C01_same_multiset_above_unlimited_order_rows.

(* the causes are what the text says: one application of a scalar function without a null argument, an aggregate over a
   group with a value, a window function over values without a null, sort keys without a null, join keys of which one side
   has no null -- each is computed alike under all flavours *)
Theorem C01_scalar_function_without_null_argument :
  forall (fl fl' : flavor) (f : string) (args : list val), existsb is_null args = false -> scalar_op fl f args = scalar_op fl' f args.
Proof. exact scalar_op_nonnull. Qed.
Print Assumptions C01_scalar_function_without_null_argument.
Theorem C01_row_filter_looks_only_at_truth :
  forall (fl0 : flavor) (cs : list string) (r : list val) (x : expr), truth_causes fl0 cs r x = [] ->
  forall fl : flavor, truth (eval_expr fl cs r x) = truth (eval_expr fl0 cs r x).
Proof. exact truth_stable. Qed.
Print Assumptions C01_row_filter_looks_only_at_truth.
Theorem C01_join_with_null_keys_on_one_side_only :
  forall (on_a on_b : list string) (jt : jointype) (a b : table), join_causes on_a on_b jt a b = [] ->
  forall nm nm' : bool, sem_join nm on_a on_b jt a b = sem_join nm' on_a on_b jt a b.
Proof. exact join_agree. Qed.
Print Assumptions C01_join_with_null_keys_on_one_side_only.

(* ---------- the full statement is false for the faithful models: one witness per convention.
   differ_with_causes fl2 codes := exists p e, tables_agree false (sem_gen fl_pandas p e) (sem_gen fl2 p e) = false
                                              /\ map cause_code (causes fl_pandas p e) = codes
   (the two models return different multisets of rows, and the walk names exactly these causes; codes: cause_code in
   Model/SemStrict.v: 1 comparison, 2 != in a filter, 3 and/or, 4 maximum/minimum, 5 fmax/fmin, 6 empty aggregate,
   7 running window, 8 null sort key, 9 ties, 10 null join keys).
   Proofs/AgreeP4.v also shows for each witness that exactly ONE convention of SQLite matters (w_*_ok). *)
Theorem C01_null_operand_of_comparison_refuted : differ_with_causes fl_sqlite [1; 1]%nat.
Proof. exact w_cmp_refuted. Qed.
Print Assumptions C01_null_operand_of_comparison_refuted.
Theorem C01_not_equal_null_in_row_filter_refuted : differ_with_causes fl_sqlite [2; 2]%nat.
Proof. exact w_ne_filter_refuted. Qed.
Print Assumptions C01_not_equal_null_in_row_filter_refuted.
Theorem C01_null_operand_of_and_or_refuted : differ_with_causes fl_sqlite [3]%nat.
Proof. exact w_logic_refuted. Qed.
Print Assumptions C01_null_operand_of_and_or_refuted.
(* maximum / minimum / fmax / fmin with a null operand: the SQL templates were exchanged until /repo 9699787 and Polars ignored the
   null until /repo 73dee51 (then divergences); now Pandas, SQLite, PostgreSQL and Polars agree there -- the cause is met, no
   convention matters (Examples below).  The cause stays in the hypothesis of the agreement theorems because they hold for EVERY
   flavour record: for a hypothetical backend that ignored the null operand the statement is false on that input *)
Theorem C01_null_operand_of_maximum_minimum_refuted_for_some_conventions : exists fl : flavor, differ_with_causes fl [4; 4; 4]%nat.
Proof. exact w_minmax_some_flavour_refuted. Qed.
Print Assumptions C01_null_operand_of_maximum_minimum_refuted_for_some_conventions.
(* the property's own accepted convention: sum over a group with no non-null value *)
Theorem C01_sum_over_group_without_values_refuted : differ_with_causes fl_sqlite [6]%nat.
Proof. exact w_empty_agg_refuted. Qed.
Print Assumptions C01_sum_over_group_without_values_refuted.
Theorem C01_running_window_at_null_refuted : differ_with_causes fl_sqlite [7]%nat.
Proof. exact w_running_refuted. Qed.
Print Assumptions C01_running_window_at_null_refuted.
Theorem C01_null_sort_key_with_limit_refuted : differ_with_causes fl_sqlite [8]%nat.
Proof. exact w_sort_asc_refuted. Qed.
Print Assumptions C01_null_sort_key_with_limit_refuted.
Theorem C01_null_order_key_of_window_refuted : differ_with_causes fl_sqlite [8]%nat.
Proof. exact w_window_order_refuted. Qed.
Print Assumptions C01_null_order_key_of_window_refuted.
(* null join keys on both sides: pandas.merge pairs them; the Pandas executor did too until /repo af27aca (then a divergence of this
   property).  Now the four named flavours agree (Examples below); the cause stays in the hypothesis because the theorems hold for
   EVERY flavour record: for a backend that pairs null keys the statement is false on that input *)
Theorem C01_null_join_keys_on_both_sides_refuted_for_some_conventions : exists fl : flavor, differ_with_causes fl [10]%nat.
Proof. exact w_join_some_flavour_refuted. Qed.
Print Assumptions C01_null_join_keys_on_both_sides_refuted_for_some_conventions.
(* row ORDER after a final order_rows over a key with nulls differs, the multiset does not (and the multiset walk accepts it) *)
Theorem C01_row_order_over_null_sort_key_refuted :
  exists (p : op) (e : env), tables_agree true (sem_gen fl_pandas p e) (sem_gen fl_sqlite p e) = false
                             /\ tables_agree false (sem_gen fl_pandas p e) (sem_gen fl_sqlite p e) = true
                             /\ insensitive_bag p e = true.
Proof. exact w_final_order_refuted. Qed.
Print Assumptions C01_row_order_over_null_sort_key_refuted.

(* ---------- the hypotheses are satisfiable by a non-trivial instance: a LEFT join with null keys on one side, a row filter
   whose comparisons meet nulls, grouped aggregates (a null key is a group), a running sum, an order_rows with limit --
   over tables with nulls and duplicate rows *)
Example C01_maximum_minimum_with_null_now_agree : verdict fl_sqlite w_minmax = ([4; 4; 4]%nat, []%nat, true).
Proof. exact w_minmax_ok. Qed.
Example C01_maximum_minimum_with_null_postgres_agrees : verdict fl_postgres w_minmax = ([4; 4; 4]%nat, []%nat, true).
Proof. exact w_minmax_postgres. Qed.
Example C01_maximum_minimum_with_null_polars_agrees : verdict fl_polars w_minmax = ([4; 4; 4]%nat, []%nat, true).
Proof. exact w_minmax_polars. Qed.
Example C01_fmax_fmin_with_null_now_agree : verdict fl_sqlite w_fminmax = ([5; 5; 5]%nat, []%nat, true).
Proof. exact w_fminmax_ok. Qed.
Example C01_null_join_keys_sqlite_agrees : verdict fl_sqlite w_join = ([10]%nat, []%nat, true).
Proof. exact w_join_ok. Qed.
Example C01_null_join_keys_postgres_agrees : verdict fl_postgres w_join = ([10]%nat, []%nat, true).
Proof. exact w_join_postgres. Qed.
Example C01_null_join_keys_polars_agrees : verdict fl_polars w_join = ([10]%nat, []%nat, true).
Proof. exact w_join_polars. Qed.
(* a FULL join with null keys on one side only is insensitive (no exclusion any more) and keeps every null-key row *)
Example C01_full_join_with_null_keys_on_one_side :
  verdict fl_sqlite w_full_join = ([]%nat, []%nat, true) /\ insensitive w_full_join w_env = true
  /\ option_map (fun t => List.length (rows t)) (sem_strict w_full_join w_env) = Some 6%nat.
Proof. exact w_full_join_ok. Qed.
Example C01_insensitive_example : insensitive nv_pipeline nv_env = true.
Proof. exact nv_insensitive. Qed.
Example C01_insensitive_example_result :
  option_map rows (sem_strict nv_pipeline nv_env) = Some [[VNull; zv 5; zv 1; VNull; zv 10]; [zv 2; zv 3; zv 1; VNull; zv 5]].
Proof. exact nv_result. Qed.
