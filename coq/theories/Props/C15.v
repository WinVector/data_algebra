(* C15 -- results do not depend on how tables and columns are named.
   "Consistently renaming the input tables and columns of a pipeline, including to names that the executors or the SQL
    generator use internally, renames the result and changes nothing else, on every backend.  No user table or column can
    be captured, overwritten or dropped by the system's own temporary names."

   Part A: the reference semantics Model/Sem.v (sem_gen <flavour> is what each backend is tied to by correspondence on
   every run) is equivariant under EVERY injective renaming of tables and columns, for every pipeline.  It has no names of
   its own, so names "used internally" are just names there; the theorems hold for them too (exchanges of names are
   injective).
   Part B: the executors DO have names of their own (Model/ScratchNames.v: the Pandas steps that write scratch columns
   into the working frame, transcribed name by name, parametric in the names; WITH-query name resolution for SQL).
   Pandas: since fix c06ea4b the executor chooses its scratch names away from the names in use (code_names transcribes
   _unused_column_name and the join-suffix loop); for every step that refers to existing columns the step with scratch
   columns in the frame equals the step with its scratch values in locals -- nothing is captured, overwritten or dropped,
   WHATEVER the user's columns are called -- and renaming the user's columns renames the step's result
   (C15_pandas_steps_never_capture, C15_pandas_steps_rename_equivariant: the full statement for these steps).  The
   C15_hard_coded_* theorems record why the choice matters: with the bare base names (the code before the fix) a user
   column of that name changes the step; their witnesses are the regression corpus of the check.
   SQL: since fix 161d83f to_sql starts its view counter past every table of the pipeline that is itself named like a view
   (first_view_id transcribes the rule); no view the generator can then produce is one of the tables, so a WITH query
   resolves every name as the generator meant it, whatever the tables are called (C15_generated_view_is_no_table,
   C15_with_query_numbered_no_capture).  C15_view_named_like_table_would_capture records why the rule matters.
   Polars: since fix 85ef226 the scratch names are chosen like the Pandas ones; they are listed in `reserved` and the
   steps are not transcribed (metamorphic oracle and regression corpus only). *)
From Coq Require Import List Bool ZArith String.
Import ListNotations.
From DA Require Import Base.PyRT Base.Val Model.Sem Model.Rename Model.ScratchNames Model.ScratchRename Model.ScratchCases.
From DA Require Import Proofs.RenameP2 Proofs.ScratchP1 Proofs.ScratchP2 Proofs.ScratchP3 Proofs.ScratchP4 Proofs.ScratchP5 Proofs.ScratchP6.

(* ------------------------------------------------------------------ part A *)
Theorem C15_sem_rename_equivariant :
  forall (fl : flavor) (rt rc : string -> string), injective rt -> injective rc ->
  forall (p : op) (e : env),
  sem_gen fl (rename_op rt rc p) (rename_env rt rc e) = option_map (rename_tab rc) (sem_gen fl p e).
Proof. exact sem_rename_equivariant. Qed.
Print Assumptions C15_sem_rename_equivariant.

(* "... and changes nothing else": same rows (values, multiplicities, order), columns renamed *)
Theorem C15_renaming_changes_nothing_else :
  forall (fl : flavor) (rt rc : string -> string), injective rt -> injective rc ->
  forall (p : op) (e : env) (t : table), sem_gen fl p e = Some t ->
  exists t', sem_gen fl (rename_op rt rc p) (rename_env rt rc e) = Some t' /\ cols t' = map rc (cols t) /\ rows t' = rows t.
Proof. exact sem_rename_rows_unchanged. Qed.
Print Assumptions C15_renaming_changes_nothing_else.

(* the check's oracle as a theorem: rename -> evaluate -> rename back = evaluate *)
Theorem C15_rename_evaluate_rename_back :
  forall (fl : flavor) (rt rc tback cback : string -> string),
  (forall n, tback (rt n) = n) -> (forall c, cback (rc c) = c) ->
  forall (p : op) (e : env),
  option_map (rename_tab cback) (sem_gen fl (rename_op rt rc p) (rename_env rt rc e)) = sem_gen fl p e.
Proof. exact sem_rename_evaluate_rename_back. Qed.
Print Assumptions C15_rename_evaluate_rename_back.

(* the declared columns (the builders' bookkeeping) are renamed the same way *)
Theorem C15_declared_columns_are_renamed :
  forall (rt rc : string -> string), injective rc -> forall p : op, column_names (rename_op rt rc p) = map rc (column_names p).
Proof. exact column_names_rename. Qed.
Print Assumptions C15_declared_columns_are_renamed.

(* renamings onto ANY names -- the system's own included -- are covered: exchanging names is injective *)
Theorem C15_name_exchanges_are_injective : forall l : list (string * string), injective (swaps l).
Proof. exact swaps_injective. Qed.
Print Assumptions C15_name_exchanges_are_injective.

(* ------------------------------------------------------------------ part B: Pandas scratch columns *)
(* the executor as it is (it chooses its scratch names): for every step that refers to existing columns, the step with
   scratch columns in the frame equals the step with its scratch values in locals: no user column is captured, overwritten
   or dropped, whatever the columns are called *)
Theorem C15_pandas_steps_never_capture :
  forall (A : Type) (P : prims A) (s : pstep) (f g : frame A),
  NoDup (fcols f) -> NoDup (fcols g) -> step_refers_to_frame s f g -> pexec_code P s f g = plain P s f g.
Proof. exact @pandas_steps_never_capture. Qed.
Print Assumptions C15_pandas_steps_never_capture.

(* ... and consistently renaming the user's columns (to ANY names) renames the step's result and changes nothing else *)
Theorem C15_pandas_steps_rename_equivariant :
  forall (A : Type) (P : prims A) (rho : string -> string), injective rho ->
  forall (s : pstep) (f g : frame A), NoDup (fcols f) -> NoDup (fcols g) -> step_refers_to_frame s f g ->
  pexec_code P (rename_step rho s) (rename_frame rho f) (rename_frame rho g) = option_map (rename_frame rho) (pexec_code P s f g).
Proof. exact @pandas_steps_rename_equivariant. Qed.
Print Assumptions C15_pandas_steps_rename_equivariant.

(* the choice made by _unused_column_name is never one of the names in use (the loop ends: the candidates differ in length) *)
Theorem C15_chosen_scratch_name_is_unused : forall (base : string) (taken : list string), ~ In (unused base taken) taken.
Proof. exact unused_not_in. Qed.
Print Assumptions C15_chosen_scratch_name_is_unused.

(* the general form: for ANY choice of scratch names outside the user's names (frame columns and the names the step
   mentions), shared join columns suffixed injectively: nothing captured *)
Theorem C15_no_capture_when_scratch_names_are_not_user_names :
  forall (A : Type) (P : prims A) (sn : pnames) (s : pstep) (f g : frame A),
  NoDup (fcols f) -> NoDup (fcols g) -> good_names sn s f g -> pexec P sn s f g = plain P s f g.
Proof. exact @step_no_capture. Qed.
Print Assumptions C15_no_capture_when_scratch_names_are_not_user_names.

(* the bare base names are harmless for user names outside the table `reserved` (the guarded statement that held before
   the fix, and the reason the check still compares `reserved` with the source) *)
Theorem C15_no_capture_outside_reserved :
  forall (A : Type) (P : prims A) (s : pstep) (f g : frame A),
  NoDup (fcols f) -> NoDup (fcols g) -> (forall c, In c (user_names s f g) -> is_reserved SColumn c = false) ->
  pexec P hard s f g = plain P s f g.
Proof. exact @hard_no_capture_outside_reserved. Qed.
Print Assumptions C15_no_capture_outside_reserved.

(* the plain steps have no names of their own: they commute with every injective renaming of the user's column names *)
Theorem C15_plain_step_rename_equivariant :
  forall (A : Type) (P : prims A) (rho : string -> string), injective rho ->
  forall (s : pstep) (f g : frame A),
  plain P (rename_step rho s) (rename_frame rho f) (rename_frame rho g) = option_map (rename_frame rho) (plain P s f g).
Proof. exact @plain_equivariant. Qed.
Print Assumptions C15_plain_step_rename_equivariant.

(* why the choice matters: with the bare base names (the executor before fix c06ea4b) a user column of that name changes the
   step -- one witness per class; each is replayed on the real code on every run (corpus/C15) and must no longer fail *)
Local Open Scope string_scope.
Theorem C15_hard_coded_project_ones_would_capture :
  wit (PProject [mksop "s" "sum" (ArgCol "x") []] ["_data_table_temp_col"]) ["_data_table_temp_col"; "x"] [].
Proof. exact project_ones_capture_refuted. Qed.
Print Assumptions C15_hard_coded_project_ones_would_capture.

Theorem C15_hard_coded_project_ones_would_drop_output :
  wit (PProject [mksop "_data_table_temp_col" "sum" (ArgCol "x") []] ["g"]) ["g"; "x"] [].
Proof. exact project_ones_output_dropped_refuted. Qed.
Print Assumptions C15_hard_coded_project_ones_would_drop_output.

Theorem C15_hard_coded_project_const_would_capture :
  wit (PProject [mksop "c" "sum" (ArgVal "2") []] ["data_algebra_project_temp_col_0"]) ["data_algebra_project_temp_col_0"; "x"] [].
Proof. exact project_const_capture_refuted. Qed.
Print Assumptions C15_hard_coded_project_const_would_capture.

Theorem C15_hard_coded_extend_standin_would_capture :
  wit (PWExtend [mksop "s" "sum" (ArgCol "_data_algebra_temp_g") []] ["g"] [] []) ["g"; "_data_algebra_temp_g"] [].
Proof. exact extend_standin_capture_refuted. Qed.
Print Assumptions C15_hard_coded_extend_standin_would_capture.

Theorem C15_hard_coded_extend_orig_index_would_capture :
  wit (PWExtend [mksop "c" "cumsum" (ArgCol "_data_algebra_orig_index") []] ["g"] ["y"] []) ["g"; "_data_algebra_orig_index"; "y"] [].
Proof. exact extend_orig_index_capture_refuted. Qed.
Print Assumptions C15_hard_coded_extend_orig_index_would_capture.

Theorem C15_hard_coded_extend_const_would_capture :
  wit (PWExtend [mksop "c" "cumsum" (ArgVal "2") []] ["g"] ["y"] []) ["g"; "y"; "data_algebra_extend_temp_col_0"] [].
Proof. exact extend_const_capture_refuted. Qed.
Print Assumptions C15_hard_coded_extend_const_would_capture.

Theorem C15_hard_coded_join_merge_key_would_capture :
  wit (PJoin "CROSS" [] false) ["g"; "data_algebra_temp_merge_col"] ["q"].
Proof. exact join_merge_key_capture_refuted. Qed.
Print Assumptions C15_hard_coded_join_merge_key_would_capture.

Theorem C15_hard_coded_join_suffix_would_raise :
  wit (PJoin "LEFT" ["k"] false) ["k"; "x"; "x_tmp_right_col"] ["k"; "x"]
  /\ pexec sym hard (PJoin "LEFT" ["k"] false) (sframe "<L:" ["k"; "x"; "x_tmp_right_col"]) (sframe "<R:" ["k"; "x"]) = None.
Proof. exact join_suffix_capture_refuted. Qed.
Print Assumptions C15_hard_coded_join_suffix_would_raise.

(* ------------------------------------------------------------------ part B: SQL view names *)
(* the numbering rule of to_sql: a view <kind>_<i> with i at or past first_view_id of the pipeline's tables is none of them *)
Theorem C15_generated_view_is_no_table :
  forall (tables : list string) (p : string) (i : nat) (t : string),
  In p view_kinds -> In t tables -> first_view_id tables <= i -> t <> (p ++ dec i)%string.
Proof. exact generated_view_is_no_table. Qed.
Print Assumptions C15_generated_view_is_no_table.

(* hence a generated WITH query resolves every name as the generator meant it -- no guard on the tables' names *)
Theorem C15_with_query_numbered_no_capture :
  forall q : wquery, wq_wellformed q = true -> forallb (generated_view_name (wq_tables q)) (w_ctes q) = true -> captured_refs q = [].
Proof. exact with_query_numbered_no_capture. Qed.
Print Assumptions C15_with_query_numbered_no_capture.

(* the general form: no capture when no table is named like one of the query's views *)
Theorem C15_with_query_no_capture :
  forall q : wquery, wq_wellformed q = true -> (forall n, In n (wq_tables q) -> ~ In n (w_ctes q)) -> captured_refs q = [].
Proof. exact with_no_capture. Qed.
Print Assumptions C15_with_query_no_capture.

(* why the rule matters (the generator before 161d83f numbered from 0): a table called extend_0 under a view extend_0 *)
Theorem C15_view_named_like_table_would_capture :
  exists q, wq_wellformed q = true /\ In "extend_0" (wq_tables q) /\ is_reserved STable "extend_0" = true /\ captured_refs q <> [].
Proof. exact with_view_name_capture_refuted. Qed.
Print Assumptions C15_view_named_like_table_would_capture.

(* ------------------------------------------------------------------ non-vacuity *)
Local Open Scope list_scope.
(* an injective renaming ONTO internal names: g <-> _data_table_temp_col, x <-> x_tmp_right_col, table d <-> extend_0; the
   specification's result is the original result with the columns renamed and nothing else *)
Example C15_rename_onto_internal_names_example :
  let rc := swaps [("g", "_data_table_temp_col"); ("x", "g_tmp_right_col")] in
  let rt := swaps [("d", "extend_0")] in
  let p := OProject (OTable "d" ["g"; "x"]) [("s", EOp "sum" [ECol "x"])] ["g"] in
  let e := [("d", mktable ["g"; "x"] [[VStr "a"; VInt 1%Z]; [VStr "b"; VInt 5%Z]; [VStr "a"; VInt 2%Z]])] in
  (injective rt /\ injective rc)
  /\ rename_op rt rc p = OProject (OTable "extend_0" ["_data_table_temp_col"; "g_tmp_right_col"]) [("s", EOp "sum" [ECol "g_tmp_right_col"])] ["_data_table_temp_col"]
  /\ option_map cols (sem_gen fl_pandas (rename_op rt rc p) (rename_env rt rc e)) = Some ["_data_table_temp_col"; "s"]
  /\ option_map rows (sem_gen fl_pandas (rename_op rt rc p) (rename_env rt rc e)) = option_map rows (sem_gen fl_pandas p e).
Proof.
  intros rc rt p e. split; [split; apply swaps_injective|]. split; [vm_compute; reflexivity|].
  (* the renamed pipeline is evaluated once, inside one match *)
  assert (match sem_gen fl_pandas (rename_op rt rc p) (rename_env rt rc e) with
          | Some t => cols t = ["_data_table_temp_col"; "s"] /\ Some (rows t) = option_map rows (sem_gen fl_pandas p e)
          | None => False
          end) as H by (vm_compute; split; reflexivity).
  destruct (sem_gen fl_pandas (rename_op rt rc p) (rename_env rt rc e)) as [t|]; [|destruct H].
  cbn [option_map]. destruct H as [H1 H2]. rewrite H1. split; [reflexivity|exact H2].
Qed.

(* the same witnesses on the executor as it is: the user column called like a scratch column is left alone *)
Example C15_code_leaves_the_witness_columns_alone :
  pexec_code sym (PProject [mksop "s" "sum" (ArgCol "x") []] ["_data_table_temp_col"]) (sframe "<L:" ["_data_table_temp_col"; "x"]) (sframe "<R:" [])
  = plain sym (PProject [mksop "s" "sum" (ArgCol "x") []] ["_data_table_temp_col"]) (sframe "<L:" ["_data_table_temp_col"; "x"]) (sframe "<R:" [])
  /\ n_table_temp (code_names ["_data_table_temp_col"; "x"; "s"] []) = "__data_table_temp_col"
  /\ pexec_code sym (PJoin "LEFT" ["k"] false) (sframe "<L:" ["k"; "x"; "x_tmp_right_col"]) (sframe "<R:" ["k"; "x"])
     = plain sym (PJoin "LEFT" ["k"] false) (sframe "<L:" ["k"; "x"; "x_tmp_right_col"]) (sframe "<R:" ["k"; "x"])
  /\ n_right (code_names ["k"; "x"; "x_tmp_right_col"; "k"; "x"] ["k"; "x"]) "x" = "x_tmp_right_col_".
Proof. repeat split; vm_compute; reflexivity. Qed.

(* the numbering rule on the old witness: with a table called extend_0 the first view is extend_1 *)
Example C15_first_view_id_example :
  first_view_id ["extend_0"; "d2"] = 1%nat /\ generated_view_name ["extend_0"; "d2"] "extend_1" = true /\ generated_view_name ["extend_0"; "d2"] "extend_0" = false.
Proof. repeat split; vm_compute; reflexivity. Qed.

(* the guards of the part-B theorems are satisfiable: a step that refers to its frame; ordinary names outside `reserved` *)
Example C15_step_refers_to_frame_example :
  step_refers_to_frame (PWExtend [mksop "c" "cumsum" (ArgCol "x") []] ["g"] ["y"] ["y"]) (sframe "<L:" ["g"; "x"; "y"]) (sframe "<R:" []).
Proof. simpl. intros c H. repeat (destruct H as [<-|H]; [simpl; tauto|]). contradiction. Qed.
Example C15_outside_reserved_example :
  forall c, In c (user_names (PProject [mksop "s" "sum" (ArgCol "x") []] ["g"]) (sframe "<L:" ["g"; "x"]) (sframe "<R:" [])) -> is_reserved SColumn c = false.
Proof. exact outside_reserved_example. Qed.
Example C15_chosen_names_are_good_example :
  forall (A : Type) (s : pstep) (f g : frame A), good_names (fresh (user_names s f g)) s f g.
Proof. intros A s f g. constructor; [apply fresh_good_project|apply fresh_good_wextend|apply fresh_good_join]. Qed.
