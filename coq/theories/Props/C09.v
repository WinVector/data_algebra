(* C09 -- aggregation returns one row per group, and one row without grouping.
   Statements about the reference semantics Model/Sem.v, for EVERY backend flavour; each backend is tied to
   sem_gen <its flavour> by correspondence on every run. *)
From Coq Require Import List Bool ZArith String.
Import ListNotations.
From DA Require Import Base.PyRT Base.Val Model.Sem Proofs.SemBasicP Proofs.RowCountP.

(* a project WITHOUT group_by returns exactly one row: for every source pipeline and input (also an empty one), and
   whatever column steps (extend, windowed extend, select/drop/rename/map_columns) later overwrite or drop its outputs *)
Theorem C09_ungrouped_project_returns_one_row :
  forall (fl : flavor) (src : op) (ops : list (string * expr)) (later : list colstep) (e : env) (t : table),
  sem_gen fl (fold_left apply_colstep later (OProject src ops [])) e = Some t -> List.length (rows t) = 1%nat.
Proof. exact ungrouped_project_one_row. Qed.
Print Assumptions C09_ungrouped_project_returns_one_row.

(* a project WITH group_by returns exactly one row per distinct combination of key values of its materialised input *)
Theorem C09_grouped_project_one_row_per_distinct_key :
  forall (fl : flavor) (src : op) (ops : list (string * expr)) (gb : list string) (later : list colstep) (e : env) (u t : table),
  gb <> [] -> sem_gen fl src e = Some u ->
  sem_gen fl (fold_left apply_colstep later (OProject src ops gb)) e = Some t ->
  List.length (rows t) = List.length (distinct_keys (map (key_of (cols u) gb) (rows u))).
Proof. exact grouped_project_row_count. Qed.
Print Assumptions C09_grouped_project_one_row_per_distinct_key.

(* "distinct combination": the keys counted are pairwise different, every input key is represented, nothing is invented;
   keys_eqv treats null as equal to null only, so a null key value forms a group of its own *)
Theorem C09_distinct_keys_are_the_distinct_combinations :
  forall ks : list (list val),
  ForallOrdPairs (fun a b => keys_eqv a b = false) (distinct_keys ks)
  /\ (forall k, In k ks -> exists k', In k' (distinct_keys ks) /\ keys_eqv k' k = true)
  /\ (forall k, In k (distinct_keys ks) -> In k ks).
Proof. exact distinct_keys_spec. Qed.
Print Assumptions C09_distinct_keys_are_the_distinct_combinations.

(* every input row -- also one whose key contains a null -- is aggregated into some output row carrying its key *)
Theorem C09_null_key_row_has_its_group :
  forall (fl : flavor) (ops : list (string * expr)) (gb : list string) (t : table) (r0 : list val),
  gb <> [] -> In r0 (rows t) ->
  exists r k, In r (rows (sem_project fl ops gb t)) /\ firstn (List.length gb) r = k /\ keys_eqv k (key_of (cols t) gb r0) = true.
Proof. exact project_null_key_has_group. Qed.
Print Assumptions C09_null_key_row_has_its_group.

(* each output row is its key followed by the aggregates over exactly the input rows with an equivalent key *)
Theorem C09_project_row_aggregates_its_group :
  forall (fl : flavor) (ops : list (string * expr)) (gb : list string) (t : table) (r : list val),
  In r (rows (sem_project fl ops gb t)) ->
  exists k, r = k ++ map (fun ke => agg_value fl (cols t) (filter (fun r0 => keys_eqv k (key_of (cols t) gb r0)) (rows t)) (snd ke)) ops
            /\ (gb <> [] -> In k (map (key_of (cols t) gb) (rows t))).
Proof. exact project_row_content. Qed.
Print Assumptions C09_project_row_aggregates_its_group.

(* a windowed extend keeps every input row (and, SemBasicP.wextend_keeps_other_columns, every column it does not assign);
   that each new value is the window function over the row's own partition is Props/C27.v *)
Theorem C09_windowed_extend_keeps_every_row :
  forall (fl : flavor) (src : op) (ops : list (string * expr)) (w : window) (e : env) (u t : table),
  sem_gen fl src e = Some u -> sem_gen fl (OExtend src ops true w) e = Some t -> List.length (rows t) = List.length (rows u).
Proof. exact windowed_extend_keeps_rows. Qed.
Print Assumptions C09_windowed_extend_keeps_every_row.

Local Open Scope string_scope.
Local Open Scope list_scope.
(* non-vacuity: null keys, an empty input, and outputs that are all dropped afterwards *)
Example C09_null_key_example :
  option_map (fun t => List.length (rows t))
    (sem_gen fl_pandas (OProject (OTable "d" ["k"; "a"]) [("s", EOp "sum" [ECol "a"])] ["k"])
       [("d", mktable ["k"; "a"] [[VNull; VInt 1%Z]; [VInt 2%Z; VInt 1%Z]; [VNull; VInt 5%Z]])]) = Some 2%nat.
Proof. vm_compute. reflexivity. Qed.
Example C09_empty_input_outputs_dropped_example :
  option_map rows
    (sem_gen fl_sqlite (fold_left apply_colstep [CExtend [("y", EConst (VInt 1%Z))]; CSelectCols ["y"]]
                          (OProject (OTable "d" ["k"; "a"]) [("s", EOp "sum" [ECol "a"])] []))
       [("d", mktable ["k"; "a"] [])]) = Some [[VInt 1%Z]].
Proof. vm_compute. reflexivity. Qed.
