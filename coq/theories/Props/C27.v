(* C27 -- windowed and ordered window functions are computed per ordered partition.
   Statements about the reference semantics Model/Sem.v (sem_wextend), for EVERY table, window specification (any number of
   partition columns, any multi-column ordering with any reversals) and backend flavour; each backend is tied to
   sem_gen <its flavour> by correspondence on every run (harness/props/C27.py), and each window function additionally at the
   level of one ordered partition (Model/WindowCases.v).
   Vocabulary (Model/WindowSpec.v): part_tagged cs pk rs r = the rows of rs whose partition key is equivalent to r's
   (keys_eqv: null groups with null), tagged with their positions; sorted_tagged fl cs w rs r = that partition stably sorted by
   the lexicographic order on the order_by columns, reversed columns descending (row_le); sorted_rows = the same without tags. *)
From Coq Require Import List Bool QArith String Permutation Sorted.
Import ListNotations.
From DA Require Import Base.PyRT Base.Val Model.Sem Model.WindowSpec Proofs.SemBasicP Proofs.SemOrderP
  Proofs.WindowP1 Proofs.WindowP2 Proofs.WindowP3.

(* (1) the value written for assignment k := fn(arg, extras) at row i is the window function over row i's OWN partition,
   read in the DECLARED order, taken at row i's (unique) position j in that order *)
Theorem C27_window_value_over_own_partition :
  forall (fl : flavor) (ops : list (string * expr)) (w : window) (t : table)
         (k : string) (e : expr) (op : string) (arg : option expr) (extra : list val) (i : nat) (r : list val),
  wf_table t -> NoDup (map fst ops) -> In (k, e) ops -> win_parts e = Some (op, arg, extra) ->
  nth_error (rows t) i = Some r ->
  let srt := sorted_tagged fl (cols t) w (rows t) r in
  let vs := map (fun ir => arg_val fl (cols t) arg (snd ir)) srt in
  exists j r',
    nth_error srt j = Some (i, r)
    /\ (forall j', nth_error (map fst srt) j' = Some i -> j' = j)
    /\ nth_error (rows (sem_wextend fl ops w t)) i = Some r'
    /\ get (ext_cols (cols t) (map fst ops)) r' k = nth j (win_fn fl op extra vs) VNull.
Proof. exact window_value_over_own_partition. Qed.
Print Assumptions C27_window_value_over_own_partition.

(* (2) that ordered partition is sorted by the declared order, is a permutation of the partition, and the partition is exactly
   the rows with an equivalent partition key *)
Theorem C27_partition_sorted_in_declared_order :
  forall (fl : flavor) (w : window) (t : table) (r : list val),
  let srt := sorted_tagged fl (cols t) w (rows t) r in
  StronglySorted (fun a b => row_le fl (cols t) (okeys_of w) (snd a) (snd b) = true) srt
  /\ Permutation srt (part_tagged (cols t) (w_part w) (rows t) r)
  /\ (forall m r', In (m, r') srt <-> nth_error (rows t) m = Some r' /\ keys_eqv (key_of (cols t) (w_part w) r) (key_of (cols t) (w_part w) r') = true).
Proof. exact partition_sorted_in_declared_order. Qed.
Print Assumptions C27_partition_sorted_in_declared_order.

(* ... with a reversed column sorted DESCENDING: of two rows of the ordered partition that differ in the first order column
   (non-null values), the earlier one has the smaller value when the column is not reversed and the larger one when it is *)
Theorem C27_reversed_column_sorted_descending :
  forall (fl : flavor) (w : window) (t : table) (r : list val) (c : string) (rest : list string) (p q : nat) (a b : nat * list val),
  w_order w = c :: rest ->
  let srt := sorted_tagged fl (cols t) w (rows t) r in
  nth_error srt p = Some a -> nth_error srt q = Some b -> (p < q)%nat ->
  get (cols t) (snd a) c <> VNull -> get (cols t) (snd b) c <> VNull -> v_eqv (get (cols t) (snd a) c) (get (cols t) (snd b) c) = false ->
  (if mem c (w_rev w) then v_le (get (cols t) (snd b) c) (get (cols t) (snd a) c)
   else v_le (get (cols t) (snd a) c) (get (cols t) (snd b) c)) = true.
Proof. exact reversed_column_sorted_descending. Qed.
Print Assumptions C27_reversed_column_sorted_descending.

(* (3) TOTAL ORDER: when no two rows of the partition are tied and no order key is null, any two backends -- whatever their
   null-placement conventions (fl1, fl2) and whatever physical order they hold the rows in (t1, t2: the same rows, permuted) --
   write the same value at the same row, provided the conventions of the FUNCTION itself agree on the partition's values
   (fn_conventions_agree; C27_conventions_that_remain says exactly when that is) *)
Theorem C27_total_order_backends_agree :
  forall (fl1 fl2 : flavor) (ops : list (string * expr)) (w : window) (t1 t2 : table)
         (k : string) (e : expr) (op : string) (arg : option expr) (extra : list val) (i1 i2 : nat) (r r1' r2' : list val),
  wf_table t1 -> wf_table t2 -> cols t1 = cols t2 -> Permutation (rows t1) (rows t2) ->
  NoDup (map fst ops) -> In (k, e) ops -> win_parts e = Some (op, arg, extra) -> simple_arg arg ->
  nth_error (rows t1) i1 = Some r -> nth_error (rows t2) i2 = Some r ->
  strict_total_on (row_le fl1 (cols t1) (okeys_of w)) (part_rows (cols t1) (w_part w) (rows t1) r) ->
  no_null_order_keys (cols t1) w (part_rows (cols t1) (w_part w) (rows t1) r) ->
  fn_conventions_agree fl1 fl2 op (map (arg_val fl1 (cols t1) arg) (sorted_rows fl1 (cols t1) w (rows t1) r)) ->
  nth_error (rows (sem_wextend fl1 ops w t1)) i1 = Some r1' -> nth_error (rows (sem_wextend fl2 ops w t2)) i2 = Some r2' ->
  get (ext_cols (cols t1) (map fst ops)) r1' k = get (ext_cols (cols t2) (map fst ops)) r2' k.
Proof. exact total_order_backends_agree. Qed.
Print Assumptions C27_total_order_backends_agree.

(* the ordered partition itself is one list for all conventions and all physical row orders *)
Theorem C27_ordered_partition_is_convention_free :
  forall (fl1 fl2 : flavor) (cs : list string) (w : window) (rs1 rs2 : list (list val)) (r : list val),
  Permutation rs1 rs2 ->
  strict_total_on (row_le fl1 cs (okeys_of w)) (part_rows cs (w_part w) rs1 r) ->
  no_null_order_keys cs w (part_rows cs (w_part w) rs2 r) ->
  sorted_rows fl1 cs w rs1 r = sorted_rows fl2 cs w rs2 r.
Proof. exact ordered_partition_convention_free. Qed.
Print Assumptions C27_ordered_partition_is_convention_free.

(* which function-level conventions remain: none for row numbers, counts of positions, shift, cumprod, rank, first / last,
   ffill / bfill, mean, min, max, median, nunique, var; count / size never meet the empty-group convention inside a window
   (a row's own partition is not empty); sum only when the partition has no non-null value; cumsum / cummax / cummin only when
   the partition holds a null value (Pandas: null at that row, SQL: the running value) *)
Theorem C27_conventions_that_remain :
  forall (fl1 fl2 : flavor) (op : string) (extra vs : list val),
  fn_conventions_agree fl1 fl2 op vs -> win_fn fl1 op extra vs = win_fn fl2 op extra vs.
Proof. exact win_fn_conventions. Qed.
Print Assumptions C27_conventions_that_remain.

Theorem C27_own_partition_is_not_empty :
  forall (fl : flavor) (cs : list string) (w : window) (rs : list (list val)) (r : list val) (i : nat),
  nth_error rs i = Some r -> sorted_rows fl cs w rs r <> [].
Proof. exact own_partition_nonempty. Qed.
Print Assumptions C27_own_partition_is_not_empty.

(* the remaining conventions ARE real backend differences on the unchanged code (listed findings, known_findings.d/C27.json):
   a total order without null keys on which Pandas and SQLite write different running sums at a null-valued row *)
Theorem C27_running_at_null_row_refuted :
  exists (t : table) (w : window) (ops : list (string * expr)) (i : nat) (r1 r2 : list val),
    strict_total_on (row_le fl_pandas (cols t) (okeys_of w)) (rows t) /\ no_null_order_keys (cols t) w (rows t)
    /\ nth_error (rows (sem_wextend fl_pandas ops w t)) i = Some r1 /\ nth_error (rows (sem_wextend fl_sqlite ops w t)) i = Some r2
    /\ get (ext_cols (cols t) (map fst ops)) r1 "s"%string = VNull /\ get (ext_cols (cols t) (map fst ops)) r2 "s"%string = VNum 5.
Proof. exact running_at_null_row_refuted. Qed.
Print Assumptions C27_running_at_null_row_refuted.

(* a GROUP aggregate (mean, size) that the builder accepts in an ORDERED window is a RUNNING aggregate on SQL (default frame),
   not the aggregate over the row's partition (hand model sql_ordered_agg, compared with SQLite on every run) *)
Theorem C27_sql_group_aggregate_in_ordered_window_refuted :
  exists (vs : list val) (j : nat),
    nth j (sql_ordered_agg fl_sqlite "mean" vs) VNull <> nth j (win_fn fl_pandas "mean" [] vs) VNull.
Proof. exact sql_group_aggregate_in_ordered_window_refuted. Qed.
Print Assumptions C27_sql_group_aggregate_in_ordered_window_refuted.

(* Polars first() / last() return the boundary element even when it is null, and n_unique() counts null (hand models
   polars_first / polars_last / polars_nunique, compared with Polars on every run) *)
Theorem C27_polars_first_last_nunique_refuted :
  exists vs : list val,
    polars_first vs <> win_fn fl_polars "first" [] vs /\ polars_last (rev vs) <> win_fn fl_polars "last" [] (rev vs)
    /\ polars_nunique vs <> win_fn fl_polars "nunique" [] vs.
Proof. exact polars_first_last_nunique_refuted. Qed.
Print Assumptions C27_polars_first_last_nunique_refuted.

(* (4) what each function computes at position j of the ordered values vs of a partition *)
(* cumsum / cummax / cummin / cumprod: the fold of the NON-NULL values among the first j+1 (null at a null-valued row unless the
   backend carries the running value) *)
Theorem C27_running_value :
  forall (fl : flavor) (op : string) (f : Q -> Q -> Q) (carry : bool) (extra vs : list val) (j : nat),
  (op, f, carry) = ("cumsum"%string, Qplus, f_running_carry fl) \/ (op, f, carry) = ("cummax"%string, qmax, f_running_carry fl)
  \/ (op, f, carry) = ("cummin"%string, qmin, f_running_carry fl) \/ (op, f, carry) = ("cumprod"%string, Qmult, false) ->
  (j < List.length vs)%nat ->
  nth j (win_fn fl op extra vs) VNull =
    if carry || is_num (nth j vs VNull) then opt_num (qfold1 f (nums (firstn (S j) vs))) else VNull.
Proof. exact running_value. Qed.
Print Assumptions C27_running_value.

Theorem C27_cumsum_is_prefix_sum :
  forall (fl : flavor) (extra vs : list val) (j : nat),
  (j < List.length vs)%nat -> is_num (nth j vs VNull) = true ->
  nth j (win_fn fl "cumsum" extra vs) VNull = qn (qsum (nums (firstn (S j) vs))).
Proof. exact cumsum_is_prefix_sum. Qed.
Print Assumptions C27_cumsum_is_prefix_sum.

(* row numbers (and Pandas' zero-argument _count()) are j+1; cumcount is j *)
Theorem C27_row_number_value :
  forall (fl : flavor) (op : string) (extra vs : list val) (j : nat),
  In op ["_row_number"%string; "row_number"%string; "_count"%string] -> (j < List.length vs)%nat ->
  nth j (win_fn fl op extra vs) VNull = qn (inject_Z (Z.of_nat (j + 1))).
Proof. exact row_number_value. Qed.
Print Assumptions C27_row_number_value.

Theorem C27_cumcount_value :
  forall (fl : flavor) (extra vs : list val) (j : nat),
  (j < List.length vs)%nat -> nth j (win_fn fl "cumcount" extra vs) VNull = qn (inject_Z (Z.of_nat j)).
Proof. exact cumcount_value. Qed.
Print Assumptions C27_cumcount_value.

(* shift(n), n >= 0: the value n rows earlier in the declared order, null when there is none; shift(-n): n rows later *)
Theorem C27_shift_value :
  forall (fl : flavor) (vs : list val) (j : nat) (q : Q),
  (j < List.length vs)%nat ->
  nth j (win_fn fl "shift" [VNum q] vs) VNull =
    (if Z.leb 0 (Qnum q)
     then (if Nat.ltb j (Z.to_nat (Qnum q)) then VNull else nth (j - Z.to_nat (Qnum q)) vs VNull)
     else nth (j + Z.to_nat (Z.opp (Qnum q))) vs VNull)
  /\ nth j (win_fn fl "shift" [] vs) VNull = (if Nat.ltb j 1 then VNull else nth (j - 1) vs VNull).
Proof. exact shift_value. Qed.
Print Assumptions C27_shift_value.

(* rank: the average rank of the row's VALUE among the non-null values of its partition (null stays null); it does not
   depend on the declared order; a value occurring once gets 1 + the number of smaller values *)
Theorem C27_rank_value :
  forall (fl : flavor) (extra vs : list val) (j : nat),
  (j < List.length vs)%nat -> nth j (win_fn fl "rank" extra vs) VNull = rank_val vs (nth j vs VNull).
Proof. exact rank_value. Qed.
Print Assumptions C27_rank_value.
Theorem C27_rank_order_independent :
  forall (vs vs' : list val) (v : val), Permutation vs vs' -> rank_val vs v = rank_val vs' v.
Proof. exact rank_order_independent. Qed.
Print Assumptions C27_rank_order_independent.
Theorem C27_rank_of_untied_value :
  forall (vs : list val) (v : val) (x : Q),
  num_of v = Some x -> List.length (filter (fun y => Qeq_bool y x) (nums vs)) = 1%nat ->
  rank_val vs v = qn (inject_Z (Z.of_nat (List.length (filter (fun y => Qle_bool y x && negb (Qeq_bool y x)) (nums vs)) + 1))).
Proof. exact rank_of_untied_value. Qed.
Print Assumptions C27_rank_of_untied_value.

(* first / last: the first / last non-null value of the partition in the declared order, at every row *)
Theorem C27_first_last_value :
  forall (fl : flavor) (extra vs : list val) (j : nat),
  (j < List.length vs)%nat ->
  nth j (win_fn fl "first" extra vs) VNull = first_nonnull vs /\ nth j (win_fn fl "last" extra vs) VNull = first_nonnull (rev vs).
Proof. exact first_last_value. Qed.
Print Assumptions C27_first_last_value.
Theorem C27_first_nonnull_spec :
  forall (l1 l2 : list val) (v : val), forallb is_null l1 = true -> is_null v = false -> first_nonnull (l1 ++ v :: l2) = v.
Proof. exact first_nonnull_spec. Qed.
Print Assumptions C27_first_nonnull_spec.
Theorem C27_last_nonnull_spec :
  forall (l1 l2 : list val) (v : val), forallb is_null l2 = true -> is_null v = false -> first_nonnull (rev (l1 ++ v :: l2)) = v.
Proof. exact last_nonnull_spec. Qed.
Print Assumptions C27_last_nonnull_spec.

(* ffill: the closest non-null value at or before the row; bfill: at or after it *)
Theorem C27_ffill_value :
  forall (fl : flavor) (extra vs : list val) (j : nat),
  (j < List.length vs)%nat -> nth j (win_fn fl "ffill" extra vs) VNull = first_nonnull (rev (firstn (S j) vs)).
Proof. exact ffill_value. Qed.
Print Assumptions C27_ffill_value.
Theorem C27_bfill_value :
  forall (fl : flavor) (extra vs : list val) (j : nat), nth j (win_fn fl "bfill" extra vs) VNull = first_nonnull (skipn j vs).
Proof. exact bfill_value. Qed.
Print Assumptions C27_bfill_value.

(* group aggregates: one value, computed from ALL the values of the partition, written at every row of the partition *)
Theorem C27_group_aggregate_broadcast :
  forall (fl : flavor) (op : string) (extra vs : list val) (j : nat),
  In op ["sum"%string; "mean"%string; "min"%string; "max"%string; "count"%string; "size"%string; "_size"%string] ->
  (j < List.length vs)%nat -> nth j (win_fn fl op extra vs) VNull = agg_fn fl op vs.
Proof. exact group_aggregate_broadcast. Qed.
Print Assumptions C27_group_aggregate_broadcast.
Theorem C27_median_nunique_var_broadcast :
  forall (fl : flavor) (extra vs : list val) (j : nat),
  (j < List.length vs)%nat ->
  nth j (win_fn fl "median" extra vs) VNull = median_val vs
  /\ nth j (win_fn fl "nunique" extra vs) VNull = nunique_val vs
  /\ nth j (win_fn fl "var" extra vs) VNull = var_val vs.
Proof. exact median_nunique_var_broadcast. Qed.
Print Assumptions C27_median_nunique_var_broadcast.

Local Open Scope string_scope.
Local Open Scope list_scope.
(* non-vacuity: two partition columns with a null key, two order columns with mixed reversal (o1 descending, o2 ascending),
   a null in the value column; the guards of (3) hold for the partition of row 0 and the values are as the property says *)
Definition ex_tab : table :=
  mktable ["p"; "q"; "o1"; "o2"; "x"]
    [[VStr "a"; VNull; VNum 1; VNum 7; VNum 10];
     [VStr "a"; VNull; VNum 2; VNum 5; VNull];
     [VStr "b"; VNum 1; VNum 1; VNum 1; VNum 3];
     [VStr "a"; VNull; VNum 1; VNum 4; VNum 4];
     [VStr "a"; VNum 1; VNum 9; VNum 9; VNum 100]].
Definition ex_win : window := mkwin ["p"; "q"] ["o1"; "o2"] ["o1"].
Definition ex_r0 : list val := [VStr "a"; VNull; VNum 1; VNum 7; VNum 10].
Example C27_guards_satisfiable :
  wf_table ex_tab
  /\ strict_total_on (row_le fl_sqlite (cols ex_tab) (okeys_of ex_win)) (part_rows (cols ex_tab) (w_part ex_win) (rows ex_tab) ex_r0)
  /\ no_null_order_keys (cols ex_tab) ex_win (part_rows (cols ex_tab) (w_part ex_win) (rows ex_tab) ex_r0)
  /\ fn_conventions_agree fl_sqlite fl_pandas "shift" (map (arg_val fl_sqlite (cols ex_tab) (Some (ECol "x"))) (sorted_rows fl_sqlite (cols ex_tab) ex_win (rows ex_tab) ex_r0))
  /\ List.length (part_rows (cols ex_tab) (w_part ex_win) (rows ex_tab) ex_r0) = 3%nat.
Proof.
  split; [|split; [|split; [|split]]].
  - split; [|repeat constructor]. repeat constructor; simpl; intuition discriminate.
  - apply strict_total_b_sound. vm_compute. reflexivity.
  - apply no_null_order_keys_b_sound. vm_compute. reflexivity.
  - left. simpl. tauto.
  - vm_compute. reflexivity.
Qed.
(* the null-key partition {rows 0, 1, 3} in the order o1 DESC, o2 ASC is rows 1, 3, 0: x = null, 4, 10 *)
Example C27_example_values :
  option_map (fun t => map (fun r => (get (cols t) r "rn", get (cols t) r "cs", get (cols t) r "sh")) (rows t))
    (sem_gen fl_pandas (OExtend (OTable "d" (cols ex_tab))
                          [("rn", EOp "_row_number" []); ("cs", EOp "cumsum" [ECol "x"]); ("sh", EOp "shift" [ECol "x"; EConst (VNum 1)])]
                          true ex_win) [("d", ex_tab)])
  = Some [(VNum 3, VNum 14, VNum 4); (VNum 1, VNull, VNull); (VNum 1, VNum 3, VNull); (VNum 2, VNum 4, VNull); (VNum 1, VNum 100, VNull)].
Proof. vm_compute. reflexivity. Qed.
