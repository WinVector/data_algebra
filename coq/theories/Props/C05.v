(* C05 -- every catalogued method behaves as documented on every backend that claims it.

   Objects.  spec_method (Model/Scalar.v): the documented scalar meaning, written from the Term.* docstrings; None = outside
   the documented domain.  sql_eval vr d m lits args: the SQL template of method m in dialect d (Model/SqlTemplates.v `fmt`,
   transcribed from sql_model.py / SQLite.py / PostgreSQL.py and compared with the emitted SQL text on every run) evaluated
   by the hand model of engine d on the row `args`.  np_eval / pl_eval (Model/ScalarBackends.v): the numpy / pandas / polars
   primitive the executors reach.  mf, mf2: the transcendental functions, one uninterpreted symbol shared by both sides.
   The index sets supported_sql / supported_pandas / supported_polars are computed from the frozen catalogue
   (Model/ScalarCatalog.v, compared with op_catalog.methods_table of /repo on every run): the class-e rows marked "y".
   Three defects found by this check were repaired in /repo (9699787 SQL maximum/minimum vs fmax/fmin null handling, 83ba58a SQL
   trimstr length, 9a23bcc SQLite abs/sign at +-infinity): `current` (Model/ScalarCurrent.v) is the model of the repaired
   templates and the plain theorems are about it; the harness still determines the variant `vr` from the code on every run
   and the any-variant theorem keeps the guarded statement for the former templates, so a regression is reported with a
   failing input.  The guards np_guard / pl_guard / pg_is_nan_guard are `true` everywhere except on the argument classes of
   the remaining known findings, each of which has a `_refuted` witness below.  Two Polars defects (maximum / minimum skipping a
   null operand, is_inf of a null) were repaired by /repo 73dee51: their witnesses are regression Examples and corpus files.
   Argument VALUES are universally quantified (all rationals, all strings, all list lengths of is_in / mapv). *)
From Coq Require Import List Bool QArith String.
Import ListNotations.
From DA Require Import Model.Scalar Model.SqlTemplates Model.ScalarBackends Model.ScalarCatalog Model.ScalarIndex Model.ScalarCurrent Model.AggModels Model.AggIndex
  Proofs.ScalarP2 Proofs.ScalarP4 Proofs.AggP Proofs.AggP2.
Local Open Scope string_scope.

(* SQLite and PostgreSQL, current code: for every method the catalogue marks supported, the template evaluates (no engine
   error) to the documented value, on every argument tuple of the documented domain *)
Theorem C05_sql_supported_methods_documented :
  forall (mf : string -> Q -> option Q) (mf2 : string -> Q -> Q -> option Q) (d : dialect) (m : string) (lits : list bool),
  In (m, lits) (supported_sql d) ->
  forall args r, pg_is_nan_guard d m args = true -> spec_method mf mf2 m args = Some r ->
    exists r', sql_eval mf mf2 current d m lits args = Some r' /\ sv_eqv r' r.
Proof. exact sql_supported_documented_current. Qed.
Print Assumptions C05_sql_supported_methods_documented.

(* a constant operand: for every supported method other than the four whose extra arguments must be literals (around, trimstr,
   is_in, mapv: indexed with their flags above), the same holds for EVERY assignment of column / literal flags to the operands
   (x.maximum(0), (2.5).minimum(x), 2.5 + x ...) *)
Theorem C05_sql_supported_methods_documented_with_literal_operands :
  forall (mf : string -> Q -> option Q) (mf2 : string -> Q -> Q -> option Q) (d : dialect) (m : string) (lits0 : list bool),
  In (m, lits0) (supported_sql d) -> str_in m literal_arg_methods = false ->
  forall lits args r, pg_is_nan_guard d m args = true -> spec_method mf mf2 m args = Some r ->
    exists r', sql_eval mf mf2 current d m lits args = Some r' /\ sv_eqv r' r.
Proof. exact sql_supported_documented_current_any_literals. Qed.
Print Assumptions C05_sql_supported_methods_documented_with_literal_operands.

(* the same for every variant of the templates (vr is read off the code on every run): the former templates only outside the
   argument classes of the repaired defects *)
Theorem C05_sql_supported_methods_documented_any_variant :
  forall (mf : string -> Q -> option Q) (mf2 : string -> Q -> Q -> option Q) (vr : variant) (d : dialect) (m : string) (lits : list bool),
  In (m, lits) (supported_sql d) ->
  forall args r, sql_guard vr d m args = true -> spec_method mf mf2 m args = Some r ->
    exists r', sql_eval mf mf2 vr d m lits args = Some r' /\ sv_eqv r' r.
Proof. exact sql_supported_documented. Qed.
Print Assumptions C05_sql_supported_methods_documented_any_variant.

(* Pandas: the numpy / pandas primitive computes the documented value *)
Theorem C05_pandas_supported_methods_documented :
  forall (mf : string -> Q -> option Q) (mf2 : string -> Q -> Q -> option Q) (m : string) (lits : list bool),
  In (m, lits) supported_pandas ->
  forall args r, np_guard m args = true -> spec_method mf mf2 m args = Some r ->
    exists r', np_eval mf mf2 m args = Some r' /\ sv_eqv r' r.
Proof. exact pandas_supported_documented. Qed.
Print Assumptions C05_pandas_supported_methods_documented.

(* Polars (not covered by the catalogue): every catalogued method computes the documented value whenever it does not raise *)
Theorem C05_polars_same_value_when_not_raising :
  forall (mf : string -> Q -> option Q) (mf2 : string -> Q -> Q -> option Q) (m : string) (lits : list bool),
  In (m, lits) supported_polars ->
  forall args r, pl_guard m args = true -> spec_method mf mf2 m args = Some r ->
    forall r', pl_eval mf mf2 m args = Some r' -> sv_eqv r' r.
Proof. exact polars_catalogued_documented. Qed.
Print Assumptions C05_polars_same_value_when_not_raising.

(* ---- the full statement is false for the shipped code: one witness per guard ---- *)
(* (the three SQL defects repaired in /repo -- maximum/minimum vs fmax/fmin, trimstr, abs/sign -- are no longer refutations:
   their witnesses are the regression Examples at the end of this file and the corpus files /verif/corpus/C05) *)
(* the generic is_nan template answers FALSE on NULL, which is what an uploaded NaN is (model-level: no PostgreSQL server) *)
Theorem C05_postgresql_is_nan_of_uploaded_nan_refuted :
  forall mf mf2,
  exists args r r', spec_method mf mf2 "is_nan" args = Some r /\ sql_eval mf mf2 current DPg "is_nan" [false] args = Some r' /\ differs r' r.
Proof. exact pg_is_nan_of_nan_refuted_current. Qed.
Print Assumptions C05_postgresql_is_nan_of_uploaded_nan_refuted.

(* Polars maximum / minimum: a null operand is propagated since /repo 73dee51, but max_horizontal / min_horizontal still skip a float
   NaN that stands next to a present operand (numpy.maximum, the documented "propogate missing", gives NaN) *)
Theorem C05_polars_maximum_minimum_skip_nan_refuted :
  forall mf mf2,
  (exists args r r', spec_method mf mf2 "maximum" args = Some r /\ pl_eval mf mf2 "maximum" args = Some r' /\ differs r' r) /\
  (exists args r r', spec_method mf mf2 "minimum" args = Some r /\ pl_eval mf mf2 "minimum" args = Some r' /\ differs r' r).
Proof. exact polars_maxmin_nan_refuted. Qed.
Print Assumptions C05_polars_maximum_minimum_skip_nan_refuted.

(* Pandas mapv overwrites an infinite mapped value with the default *)
Theorem C05_pandas_mapv_infinite_value_refuted :
  forall mf mf2,
  exists args r r', spec_method mf mf2 "mapv" args = Some r /\ np_eval mf mf2 "mapv" args = Some r' /\ sv_eqvb r' r = false.
Proof. exact np_mapv_infinite_value_refuted. Qed.
Print Assumptions C05_pandas_mapv_infinite_value_refuted.

(* ---- aggregates (project), windowed aggregates (extend with partition_by) and ordered window functions ----
   spec_cls c m vals: the documented output cells of method m over ONE group / ordered partition `vals` (any length: the proofs
   are by induction over the list); agg_sql / agg_pd / agg_pl: the SQL template under the engine model, the pandas and the
   Polars primitive.  The index sets are the class p / g / w catalogue rows marked "y" (minus the helpers without a documented
   value: _count, _ngroup, _uniform). *)
Theorem C05_sql_supported_aggregates_and_windows_documented :
  forall (mf : string -> Q -> option Q) (mf2 : string -> Q -> Q -> option Q) (vr : variant) (d : dialect) (c : acls) (m : string),
  In (c, m) (supported_agg_sql d) ->
  forall vals r, vals <> [] -> spec_cls mf c m vals = Some r ->
    exists r', agg_sql mf mf2 vr d c m vals = Some r' /\ svl_eqv r' r.
Proof. exact sql_agg_supported_documented. Qed.
Print Assumptions C05_sql_supported_aggregates_and_windows_documented.

Theorem C05_pandas_supported_aggregates_and_windows_documented :
  forall (mf : string -> Q -> option Q) (c : acls) (m : string),
  In (c, m) supported_agg_pandas -> pd_agg_guard c m = true ->
  forall vals r, vals <> [] -> spec_cls mf c m vals = Some r ->
    exists r', agg_pd mf c m vals = Some r' /\ svl_eqv r' r.
Proof. exact pandas_agg_supported_documented. Qed.
Print Assumptions C05_pandas_supported_aggregates_and_windows_documented.

(* Polars: same value whenever it does not raise (groups holding a distinguishable NaN are not modelled) *)
Theorem C05_polars_aggregates_and_windows_same_value_when_not_raising :
  forall (mf : string -> Q -> option Q) (c : acls) (m : string),
  In (c, m) supported_agg_polars ->
  forall vals r, vals <> [] -> no_nan vals = true -> spec_cls mf c m vals = Some r ->
    forall r', agg_pl mf c m vals = Some r' -> svl_eqv r' r.
Proof. exact polars_agg_catalogued_documented. Qed.
Print Assumptions C05_polars_aggregates_and_windows_same_value_when_not_raising.

(* Pandas cumcount is the 0-based position of the row, not the documented cumulative number of non-NA cells *)
Theorem C05_pandas_cumcount_is_position_refuted :
  forall mf, exists vals r r', spec_cls mf CWindow "cumcount" vals = Some r /\ agg_pd mf CWindow "cumcount" vals = Some r' /\ svl_eqvb r' r = false.
Proof. exact pandas_cumcount_refuted. Qed.
Print Assumptions C05_pandas_cumcount_is_position_refuted.

(* ---- non-vacuity: the index sets are the catalogue's, the guards are satisfiable, the domain is inhabited ---- *)
Example C05_index_sizes :
  (List.length (supported_sql DSqlite), List.length (supported_sql DPg), List.length supported_pandas, List.length supported_polars) = (64, 56, 65, 65)%nat.
Proof. vm_compute. reflexivity. Qed.
Example C05_maximum_is_claimed_on_sqlite : In ("maximum", [false; false]) (supported_sql DSqlite).
Proof. refine (proj1 (find_some (fun p => String.eqb (fst p) "maximum") _ _)). vm_compute. reflexivity. Qed.
Example C05_guard_and_domain_inhabited :
  pg_is_nan_guard DSqlite "maximum" [SNum 1; SNum (5 # 2)] = true /\
  spec_method (fun _ _ => None) (fun _ _ _ => None) "maximum" [SNum 1; SNum (5 # 2)] = Some (SNum (5 # 2)) /\
  sql_eval (fun _ _ => None) (fun _ _ _ => None) current DSqlite "maximum" [false; false] [SNum 1; SNum (5 # 2)] = Some (SNum (5 # 2)).
Proof. repeat split; vm_compute; reflexivity. Qed.
(* regression: the witnesses of the repaired defects now give the documented value, and gave the wrong one before the repair *)
Example C05_regression_maximum_fmax_null :
  let mf := fun (_ : string) (_ : Q) => @None Q in let mf2 := fun (_ : string) (_ _ : Q) => @None Q in
  sql_eval mf mf2 current DSqlite "maximum" [false; false] [SNum 1; SNull] = Some SNull /\
  sql_eval mf mf2 current DSqlite "minimum" [false; false] [SNull; SNum 1] = Some SNull /\
  sql_eval mf mf2 current DSqlite "fmax" [false; false] [SNum 1; SNull] = Some (SNum 1) /\
  sql_eval mf mf2 current DPg "fmin" [false; false] [SNull; SNum 1] = Some (SNum 1) /\
  sql_eval mf mf2 shipped DSqlite "maximum" [false; false] [SNum 1; SNull] = Some (SNum 1) /\
  sql_eval mf mf2 shipped DSqlite "fmax" [false; false] [SNum 1; SNull] = Some SNull.
Proof. repeat split; reflexivity. Qed.
Example C05_regression_trimstr_nonzero_start :
  let mf := fun (_ : string) (_ : Q) => @None Q in let mf2 := fun (_ : string) (_ _ : Q) => @None Q in
  sql_eval mf mf2 current DSqlite "trimstr" [false; true; true] [SStr "abcdef"; SNum 1; SNum 3] = Some (SStr "bc") /\
  sql_eval mf mf2 shipped DSqlite "trimstr" [false; true; true] [SStr "abcdef"; SNum 1; SNum 3] = Some (SStr "bcd").
Proof. split; reflexivity. Qed.
Example C05_regression_sqlite_abs_sign_infinity :
  let mf := fun (_ : string) (_ : Q) => @None Q in let mf2 := fun (_ : string) (_ _ : Q) => @None Q in
  sql_eval mf mf2 current DSqlite "abs" [false] [SNInf] = Some SPInf /\
  sql_eval mf mf2 current DSqlite "sign" [false] [SPInf] = Some (SNum 1) /\
  sql_eval mf mf2 shipped DSqlite "abs" [false] [SNInf] = Some SNull.
Proof. repeat split; reflexivity. Qed.
(* regression (Polars, repaired by /repo 73dee51): a null operand of maximum / minimum gives null, is_inf of a null is False *)
Example C05_regression_polars_maximum_null_and_is_inf_null :
  let mf := fun (_ : string) (_ : Q) => @None Q in let mf2 := fun (_ : string) (_ _ : Q) => @None Q in
  pl_eval mf mf2 "maximum" [SNum 1; SNull] = Some SNull /\ pl_eval mf mf2 "minimum" [SNull; SNum 1] = Some SNull /\
  pl_eval mf mf2 "fmax" [SNum 1; SNull] = Some (SNum 1) /\ pl_eval mf mf2 "is_inf" [SNull] = Some (SBool false) /\
  pl_guard "maximum" [SNum 1; SNull] = true /\ pl_guard "is_inf" [SNull] = true.
Proof. repeat split; reflexivity. Qed.
Example C05_aggregate_index_sizes :
  (List.length (supported_agg_sql DSqlite), List.length (supported_agg_sql DPg), List.length supported_agg_pandas, List.length supported_agg_polars) = (28, 29, 39, 39)%nat.
Proof. vm_compute. reflexivity. Qed.
Example C05_aggregate_examples :
  spec_cls (fun _ _ => None) CProject "count" [SNum 3; SNull; SNum 1] = Some [SNum 2] /\
  spec_cls (fun _ _ => None) CWindow "cumsum" [SNum 3; SNum 1; SNum 2] = Some [SNum 3; SNum 4; SNum 6] /\
  agg_sql (fun _ _ => None) (fun _ _ _ => None) current DSqlite CWindow "cumsum" [SNum 3; SNum 1; SNum 2] = Some [SNum 3; SNum 4; SNum 6].
Proof. repeat split; vm_compute; reflexivity. Qed.
Example C05_documented_examples :
  spec_method (fun _ _ => None) (fun _ _ _ => None) "maximum" [SNum 1; SNull] = Some SNull /\
  spec_method (fun _ _ => None) (fun _ _ _ => None) "fmax" [SNum 1; SNull] = Some (SNum 1) /\
  spec_method (fun _ _ => None) (fun _ _ _ => None) "if_else" [SNull; SNum 1; SNum 2] = Some SNull /\
  spec_method (fun _ _ => None) (fun _ _ _ => None) "where" [SNull; SNum 1; SNum 2] = Some (SNum 2).
Proof. repeat split; reflexivity. Qed.
