(* SQLGEN -- compiler correctness of the SQL generator (deepens C01 / C02 / C08 / C09 / C15).

   Model/SqlGen.v   `to_near` : the step-by-step transcription of SQLModel.*_to_near_sql (sql_model.py: defaulting / extension /
                    checks of `using`, pruning through columns_used_from_sources, the terms written, the guards of c520ee9
                    6f11e66 2bf9832 a22df8b eb42bd0, the view-name counter, the SQL-level extend merge with its contention
                    test and 05d5f06) and of the SQLite join rewrites (SQLite.py), producing a typed NearSQL tree
   Model/SqlSem.v   `qsem` / `nsem` : the meaning of such a tree as SQL (written from the SQL rules; shares only primitive
                    functions with Model/Sem.v)
   Model/Sem.v      `sem_gen fl` : the reference semantics of pipelines (C01: fl_sqlite = the SQL conventions)
   Model/ColumnsUsed.v + Props/C10.v : columns_used_from_sources and the per-node pruning lemma C10_node_pruning_sound,
                    which is the key step of every node's proof (Proofs/SqlGenP3.v prune_node)

   The statements hold for EVERY pipeline of the stated fragment, every request `using`, every environment, every start value
   of the view counter, every dialect record d (merging on or off, SQLite join rewrites on or off) and every flavour fl of
   scalar conventions (the generated text is the same; both sides read it under the same conventions).

   FRAGMENT (`stage1 (d_allow_extend_merges d) (join_covered d fl) p`):  table descriptions, select_rows, select_columns,
   drop_columns, rename_columns, map_columns, order_rows, project (grouped or not, with the pruning of aggregates and the "keep
   one aggregate" guard), un-windowed extend INCLUDING the SQL-level extend merge, concat_rows (without id column, or with an
   id column -- also over an un-windowed extend, where the generator's `.extend({id: label})` merges the label into that
   ExtendNode; NOT over an order_rows without limit, which that builder call skips: the rows then come in another order,
   transcribed but not proved),
   windowed extend (stage v) for every dialect, INCLUDING the SQL-level extend merge around it (a windowed extend folded
   into the extend step below it, an un-windowed or windowed extend or the id-column extend of concat_rows folded into a
   windowed step, through select / drop_columns too): Proofs/SqlGenP18.v restates the merge invariant and the merged step
   for non-aggregate terms (MergeInvN, merged_delivers_gen) on top of merge_compose_win
   (Proofs/SqlGenP17.v), Proofs/SqlGenP19.v instantiates it for the windowed and the un-windowed extend, and
   natural_join WRITTEN AS A JOIN (stage iv, `join_covered d fl jt`): INNER and LEFT for every dialect; RIGHT when the dialect
   does not rewrite it (d_rewrite_right d = false: DBModel / PostgreSQLModel); FULL when the dialect does not rewrite it
   (d_rewrite_full d = false: DBModel / PostgreSQLModel, and SQLiteModel linked with SQLite >= 3.39) -- anywhere in the
   pipeline, any operands of the fragment (joins of joins included), any key lists the builder accepts (also none: the cross
   join), any request (also the empty one: the row count), under the generator as it is since /repo 6d4c3d4 (d_join_carry d =
   true: a side none of whose columns is wanted is asked for its first column) and for flavours in which a NULL key matches
   nothing (f_join_null_match fl = false: every flavour of Model/Sem.v).  The proof goes through C16's sem_join_is_spec
   (Proofs/JoinP1.v): sem_join = JoinSpec's joined_TN / unmatched_left / unmatched_right, which is what Model/SqlSem.v's
   join_pairs is written from; Proofs/SqlGenP15.v delivers_join / delivers_join_star is the node, Proofs/SqlGenP16.v
   gen_bare_ok (a bare table operand has exactly the requested columns -- what 6d4c3d4 restored) and node_join the glue.
   NOT covered by the semantic theorems (transcribed, tied structurally and behaviourally, unproved):
     - the SQLite rewrites of a join: RIGHT as the swapped LEFT join (d_rewrite_right; needs delivers_join for
       COALESCE(right, left), i.e. join_terms false, and C16's right/left mirror law) and FULL as the three-way construction
       (d_rewrite_full: SQLite < 3.39);
     - the generator before 6d4c3d4 (d_join_carry d = false), which is the finding SQLGEN-join-unused-side-bare-table-ambiguous;

   WHICH PROPERTY FILE EACH THEOREM STRENGTHENS
     SQLGEN_correct_partial, SQLGEN_correct_toplevel_partial   Props/C01.v (SQLite SQL = reference semantics fl_sqlite: the behavioural
                                      model "the SQL path computes sem_gen fl_sqlite" becomes a theorem about the transcribed generator,
                                      for the fragment), Props/C02.v (same generator with d_generic; only the dialect record differs),
                                      Props/C10.v's use (the pruning lemma is what makes `using` sound)
     SQLGEN_join_partial              Props/C16.v (the join contract, for the SQL path: the generated JOIN with its COALESCE / pass terms
                                      and pruned operands computes sem_join = JoinSpec), Props/C01.v, Props/C02.v (RIGHT / FULL native)
     SQLGEN_window_merge_partial      Props/C01.v, Props/C04.v, Props/C09.v (the three seeded changes C01-m3 C04-m3 C09-m3 all break the
                                      hypothesis `deps_describe`: partition / order columns among the declared dependencies)
     SQLGEN_window_vars_without_order_refuted   regression witness for the same (model variant of C01-m3)
     SQLGEN_result_columns_partial    Props/C08.v (declared columns for the SQL path)
     SQLGEN_row_count_partial         Props/C09.v (one row per group / one row without grouping survives pruning in SQL), Props/C08.v
     SQLGEN_view_names_distinct       Props/C15.v (generated names; all node kinds)
     SQLGEN_pre_c520ee9_refuted, SQLGEN_pre_6f11e66_refuted    Props/C09.v / Props/C08.v regression witnesses

   The list-based SQL semantics fixes one row order; the theorems state EQUALITY of tables (same columns in the same order,
   same rows in the same order), which gives "same multiset of rows" and "same row order after order_rows" a fortiori. *)
From Coq Require Import List Bool QArith String Permutation.
Import ListNotations.
From DA Require Import Base.PyRT Base.Val Model.Sem Model.ColumnsUsed Model.SqlGen Model.SqlSem
  Proofs.SqlGenP1 Proofs.SqlGenP2 Proofs.SqlGenP4 Proofs.SqlGenP6 Proofs.SqlGenP7 Proofs.SqlGenP8 Proofs.SqlGenP9 Proofs.SqlGenP11 Proofs.SqlGenP15 Proofs.SqlGenP16 Proofs.SqlGenP17 Proofs.SqlGenEx Proofs.SqlGenEx2.
Local Open Scope string_scope.
Local Open Scope list_scope.

(* builder_ok p : the builders accepted p (C10's transcription of the constructors' column checks);
   wf_env e p   : every table description of p is bound to a stored table with exactly the declared columns;
   the request (`using`, or every column when None) is duplicate free and names columns of p.
   Then the reference semantics is defined and, for every NON-EMPTY duplicate-free part C of the request, the generated query
   asked for the columns C -- which is how every enclosing query and the final SELECT ask -- returns EXACTLY the reference
   table restricted to C:   nsem (to_near p using) = restrict using (sem_gen p). *)
Theorem SQLGEN_correct_partial :
  forall fl (e : env) d p usg ids q ids',
  builder_ok p = true -> stage1 (d_allow_extend_merges d) (join_covered d fl) p = true -> wf_env e p ->
  NoDup (req p usg) -> incl (req p usg) (column_names p) ->
  to_near d p usg ids = Ok (q, ids') ->
  exists T, sem_gen fl p e = Some T /\
    forall C, C <> [] -> NoDup C -> incl C (req p usg) -> qsem fl e q (Some C) = Some (sem_select_cols C T).
Proof. exact stage1_correct. Qed.
Print Assumptions SQLGEN_correct_partial.

(* The whole query as SQLModel.to_sql writes it (using=None, the final SELECT lists the step's own terms): its result,
   read in the declared column order, IS the reference table (same rows, same order: in particular after a final order_rows). *)
Theorem SQLGEN_correct_toplevel_partial :
  forall fl (e : env) d p ids q ids',
  builder_ok p = true -> stage1 (d_allow_extend_merges d) (join_covered d fl) p = true -> wf_env e p ->
  to_near d p None ids = Ok (q, ids') ->
  exists T R, sem_gen fl p e = Some T /\ nsem fl q e = Some R /\
    sem_select_cols (column_names p) R = T /\ incl (column_names p) (cols R) /\ NoDup (cols R) /\
    Permutation (rows (sem_select_cols (column_names p) R)) (rows T).
Proof. exact stage1_toplevel. Qed.
Print Assumptions SQLGEN_correct_toplevel_partial.

(* C08 for the SQL path: the final SELECT returns every declared column, no column twice, and the declared columns carry the
   reference values.  (PARTIAL: that it returns NO further column is established for this fragment only up to `cols R =
   keys of the final step's terms`, which the structural tie compares with the real graph.) *)
Theorem SQLGEN_result_columns_partial :
  forall fl (e : env) d p ids q ids',
  builder_ok p = true -> stage1 (d_allow_extend_merges d) (join_covered d fl) p = true -> wf_env e p ->
  to_near d p None ids = Ok (q, ids') ->
  exists R, nsem fl q e = Some R /\ incl (column_names p) (cols R) /\ NoDup (cols R) /\
            option_map cols (sem_gen fl p e) = Some (cols (sem_select_cols (column_names p) R)).
Proof.
  intros fl e d p ids q ids' BO St WF H. destruct (stage1_toplevel fl e d p ids q ids' BO St WF H) as [T [R [E1 [E2 [E3 [E4 [E5 _]]]]]]].
  exists R. split; [exact E2|]. split; [exact E4|]. split; [exact E5|]. rewrite E1, E3. reflexivity.
Qed.
Print Assumptions SQLGEN_result_columns_partial.

(* A request for no column at all (row counts, constant extends above): the generated query still has exactly as many rows
   as the reference table -- the content of the "never narrow a step to nothing" guards (c520ee9, a22df8b) and of C09's
   "one row without grouping" for the SQL path of this fragment. *)
Theorem SQLGEN_row_count_partial :
  forall fl (e : env) d p usg ids q ids',
  builder_ok p = true -> stage1 (d_allow_extend_merges d) (join_covered d fl) p = true -> wf_env e p ->
  NoDup (req p usg) -> incl (req p usg) (column_names p) ->
  to_near d p usg ids = Ok (q, ids') ->
  exists T R, sem_gen fl p e = Some T /\ qsem fl e q (Some []) = Some R /\ List.length (rows R) = List.length (rows T).
Proof. exact stage1_row_count. Qed.
Print Assumptions SQLGEN_row_count_partial.

(* Stage (iv), spelled out for a join node at the top (the four theorems above cover joins anywhere in the pipeline): the
   generated JOIN query -- operands pruned to the columns wanted plus the keys, COALESCE(left, right) for a wanted column both
   sides carry, the ON list -- asked for any non-empty part C of the request returns the reference join restricted to C,
   in the reference row order (matched pairs in left-major order, then the unmatched rows the join type keeps).
   PARTIAL: join types the dialect writes as a join (see the header); not the SQLite RIGHT / old-FULL rewrites. *)
Theorem SQLGEN_join_partial :
  forall fl (e : env) d a b on_a on_b jt usg ids q ids',
  let p := OJoin a b on_a on_b jt in
  builder_ok p = true ->
  stage1 (d_allow_extend_merges d) (join_covered d fl) a = true -> stage1 (d_allow_extend_merges d) (join_covered d fl) b = true ->
  join_covered d fl jt = true -> wf_env e p ->
  NoDup (req p usg) -> incl (req p usg) (column_names p) ->
  to_near d p usg ids = Ok (q, ids') ->
  exists A B, sem_gen fl a e = Some A /\ sem_gen fl b e = Some B /\
    forall C, C <> [] -> NoDup C -> incl C (req p usg) ->
      qsem fl e q (Some C) = Some (sem_select_cols C (sem_join false on_a on_b jt A B)).
Proof.
  intros fl e d a b on_a on_b jt usg ids q ids' p BO Sa Sb Jk WF Nu Iu H.
  assert (stage1 (d_allow_extend_merges d) (join_covered d fl) p = true) as St by (unfold p; cbn [stage1]; rewrite Sa, Sb, Jk; reflexivity).
  destruct (SQLGEN_correct_partial fl e d p usg ids q ids' BO St WF Nu Iu H) as [T [ET HT]].
  unfold p in ET. simpl in ET. destruct (sem_gen fl a e) as [A|]; [|discriminate]. destruct (sem_gen fl b e) as [B|]; [|discriminate].
  injection ET as <-. exists A, B. split; [reflexivity|]. split; [reflexivity|].
  assert (f_join_null_match fl = false) as NM.
  { unfold join_covered in Jk. rewrite !andb_true_iff in Jk. destruct Jk as [[_ X] _]. apply negb_true_iff in X. exact X. }
  rewrite NM in HT. exact HT.
Qed.
Print Assumptions SQLGEN_join_partial.

(* Stage (v) under SQL-level merging, at the level of one merge (the induction of the theorems above uses it for every merge;
   kept under its first name).
   ts / ds : terms and declared dependencies of the step below (its SELECT over X, asked for the columns su', yields Y);
   tms / deps : terms and declared dependencies of the extend being generated; neither side aggregates, either side may carry
   window items  f(..) OVER (PARTITION BY .. ORDER BY ..).  If the declared dependencies cover what each term reads
   (deps_describe: for a window item its argument, PARTITION and ORDER columns -- extend_to_near_sql's window_vars) and the
   contention test finds nothing, then the merged SELECT over X equals the outer SELECT over the inner one, for every
   requested K whose terms read columns of su'. *)
Theorem SQLGEN_window_merge_partial :
  forall fl (ts tms : terms) (ds deps : depmap) su' K X,
  (forall kt, In kt ts -> is_agg_term (snd kt) = false) -> (forall kt, In kt tms -> is_agg_term (snd kt) = false) ->
  NoDup (map fst ds) -> NoDup (map fst deps) -> NoDup (map fst tms) -> NoDup (map fst ts) ->
  incl (map fst ts) (map fst ds) -> map fst tms = map fst deps -> deps_describe tms deps ->
  contention (non_trivial_terms deps tms) (needs deps (non_trivial_terms deps tms))
             (non_trivial_terms ds ts) (needs ds (non_trivial_terms ds ts)) = [] ->
  su' <> [] -> incl su' (map fst ts) ->
  K <> [] -> incl K (map fst tms) -> (forall k, In k K -> incl (item_cols (k, term_of tms k)) su') ->
  forall Y, sql_select fl true (Some ts) (Some su') SfxNone X = Some Y ->
  sql_select fl true (Some (merged_terms (non_trivial_terms deps tms) tms deps ts)) (Some K) SfxNone X
  = sql_select fl true (Some tms) (Some K) SfxNone Y.
Proof. exact merge_compose_win. Qed.
Print Assumptions SQLGEN_window_merge_partial.

(* ALL node kinds, ALL dialects, merging on or off: every generated view (step names extend_N, project_N, ..., and the two
   aliases join_source_left_N / join_source_right_N of a join) carries a number taken from the counter between its start value
   and its end value, and the names of one generated tree are pairwise distinct.  (The invariant C15's SQL finding is about,
   and what /repo 161d83f relies on when it starts the counter past every table named like a view.) *)
Theorem SQLGEN_view_names_distinct :
  forall d p usg ids q ids', to_near d p usg ids = Ok (q, ids') ->
  NoDup (view_names q) /\ (forall v, In v (view_names q) -> (ids <= vn_id v < ids')%nat) /\ (ids <= ids')%nat.
Proof. exact view_names_distinct. Qed.
Print Assumptions SQLGEN_view_names_distinct.

(* REGRESSIONS: the generator as it was before two repairs, under the same SQL semantics.
   c520ee9: t.project({s: a.sum()}).extend({c: 1}).select_columns([c]) -- the reference has ONE row; the old project step (no
   terms, SELECT * ) yields one row per row of t; the current generator yields the reference table. *)
Theorem SQLGEN_pre_c520ee9_refuted :
  option_map (fun t => List.length (rows t)) (sem_gen fl_sqlite rx_p1 rx_env) = Some 1%nat /\
  option_map (fun t => List.length (rows t)) (nsem fl_sqlite rx_q1_pre rx_env) = Some 3%nat /\
  match to_near d_sqlite rx_p1 None 0 with Ok (q, _) => nsem fl_sqlite q rx_env = sem_gen fl_sqlite rx_p1 rx_env | _ => False end.
Proof. exact c520ee9_regression. Qed.
Print Assumptions SQLGEN_pre_c520ee9_refuted.
(* 6f11e66: a final order_rows over a stored table with a column its description does not declare: the old step (SELECT * )
   returns the undeclared column, the current one the declared columns only. *)
Theorem SQLGEN_pre_6f11e66_refuted :
  option_map cols (nsem fl_sqlite rx_q2_pre rx_env_wide) = Some ["a"; "b"; "zz"] /\
  match to_near d_sqlite rx_p2 None 0 with
  | Ok (q, _) => option_map cols (nsem fl_sqlite q rx_env_wide) = Some (column_names rx_p2) /\
                 nsem fl_sqlite q rx_env = sem_gen fl_sqlite rx_p2 rx_env
  | _ => False end.
Proof. exact f6f11e66_regression. Qed.
Print Assumptions SQLGEN_pre_6f11e66_refuted.

(* window_vars (seeded changes C01-m3 / C04-m3 / C09-m3 as a model variant): t.extend({b: b * -1}).extend({r: a.cumsum()},
   order_by=[b]).  With the ORDER columns missing from the declared dependencies the contention test sees nothing, the two
   steps are merged and ORDER BY b reads the stored b: r = 4, 3, 9 where the reference has 9, 3, 8; with window_vars as the
   code has them there is contention on b, no merge, and the generated query returns the reference table. *)
Theorem SQLGEN_window_vars_without_order_refuted :
  builder_ok rx_p3 = true /\
  rx_col_r (sem_gen fl_sqlite rx_p3 rx_env) = Some [VNum 9; VNum 3; VNum 8] /\
  match to_near d_sqlite rx_p3_inner (Some ["a"; "b"]) 0 with
  | Ok (sub, _) =>
      match try_sql_merge sub rx_tms3 (rx_deps3 (w_part rx_w3)) with
      | Some (Ok m) => rx_col_r (nsem fl_sqlite m rx_env) = Some [VNum 4; VNum 3; VNum 9]
      | _ => False
      end /\
      try_sql_merge sub rx_tms3 (rx_deps3 (set_union (w_part rx_w3) (w_order rx_w3))) = None
  | _ => False
  end /\
  match to_near d_sqlite rx_p3 None 0 with Ok (q, _) => nsem fl_sqlite q rx_env = sem_gen fl_sqlite rx_p3 rx_env | _ => False end.
Proof. exact window_vars_regression. Qed.
Print Assumptions SQLGEN_window_vars_without_order_refuted.

(* ------------------------------------------------------------------ the hypotheses are satisfiable *)
Definition ex_t := OTable "t" ["a"; "b"; "c"].
Definition ex_p :=
  OOrder (OConcat (OSelectCols (OExtend (OExtend (OSelectRows ex_t (EOp ">" [ECol "a"; EConst (VNum 0)]))
                                                 [("x", EOp "+" [ECol "a"; ECol "b"])] false no_window)
                                        [("y", EOp "*" [ECol "a"; EConst (VNum 2)])] false no_window) ["x"; "c"; "y"])
                  (ORename (OProject ex_t [("y", EOp "sum" [ECol "a"])] ["b"; "c"]) [("x", "b")]) (Some "src") "l" "r")
         ["x"] ["x"] (Some 3%nat).
Definition ex_env : env := [("t", mktable ["a"; "b"; "c"] [[VNum 1; VNum 2; VStr "u"]; [VNum (-1); VNull; VStr "v"]; [VNum 3; VNum 4; VNull]])].
Example SQLGEN_guards_satisfiable :
  builder_ok ex_p = true /\ stage1 true (join_covered d_sqlite fl_sqlite) ex_p = true /\ wf_env ex_env ex_p /\
  match to_near d_sqlite ex_p None 0 with
  | Ok (q, _) => nsem fl_sqlite q ex_env = sem_gen fl_sqlite ex_p ex_env /\
                 option_map (fun t => List.length (rows t)) (nsem fl_sqlite q ex_env) = Some 3%nat
  | _ => False end.
Proof.
  split; [vm_compute; reflexivity|]. split; [vm_compute; reflexivity|]. split.
  - intros n cs I. simpl in I. exists (mktable ["a"; "b"; "c"] [[VNum 1; VNum 2; VStr "u"]; [VNum (-1); VNull; VStr "v"]; [VNum 3; VNum 4; VNull]]).
    destruct I as [I|[I|[]]]; injection I as <- <-; (split; [reflexivity|split; [reflexivity|repeat constructor]]).
  - vm_compute. split; reflexivity.
Qed.
(* a windowed extend, for a dialect that does not merge *)
Definition ex_w := OSelectCols (OExtend ex_t [("r", EOp "cumsum" [ECol "a"])] true (mkwin ["c"] ["b"] ["b"])) ["r"; "c"].
Example SQLGEN_window_guard_satisfiable :
  builder_ok ex_w = true /\ stage1 false (join_covered d_sqlite_nomerge fl_sqlite) ex_w = true /\
  match to_near d_sqlite_nomerge ex_w None 0 with Ok (q, _) => nsem fl_sqlite q ex_env = sem_gen fl_sqlite ex_w ex_env | _ => False end.
Proof. split; [vm_compute; reflexivity|]. split; vm_compute; reflexivity. Qed.
(* a join of the fragment, for the generic dialect as PostgreSQLModel has it at /repo 6d4c3d4 (FULL written as FULL JOIN) *)
Definition ex_d_generic := mk_dialect true false false true.
Definition ex_j :=
  OOrder (OJoin (OSelectRows (OSelectCols ex_t ["a"; "b"]) (EOp ">" [ECol "a"; EConst (VNum 0)]))
                (OProject ex_t [("s", EOp "sum" [ECol "a"])] ["b"]) ["b"] ["b"] JFull) ["a"] [] None.
Example SQLGEN_join_guard_satisfiable :
  builder_ok ex_j = true /\ stage1 true (join_covered ex_d_generic fl_postgres) ex_j = true /\
  match to_near ex_d_generic ex_j None 0 with
  | Ok (q, _) => option_map (sem_select_cols (column_names ex_j)) (nsem fl_postgres q ex_env) = sem_gen fl_postgres ex_j ex_env /\
                 option_map (fun t => List.length (rows t)) (nsem fl_postgres q ex_env) = Some 3%nat
  | _ => False end.
Proof. split; [vm_compute; reflexivity|]. split; [vm_compute; reflexivity|]. vm_compute. split; reflexivity. Qed.
(* a windowed extend over a table, for the DEFAULT dialect (merging on) *)
Example SQLGEN_window_guard_merging_satisfiable :
  builder_ok ex_w = true /\ stage1 true (join_covered d_sqlite fl_sqlite) ex_w = true /\
  match to_near d_sqlite ex_w None 0 with Ok (q, _) => nsem fl_sqlite q ex_env = sem_gen fl_sqlite ex_w ex_env | _ => False end.
Proof. split; [vm_compute; reflexivity|]. split; vm_compute; reflexivity. Qed.
(* windowed extends MERGED at SQL level, default dialect: the windowed extend folded into the extend below it (one SELECT
   with x and the window item r), and an un-windowed extend folded into a windowed step *)
Definition ex_wm := OExtend (OExtend ex_t [("x", EOp "+" [ECol "a"; ECol "b"])] false no_window)
                            [("r", EOp "cumsum" [ECol "a"])] true (mkwin ["c"] ["b"] []).
Definition ex_mw := OExtend (OExtend ex_t [("r", EOp "cumsum" [ECol "a"])] true (mkwin ["c"] ["b"] []))
                            [("y", EOp "*" [ECol "a"; EConst (VNum 2)])] false no_window.
Definition is_one_step (q : tnear) : bool := match q with TUnary _ _ (TTable _ _) _ _ _ _ => true | _ => false end.
Example SQLGEN_window_merged_satisfiable :
  builder_ok ex_wm = true /\ stage1 true (join_covered d_sqlite fl_sqlite) ex_wm = true /\
  builder_ok ex_mw = true /\ stage1 true (join_covered d_sqlite fl_sqlite) ex_mw = true /\
  match to_near d_sqlite ex_wm None 0 with Ok (q, _) => is_one_step q = true /\ nsem fl_sqlite q ex_env = sem_gen fl_sqlite ex_wm ex_env | _ => False end /\
  match to_near d_sqlite ex_mw None 0 with Ok (q, _) => is_one_step q = true /\ nsem fl_sqlite q ex_env = sem_gen fl_sqlite ex_mw ex_env | _ => False end.
Proof. repeat (split; [vm_compute; reflexivity|]). split; vm_compute; split; reflexivity. Qed.
