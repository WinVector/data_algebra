(* C18 -- Results ignore input row order, and order_rows orders and limits.
   "For every pipeline whose window orderings are total within each partition, permuting the input rows or giving the input
    frames a non-default index leaves the result unchanged as a multiset, on every backend.  When a pipeline ends in order_rows,
    the rows come out sorted by the given columns with the given reversals.  With a limit, they are exactly the first `limit`
    rows of that order."
   Statements about the reference semantics Model/Sem.v for EVERY backend flavour (each backend is tied to sem_gen <its flavour>
   by correspondence on every run, on original AND permuted inputs), and about the label handling of the Pandas executor
   (Model/PandasIndex.v, tied by the label correspondence of harness/props/C18.py). *)
From Coq Require Import List Bool QArith String Permutation Sorted.
Import ListNotations.
From DA Require Import Base.PyRT Base.Val Model.Sem Model.PermGuard Model.PandasIndex
  Proofs.SemOrderP Proofs.PermP1 Proofs.PermP2 Proofs.PermP3 Proofs.PermP4 Proofs.PandasIndexP Proofs.PermP5.

(* ---------------------------------------------------------------- 1. the result ignores the input row order *)
(* premises (Proofs/PermP4.v): total_orders = every windowed extend whose function is not a plain group aggregate (sum, mean,
   min, max, count, size) orders each partition of its actual input strictly -- a missing order_by does not -- and every order_rows
   with a limit is total on its actual input; exact_group_keys = a group-key column holds one representation per value (the label of
   a group is the first representation met; values themselves are compared up to True = 1 = 1.0 by every comparator). *)
Theorem C18_result_ignores_input_row_order :
  forall (fl : flavor) (p : op) (e e' : env) (t : table),
  env_perm e e' -> total_orders fl p e -> exact_group_keys fl p e -> sem_gen fl p e = Some t ->
  exists t', sem_gen fl p e' = Some t' /\ cols t' = cols t /\ Permutation (rows t) (rows t').
Proof. exact sem_perm. Qed.
Print Assumptions C18_result_ignores_input_row_order.

(* the premises are decidable on concrete data: the check evaluated inside Coq on every harness case implies them *)
Theorem C18_checked_premises_are_the_premises :
  forall (fl : flavor) (p : op) (e : env), perm_guard_b fl p e = true -> total_orders fl p e /\ exact_group_keys fl p e.
Proof. exact perm_guard_b_sound. Qed.
Print Assumptions C18_checked_premises_are_the_premises.

(* the ingredients: every aggregate is permutation-invariant over Q; a window function that is a plain aggregate is that aggregate
   on every row; project and windowed extend commute with permutations of their input *)
Theorem C18_aggregates_ignore_the_order_of_their_group :
  forall (fl : flavor) (op : string) (vs vs' : list val), Permutation vs vs' -> agg_fn fl op vs = agg_fn fl op vs'.
Proof. exact agg_fn_perm. Qed.
Print Assumptions C18_aggregates_ignore_the_order_of_their_group.

Theorem C18_project_ignores_input_row_order :
  forall (fl : flavor) (ops : list (string * expr)) (gb : list string) (t t' : table),
  cols t = cols t' -> Permutation (rows t) (rows t') -> keys_exact (cols t) gb (rows t) ->
  cols (sem_project fl ops gb t) = cols (sem_project fl ops gb t')
  /\ Permutation (rows (sem_project fl ops gb t)) (rows (sem_project fl ops gb t')).
Proof. exact project_perm. Qed.
Print Assumptions C18_project_ignores_input_row_order.

Theorem C18_windowed_extend_ignores_input_row_order :
  forall (fl : flavor) (ops : list (string * expr)) (w : window) (t t' : table),
  cols t = cols t' -> Permutation (rows t) (rows t') ->
  (ops_order_sensitive ops = true -> window_total fl (cols t) w (rows t)) ->
  cols (sem_wextend fl ops w t) = cols (sem_wextend fl ops w t')
  /\ Permutation (rows (sem_wextend fl ops w t)) (rows (sem_wextend fl ops w t')).
Proof. exact wextend_perm. Qed.
Print Assumptions C18_windowed_extend_ignores_input_row_order.

(* each premise is needed (witnesses in the reference semantics; replayed on the real backends by the harness self-test) *)
Theorem C18_window_order_needed_refuted :
  exists fl p e e' t t', env_perm e e' /\ exact_group_keys fl p e /\ sem_gen fl p e = Some t /\ sem_gen fl p e' = Some t' /\ ~ Permutation (rows t) (rows t').
Proof. exact window_order_needed. Qed.
Print Assumptions C18_window_order_needed_refuted.
Theorem C18_limit_order_needed_refuted :
  exists fl p e e' t t', env_perm e e' /\ exact_group_keys fl p e /\ sem_gen fl p e = Some t /\ sem_gen fl p e' = Some t' /\ ~ Permutation (rows t) (rows t').
Proof. exact limit_order_needed. Qed.
Print Assumptions C18_limit_order_needed_refuted.
Theorem C18_exact_keys_needed_refuted :
  exists fl p e e' t t', env_perm e e' /\ total_orders fl p e /\ sem_gen fl p e = Some t /\ sem_gen fl p e' = Some t' /\ ~ Permutation (rows t) (rows t').
Proof. exact exact_keys_needed. Qed.
Print Assumptions C18_exact_keys_needed_refuted.

(* ---------------------------------------------------------------- 2. order_rows orders and limits *)
(* rows come out sorted by the given columns with the given reversals: lexicographic on (column, descending?) with the
   backend's null placement (row_le fl) *)
Theorem C18_order_rows_sorted :
  forall (fl : flavor) (s : op) (cs rev : list string) (lim : option nat) (e : env) (t : table),
  sem_gen fl (OOrder s cs rev lim) e = Some t ->
  StronglySorted (fun r1 r2 => row_le fl (cols t) (order_keys cs rev) r1 r2 = true) (rows t).
Proof. exact pipeline_order_sorted. Qed.
Print Assumptions C18_order_rows_sorted.

Theorem C18_order_rows_permutation :
  forall (fl : flavor) (s : op) (cs rev : list string) (e : env) (u t : table),
  sem_gen fl s e = Some u -> sem_gen fl (OOrder s cs rev None) e = Some t -> cols t = cols u /\ Permutation (rows t) (rows u).
Proof. exact pipeline_order_permutation. Qed.
Print Assumptions C18_order_rows_permutation.

Theorem C18_order_rows_limit_is_prefix :
  forall (fl : flavor) (s : op) (cs rev : list string) (n : nat) (e : env) (t : table),
  sem_gen fl (OOrder s cs rev (Some n)) e = Some t ->
  exists full, sem_gen fl (OOrder s cs rev None) e = Some full /\ cols t = cols full /\ rows t = firstn n (rows full).
Proof. exact pipeline_order_limit_prefix. Qed.
Print Assumptions C18_order_rows_limit_is_prefix.

(* with a total final order the result is the same LIST, row for row, for every row order of the inputs *)
Theorem C18_total_order_rows_result_is_identical :
  forall (fl : flavor) (s : op) (cs rev : list string) (lim : option nat) (e e' : env) (t : table),
  env_perm e e' -> total_orders fl s e -> exact_group_keys fl s e ->
  (forall u, sem_gen fl s e = Some u -> total_on fl (cols u) (order_keys cs rev) (rows u)) ->
  sem_gen fl (OOrder s cs rev lim) e = Some t -> sem_gen fl (OOrder s cs rev lim) e' = Some t.
Proof. exact pipeline_order_total_exact. Qed.
Print Assumptions C18_total_order_rows_result_is_identical.

(* ---------------------------------------------------------------- 3. the Pandas executor is free of the caller's index *)
Theorem C18_pandas_steps_return_default_index :
  forall (fl : flavor) (p : op) (e : ienv) (f : iframe), px fl p e = Some f -> ix f = default_ix (nrows f).
Proof. exact px_default_index. Qed.
Print Assumptions C18_pandas_steps_return_default_index.

Theorem C18_pandas_every_node_returns_default_index :
  forall (fl : flavor) (p : op) (e : ienv), Forall (fun o => forall l, o = Some l -> exists n, l = default_ix n) (px_trace fl p e).
Proof. exact px_trace_default. Qed.
Print Assumptions C18_pandas_every_node_returns_default_index.

Theorem C18_pandas_result_ignores_caller_index :
  forall (fl : flavor) (p : op) (e e' : ienv), same_data e e' -> px fl p e = px fl p e'.
Proof. exact px_index_free. Qed.
Print Assumptions C18_pandas_result_ignores_caller_index.

(* the aligned column assignment of extend always meets equal labels, so labels never decide data *)
Theorem C18_pandas_model_data_is_reference_semantics :
  forall (fl : flavor) (p : op) (e : ienv) (f : iframe), px fl p e = Some f -> sem_gen fl p (strip e) = Some (tb f).
Proof. exact px_data. Qed.
Print Assumptions C18_pandas_model_data_is_reference_semantics.

(* permuted AND re-labelled inputs *)
Theorem C18_pandas_permuted_and_reindexed_input :
  forall (fl : flavor) (p : op) (e e' : ienv) (f : iframe),
  env_perm (strip e) (strip e') -> total_orders fl p (strip e) -> exact_group_keys fl p (strip e) -> px fl p e = Some f ->
  exists f', px fl p e' = Some f' /\ ix f' = default_ix (nrows f') /\ cols (tb f') = cols (tb f) /\ Permutation (rows (tb f)) (rows (tb f')).
Proof. exact px_perm_reindex. Qed.
Print Assumptions C18_pandas_permuted_and_reindexed_input.

(* were a frame to reach a windowed extend with the caller's labels, the aligned assignment would misplace the new column *)
Theorem C18_pandas_labels_would_leak_without_reset_refuted :
  exists f, px_extend fl_pandas leak_ops true leak_win leak_frame = Some f /\ tb f <> sem_wextend fl_pandas leak_ops leak_win (tb leak_frame).
Proof. exact labels_leak_without_reset. Qed.
Print Assumptions C18_pandas_labels_would_leak_without_reset_refuted.

(* ---------------------------------------------------------------- non-vacuity *)
Local Open Scope string_scope.
Local Open Scope list_scope.
Example C18_premises_satisfiable :
  total_orders fl_sqlite ex_pipe (ex_env ex_rows) /\ exact_group_keys fl_sqlite ex_pipe (ex_env ex_rows)
  /\ env_perm (ex_env ex_rows) (ex_env ex_rows') /\ ex_rows <> ex_rows'
  /\ option_map (fun t => List.length (rows t)) (sem_gen fl_sqlite ex_pipe (ex_env ex_rows)) = Some 3%nat.
Proof.
  split; [|split; [|split; [|split]]].
  - apply total_orders_b_sound. vm_compute. reflexivity.
  - apply exact_keys_b_sound. vm_compute. reflexivity.
  - apply env_perm_cons; [reflexivity| |apply env_perm_nil]. cbn [rows]. unfold ex_rows, ex_rows'.
    apply Permutation_sym. apply (Permutation_app_comm [[q 2; VNull; q 2]; [q 1; q 2; q 3]] [[q 1; q 5; q 0]; [q 1; q 2; q 1]]).
  - vm_compute. intros H. discriminate H.
  - vm_compute. reflexivity.
Qed.
(* a project with a null key and keys_exact *)
Example C18_project_premise_satisfiable :
  keys_exact ["k"; "a"; "u"] ["k"] (ex_rows ++ [[VNull; q 1; q 9]]).
Proof. apply keys_exact_b_sound. vm_compute. reflexivity. Qed.
(* labels: a shuffled integer index, a string index with duplicates *)
Example C18_pandas_reindexed_example :
  let t := mktable ["k"; "a"; "u"] ex_rows in
  px fl_pandas ex_pipe [("d", mkif [[AInt 3]; [AInt 0]; [AInt 2]; [AInt 1]] t)]
  = px fl_pandas ex_pipe [("d", mkif [[AStr "x"]; [AStr "x"]; [AStr "y"]; [AStr "z"]] t)]
  /\ option_map ix (px fl_pandas ex_pipe [("d", mkif [[AStr "x"]; [AStr "x"]; [AStr "y"]; [AStr "z"]] t)]) = Some (default_ix 3).
Proof. split; vm_compute; reflexivity. Qed.
