(* C03 -- the Polars executor agrees with Pandas whenever it returns a result.

   "For every pipeline and input on which the Polars executor returns a result without raising, that result has the same
    columns and the same multiset of rows as the Pandas executor's result [accepted differences only: integer / and %,
    sum/count over groups with no non-null values].  An unsupported method or step may raise an error, but it must never
    silently return a different table."

   plexec   (Model/PolarsExec.v)  step-by-step model of PolarsModel._*_step over hand models of the Polars primitives; tied to
            the real eager and lazy executor on every run (Model/PolarsExecCases.v, harness/props/C03.py)
   sem_gen fl_pandas (Model/Sem.v) what the Pandas executor computes

   The full statement is FALSE for the implementation (the `_refuted` theorems below exhibit the witnesses; each is a listed
   known finding, or the accepted sum/count convention).  The guarded statement is `_partial`: it covers every operator kind
   (table, extend with and without window, project, select_rows, select/drop/rename/map_columns, order_rows with and without
   limit, natural_join inner/left/right/full with equally or differently named keys, concat_rows; any column names, also
   ones that look like the executor's scratch names) but, through the CVocab / CJoinKeyed components of the guard, not: the ordered window functions that Polars 1.44.2 still has (shift, first, last,
   ffill, bfill), aggregates of a constant `(1).sum()`, joins WITHOUT keys (CROSS: the scratch key column), methods outside
   the vocabulary of Model/Sem.v; those are covered by the correspondence and the oracle only.  CColumnsExist says that a
   step only reads columns its source has (every pipeline made by the builder).  CSortTies / CGroupKeyRepr state that the
   result is determined at all (no ties under a limit; equal group keys are written the same way).  In a select_rows predicate
   a comparison other than != may see nulls under and / or (filter_nulls_ok): null and False both drop the row. *)
From Coq Require Import List Bool QArith String Permutation.
Import ListNotations.
From DA Require Import Base.PyRT Base.Val Model.Sem Model.SemCases Model.PolarsExec Proofs.PolarsP8.

(* no `_da_*` temporary column survives a step and no declared column is lost: for EVERY pipeline and input *)
Theorem C03_columns :
  forall (p : op) (e : env) (t : table), plexec p e = Ok t -> cols t = column_names p.
Proof. exact plexec_columns. Qed.
Print Assumptions C03_columns.

(* whenever the Polars executor returns a frame, outside the known findings and the accepted convention it has the columns
   and exactly the multiset of rows of the Pandas executor (exact equality of cells: stronger than the 1e-8 rule) *)
Theorem C03_polars_agrees_or_raises_partial :
  forall (p : op) (e : env) (t t' : table),
  plexec p e = Ok t -> agree_guardb p e = true -> sem_gen fl_pandas p e = Some t' ->
  cols t = cols t' /\ Permutation (rows t) (rows t').
Proof. exact polars_agrees_or_raises. Qed.
Print Assumptions C03_polars_agrees_or_raises_partial.

Local Open Scope string_scope.
Local Open Scope list_scope.

(* ---------------------------------------------------------------- the full statement fails: witnesses *)
Definition differs (p : op) (e : env) (why : list cause) : Prop :=
  exists t t', plexec p e = Ok t /\ sem_gen fl_pandas p e = Some t' /\ failed_causes p e = why /\ ~ Permutation (rows t) (rows t').

Ltac witness row :=
  eexists; eexists; split; [vm_compute; reflexivity|split; [vm_compute; reflexivity|split; [vm_compute; reflexivity|]]];
  intros P; apply Permutation_in with (x := row) in P; [vm_compute in P; intuition discriminate|vm_compute; auto].

Definition one_null : env := [("d", mktable ["a"; "b"] [[VNull; Q2 5 1]])].
Definition ex_env_keys : env :=
  [("d", mktable ["k"; "a"; "s"] [[Q2 1 1; Q2 3 2; VStr "x"]; [Q2 2 1; VNull; VStr "y"]; [VNull; Q2 4 1; VNull]]);
   ("g", mktable ["j"; "k"; "z"] [[Q2 2 1; Q2 7 1; Q2 10 1]; [Q2 5 1; VNull; Q2 30 1]; [VNull; Q2 1 1; Q2 40 1]])].

(* a comparison with a null operand is null on Polars and False on Pandas (stored in a column) *)
Theorem C03_comparison_with_null_refuted :
  differs (OExtend (OTable "d" ["a"; "b"]) [("x", EOp ">" [ECol "a"; EConst (Q2 1 1)])] false (mkwin [] [] [])) one_null [CCmpNull].
Proof. witness [VNull; Q2 5 1; VNull]. Qed.
Print Assumptions C03_comparison_with_null_refuted.

(* and / or are Kleene on Polars; a null operand counts as False on Pandas *)
Theorem C03_logic_with_null_refuted :
  differs (OExtend (OTable "d" ["a"; "b"]) [("x", EOp "and" [ECol "a"; EOp "==" [ECol "b"; ECol "b"]])] false (mkwin [] [] [])) one_null [CLogicNull].
Proof. witness [VNull; Q2 5 1; VNull]. Qed.
Print Assumptions C03_logic_with_null_refuted.

(* regression example for repair 73dee51 (found by this check): maximum / minimum propagate a missing operand on Polars as
   on Pandas -- the former witness of C03_maximum_with_null_refuted is now inside the guard and the two sides agree *)
Example C03_maximum_with_null_agrees :
  let p := OExtend (OTable "d" ["a"; "b"]) [("x", EOp "maximum" [ECol "a"; ECol "b"]); ("y", EOp "minimum" [ECol "b"; ECol "a"])] false (mkwin [] [] []) in
  agree_guardb p one_null = true /\
  plexec p one_null = Ok (mktable ["a"; "b"; "x"; "y"] [[VNull; Q2 5 1; VNull; VNull]]) /\
  sem_gen fl_pandas p one_null = Some (mktable ["a"; "b"; "x"; "y"] [[VNull; Q2 5 1; VNull; VNull]]).
Proof. cbv zeta. split; [vm_compute; reflexivity|split; vm_compute; reflexivity]. Qed.

(* regression example for repair af27aca (Pandas natural_join no longer pairs null keys; found by C16 and this check): the
   former witness of C03_null_join_keys_refuted is inside the guard and the two sides agree (no match for the null key) *)
Example C03_null_join_keys_agree :
  let p := OJoin (OTable "d" ["a"; "b"]) (OTable "f" ["a"; "z"]) ["a"] ["a"] JLeft in
  let e := one_null ++ [("f", mktable ["a"; "z"] [[VNull; Q2 7 1]])] in
  agree_guardb p e = true /\
  plexec p e = Ok (mktable ["a"; "b"; "z"] [[VNull; Q2 5 1; VNull]]) /\
  sem_gen fl_pandas p e = Some (mktable ["a"; "b"; "z"] [[VNull; Q2 5 1; VNull]]).
Proof. cbv zeta. split; [vm_compute; reflexivity|split; vm_compute; reflexivity]. Qed.

(* differently named key pairs (and a key name that is a non-key column of the other side) are inside the guard since ad5b72b *)
Example C03_guard_example_differently_named_keys :
  let p := OJoin (OTable "d" ["k"; "a"; "s"]) (OTable "g" ["j"; "k"; "z"]) ["k"] ["j"] JFull in
  let e := ex_env_keys in
  agree_guardb p e = true /\ option_map (fun t => List.length (rows t)) (match plexec p e with Ok t => Some t | _ => None end) = Some 5%nat.
Proof. cbv zeta. split; vm_compute; reflexivity. Qed.

(* sort puts nulls first on Polars and last on Pandas: a limit keeps different rows *)
Theorem C03_sort_null_placement_refuted :
  differs (OOrder (OTable "d" ["a"; "b"]) ["a"] [] (Some 1%nat)) [("d", mktable ["a"; "b"] [[Q2 1 1; Q2 1 1]; [VNull; Q2 2 1]])] [CSortNulls].
Proof. witness [VNull; Q2 2 1]. Qed.
Print Assumptions C03_sort_null_placement_refuted.

(* regression example for repair 85ef226 (scratch columns and join suffixes are named away from the names in use): the former
   witness of C03_reserved_column_name_refuted -- a user column called like the partition stand-in -- is inside the guard,
   keeps its value, and the two sides agree *)
Example C03_reserved_column_name_agrees :
  let p := OExtend (OTable "d" ["a"; "_da_extend_temp_partition_column"]) [("x", EOp "sum" [ECol "a"])] true (mkwin [] [] []) in
  let e := [("d", mktable ["a"; "_da_extend_temp_partition_column"] [[Q2 2 1; Q2 5 1]])] in
  agree_guardb p e = true /\
  plexec p e = Ok (mktable ["a"; "_da_extend_temp_partition_column"; "x"] [[Q2 2 1; Q2 5 1; Q2 2 1]]) /\
  sem_gen fl_pandas p e = Some (mktable ["a"; "_da_extend_temp_partition_column"; "x"] [[Q2 2 1; Q2 5 1; Q2 2 1]]).
Proof. cbv zeta. split; [vm_compute; reflexivity|split; vm_compute; reflexivity]. Qed.

(* the accepted convention: sum / count / size of an ungrouped project over an empty input (Polars null, Pandas 0) *)
Theorem C03_empty_ungrouped_sum_convention_refuted :
  differs (OProject (OTable "d" ["a"; "b"]) [("s", EOp "sum" [ECol "a"])] []) [("d", mktable ["a"; "b"] [])] [CEmptyProject].
Proof. witness [VNull]. Qed.
Print Assumptions C03_empty_ungrouped_sum_convention_refuted.

(* ---------------------------------------------------------------- the guard is satisfiable by non-trivial pipelines *)
Definition ex_env : env :=
  [("d", mktable ["k"; "a"; "s"] [[Q2 1 1; Q2 3 2; VStr "x"]; [Q2 2 1; VNull; VStr "y"]; [VNull; Q2 4 1; VNull]; [Q2 2 1; Q2 1 1; VStr "x"]]);
   ("f", mktable ["k"; "a"; "z"] [[Q2 2 1; Q2 9 1; Q2 10 1]; [Q2 5 1; Q2 8 1; Q2 30 1]])].

(* FULL join with a right-only row and a shared non-key column, a window aggregate, a null test, a grouped project *)
Example C03_guard_example_join_window_project :
  let p := OProject (OExtend (OExtend (OJoin (OTable "d" ["k"; "a"; "s"]) (OTable "f" ["k"; "a"; "z"]) ["k"] ["k"] JFull)
                                [("w", EOp "sum" [ECol "a"])] true (mkwin ["k"] [] []))
                       [("n", EOp "is_null" [ECol "z"]); ("c", EOp "coalesce" [ECol "a"; EConst (Q2 0 1)])] false (mkwin [] [] []))
             [("m", EOp "max" [ECol "c"]); ("q", EOp "_size" [])] ["k"] in
  agree_guardb p ex_env = true /\
  option_map (fun t => List.length (rows t)) (match plexec p ex_env with Ok t => Some t | _ => None end) = Some 4%nat.
Proof. cbv zeta. split; vm_compute; reflexivity. Qed.

(* RIGHT join, filter on a comparison without nulls, order with a limit on a total key, concat with an id column *)
Example C03_guard_example_right_join_order_concat :
  let j := OJoin (OTable "d" ["k"; "a"; "s"]) (OTable "f" ["k"; "a"; "z"]) ["k"] ["k"] JRight in
  let p := OConcat (OOrder (OSelectRows j (EOp ">" [ECol "z"; EConst (Q2 1 1)])) ["z"; "a"] ["z"] (Some 2%nat)) (OSelectCols j ["k"; "a"; "s"; "z"])
                   (Some "src") "top" "all" in
  agree_guardb p ex_env = true /\ plexec p ex_env <> Raise /\ plexec p ex_env <> Unmodelled.
Proof. cbv zeta. split; [vm_compute; reflexivity|split; vm_compute; discriminate]. Qed.

(* a row filter on a nullable column is inside the guard: a null predicate (Polars) and a False one (Pandas) both drop the row *)
Example C03_guard_example_filter_on_null :
  let p := OSelectRows (OTable "d" ["k"; "a"; "s"]) (EOp "and" [EOp ">" [ECol "a"; EConst (Q2 1 1)]; EOp "<=" [ECol "k"; EConst (Q2 2 1)]]) in
  agree_guardb p ex_env = true /\ option_map (fun t => List.length (rows t)) (match plexec p ex_env with Ok t => Some t | _ => None end) = Some 1%nat.
Proof. cbv zeta. split; vm_compute; reflexivity. Qed.

(* raising is allowed: the window functions that Polars 1.44.2 no longer has raise instead of returning a table *)
Example C03_removed_window_function_raises :
  plexec (OExtend (OTable "d" ["k"; "a"; "s"]) [("x", EOp "cumsum" [ECol "a"])] true (mkwin ["k"] ["a"] [])) ex_env = Raise.
Proof. vm_compute. reflexivity. Qed.
