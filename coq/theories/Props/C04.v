(* C04 -- SQL formatting and optimisation options never change query results.
   FULL STATEMENT (property text): for every pipeline, dialect and input, the SQL produced under any combination of
   use_with, use_cte_elim, annotate, initial_commas, sql_indent and "the dialect merges compatible extend steps" returns the
   same table.

   What is proved, about the hand models of near_sql.py / sql_model.py (Model/NearSql.v, WithForm.v, SqlMerge.v, Render.v;
   tied to the code on every run by comparing the real NearSQL object graphs, WITH lists, caches and SQL text):
   * for EVERY compositional SQL engine (any meaning of one SELECT given the meanings of its sub-queries; a name denotes what
     it is bound to): the WITH form denotes what the nested form denotes (use_with), and so does the WITH form built with the
     common-table-expression cache (use_cte_elim) WHENEVER equal cache keys name equal sub-queries (`cache_sound`);
   * `cache_sound` was FALSE for the keys the code built when this check was written (flags code_as_found): ..._refuted exhibit
     two reachable NearSQL states on which CTE elimination changes the result.  Both were repaired in /repo (0184359: an
     ops_key of None is never cached; efc7e6f: a merged extend is keyed as the outer extend), flags code_repaired; the
     refutations stay as regression statements about the old behaviour, and the check reads the flags off the code at run time.
     For the repaired keys the invariant is still a guard in general (`_partial`): it is a statement about the whole generator
     (to_near_sql is not modelled) and, for shared sub-pipelines that contain a join, about the engine (fresh operand aliases
     occur in the join's text).  C04_cte_elim_preserves_decidable_guard replaces it by a DECIDABLE condition on the NearSQL
     graph -- equal keys name sub-queries that are equal up to step names -- which the check evaluates on every real graph;
   * annotate / initial_commas / sql_indent leave the token stream of the text unchanged, and every comment the generator
     writes ends at the newline written after it (C14's theorem about the regenerated _clean_annotation);
   * the SQL-level extend merge: whenever the code's test passes, the merged SELECT denotes column for column what the two
     nested SELECTs denote (expressions = arbitrary functions of the columns named by their declared dependencies);
     `_partial`: one merge step (the whole generator to_near_sql is not modelled; the check compares the merged graph the real
     generator produces with the model's merge of the unmerged graph on every run), and when the test RAISES instead of
     deciding (KeyError after select_columns / drop_columns narrowed the sub-query: found by this check, repaired in /repo by
     05d5f06; model switch f_merge_skips_missing) nothing is claimed. *)
From Coq Require Import List Bool String Ascii ZArith.
Import ListNotations.
From DA Require Import Base.PyRT Base.PyStr Model.Lex Model.NearSql Model.WithForm Model.SqlMerge Model.Render
  Model.CacheSound
  Proofs.WithFormP1 Proofs.WithFormP2 Proofs.WithFormP3 Proofs.WithFormP4 Proofs.WithFormP5 Proofs.SqlMergeP Proofs.RenderP1.
Local Open Scope string_scope.
Local Open Scope list_scope.

(* use_with: the WITH list (steps bound left to right) denotes what the nested query denotes *)
Theorem C04_with_form_preserves :
  forall (T : Type) (E : engine T) (fl : flags) (q : nearsql) (r : env T),
  hygienic q = true -> nsem_with E r (fst (to_with_form fl None q)) = nsem E r q None.
Proof. exact with_form_preserves. Qed.
Print Assumptions C04_with_form_preserves.

(* the same statement with the common table expressions substituted back: inlining the WITH form gives a query that denotes
   what the original nested query denotes *)
Theorem C04_with_form_inlined_preserves :
  forall (T : Type) (E : engine T) (fl : flags) (q : nearsql) (r : env T),
  hygienic q = true -> nsem E r (inline_ctes (fst (to_with_form fl None q))) None = nsem E r q None.
Proof. exact with_form_inlined_preserves. Qed.
Print Assumptions C04_with_form_inlined_preserves.

(* use_cte_elim: the same with the cache, under the invariant that equal cache keys name equal sub-queries *)
Theorem C04_cte_elim_preserves_partial :
  forall (T : Type) (E : engine T) (fl : flags) (q : nearsql) (r : env T),
  hygienic q = true -> cache_sound E fl q ->
  nsem_with E r (fst (to_with_form fl (Some []) q)) = nsem E r q None.
Proof. exact cte_elim_preserves. Qed.
Print Assumptions C04_cte_elim_preserves_partial.

(* the same with a decidable guard, for every engine: equal cache keys name sub-queries that are equal up to the names of
   their steps, narrow to the same columns, and do not contain their own key (Model/CacheSound.v) *)
Theorem C04_cte_elim_preserves_decidable_guard :
  forall (T : Type) (E : engine T) (fl : flags) (q : nearsql) (r : env T),
  hygienic q = true -> cache_sound_dec fl q = true ->
  nsem_with E r (fst (to_with_form fl (Some []) q)) = nsem E r q None.
Proof. exact cte_elim_preserves_dec. Qed.
Print Assumptions C04_cte_elim_preserves_decidable_guard.

(* ... and WITHOUT the invariant it fails, on a state the generator reaches (merge_tree = the SQL-level extend merge replayed
   on the unmerged graph): a merged extend keeps the ops_key of the step it was merged into *)
Theorem C04_cte_elim_preserves_refuted :
  exists (T : Type) (E : engine T) (q : nearsql) (r : env T),
    hygienic q = true /\ (exists u, merge_tree code_as_found u = Some q) /\
    nsem_with E r (fst (to_with_form code_as_found (Some []) q)) <> nsem E r q None.
Proof. exact cte_elim_preserves_refuted. Qed.
Print Assumptions C04_cte_elim_preserves_refuted.

(* ... and on two raw query steps (ops_key None becomes the text "None") *)
Theorem C04_cte_elim_preserves_refuted_none_key :
  exists (T : Type) (E : engine T) (q : nearsql) (r : env T),
    hygienic q = true /\ nsem_with E r (fst (to_with_form code_as_found (Some []) q)) <> nsem E r q None.
Proof. exact cte_elim_preserves_refuted_none_key. Qed.
Print Assumptions C04_cte_elim_preserves_refuted_none_key.

(* the keys the code builds are not sound: same key, different tables *)
Theorem C04_cache_keys_sound_refuted :
  exists c1 c2 k, In c1 (conts (w_merged code_as_found)) /\ In c2 (conts (w_merged code_as_found)) /\
    ckey code_as_found c1 = Some k /\ ckey code_as_found c2 = Some k /\ csem toy toy_db c1 <> csem toy toy_db c2.
Proof. exact w_keys_collide. Qed.
Print Assumptions C04_cache_keys_sound_refuted.

(* annotate, initial_commas, sql_indent: same token stream *)
Theorem C04_render_tokens_invariant :
  forall (d : dialect) (fl : flags) (o1 o2 : opts) (q : nearsql),
  use_with o1 = use_with o2 -> use_cte_elim o1 = use_cte_elim o2 ->
  toks o1 (to_sql_blocks d fl o1 q) = toks o2 (to_sql_blocks d fl o2 q).
Proof. exact render_tokens_invariant. Qed.
Print Assumptions C04_render_tokens_invariant.

(* every comment in the generated text is the last item of its line and is skipped up to exactly the newline after it
   (annotation comments: whatever the annotation contains; the preamble: when the dialect description has no end of line) *)
Theorem C04_comments_are_inert :
  forall (o : opts) (bs : list block) (l : list item) (s rest : string),
  In l (sql_lines o bs) -> In (IComment s) l ->
  (forall b h, In b bs -> b_c b = BHeader h -> has_char is_eol h = false /\ exists h', h = String "-" (String "-" h')) ->
  (exists pre, l = pre ++ [IComment s]) /\ skip_comment (String.append s (String "010"%char rest)) = Some rest.
Proof. exact comments_are_inert. Qed.
Print Assumptions C04_comments_are_inert.

(* the SQL-level extend merge is an optimisation only (one merge step) *)
Theorem C04_extend_merge_preserves_partial :
  forall (V : Type) (tsem : string -> (string -> option V) -> option V)
         fl n ts s ci sfx an ds k tms deps anno okey m (cols_i : list string),
  sql_merge fl (NUnary n (Some ts) s ci sfx an true (Some ds) k) tms deps anno okey = MYes m ->
  NoDup (map fst deps) -> NoDup (map fst ds) ->
  (forall c, In c (map fst tms) -> In c (map fst deps)) ->
  (forall c, In c (map fst ts) -> In c (map fst ds)) ->
  deps_describe tsem tms deps ->
  (forall c, In c (map fst tms) -> triv tms c -> In c cols_i) ->
  (forall c d, In c (map fst tms) -> In d (deps_of deps c) -> In d cols_i) ->
  exists tm dm an' k', m = NUnary n (Some tm) s ci [] an' true (Some dm) k' /\
    forall (f : cframe V) c, In c (map fst tms) -> term_val tsem tm c f = term_val tsem tms c (select tsem ts cols_i f).
Proof. exact sql_merge_preserves. Qed.
Print Assumptions C04_extend_merge_preserves_partial.

(* the dependencies extend_to_near_sql declares for an assigned column (Model/SqlMerge.v declared_deps, compared with the real
   declared_term_dependencies of every extend node on every run) contain the columns the expression mentions and the window's
   partition and order columns, ascending or reversed: what the guard `deps_describe` above needs of a windowed term *)
Theorem C04_declared_dependencies_cover_the_window :
  forall (demand : list string) (subops : list (string * list string)) (partition order : list string) k cols,
  dict_get subops k = Some cols ->
  forall c, In c (cols ++ partition ++ order) -> In c (deps_of (declared_deps demand subops partition order) k).
Proof. exact declared_deps_cover. Qed.
Print Assumptions C04_declared_dependencies_cover_the_window.

(* which cache key the merged step carries: the inner step's as the code stands (the cause of the first refutation),
   the outer extend's once repaired *)
Theorem C04_merged_step_key :
  forall fl sub tms deps anno okey m,
  sql_merge fl sub tms deps anno okey = MYes m -> ops_key m = if f_merge_rekeys fl then okey else ops_key sub.
Proof. exact sql_merge_key. Qed.
Print Assumptions C04_merged_step_key.

(* ------------------------------------------------------------------ non-vacuity *)
(* cache_sound holds, for EVERY engine, on a query that really reuses a sub-pipeline (one WITH step instead of two) *)
Example C04_cache_sound_satisfiable :
  (forall (T : Type) (E : engine T) (fl : flags), cache_sound E fl g_query) /\ hygienic g_query = true /\
  map fst (w_prev (fst (to_with_form code_as_found (Some []) g_query))) = ["""extend_1"""] /\
  map fst (w_prev (fst (to_with_form code_as_found None g_query))) = ["""extend_1"""; """extend_2"""].
Proof. split; [exact g_cache_sound|]. destruct g_reuses as (a & b & c). repeat split; assumption. Qed.

(* the decidable guard on the witnesses: it fails for both as the code was found, and holds for both as repaired and for the
   genuinely shared query *)
Example C04_decidable_guard_on_witnesses :
  cache_sound_dec code_as_found (w_merged code_as_found) = false /\ cache_sound_dec code_repaired (w_merged code_repaired) = true /\
  cache_sound_dec code_as_found r_query = false /\ cache_sound_dec code_repaired r_query = true /\
  cache_sound_dec code_as_found g_query = true /\ cache_sound_dec code_repaired g_query = true.
Proof. vm_compute. repeat split. Qed.

(* the first refutation in values: rows of the merged pipeline, nested vs CTE elimination; with the repairs (and without
   the cache) the same pipeline translates correctly *)
Example C04_refutation_values :
  nsem toy toy_db (w_merged code_as_found) None
    = [[("a", 1); ("b", 4); ("c", 8); ("x", 1)]; [("a", 1); ("b", 4); ("c", 7); ("x", 1)]]%Z /\
  nsem_with toy toy_db (fst (to_with_form code_as_found (Some []) (w_merged code_as_found)))
    = [[("a", 1); ("b", 4); ("c", 8); ("x", 1)]; [("a", 1); ("b", 4); ("c", 8); ("x", 1)]]%Z /\
  nsem_with toy toy_db (fst (to_with_form code_repaired (Some []) (w_merged code_repaired)))
    = nsem toy toy_db (w_merged code_repaired) None.
Proof. destruct w_values as (a & b & _). destruct w_repaired_right as (c & _). repeat split; assumption. Qed.

Example C04_refutation_none_key_values :
  nsem toy toy_db r_query None = [[("p", 1%Z)]; [("p", 7%Z)]] /\
  nsem_with toy toy_db (fst (to_with_form code_as_found (Some []) r_query)) = [[("p", 1%Z)]; [("p", 1%Z)]] /\
  nsem_with toy toy_db (fst (to_with_form code_repaired (Some []) r_query)) = [[("p", 1%Z)]; [("p", 7%Z)]].
Proof. exact r_cte_elim_wrong. Qed.

(* the guards of the merge theorem hold for the merge of the first witness *)
Example C04_merge_guards_satisfiable :
  (exists m, sql_merge code_as_found (w_inner """extend_0""") m_terms m_deps "extend({'c': 'c + 1'})" (Some "k") = MYes m) /\
  NoDup (map fst m_deps) /\ (forall c, In c (map fst m_terms) -> In c (map fst m_deps)) /\
  deps_describe m_tsem m_terms m_deps /\
  (forall c d, In c (map fst m_terms) -> In d (deps_of m_deps c) -> In d w_cols).
Proof. split; [exact m_merge_happens|exact m_guards]. Qed.

(* rendering: one query under two layouts *)
Example C04_render_example :
  let d := mk_dialect """" "'" "SQLiteModel 1.7.2" true false in
  let q := NUnary """extend_0""" (Some [("a", None); ("y", Some """a"" + 1")]) (NTable """d""" None) (mk_ci (Some ["a"]) false None)
                  [] (Some (String.append " extend({'y': 'a + 1'})" (String "010"%char "-- 100% "))) true None (Some "k") in
  to_sql d code_as_found (mk_opts true false true false " ") q =
    text_of_lines ["-- data_algebra SQL https://github.com/WinVector/data_algebra";
                   "--  dialect: SQLiteModel 1.7.2";
                   "--       string quote: '";
                   "--   identifier quote: """;
                   "SELECT  -- extend({'y': 'a + 1'}) -- 100percent";
                   " ""a"" ,";
                   " ""a"" + 1 AS ""y""";
                   "FROM";
                   " ""d"""] /\
  to_sql d code_as_found (mk_opts true false false true "  ") q =
    text_of_lines ["SELECT";
                   "    ""a""";
                   "  , ""a"" + 1 AS ""y""";
                   "FROM";
                   "  ""d"""].
Proof. vm_compute. split; reflexivity. Qed.
