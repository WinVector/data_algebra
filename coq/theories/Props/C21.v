(* C21 -- Solution helpers compute what their documentation promises (data_algebra/solutions.py).
   Pipelines: Model/Solutions.v (hand transcription of the helpers, tied to the real trees on every run).
   Specifications: Model/Solutions.v replicate_spec / rank_avg_spec / locf_spec / multimap_spec (from the docstrings).
   Semantics: Model/Sem.v sem_gen under every backend flavour fl (fl_pandas and fl_sqlite are the two executors the property
   names; each is tied to the real executor by correspondence), extended locally by sem_x / sem_xop (Model/Solutions.v).
   tbl_equiv = same columns, same rows as a multiset. *)
From Coq Require Import List Bool QArith String Lia.
Import ListNotations.
From DA Require Import Base.PyRT Base.Val Model.Sem Model.Solutions Proofs.SolutionsP2 Proofs.SolutionsP5 Proofs.SolutionsP7 Proofs.SolutionsP8.
From DA Require Import Proofs.SemBasicP.

(* replicate_rows_query emits each row exactly `count` times, numbered 0..count-1.
   pw is the FLOAT computation ceil(log(n)/log(2)) of the backend and P the largest power the helper built tables for
   (the same float expression on max_count); the hypothesis on them is part of the statement and is swept against the
   real numpy / math computations for all n <= 2^20 by the harness (a finite sweep). *)
Theorem C21_replicate_rows_correct :
  forall (pw : nat -> nat) (P maxc : nat),
  (forall n, (1 <= n <= maxc)%nat -> (n <= 2 ^ pw n)%nat /\ (pw n <= P)%nat) ->
  forall (fl : flavor) (d : op) (cnt seqc jt : string) (e : env) (t : table),
  sem_x pw fl d e = Some t ->
  dict_get e jt = Some (count_frame seqc P) ->
  replicate_valid cnt seqc maxc t = true ->
  exists out, sem_x pw fl (replicate_rows_pipeline d cnt seqc jt) e = Some out /\ tbl_equiv out (replicate_spec cnt seqc t).
Proof. exact replicate_rows_correct. Qed.
Print Assumptions C21_replicate_rows_correct.

(* rank_to_average gives each row the mean (1-based) position of its tie group within its partition, for every table,
   any number of partitions and ties, null keys included (the tie breaker makes the helper's internal order total) *)
Theorem C21_rank_to_average_correct :
  forall (fl : flavor) (d : op) (ob pb : list string) (rank tb : string) (e : env) (t : table),
  sem_gen fl d e = Some t -> rank_valid ob pb rank tb t = true ->
  exists out, sem_gen fl (rank_to_average_pipeline d ob pb rank tb) e = Some out /\ tbl_equiv out (rank_avg_spec fl ob pb rank t).
Proof. exact rank_to_average_correct. Qed.
Print Assumptions C21_rank_to_average_correct.

(* last_observed_carried_forward fills each missing value with the latest earlier non-missing value of its partition under
   the order (leading missing values stay missing); default selection_predicate is_null().  locf_valid: the helper's own
   name assertions, partition keys are not null, and the order is total inside every partition.
   (pw is only the parameter of sem_x; this pipeline contains no float expression.) *)
Theorem C21_locf_correct :
  forall (pw : nat -> nat) (fl : flavor) (d : op) (ob pb : list string) (vcol use rk tb : string) (e : env) (t : table),
  sem_x pw fl d e = Some t -> locf_valid fl ob pb vcol use rk tb t = true ->
  exists out, sem_x pw fl (locf_pipeline d ob pb vcol use rk tb) e = Some out /\ tbl_equiv out (locf_spec fl ob pb vcol t).
Proof. exact locf_correct. Qed.
Print Assumptions C21_locf_correct.

(* def_multi_column_map maps every listed column through the mapping table (unmapped and null values become null, then
   coalesce_value when given; cols_to_map_back renames the results).
   FULL STATEMENT (false on the unchanged tree): for every call its docstring and assertions allow (row_keys and cols_to_map
   non-empty, ...) the helper returns a pipeline computing multimap_spec.  With ONE column to map the helper raises
   (known finding C21-multi-column-map-single-column-raises): C21_multi_column_map_refuted.
   PROVED PART: whenever the helper returns a pipeline (multi_map_build = Some p, i.e. two or more columns to map) that
   pipeline computes the specification, for every valid input.  m must not mention the reserved name of the intermediate. *)
Theorem C21_multi_column_map_correct_partial :
  forall (pw : nat -> nat) (fl : flavor) (d m : op) (keys : list string) (namec valc mapc : string) (vcols : list string)
         (co : option val) (back : option (list string)) (p : xop) (e : env) (t mt : table),
  multi_map_build d m keys namec valc mapc vcols co back = Some p ->
  sem_x pw fl d e = Some t -> sem_x pw fl m e = Some mt -> ~ In mm_tmp1 (tables_of m) ->
  multimap_valid keys namec valc mapc vcols back t mt = true ->
  exists out, sem_xop pw fl p e = Some out /\ tbl_equiv out (multimap_spec keys namec valc mapc vcols co back t mt).
Proof. exact multi_map_built_correct. Qed.
Print Assumptions C21_multi_column_map_correct_partial.

Theorem C21_multi_column_map_returns_for_two_or_more_columns :
  forall d m keys namec valc mapc vcols co back, (2 <= List.length vcols)%nat ->
  multi_map_build d m keys namec valc mapc vcols co back = Some (multi_map_pipeline d m keys namec valc mapc vcols co back).
Proof. exact multi_map_build_some. Qed.
Print Assumptions C21_multi_column_map_returns_for_two_or_more_columns.

Local Open Scope string_scope.
Local Open Scope list_scope.
(* the witness of the known finding: a documented-valid call (one column to map) on which the helper returns nothing *)
Theorem C21_multi_column_map_refuted :
  exists (d m : op) (keys : list string) (namec valc mapc : string) (vcols : list string) (t mt : table),
    multimap_valid keys namec valc mapc vcols None t mt = true
    /\ sem_gen fl_pandas d [("d", t); ("m", mt)] = Some t /\ sem_gen fl_pandas m [("d", t); ("m", mt)] = Some mt
    /\ multi_map_build d m keys namec valc mapc vcols None None = None.
Proof. exact multi_map_single_column_witness. Qed.
Print Assumptions C21_multi_column_map_refuted.

(* non-vacuity: the hypotheses are satisfiable by concrete non-trivial instances *)
Example C21_pw_hypothesis_example :
  forall n, (1 <= n <= 5)%nat -> (n <= 2 ^ Nat.log2_up n)%nat /\ (Nat.log2_up n <= 3)%nat.
Proof. intros n H. assert (n = 1 \/ n = 2 \/ n = 3 \/ n = 4 \/ n = 5)%nat as C by lia.
  destruct C as [->|[->|[->|[->| ->]]]]; vm_compute; split; repeat constructor. Qed.
Example C21_replicate_valid_example :
  replicate_valid "n" "i" 5 (mktable ["k"; "n"] [[VStr "a"; vnat 1]; [VStr "b"; vnat 3]; [VStr "c"; vnat 5]]) = true
  /\ option_map (fun t => List.length (rows t))
       (sem_x Nat.log2_up fl_sqlite (replicate_rows_pipeline (OTable "d" ["k"; "n"]) "n" "i" "jt")
          [("d", mktable ["k"; "n"] [[VStr "a"; vnat 1]; [VStr "b"; vnat 3]; [VStr "c"; vnat 5]]); ("jt", count_frame "i" 3)]) = Some 9%nat.
Proof. vm_compute. split; reflexivity. Qed.
Example C21_rank_valid_example :
  let t := mktable ["g"; "x"] [[VStr "a"; vnat 1]; [VStr "a"; vnat 1]; [VStr "a"; vnat 2]; [VNull; vnat 3]] in
  rank_valid ["x"] ["g"] "r" "rank_tie_breaker" t = true
  /\ option_map rows (sem_gen fl_pandas (rank_to_average_pipeline (OTable "d" ["g"; "x"]) ["x"] ["g"] "r" "rank_tie_breaker") [("d", t)])
     = Some [[VStr "a"; vnat 1; VNum (3 # 2)]; [VStr "a"; vnat 1; VNum (3 # 2)]; [VStr "a"; vnat 2; vnat 3]; [VNull; vnat 3; vnat 1]].
Proof. vm_compute. split; reflexivity. Qed.
Example C21_locf_valid_example :
  let t := mktable ["g"; "o"; "v"] [[VStr "a"; vnat 2; VNull]; [VStr "a"; vnat 1; vnat 5]; [VStr "b"; vnat 1; VNull]; [VStr "a"; vnat 0; VNull]; [VStr "a"; vnat 3; vnat 7]; [VStr "a"; vnat 4; VNull]] in
  locf_valid fl_sqlite ["o"] ["g"] "v" "locf_to_use" "locf_non_null_rank" "locf_tiebreaker" t = true
  /\ locf_spec fl_sqlite ["o"] ["g"] "v" t
     = mktable ["g"; "o"; "v"] [[VStr "a"; vnat 2; vnat 5]; [VStr "a"; vnat 1; vnat 5]; [VStr "b"; vnat 1; VNull]; [VStr "a"; vnat 0; VNull]; [VStr "a"; vnat 3; vnat 7]; [VStr "a"; vnat 4; vnat 7]].
Proof. vm_compute. split; reflexivity. Qed.
Example C21_multimap_valid_example :
  let t := mktable ["id"; "a"; "b"; "o"] [[vnat 1; VStr "x"; VStr "x"; vnat 1]; [vnat 2; VStr "y"; VStr "z"; vnat 1]; [vnat 3; VNull; VStr "y"; vnat 1]] in
  let m := mktable ["cn"; "cv"; "mv"] [[VStr "a"; VStr "x"; vnat 1]; [VStr "a"; VStr "y"; vnat 2]; [VStr "b"; VStr "x"; vnat 10]; [VStr "b"; VStr "y"; vnat 20]] in
  multimap_valid ["id"] "cn" "cv" "mv" ["a"; "b"] (Some ["A"; "B"]) t m = true
  /\ multimap_spec ["id"] "cn" "cv" "mv" ["a"; "b"] (Some (vnat 0)) (Some ["A"; "B"]) t m
     = mktable ["id"; "A"; "B"] [[vnat 1; vnat 1; vnat 10]; [vnat 2; vnat 2; vnat 0]; [vnat 3; vnat 0; vnat 20]]
  /\ option_map (fun p => sem_xop Nat.log2_up fl_sqlite p [("d", t); ("m", m)])
       (multi_map_build (OTable "d" ["id"; "a"; "b"; "o"]) (OTable "m" ["cn"; "cv"; "mv"]) ["id"] "cn" "cv" "mv" ["a"; "b"] (Some (vnat 0)) (Some ["A"; "B"]))
     = Some (Some (mktable ["id"; "A"; "B"] [[vnat 1; vnat 1; vnat 10]; [vnat 2; vnat 2; vnat 0]; [vnat 3; vnat 0; vnat 20]])).
Proof. vm_compute. repeat split; reflexivity. Qed.
