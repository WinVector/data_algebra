(* C20 -- data spaces behave like a keyed store of tables.
   Statements about the hand models Model/DataSpace.v of DataModelSpace (m_step) and DBSpace (d_step); each
   step lemma holds from EVERY state (DBSpace: every state satisfying the invariant Dinv, which holds after
   every history), hence after every finite history of operations. *)
From Coq Require Import List Bool String.
Import ListNotations.
From DA Require Import Base.PyRT Model.DataSpace Proofs.DataSpaceP.

Section C20.
Context {T P : Type} (evalp : pydict string T -> P -> option T) (name_of : nat -> string).
Hypothesis name_of_inj : forall a b, name_of a = name_of b -> a = b.     (* f"da_temp_{n}" is injective in n *)
Notation m_step := (m_step evalp name_of).
Notation d_step := (d_step evalp name_of).

(* ---- in-memory space *)
Theorem C20_mem_failed_operation_changes_nothing : forall s o s', m_step s o = (s', OFail) -> dmap s' = dmap s.
Proof. exact (m_fail_unchanged evalp name_of). Qed.

Theorem C20_mem_insert_is_a_map_write : forall s key v ow s' k, m_step s (DInsert key v ow) = (s', OKey k) ->
  written (dmap s) (dmap s') k v /\ (key = Some k \/ (key = None /\ ~ In k (dict_keys (dmap s)))) /\
  (ow = false -> ~ In k (dict_keys (dmap s))).
Proof. exact (m_insert_ok evalp name_of name_of_inj). Qed.

Theorem C20_mem_execute_stores_result_on_current_contents : forall s p key ow s' k, m_step s (DExecute p key ow) = (s', OKey k) ->
  exists v, evalp (dmap s) p = Some v /\ written (dmap s) (dmap s') k v /\
            (key = Some k \/ (key = None /\ ~ In k (dict_keys (dmap s)))) /\ (ow = false -> ~ In k (dict_keys (dmap s))).
Proof. exact (m_execute_ok evalp name_of name_of_inj). Qed.

Theorem C20_mem_no_overwrite_when_forbidden : forall s o k, is_write o = Some (Some k, false) -> In k (dict_keys (dmap s)) ->
  snd (m_step s o) = OFail /\ dmap (fst (m_step s o)) = dmap s.
Proof. exact (m_no_overwrite_when_forbidden evalp name_of). Qed.

Theorem C20_mem_automatic_key_never_replaces : forall s o ow, is_write o = Some (None, ow) ->
  forall k0 v0, dict_get (dmap s) k0 = Some v0 -> dict_get (dmap (fst (m_step s o))) k0 = Some v0.
Proof. exact (m_auto_key_never_replaces evalp name_of name_of_inj). Qed.

Theorem C20_mem_remove : forall s k s', m_step s (DRemove k) = (s', OUnit) ->
  In k (dict_keys (dmap s)) /\ forall k2, dict_get (dmap s') k2 = if eq_dec k2 k then None else dict_get (dmap s) k2.
Proof. exact (m_remove_ok evalp name_of). Qed.

Theorem C20_mem_retrieve_and_keys_reflect_the_map : forall s,
  (forall k, m_step s (DRetrieve k) = (s, match dict_get (dmap s) k with Some v => OVal v | None => OFail end)) /\
  m_step s DKeys = (s, OKeys (dict_keys (dmap s))).
Proof. exact (m_queries evalp name_of). Qed.

Theorem C20_mem_keys_are_a_set_after_every_history : forall ops, NoDup (dict_keys (dmap (m_run evalp name_of ops))).
Proof. exact (m_keys_nodup evalp name_of). Qed.

(* ---- database-backed space *)
Theorem C20_db_invariant_after_every_history : forall ops, Dinv (d_run evalp name_of ops).
Proof. exact (d_inv_run evalp name_of). Qed.

Theorem C20_db_insert_is_a_map_write : forall s key v ow s' k, Dinv s -> d_step s (DInsert key v ow) = (s', OKey k) ->
  written (ddb s) (ddb s') k v /\ (forall k2, In k2 (ddesc s') <-> In k2 (ddesc s) \/ k2 = k) /\
  (key = Some k \/ (key = None /\ ~ In k (ddesc s))) /\ (ow = false -> ~ In k (ddesc s)).
Proof. exact (d_insert_ok evalp name_of name_of_inj). Qed.

Theorem C20_db_execute_stores_result : forall s p key ow s' k, Dinv s -> d_step s (DExecute p key ow) = (s', OKey k) ->
  exists v, evalp (dict_pop (ddb s) k) p = Some v /\ written (ddb s) (ddb s') k v /\
            (forall k2, In k2 (ddesc s') <-> In k2 (ddesc s) \/ k2 = k) /\
            (key = Some k \/ (key = None /\ ~ In k (ddesc s))) /\ (ow = false -> ~ In k (ddesc s)).
Proof. exact (d_execute_ok evalp name_of name_of_inj). Qed.

Theorem C20_db_no_overwrite_when_forbidden : forall s o k, is_write o = Some (Some k, false) -> In k (ddesc s) ->
  snd (d_step s o) = OFail /\ ddesc (fst (d_step s o)) = ddesc s /\ ddb (fst (d_step s o)) = ddb s.
Proof. exact (d_no_overwrite_when_forbidden evalp name_of). Qed.

Theorem C20_db_automatic_key_never_replaces : forall s o ow, Dinv s -> is_write o = Some (None, ow) ->
  forall k0 v0, In k0 (ddesc s) -> dict_get (ddb s) k0 = Some v0 ->
    In k0 (ddesc (fst (d_step s o))) /\ dict_get (ddb (fst (d_step s o))) k0 = Some v0.
Proof. exact (d_auto_key_never_replaces evalp name_of name_of_inj). Qed.

(* failed operations change nothing -- EXCEPT an overwriting execute on an existing key (known finding, refuted below) *)
Theorem C20_db_failed_operation_changes_nothing_partial : forall s o s', Dinv s ->
  (forall p k, o = DExecute p (Some k) true -> ~ In k (ddesc s)) ->
  d_step s o = (s', OFail) -> ddesc s' = ddesc s /\ ddb s' = ddb s.
Proof. exact (d_fail_unchanged evalp name_of name_of_inj). Qed.
End C20.

(* the full statement is false of the faithful model: witness replayed on the implementation = the known finding *)
Theorem C20_db_failed_overwriting_execute_loses_entry_refuted :
  exists (s s' : @dstate nat) (k : string),
    Dinv s /\ In k (ddesc s) /\
    d_step (fun db (p : string) => dict_get db p) (fun n => String (Ascii.ascii_of_nat n) EmptyString) s (DExecute k (Some k) true) = (s', OFail) /\
    ~ In k (ddesc s').
Proof. exact d_execute_overwrite_loses_entry_refuted. Qed.

Print Assumptions C20_mem_failed_operation_changes_nothing.
Print Assumptions C20_mem_insert_is_a_map_write.
Print Assumptions C20_mem_execute_stores_result_on_current_contents.
Print Assumptions C20_mem_no_overwrite_when_forbidden.
Print Assumptions C20_mem_automatic_key_never_replaces.
Print Assumptions C20_mem_remove.
Print Assumptions C20_mem_retrieve_and_keys_reflect_the_map.
Print Assumptions C20_mem_keys_are_a_set_after_every_history.
Print Assumptions C20_db_invariant_after_every_history.
Print Assumptions C20_db_insert_is_a_map_write.
Print Assumptions C20_db_execute_stores_result.
Print Assumptions C20_db_no_overwrite_when_forbidden.
Print Assumptions C20_db_automatic_key_never_replaces.
Print Assumptions C20_db_failed_operation_changes_nothing_partial.
Print Assumptions C20_db_failed_overwriting_execute_loses_entry_refuted.

(* non-vacuity: a concrete history with user keys that look like automatic ones *)
Example C20_history_example :
  let ev := fun (db : pydict string nat) (p : string) => dict_get db p in
  let nm := fun n => String (Ascii.ascii_of_nat (48 + n)) EmptyString in
  dict_keys (dmap (m_run ev nm [DInsert (Some "1"%string) 7 true; DInsert None 8 true; DExecute "1"%string None false])) = ["1"; "2"; "3"]%string.
Proof. vm_compute. reflexivity. Qed.
