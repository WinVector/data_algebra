(* C13 -- Expression text is parsed with Python's precedence and meaning.
   Statements about the hand models Model/PyExpr.v (expression objects, tokens), Model/ExprParse.v (lark tree shapes,
   the parser model lark_of, the transcription walk of _walk_lark_tree with the Term methods it reaches),
   Model/ExprSem.v (py_meaning: Python's meaning of a parse tree; eval: the DSL's meaning of an expression object),
   Model/ExprPrint.v (to_python), Model/ExprAst.v (ASTs with explicit parentheses, unparse, strip) and
   Model/ExprRoundtrip.v (printable, src_ok).  They are tied to /repo by correspondence on every run.

   All three parts are proved at full strength for the code as it is since 181daac:
   1. meaning (comparison chains are rejected since 1b8c7b2; before that fix 'a < b < c' was read as (a < b) < c --
      the regression witness is C13_chain_regression);
   2. precedence;
   3. "parse a text, print the result, parse again: an equal tree".  It was false in five ways, repaired by
      a6af5a7 (-0.0 printed with its parentheses), e648ab6 (overflowing float literal rejected), 3753518 (one-item
      and empty list literals) and 181daac (only names can be called; no dunder method in text); the former
      counterexamples are the regression Examples below.  The one remaining premise src_ok is about the lexer, not
      about the library: a NAME token of the source is not the text of an operator symbol. *)
From Coq Require Import List Bool String QArith .
Import ListNotations.
From DA Require Import Model.PyExpr Model.ExprPrint Model.ExprParse Model.ExprSem Model.ExprAst Model.ExprRoundtrip
  Proofs.ExprParseP4 Proofs.ExprParseP9 Proofs.ExprParseP19 Proofs.ExprParseP21.
Local Close Scope Q_scope.
Local Open Scope string_scope.
Local Open Scope list_scope.

(* ------------------------------------------------------------------ 1. meaning *)
(* for EVERY lark tree, every set of known names, every column set, every interpretation fsem of the method
   names and every operand assignment: if the walker accepts the tree and Python's reading of the tree has a
   value on the common domain, the expression object evaluates to exactly that value *)
Theorem C13_parse_meaning :
  forall (c : cfg) (dd : list string) (fsem : fsem_t) (en : env) (t : ltree) (e : expr) (v : pval),
  parse_tree c dd t = Ok e -> py_meaning fsem en t = Some v -> eval fsem en e = Some v.
Proof. exact parse_tree_meaning. Qed.
Print Assumptions C13_parse_meaning.

(* the same for the walker proper (sub-trees that are lists / dicts included) *)
Theorem C13_walk_meaning :
  forall (c : cfg) (dd : list string) (fsem : fsem_t) (en : env) (t : ltree) (e : expr) (v : pval),
  walk c dd t = Ok e -> py_meaning fsem en t = Some v -> eval fsem en e = Some v.
Proof. exact walk_meaning. Qed.
Print Assumptions C13_walk_meaning.

(* regression of 1b8c7b2: 'a < b < c' is in the grammar; with a = -3, b = -3, c = 5 Python says False, the
   left-nested object (a < b) < c that the walker used to build says True; the walker now rejects the tree *)
Example C13_chain_regression :
  lark_of chain_toks = Some chain_tree /\
  py_meaning no_fsem chain_env chain_tree = Some (PBool false) /\
  eval no_fsem chain_env chain_expr = Some (PBool true) /\
  parse_tree chain_cfg ["a"; "b"; "c"] chain_tree = Err.
Proof. exact chain_rejected. Qed.

(* ------------------------------------------------------------------ 2. precedence *)
(* for EVERY expression AST of the fragment, in EVERY parenthesisation that respects the grammar's levels
   (necessary and redundant parentheses alike): its text parses to exactly the tree of the AST -- binary operators
   fold to the left within their level, ** to the right and above a unary minus on its left, not / and / or and
   comparisons at their levels, call and attribute trailers, displays *)
Theorem C13_precedence :
  forall d : dtree, wfn d = true -> lark_of (unparse d) = Some (strip d).
Proof. exact lark_of_unparse. Qed.
Print Assumptions C13_precedence.

(* ------------------------------------------------------------------ 3. round trip *)
(* every printable expression object is read back from its own text as the SAME object *)
Theorem C13_printable_roundtrip :
  forall (c : cfg) (dd : list string) (e : expr),
  printable c dd e = true -> is_term e = true ->
  parse c dd (to_python e) = Ok e /\ is_equal e e = true.
Proof. exact printable_roundtrip_eq. Qed.
Print Assumptions C13_printable_roundtrip.

(* whatever the walker builds from the tree of a source AST is printable *)
Theorem C13_parsed_is_printable :
  forall (c : cfg) (dd : list string) (d : dtree) (e : expr),
  wfn d = true -> src_ok d = true -> walk c dd (strip d) = Ok e ->
  printable c dd e = true.
Proof. exact built_printable. Qed.
Print Assumptions C13_parsed_is_printable.

(* parse the text of ANY source AST, print the result, parse again: the same object, is_equal to the first *)
Theorem C13_print_parse_roundtrip :
  forall (c : cfg) (dd : list string) (d : dtree) (e : expr),
  wfn d = true -> src_ok d = true ->
  parse c dd (unparse d) = Ok e ->
  exists e', parse c dd (to_python e) = Ok e' /\ e' = e /\ is_equal e e' = true.
Proof. exact roundtrip_of_source_eq. Qed.
Print Assumptions C13_print_parse_roundtrip.

(* regressions: the former counterexamples of the round trip *)
(* a6af5a7: (-0.0) ** 2  was printed as  -0.0 ** 2  = -(0.0 ** 2); it is printed with its parentheses *)
Example C13_regression_negative_zero :
  wfn negzero_src = true /\ src_ok negzero_src = true /\
  parse kcfg kdd (unparse negzero_src) = Ok negzero_e /\
  to_python negzero_e = [TSym "("; TSym "-"; TFloat (Some 0%Q); TSym ")"; TSym "**"; TInt 2] /\
  parse kcfg kdd (to_python negzero_e) = Ok negzero_e.
Proof. exact negzero_regression. Qed.

(* e648ab6: 1e400 + a  became  inf + a  which does not parse; the literal is rejected *)
Example C13_regression_infinity :
  wfn inf_src = true /\ src_ok inf_src = true /\ parse kcfg kdd (unparse inf_src) = Err.
Proof. exact inf_regression. Qed.

(* 3753518: a.is_in([-1,])  was printed as  a.is_in([-1])  which did not parse;  a.is_in([True])  was parsed to the
   EMPTY list; one-item and empty list literals are read item by item *)
Example C13_regression_short_list :
  wfn short_list_src = true /\ src_ok short_list_src = true /\
  parse kcfg kdd (unparse short_list_src) = Ok short_list_e /\ parse kcfg kdd (to_python short_list_e) = Ok short_list_e /\
  wfn true_list_src = true /\ src_ok true_list_src = true /\
  parse kcfg kdd (unparse true_list_src) = Ok true_list_e /\ parse kcfg kdd (to_python true_list_e) = Ok true_list_e /\
  parse kcfg kdd (unparse empty_list_src) = Ok (EOp "is_in" false true None [ECol "a"; EList []]).
Proof. exact short_list_regression. Qed.

(* 181daac: (+p)(a, c)  was accepted as the function "+", printed  +(a, c);  a.__and__(b)  built  a & b  whose text
   the walker rejects; both texts are rejected *)
Example C13_regression_call_targets :
  wfn called_operator_src = true /\ src_ok called_operator_src = true /\
  parse kcfg kdd (unparse called_operator_src) = Err /\
  wfn dunder_src = true /\ src_ok dunder_src = true /\ parse kcfg kdd (unparse dunder_src) = Err.
Proof. exact call_target_regression. Qed.

(* ------------------------------------------------------------------ non-vacuity *)
(* the guards of every theorem above hold of   not p and -a ** 2 + b.abs() * (c - 1) < 3   with a = 3, b = -2, c = 5,
   p = False: well-formed, parsed to sample_e, printable, both meanings are True *)
Example C13_sample_guards :
  wfn sample_src = true /\ src_ok sample_src = true /\
  parse sample_cfg kdd (unparse sample_src) = Ok sample_e /\
  printable sample_cfg kdd sample_e = true /\ is_term sample_e = true /\
  py_meaning concrete_fsem sample_env (strip sample_src) = Some (PBool true) /\
  eval concrete_fsem sample_env sample_e = Some (PBool true).
Proof. exact sample_guards. Qed.

(* left association of -, right association of ** above a unary minus *)
Example C13_sample_trees :
  lark_of [TName "a"; TSym "-"; TName "b"; TSym "-"; TName "c"]
    = Some (LNode "arith_expr" [LNode "var" [LTok (TName "a")]; LTok (TSym "-"); LNode "var" [LTok (TName "b")];
                                LTok (TSym "-"); LNode "var" [LTok (TName "c")]])
  /\ lark_of [TSym "-"; TName "a"; TSym "**"; TName "b"; TSym "**"; TName "c"]
    = Some (LNode "factor" [LTok (TSym "-");
              LNode "power" [LNode "var" [LTok (TName "a")];
                             LNode "power" [LNode "var" [LTok (TName "b")]; LNode "var" [LTok (TName "c")]]]]).
Proof. exact sample_trees. Qed.
