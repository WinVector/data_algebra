(* C25 -- the evaluation result cache is transparent.
   Statements about the hand model Model/Cache.v of eval_cache.py.  The behaviour of hash_data_frame and of list.sort
   enters ONLY through the three hypotheses below, which are part of every statement (modelled, not verified). *)
From Coq Require Import List Bool String Permutation.
Import ListNotations.
From DA Require Import Base.PyRT Model.Cache Proofs.CacheP.

Section C25.
Context {F : Type} `{EqDec F} (hash : F -> string) (sort_keys : list string -> list string).
Hypothesis hash_inj : forall a b, hash a = hash b -> a = b.
Hypothesis sort_perm : forall l, Permutation (sort_keys l) l.
Hypothesis sort_canon : forall l l', Permutation l l' -> sort_keys l = sort_keys l'.

(* data maps that differ in any entry, SQL strings or dialects that differ, never share a key *)
Theorem C25_differing_inputs_never_share_a_key : forall name sql name' sql' (dm dm' : pydict string F),
  NoDup (dict_keys dm) -> NoDup (dict_keys dm') ->
  make_key hash sort_keys name sql dm = make_key hash sort_keys name' sql' dm' ->
  name = name' /\ sql = sql' /\ forall k, dict_get dm k = dict_get dm' k.
Proof. exact (key_injective hash sort_keys hash_inj sort_perm). Qed.

(* equal data maps get the same key whatever their insertion order *)
Theorem C25_equal_inputs_share_the_key : forall name sql (dm dm' : pydict string F),
  NoDup (dict_keys dm) -> NoDup (dict_keys dm') ->
  (forall k, dict_get dm k = dict_get dm' k) -> make_key hash sort_keys name sql dm = make_key hash sort_keys name sql dm'.
Proof. exact (key_deterministic hash sort_keys sort_canon). Qed.

(* for EVERY history in which the caller mutates only frames it holds, the cache of private copies produces, operation by
   operation, the outputs of a plain map from keys to frame values: mutating a returned copy (or the frame that was stored)
   never changes the cache *)
Theorem C25_cache_behaves_like_a_map_of_values : forall ops : list cop,
  well_behaved hash sort_keys c_init [] ops = true ->
  run_c hash sort_keys c_init ops = run_a hash sort_keys a_init ops.
Proof. exact (cache_refines_value_map hash sort_keys). Qed.

(* in that map: a lookup succeeds exactly when an entry with an equal key exists, and yields a fresh cell holding its value *)
Theorem C25_lookup_returns_copy_of_stored_value : forall (s : astate) name sql dm m,
  resolve (aheap s) dm = Some m ->
  snd (a_step hash sort_keys s (CGet name sql dm)) =
    match dict_get (acache s) (make_key hash sort_keys name sql m) with Some r => RLoc (List.length (aheap s)) | None => RKeyError end
  /\ (forall r, dict_get (acache s) (make_key hash sort_keys name sql m) = Some r ->
        nth_error (aheap (fst (a_step hash sort_keys s (CGet name sql dm)))) (List.length (aheap s)) = Some r).
Proof. exact (a_get_spec hash sort_keys). Qed.

Theorem C25_store_sets_exactly_one_entry : forall (s : astate) name sql dm res m r,
  resolve (aheap s) dm = Some m -> nth_error (aheap s) res = Some r ->
  dict_get (acache (fst (a_step hash sort_keys s (CStore name sql dm res)))) (make_key hash sort_keys name sql m) = Some r /\
  forall k, k <> make_key hash sort_keys name sql m -> dict_get (acache (fst (a_step hash sort_keys s (CStore name sql dm res)))) k = dict_get (acache s) k.
Proof. exact (a_store_spec hash sort_keys). Qed.

Theorem C25_only_store_changes_the_cache : forall (s : astate) o,
  (forall name sql dm res, o <> CStore name sql dm res) -> acache (fst (a_step hash sort_keys s o)) = acache s.
Proof. exact (a_cache_only_changed_by_store hash sort_keys). Qed.
End C25.

Print Assumptions C25_differing_inputs_never_share_a_key.
Print Assumptions C25_equal_inputs_share_the_key.
Print Assumptions C25_cache_behaves_like_a_map_of_values.
Print Assumptions C25_lookup_returns_copy_of_stored_value.
Print Assumptions C25_store_sets_exactly_one_entry.
Print Assumptions C25_only_store_changes_the_cache.

(* non-vacuity: a well-behaved history where the caller mutates both the stored frame and the returned copy *)
Example C25_history_example :
  let ops := [CNew 5; CNew 9; CStore "S" "q" [("a"%string, 0)] 1; CMutate 1 7; CGet "S" "q" [("a"%string, 0)]; CMutate 3 8;
              CGet "S" "q" [("a"%string, 0)]; CRead 4] in
  well_behaved (fun n : nat => String (Ascii.ascii_of_nat n) EmptyString) (fun l => l) c_init [] ops = true /\
  last (run_c (fun n : nat => String (Ascii.ascii_of_nat n) EmptyString) (fun l => l) c_init ops) RBad = RVal 9.
Proof. vm_compute. split; reflexivity. Qed.
