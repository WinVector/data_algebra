(* C10 -- Columns not reported as used never influence a pipeline's result.
   "For every pipeline, changing the values of input columns that columns_used() does not report for that table leaves
    the result unchanged.  If the pipeline's table descriptions are narrowed to the reported columns, it evaluates to
    the same result on inputs restricted to those columns."

   Statements about Model/ColumnsUsed.v (hand transcription of every columns_used_from_sources, of
   columns_used_implementation_ / columns_used with its records keyed by node identity, and of the builders' column
   checks; tied to view_representations.py by correspondence on every run) and the reference semantics Model/Sem.v,
   for EVERY pipeline term, EVERY backend flavour and EVERY environment.

   FIRST SENTENCE: proved at full strength (C10_columns_used_sound, also for shared node objects).
   SECOND SENTENCE: in the reference semantics the narrowed pipeline always computes the same table
   (C10_narrowed_pipeline_same_meaning) -- but the REBUILD of the narrowed pipeline is rejected by the builders as soon
   as a step names a column that is not reported (C10_narrowing_rebuild_refuted: the real code raises KeyError /
   ValueError; known finding C10-narrow-rebuild).  C10_narrowing_sound is the statement guarded by "the builders
   accept the narrowed rebuild". *)
From Coq Require Import List Bool QArith String .
Import ListNotations.
From DA Require Import Base.PyRT Base.Val Model.Sem Model.ColumnsUsed
  Proofs.ColumnsUsedP2 Proofs.ColumnsUsedP4 Proofs.ColumnsUsedP5.
Local Open Scope string_scope.
Local Open Scope list_scope.

(* Per-node pruning (the lemma SQL generation relies on as well: sql_model.py prunes every sub-query with
   columns_used_from_sources).  A node n accepted by the builders is asked for columns u' of its own.  Replace its
   sources by ANY other pipelines and run them on ANY other inputs: if source i and its replacement agree on
   cols_from_sources n u' [i] (`agree`: no column the original lacks, every requested column present, as many rows,
   the same cells row by row; both undefined counts as agreeing), then n and the rebuilt node agree on u'. *)
Theorem C10_node_pruning_sound :
  forall fl (e e' : env) (n : op) (srcs' : list op) (u' : list string),
  builder_ok n = true -> incl u' (column_names n) ->
  match sources n, srcs' with
  | [s], [s'] => out_agree (cfs1 n u') (sem_gen fl s e) (sem_gen fl s' e')
  | [a; b], [a'; b'] => out_agree (cfs1 n u') (sem_gen fl a e) (sem_gen fl a' e') /\
                        out_agree (cfs2 n u') (sem_gen fl b e) (sem_gen fl b' e')
  | _, _ => False
  end ->
  out_agree u' (sem_gen fl n e) (sem_gen fl (with_sources n srcs') e').
Proof. exact node_step. Qed.
Print Assumptions C10_node_pruning_sound.

(* FIRST SENTENCE.  p: any pipeline the builders accept; ids: the identity of the node objects along its tree
   unfolding (shared objects repeat an id; `ids_ok`: one id, one column list); cu = columns_used().  Two
   environments whose tables have, per table, as many rows in the same order and equal cells in the REPORTED columns
   (everything else -- other columns' values, even which other columns exist -- is arbitrary) give the same result,
   cell for cell, in the same row and column order; and the pipeline is defined on one iff on the other. *)
Theorem C10_columns_used_sound :
  forall fl (p : op) (ids : idt) (cn : nat -> list string) (cu : list (string * list string)) (env env' : env),
  builder_ok p = true -> ids_ok cn p ids -> columns_used p ids = Some cu ->
  (forall name, match dict_get env name, dict_get env' name with
                | Some t, Some t' => input_agree (rec_of cu name) t t'
                | None, None => True
                | _, _ => False
                end) ->
  sem_gen fl p env = sem_gen fl p env'.
Proof. exact cu_sound. Qed.
Print Assumptions C10_columns_used_sound.

(* the same for columns_used(using=u): the result RESTRICTED to u is blind to unreported columns *)
Theorem C10_columns_used_using_sound :
  forall fl (p : op) (ids : idt) (cn : nat -> list string) (u : list string) (cu : list (string * list string)) (env env' : env),
  builder_ok p = true -> ids_ok cn p ids -> columns_used_using p ids (Some u) = Some cu ->
  env_agree (rec_of cu) env env' ->
  out_agree u (sem_gen fl p env) (sem_gen fl p env').
Proof. exact cu_using_sound. Qed.
Print Assumptions C10_columns_used_using_sound.

(* tree-shaped pipelines (no node object shared) need no ids *)
Theorem C10_columns_used_tree_sound :
  forall fl (p : op) (cu : list (string * list string)) (env env' : env),
  builder_ok p = true -> columns_used_tree p = Some cu -> env_agree (rec_of cu) env env' ->
  sem_gen fl p env = sem_gen fl p env'.
Proof. exact cu_tree_sound. Qed.
Print Assumptions C10_columns_used_tree_sound.

(* SECOND SENTENCE, meaning.  narrow_to cu p = p with every table description cut down to the reported columns (original
   order); restrict_env cu env = every input cut down to its reported columns.  In the reference semantics the narrowed
   pipeline is defined iff the original is, and computes the same table (`table_equiv`): same column set, as many rows,
   and row by row the same cell under every column name (the column ORDER may differ: an extend that overwrites an
   unreported column appends it instead). *)
Theorem C10_narrowed_pipeline_same_meaning :
  forall fl (p : op) (ids : idt) (cn : nat -> list string) (cu : list (string * list string)) (env : env),
  builder_ok p = true -> ids_ok cn p ids -> columns_used p ids = Some cu ->
  out_equiv (sem_gen fl p env) (sem_gen fl (narrow_to cu p) (restrict_env cu env)).
Proof. exact cu_narrow_meaning. Qed.
Print Assumptions C10_narrowed_pipeline_same_meaning.

(* SECOND SENTENCE as stated, guarded by "the builders accept the narrowed rebuild" (the guard of known finding
   C10-narrow-rebuild): then both results have duplicate-free column lists that are permutations of each other. *)
Theorem C10_narrowing_sound :
  forall fl (p : op) (ids : idt) (cn : nat -> list string) (cu : list (string * list string)) (env : env),
  builder_ok p = true -> ids_ok cn p ids -> columns_used p ids = Some cu ->
  builder_ok (narrow_to cu p) = true ->
  out_same (sem_gen fl p env) (sem_gen fl (narrow_to cu p) (restrict_env cu env)).
Proof. exact cu_narrow_sound. Qed.
Print Assumptions C10_narrowing_sound.

(* ... and the guard can fail: t[x,y,z].drop_columns([y]).extend({w: x + 1}).select_columns([w]) reports {t: {x}}; the
   narrowed table description [x] makes drop_columns([y]) raise "dropping unknown columns".  (Replayed against the real
   code on every run; DESIGN section 10 item 27.) *)
Theorem C10_narrowing_rebuild_refuted :
  exists (p : op) (ids : idt) (cu : list (string * list string)),
    builder_ok p = true /\ ids_ok (cn_of p ids) p ids /\ columns_used p ids = Some cu /\ cu = [("t", ["x"])] /\
    builder_ok (narrow_to cu p) = false.
Proof. exact narrow_rebuild_refuted. Qed.
Print Assumptions C10_narrowing_rebuild_refuted.

(* ------------------------------------------------------------------ the hypotheses are satisfiable *)
(* a join of two consumers of ONE shared extend node X = t.extend({w: c + 1}):
     X.select_columns([a, w]).natural_join(X.select_columns([a, b]), on a) *)
Definition ex_t := OTable "t" ["a"; "b"; "c"; "d"].
Definition ex_X := OExtend ex_t [("w", EOp "+" [ECol "c"; EConst (VNum 1)])] false (mkwin [] [] []).
Definition ex_join := OJoin (OSelectCols ex_X ["a"; "w"]) (OSelectCols ex_X ["a"; "b"]) ["a"] ["a"] JInner.
Definition ex_ids_shared := IdT 0 [IdT 1 [IdT 7 [IdT 9 []]]; IdT 2 [IdT 7 [IdT 9 []]]].     (* X is one object: id 7 twice *)
Definition ex_ids_apart  := IdT 0 [IdT 1 [IdT 7 [IdT 9 []]]; IdT 2 [IdT 8 [IdT 9 []]]].     (* two equal but distinct objects *)

Example C10_guards_satisfiable :
  builder_ok ex_join = true /\ ids_ok (cn_of ex_join ex_ids_shared) ex_join ex_ids_shared /\
  columns_used ex_join ex_ids_shared = Some [("t", ["a"; "c"; "b"])] /\
  builder_ok (narrow_to [("t", ["a"; "c"; "b"])] ex_join) = true.
Proof. split; [vm_compute; reflexivity|]. split; [apply ids_okb_ok; vm_compute; reflexivity|]. split; vm_compute; reflexivity. Qed.
(* node identity matters: with two distinct objects the second one is asked for {a, b} only, none of its assignments is
   requested, and ExtendNode then reports every source column *)
Example C10_identity_matters :
  columns_used ex_join ex_ids_apart = Some [("t", ["a"; "c"; "b"; "d"])] /\ columns_used_tree ex_join = Some [("t", ["a"; "c"; "b"; "d"])].
Proof. split; vm_compute; reflexivity. Qed.
(* a concrete perturbation the theorem covers: everything but column x differs, even the column lists *)
Example C10_input_agree_example :
  input_agree ["x"] (mktable ["x"; "y"] [[VNum 1; VNum 2]; [VNum 3; VNull]]) (mktable ["y"; "x"; "q"] [[VStr "n"; VNum 1; VNull]; [VNum 7; VNum 3; VNum 0]]).
Proof. repeat constructor; intros c [<-|[]]; reflexivity. Qed.
