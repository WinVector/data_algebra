(* C02 -- PostgreSQL SQL computes the same table as the Pandas executor.   PARTIAL CLAIM.

   Model.  As for C01 (Model/Sem.v, Model/SemStrict.v): Pandas evaluation is `sem_gen fl_pandas p e`, the PostgreSQL-dialect SQL
   run on a PostgreSQL server is `sem_gen fl_postgres p e`.  fl_postgres differs from fl_sqlite in the placement of nulls in
   orderings only (NULLS LAST ascending -- like Pandas -- and NULLS FIRST descending -- unlike Pandas and SQLite).

   What is PARTIAL.  There is no PostgreSQL server in the sandbox.  The PostgreSQL-dialect text (native RIGHT / FULL joins,
   WITH, CTE elimination: translation paths the SQLite dialect never takes) IS executed on every run of the check -- on
   SQLite 3.40.1, which accepts that text -- and compared there with `sem_gen fl_sqlite` (the engine is SQLite) and with the
   Pandas result.  The conventions of a real PostgreSQL server that SQLite cannot reproduce (NULL ordering, NULLIF numeric
   division, BIGINT casts, PostgreSQL's own functions) rest on the written flavour `fl_postgres` alone: they are NOT tied to
   an implementation here.

   PROVED (unbounded): the agreement theorem of C01 instantiated at fl_postgres -- on every pipeline and input on which no
   convention case is reached, the PostgreSQL model and the Pandas model return the same table; refuted: the full statement
   (a descending order_rows with limit over a key containing a null). *)
From Coq Require Import List Bool String Permutation.
Import ListNotations.
From DA Require Import Base.PyRT Base.Val Model.Sem Model.SemStrict Proofs.AgreeP1 Proofs.AgreeP2 Proofs.AgreeP3 Proofs.AgreeP4.

Theorem C02_postgres_agrees_with_pandas_on_insensitive_inputs_partial :
  forall (p : op) (e : env) (t : table), sem_strict p e = Some t ->
  exists t', sem_gen fl_postgres p e = Some t' /\ cols t' = cols t /\ Permutation (rows t') (rows t).
Proof. exact (fun p e t H => sem_strict_same_columns_and_rows p e t H fl_postgres). Qed.
Print Assumptions C02_postgres_agrees_with_pandas_on_insensitive_inputs_partial.

Theorem C02_same_row_order_after_final_order_rows_partial :
  forall (s : op) (cs rev : list string) (lim : option nat) (e : env) (t : table),
  sem_strict (OOrder s cs rev lim) e = Some t ->
  exists t', sem_gen fl_postgres (OOrder s cs rev lim) e = Some t' /\ cols t' = cols t /\ rows t' = rows t.
Proof. exact (fun s cs rev lim e t H => sem_strict_final_order s cs rev lim e t H fl_postgres). Qed.
Print Assumptions C02_same_row_order_after_final_order_rows_partial.

(* Pandas, PostgreSQL and the engine that actually executes the PostgreSQL text here (SQLite) all coincide on such inputs *)
Theorem C02_pandas_postgres_and_executing_engine_agree_partial :
  forall (p : op) (e : env), insensitive p e = true ->
  sem_gen fl_postgres p e = sem_gen fl_pandas p e /\ sem_gen fl_sqlite p e = sem_gen fl_pandas p e.
Proof.
  exact (fun p e H => conj (agree_core fl_pandas p e (is_nil_true _ H) fl_postgres) (agree_core fl_pandas p e (is_nil_true _ H) fl_sqlite)).
Qed.
Print Assumptions C02_pandas_postgres_and_executing_engine_agree_partial.

Theorem C02_same_multiset_above_unlimited_order_rows_partial :
  forall (p : op) (e : env) (t : table), insensitive_bag p e = true -> sem_gen fl_pandas p e = Some t ->
  exists t', sem_gen fl_postgres p e = Some t' /\ cols t' = cols t /\ Permutation (rows t') (rows t).
Proof. exact (fun p e t H E => insensitive_bag_same_columns_and_rows p e t H E fl_postgres). Qed.
Print Assumptions C02_same_multiset_above_unlimited_order_rows_partial.

(* the full statement is false for the written PostgreSQL conventions: descending order, null key, limit *)
Theorem C02_descending_null_sort_key_with_limit_refuted : differ_with_causes fl_postgres [8]%nat.
Proof. exact w_sort_desc_pg_refuted. Qed.
Print Assumptions C02_descending_null_sort_key_with_limit_refuted.

(* what fl_postgres changes with respect to the engine that runs its text here: ascending order with a null key and a limit --
   PostgreSQL agrees with Pandas (no convention of PostgreSQL matters), SQLite does not; descending -- the other way round *)
Example C02_ascending_nulls_last_like_pandas : verdict fl_postgres w_sort_asc = ([8]%nat, []%nat, true).
Proof. exact w_sort_asc_pg. Qed.
Example C02_ascending_sqlite_differs : verdict fl_sqlite w_sort_asc = ([8]%nat, [7]%nat, false).
Proof. exact w_sort_asc_ok. Qed.
Example C02_descending_nulls_first_unlike_pandas : verdict fl_postgres w_sort_desc = ([8]%nat, [8]%nat, false).
Proof. exact w_sort_desc_pg. Qed.
Example C02_descending_sqlite_agrees : verdict fl_sqlite w_sort_desc = ([8]%nat, []%nat, true).
Proof. exact w_sort_desc_sqlite. Qed.
(* non-vacuity of the guarded theorems: the instance of Props/C01.v *)
Example C02_insensitive_example : insensitive nv_pipeline nv_env = true.
Proof. exact nv_insensitive. Qed.
