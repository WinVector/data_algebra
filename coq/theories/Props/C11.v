(* C11 -- Pipelines that compare equal behave identically.
   "Whenever two pipelines compare equal with ==, they produce the same result on every input and the same SQL in every
    dialect.  Pipeline equality is reflexive and symmetric."

   Statements about the hand model Model/Equiv.v (tied to view_representations.py / expr_rep.py / cdata.py by the
   correspondence run of harness/props/C11.py).  `pipeline_eqb` is `==` of the code AS IT IS NOW (after the commits
   a4bd890, 23068d3, 21fc6b8, c0b2f31, 5631bb4 that repaired the seven defects this check found).  `core` erases the three
   stored fields that neither executors nor SQL generation read (Expression.method, the boxing of list-literal elements,
   RecordMap.strict); `to_sem` is the forgetful map into the reference semantics Model/Sem.v (convert_records and is_in
   lists have no image there: for them "same result / same SQL" is covered by C11_eq_same_fields / C11_eq_any_reader).

   FULL STATEMENT, unguarded (wfb = assignment dicts and rename maps have unique keys, which Python dicts guarantee):
     C11_eq_reflexive, C11_eq_symmetric,
     C11_eq_same_fields    -- equal pipelines agree on EVERY field executors and SQL generators read, hence
     C11_eq_any_reader     -- ANY function of those fields (a result on any input, SQL text for any dialect) gives the same,
     C11_eq_sound_result   -- equal pipelines denote the same table in the reference semantics, every flavour, every input.
   The second block holds for every combination of the six historical switches (a switch that is on = one of the repaired
   comparisons forgotten again), with exactly the guards that such a regression would need; the third block records the
   witnesses of the repaired defects: false for the code before the commits (q_unchanged), told apart by the code now. *)
From Coq Require Import List Bool QArith String.
Import ListNotations.
From DA Require Import Base.PyRT Base.Val Model.Sem Model.Equiv
  Proofs.EquivP1 Proofs.EquivP2 Proofs.EquivP4 Proofs.EquivP5 Proofs.EquivP6.
Local Open Scope string_scope.
Local Open Scope list_scope.

(* ================================================================== 1. the code as it is now *)
Theorem C11_eq_reflexive : forall a, pipeline_eqb a a = true.
Proof. exact pipeline_eqb_refl. Qed.
Print Assumptions C11_eq_reflexive.

Theorem C11_eq_symmetric : forall a b, pipeline_eqb a b = pipeline_eqb b a.
Proof. exact pipeline_eqb_sym. Qed.
Print Assumptions C11_eq_symmetric.

(* pipelines that compare equal agree on every field read by executors and SQL generators *)
Theorem C11_eq_same_fields : forall a b, wfb a = true -> pipeline_eqb a b = true -> core a = core b.
Proof. exact pipeline_same_core. Qed.
Print Assumptions C11_eq_same_fields.

(* ... hence anything computed from those fields -- a result on any input, SQL text for any dialect -- is the same *)
Theorem C11_eq_any_reader : forall a b (X : Type) (f : eop -> X), (forall x y, core x = core y -> f x = f y) ->
  wfb a = true -> pipeline_eqb a b = true -> f a = f b.
Proof. exact pipeline_any_reader. Qed.
Print Assumptions C11_eq_any_reader.

(* the erased fields are invisible to the reference semantics *)
Theorem C11_core_keeps_meaning : forall a, to_sem (core a) = to_sem a.
Proof. exact to_sem_core. Qed.
Print Assumptions C11_core_keeps_meaning.

(* pipelines that compare equal denote the same table, for every backend flavour and every environment *)
Theorem C11_eq_sound_result : forall a b sa sb,
  wfb a = true -> wfb b = true -> pipeline_eqb a b = true -> to_sem a = Some sa -> to_sem b = Some sb ->
  forall fl env, sem_gen fl sa env = sem_gen fl sb env.
Proof. exact pipeline_sound. Qed.
Print Assumptions C11_eq_sound_result.

(* ================================================================== 2. every combination of the historical switches *)
Theorem C11_eq_symmetric_all_variants : forall q a b, eop_eqb q a b = eop_eqb q b a.
Proof. exact eop_eqb_sym. Qed.
Print Assumptions C11_eq_symmetric_all_variants.

(* reflexive on every tree without a nan constant (nan <> nan matters only to the unrepaired constant / list comparisons) *)
Theorem C11_eq_reflexive_all_variants : forall q a, (nan_matters q = true -> nan_free a = true) -> eop_eqb q a a = true.
Proof. exact eop_eqb_refl. Qed.
Print Assumptions C11_eq_reflexive_all_variants.

(* same fields, when the fields a variant forgets agree (`agree q` lists them: table columns and qualifiers, the order of
   the assignments and of the rename-map entries, the type of constants, the items of parsed list literals, blocks_out of
   an unpivot); `agree q_fixed` is constantly true *)
Theorem C11_eq_same_fields_all_variants : forall q a b,
  wfb a = true -> eop_eqb q a b = true -> agree q a b = true -> core a = core b.
Proof. exact eop_same_core. Qed.
Print Assumptions C11_eq_same_fields_all_variants.

(* same result, provided same-named tables list the same columns and no constant pair conflates a bool with a number
   (`ragree q`; constantly true for q_fixed).  The ORDER of the assignments of an extend and of the entries of a rename map
   is not needed: comparing them as unordered mappings, together with column_names, already forces equal results. *)
Theorem C11_eq_sound_result_all_variants : forall q a b sa sb,
  wfb a = true -> wfb b = true -> eop_eqb q a b = true -> ragree q a b = true ->
  to_sem a = Some sa -> to_sem b = Some sb -> forall fl env, sem_gen fl sa env = sem_gen fl sb env.
Proof. exact eop_sound. Qed.
Print Assumptions C11_eq_sound_result_all_variants.

(* ================================================================== 3. the repaired defects *)
(* the code as it is now tells every witness pair apart (and the nan pipeline equals itself) *)
Theorem C11_repaired_witnesses_distinguished :
  pipeline_eqb w_table_a w_table_b = false /\ pipeline_eqb w_order_a w_order_b = false /\ pipeline_eqb w_const_a w_const_b = false /\
  pipeline_eqb w_const_a w_float_b = false /\ pipeline_eqb w_nan w_nan = true /\ pipeline_eqb w_list_a w_list_b = false /\
  pipeline_eqb w_recmap_a w_recmap_b = false /\ pipeline_eqb w_rename_a w_rename_b = false.
Proof. exact repaired_witnesses_distinguished. Qed.
Print Assumptions C11_repaired_witnesses_distinguished.

(* before the commits (q_unchanged) each statement of block 1 was false: *)
(* 5631bb4: same name, different columns -- equal, different tables *)
Theorem C11_history_table_columns :
  exists a b sa sb fl env, wfb a = true /\ wfb b = true /\ eop_eqb q_unchanged a b = true /\
    to_sem a = Some sa /\ to_sem b = Some sb /\ sem_gen fl sa env <> sem_gen fl sb env /\ eop_eqb q_fixed a b = false.
Proof. exact refuted_table_columns. Qed.
Print Assumptions C11_history_table_columns.
(* 23068d3: same assignments in another order -- equal, same meaning, different SELECT list *)
Theorem C11_history_assignment_order :
  exists a b, wfb a = true /\ wfb b = true /\ eop_eqb q_unchanged a b = true /\ ext_keys a <> ext_keys b /\ core a <> core b /\
    (forall sa sb, to_sem a = Some sa -> to_sem b = Some sb -> forall fl env, sem_gen fl sa env = sem_gen fl sb env) /\
    eop_eqb q_fixed a b = false.
Proof. exact refuted_assignment_order. Qed.
Print Assumptions C11_history_assignment_order.
(* c0b2f31: same rename map in another entry order *)
Theorem C11_history_rename_map_order :
  exists a b, wfb a = true /\ wfb b = true /\ eop_eqb q_unchanged a b = true /\ rename_entries a <> rename_entries b /\ core a <> core b /\
    (forall sa sb, to_sem a = Some sa -> to_sem b = Some sb -> forall fl env, sem_gen fl sa env = sem_gen fl sb env) /\
    eop_eqb q_fixed a b = false.
Proof. exact refuted_rename_map_order. Qed.
Print Assumptions C11_history_rename_map_order.
(* a4bd890: 1 = True -- equal, different tables; 1 = 1.0 -- equal, different SQL; nan <> nan; list items ignored *)
Theorem C11_history_constant_type :
  exists a b sa sb fl env, wfb a = true /\ wfb b = true /\ eop_eqb q_unchanged a b = true /\ core a <> core b /\
    to_sem a = Some sa /\ to_sem b = Some sb /\ sem_gen fl sa env <> sem_gen fl sb env /\ eop_eqb q_fixed a b = false.
Proof. exact refuted_constant_type. Qed.
Print Assumptions C11_history_constant_type.
Theorem C11_history_constant_int_float :
  exists a b, wfb a = true /\ wfb b = true /\ eop_eqb q_unchanged a b = true /\ core a <> core b /\ eop_eqb q_fixed a b = false.
Proof. exact refuted_constant_int_float. Qed.
Print Assumptions C11_history_constant_int_float.
Theorem C11_history_nan_not_reflexive : exists a, wfb a = true /\ eop_eqb q_unchanged a a = false /\ eop_eqb q_fixed a a = true.
Proof. exact refuted_reflexive. Qed.
Print Assumptions C11_history_nan_not_reflexive.
Theorem C11_history_list_items :
  exists a b, wfb a = true /\ wfb b = true /\ eop_eqb q_unchanged a b = true /\ core a <> core b /\ eop_eqb q_fixed a b = false.
Proof. exact refuted_list_items. Qed.
Print Assumptions C11_history_list_items.
(* 21fc6b8: two different unpivot layouts *)
Theorem C11_history_recmap_blocks_out :
  exists a b, wfb a = true /\ wfb b = true /\ eop_eqb q_unchanged a b = true /\ core a <> core b /\ eop_eqb q_fixed a b = false.
Proof. exact refuted_recmap_blocks_out. Qed.
Print Assumptions C11_history_recmap_blocks_out.

(* ================================================================== non-vacuity *)
(* two pipelines that are not syntactically equal (method flag, boxing of the list literal, RecordMap.strict differ) and
   satisfy every hypothesis of the theorems of block 1 *)
Definition ex_left := ESelectRows (ETable "d" ["k"; "a"; "b"] []) (POp "is_in" false true [PCol "a"; PList true [KInt 1; KInt 2]]).
Definition ex_left' := ESelectRows (ETable "d" ["k"; "a"; "b"] []) (POp "is_in" false false [PCol "a"; PList false [KInt 1; KInt 2]]).
Definition ex_a := EExtend (EJoin ex_left (ETable "e" ["k"; "c"] []) ["k"] ["k"] "LEFT")
                     [("a", POp "+" true false [PCol "b"; PVal (KFloat 1)]); ("x", POp "*" true false [PCol "c"; PVal (KInt 2)])] [] [] [] false.
Definition ex_b := EExtend (EJoin ex_left' (ETable "e" ["k"; "c"] []) ["k"] ["k"] "LEFT")
                     [("a", POp "+" true true [PCol "b"; PVal (KFloat 1)]); ("x", POp "*" true false [PCol "c"; PVal (KInt 2)])] [] [] [] false.
Example C11_same_fields_hypotheses_satisfiable :
  wfb ex_a = true /\ wfb ex_b = true /\ pipeline_eqb ex_a ex_b = true /\ ex_a <> ex_b /\ core ex_a = core ex_b.
Proof. repeat split; try reflexivity. intros H; vm_compute in H; discriminate. Qed.
(* ... and of the result theorem (no list literal, so both have an image in the reference semantics) *)
Definition ex_c := EExtend (EJoin (ETable "d" ["k"; "a"; "b"] []) (ETable "e" ["k"; "c"] []) ["k"] ["k"] "LEFT")
                     [("a", POp "+" true false [PCol "b"; PVal (KFloat 1)]); ("x", POp "abs" false true [PCol "c"])] [] [] [] false.
Definition ex_d := EExtend (EJoin (ETable "d" ["k"; "a"; "b"] []) (ETable "e" ["k"; "c"] []) ["k"] ["k"] "LEFT")
                     [("a", POp "+" true true [PCol "b"; PVal (KFloat 1)]); ("x", POp "abs" false false [PCol "c"])] [] [] [] false.
Example C11_result_hypotheses_satisfiable :
  wfb ex_c = true /\ wfb ex_d = true /\ pipeline_eqb ex_c ex_d = true /\ ex_c <> ex_d /\
  (exists sa sb, to_sem ex_c = Some sa /\ to_sem ex_d = Some sb).
Proof. repeat split; try reflexivity; [intros H; vm_compute in H; discriminate | eexists; eexists; split; reflexivity]. Qed.
(* the guards of block 2 are satisfiable under the switches of the old code by a pair that differs in the assignment order *)
Definition ex_e := EExtend (ETable "d" ["a"; "b"; "c"] []) [("a", POp "+" true false [PCol "b"; PVal (KInt 1)]); ("c", PCol "b")] [] [] [] false.
Definition ex_f := EExtend (ETable "d" ["a"; "b"; "c"] []) [("c", PCol "b"); ("a", POp "+" true false [PCol "b"; PVal (KInt 1)])] [] [] [] false.
Example C11_all_variants_guards_satisfiable :
  wfb ex_e = true /\ wfb ex_f = true /\ eop_eqb q_unchanged ex_e ex_f = true /\ ragree q_unchanged ex_e ex_f = true /\ ex_e <> ex_f /\
  nan_free ex_e = true /\ (exists sa sb, to_sem ex_e = Some sa /\ to_sem ex_f = Some sb).
Proof. repeat split; try reflexivity; [intros H; vm_compute in H; discriminate | eexists; eexists; split; reflexivity]. Qed.
