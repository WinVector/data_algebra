(* C12 -- Printed pipelines rebuild to equal pipelines with identical results.
   "For every pipeline, evaluating the Python source printed by to_python() or repr(), plain or black-formatted, rebuilds a
    pipeline that compares equal to the original and gives the same result on every input.  Pickling and unpickling does the
    same.  Pipelines are therefore shareable as text."

   Statements about the hand models Model/PipePrintStr.v (str.__repr__, the value of a Python string literal, the text of
   Expression.to_python, the lark lexer on that text), Model/PipePrintSyn.v (tokens / syntax / parser of the Python subset
   the printers emit) and Model/PipePrint.v (print_op = to_python_src_ of every node class with RecordMap /
   RecordSpecification repr; rebuild = what eval_da_ops computes, including every builder step that decides which tree
   comes out), on top of C13 (Model/ExprPrint.v, ExprParse.v) and C11 (Model/Equiv.v); all tied to /repo by the
   correspondence run of harness/props/C12.py.

   The environment E : penv holds what is read from the running library / from Python: the names the expression walker
   knows, the function names that imply a windowed extend, repr(float) / float(text) (NOT modelled: the theorems assume,
   for the float constants of the pipeline only, float_lex_ok = "repr(x) is one FLOAT_NUMBER literal that float() reads
   back as x"), and which code points above 127 str.isprintable rejects (the theorems hold for EVERY such predicate).

   FULL STATEMENT "for every pipeline" is FALSE for the code as it is: C12_print_rebuild_refuted_* below.  The guarded
   versions are the theorems named ..._partial; what is missing from the full statement is exactly the content of the guards:
   they are proved for pipelines in builder-normal form (`normal`: every tree the builder API produces -- no skipped order_rows, no
   mergeable extends, no select_columns over select / drop; flags as the constructors compute them) whose expressions are
   printable in C13's sense (what the parser builds; no infinite constant) and lexable (column / method names are ASCII identifiers that are not keywords).
   black (assumed to change layout, quotes and trailing commas only -- the model's parser reads that token stream too, and the
   harness compares) and pickle are outside the model. *)
From Coq Require Import List Bool String QArith .
Import ListNotations.
From DA Require Import Base.PyRT Base.Val Model.Sem Model.Equiv.
From DA Require Import Model.PyExpr Model.ExprPrint Model.ExprParse Model.ExprRoundtrip Model.PipePrintStr Model.PipePrintSyn Model.PipePrint.
From DA Require Import Proofs.PipePrintP1 Proofs.PipePrintP3 Proofs.PipePrintP4 Proofs.PipePrintP7 Proofs.PipePrintP8 Proofs.PipePrintP9.
Local Close Scope Q_scope.
Local Open Scope string_scope.
Local Open Scope list_scope.

(* ================================================================== 1. the string-literal layer *)
(* for EVERY string (quotes, backslashes, control characters, any bytes) and every printability predicate: the literal that
   str.__repr__ writes evaluates back to the string *)
Theorem C12_string_literal_roundtrip : forall (np : N -> bool) (s : string), py_unquote (py_repr np s) = Some s.
Proof. exact py_unquote_repr. Qed.
Print Assumptions C12_string_literal_roundtrip.

(* the text of an expression lexes to exactly the tokens of C13's printer *)
Theorem C12_expression_text_lexes : forall (F : ffmt) (np : N -> bool) (e : expr),
  lexable e = true -> (forall m, In m (floats_of e) -> float_lex_ok F m) ->
  lexg F (expr_text F np e) = Some (to_python e).
Proof. exact lexg_expr_text. Qed.
Print Assumptions C12_expression_text_lexes.

(* ================================================================== 2. expressions *)
(* C13's round trip lifted through the string-literal layer: print the expression, quote the text as pipelines do, let
   Python evaluate the literal, lex and parse it in the context of the columns: the SAME expression object (hence is_equal) *)
Theorem C12_print_rebuild_expr_partial : forall (F : ffmt) (np : N -> bool) (c : cfg) (dd : list string) (e : expr),
  printable c dd e = true -> is_term e = true -> lexable e = true -> (forall m, In m (floats_of e) -> float_lex_ok F m) ->
  exists text, py_unquote (py_repr np (expr_text F np e)) = Some text /\ text = expr_text F np e
               /\ parse_text F c dd text = Ok e.
Proof. exact print_rebuild_expr. Qed.
Print Assumptions C12_print_rebuild_expr_partial.

(* ================================================================== 3. the Python subset of printed pipelines *)
(* the parser inverts the layout of every well-formed syntax tree *)
Theorem C12_parse_flatten : forall s : syn, wf_syn s = true -> parse_py (flatten s) = Some s.
Proof. exact parse_flatten. Qed.
Print Assumptions C12_parse_flatten.

(* ================================================================== 4. pipelines *)
(* printing a normal pipeline and evaluating the text gives a pipeline that == the original (it is the same tree) *)
Theorem C12_print_rebuild_op_partial : forall (E : penv) (p : eop), normal E p = true -> floats_ok_op E p ->
  exists ts p', print_op E p = Some ts /\ rebuild E ts = Some p' /\ p' = p /\ pipeline_eqb p p' = true /\ pipeline_eqb p' p = true.
Proof. exact print_rebuild_op. Qed.
Print Assumptions C12_print_rebuild_op_partial.

(* ... which gives the same result on every input, for every backend flavour (C11's soundness of ==) *)
Theorem C12_print_rebuild_same_result_partial : forall (E : penv) (p : eop), normal E p = true -> floats_ok_op E p ->
  exists ts p', print_op E p = Some ts /\ rebuild E ts = Some p' /\ pipeline_eqb p p' = true /\
    forall sa sb, to_sem p = Some sa -> to_sem p' = Some sb -> forall fl env, sem_gen fl sa env = sem_gen fl sb env.
Proof. exact print_rebuild_same_result. Qed.
Print Assumptions C12_print_rebuild_same_result_partial.

(* the printer is injective: the text determines the pipeline (what a cache keyed by the text relies on) *)
Theorem C12_printer_injective_partial : forall (E : penv) (p q : eop),
  normal E p = true -> normal E q = true -> floats_ok_op E p -> floats_ok_op E q -> print_op E p = print_op E q -> p = q.
Proof. exact printer_injective. Qed.
Print Assumptions C12_printer_injective_partial.

(* ================================================================== 5. the full statement is false: witnesses *)
(* a column whose name is not an identifier, used in an expression (built with term objects: the expression language
   cannot name it): the printed expression text does not parse -- known finding C12-column-name-not-an-identifier *)
Theorem C12_print_rebuild_refuted_column_name :
  exists ts, print_op E0 w_col = Some ts /\ rebuild E0 ts = None /\ normal E0 w_col = false
             /\ wfb w_col = true /\ subset (ops_cols [("z", POp "+" true false [PCol "my col"; PVal (KInt 1)])]) ["x"; "my col"] = true.
Proof. exact refuted_column_name. Qed.
Print Assumptions C12_print_rebuild_refuted_column_name.

(* an infinite constant prints as the NAME inf, which is looked up as a column -- known finding C12-infinite-or-nan-constant *)
Theorem C12_print_rebuild_expr_refuted_infinity :
  exists text, py_unquote (py_repr (fun _ => false) (expr_text F0 (fun _ => false) w_inf)) = Some text
               /\ parse_text F0 (e_cfg E0) ["x"] text = Err /\ printable (e_cfg E0) ["x"] w_inf = false.
Proof. exact refuted_expr_infinity. Qed.
Print Assumptions C12_print_rebuild_expr_refuted_infinity.

(* the guard `normal` is needed: a tree assembled from the node constructors directly (an extend over an order_rows
   without limit, which every builder method skips) is re-read as a different pipeline *)
Theorem C12_print_rebuild_refuted_without_normal_form :
  exists ts, print_op E0 w_skip = Some ts /\ rebuild E0 ts = Some w_skip' /\ pipeline_eqb w_skip w_skip' = false /\ normal E0 w_skip = false.
Proof. exact refuted_without_normal. Qed.
Print Assumptions C12_print_rebuild_refuted_without_normal_form.

(* ================================================================== non-vacuity *)
(* a five-step pipeline (extend with a float constant; windowed extend; select_rows on a quoted string; order_rows with
   reverse and limit; natural_join on a key pair with a qualified table) satisfies every hypothesis *)
Example C12_guards_satisfiable : normal E0 ex_p4 = true /\ floats_ok_op E0 ex_p4 /\ float_lex_ok F0 (3 # 2)%Q.
Proof. exact (conj ex_p4_normal (conj ex_p4_floats F0_float_ok)). Qed.
Example C12_sample_print :
  option_map (fun ts => List.length ts) (print_op E0 ex_p4) = Some 108%nat /\
  match print_op E0 ex_p4 with Some ts => rebuild E0 ts | None => None end = Some ex_p4.
Proof. split; vm_compute; reflexivity. Qed.
