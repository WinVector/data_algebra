(* C16 -- natural_join matches SQL join semantics on every backend.

   "For every join type (inner, left, right, full, cross), every key specification (including differently named keys) and
    every input, each backend's natural_join returns the rows of the corresponding standard SQL join.  That includes
    duplicate keys and null keys, and null keys never match.  Shared non-key columns take the left value, or the right
    value where the left is null."

   Model/JoinSpec.v   the standard SQL join, written from the standard (independent of Model/Sem.v)
   Model/Sem.v        what a backend computes for a join node: sem_join nm ...; nm = "null keys match" is false for the
                      specification and for every backend flavour (true is what a plain pandas.merge would do)
   Model/JoinEmul.v   the executors' own emulations: SQLite RIGHT-as-LEFT, SQLite FULL-as-key-table
   Each model is compared with the real executor on every run (harness/props/C16.py); JoinSpec.v is compared with
   SQLite 3.40's native joins.

   FULL STATEMENT vs the tree.  The statement now holds of every backend: native SQL joins (theorems 1-8), SQLite RIGHT
   rewrite (9), Pandas with its null-key marker (11), Polars (Sem.v under fl_polars).  Found by this check and repaired in
   /repo: SQLite RIGHT key lists (786497c), Pandas CROSS with an empty side (8737d6e), Polars FULL keys (c106ad7, 5c7bd4d),
   Polars shared key names / empty `on` (ad5b72b), Pandas leftover suffixed column (756a9c2), Pandas null keys (af27aca),
   SQLite FULL join on engines >= 3.39 (aad03d8).  What remains REFUTED is the FULL-join emulation that engines older than
   SQLite 3.39 still get (10: rows with a null key collapse; differently named keys assert); the refutations of the old
   behaviours are kept as history (9, 11, 12). *)
From Coq Require Import List Bool QArith String Permutation.
Import ListNotations.
From DA Require Import Base.PyRT Base.Val Model.Sem Model.JoinSpec Model.JoinEmul
  Proofs.SemBasicP Proofs.JoinP1 Proofs.JoinP2 Proofs.JoinP3 Proofs.JoinP4.
Local Open Scope list_scope.

(* 1. natural_join IS the SQL join: same columns, same rows (even in the same order), all join types, all key specifications
      (same / different names, any number of key columns), all tables -- duplicate keys, null keys, empty tables included *)
Theorem C16_sem_join_is_sql_join :
  forall (on_a on_b : list string) (jt : jointype) (a b : table), List.length on_a = List.length on_b ->
  sem_join false on_a on_b jt a b = sql_join_spec (jt_of jt) (combine on_a on_b) a b.
Proof. exact sem_join_is_spec. Qed.
Print Assumptions C16_sem_join_is_sql_join.

Theorem C16_sem_join_rows_are_the_sql_join_rows :
  forall (on_a on_b : list string) (jt : jointype) (a b : table), List.length on_a = List.length on_b ->
  Permutation (rows (sem_join false on_a on_b jt a b)) (sql_join_rows (jt_of jt) (combine on_a on_b) a b).
Proof. exact sem_join_rows_perm. Qed.
Print Assumptions C16_sem_join_rows_are_the_sql_join_rows.

(* 2. jointype = 'CROSS' (the builder demands on = []) is the cross product *)
Theorem C16_cross_join_is_the_cross_product :
  forall a b : table, sem_join false [] [] JInner a b = sql_join_spec SCross [] a b.
Proof. exact sem_cross_is_spec. Qed.
Print Assumptions C16_cross_join_is_the_cross_product.

(* 3. inside a pipeline, under every flavour of backend conventions that does not match null keys *)
Theorem C16_join_node_is_sql_join_under_every_sql_flavour :
  forall (fl : flavor) (pa pb : op) (on_a on_b : list string) (jt : jointype) (e : env) (ta tb : table),
  f_join_null_match fl = false -> List.length on_a = List.length on_b ->
  sem_gen fl pa e = Some ta -> sem_gen fl pb e = Some tb ->
  sem_gen fl (OJoin pa pb on_a on_b jt) e = Some (sql_join_spec (jt_of jt) (combine on_a on_b) ta tb).
Proof. exact sem_gen_join_is_spec. Qed.
Print Assumptions C16_join_node_is_sql_join_under_every_sql_flavour.

(* 4. duplicate keys: a left row with m partners contributes m rows -- and one NULL-extended row when m = 0 in a LEFT / FULL join *)
Theorem C16_left_row_contributes_one_row_per_partner :
  forall (on_a on_b : list string) (a b : table), List.length on_a = List.length on_b ->
  Permutation (rows (sem_join false on_a on_b JLeft a b)) (flat_map (left_contribution (combine on_a on_b) a b) (rows a))
  /\ Permutation (rows (sem_join false on_a on_b JFull a b))
       (flat_map (left_contribution (combine on_a on_b) a b) (rows a)
        ++ map (fun r2 => select_row (cols a) (cols b) None (Some r2)) (unmatched_right (combine on_a on_b) a b))
  /\ (forall r1, List.length (left_contribution (combine on_a on_b) a b r1)
                 = Nat.max 1 (List.length (partners_of_left (combine on_a on_b) a b r1))).
Proof.
  exact (fun on_a on_b a b L => conj (sem_left_join_by_left_row on_a on_b a b L)
                                     (conj (sem_full_join_by_left_row on_a on_b a b L) (left_contribution_length on_a on_b a b))).
Qed.
Print Assumptions C16_left_row_contributes_one_row_per_partner.

Theorem C16_row_counts :
  forall (on_a on_b : list string) (a b : table), List.length on_a = List.length on_b ->
  let on := combine on_a on_b in
  let m := fun r1 => List.length (partners_of_left on a b r1) in
  List.length (rows (sem_join false on_a on_b JInner a b)) = list_sum (map m (rows a))
  /\ List.length (rows (sem_join false on_a on_b JLeft a b)) = list_sum (map (fun r1 => Nat.max 1 (m r1)) (rows a))
  /\ List.length (rows (sem_join false on_a on_b JRight a b)) = (list_sum (map m (rows a)) + List.length (unmatched_right on a b))%nat
  /\ List.length (rows (sem_join false on_a on_b JFull a b))
     = (list_sum (map (fun r1 => Nat.max 1 (m r1)) (rows a)) + List.length (unmatched_right on a b))%nat.
Proof. exact sem_join_row_counts. Qed.
Print Assumptions C16_row_counts.

(* 5. null keys never match: a key with a null on either side matches nothing, so the row has no partner and appears only
      NULL-extended (in the join types that preserve its side), never joined with a row of the other table *)
Theorem C16_null_keys_never_match :
  (forall ka kb : list val, existsb is_null ka = true \/ existsb is_null kb = true -> keys_match false ka kb = false)
  /\ (forall (on : list (string * string)) (a b : table) (r1 : row), has_null_key (cols a) (map fst on) r1 = true ->
        partners_of_left on a b r1 = [] /\ left_contribution on a b r1 = [select_row (cols a) (cols b) (Some r1) None])
  /\ (forall (on : list (string * string)) (a b : table) (r2 : row), has_null_key (cols b) (map snd on) r2 = true ->
        partners_of_right on a b r2 = [] /\ right_contribution on a b r2 = [select_row (cols a) (cols b) None (Some r2)]).
Proof. exact (conj keys_match_null_never (conj null_key_left_row_alone null_key_right_row_alone)). Qed.
Print Assumptions C16_null_keys_never_match.

(* 6. every result row comes from a matching pair, or from an unmatched row of a preserved side *)
Theorem C16_every_result_row_has_an_origin :
  forall (on_a on_b : list string) (jt : jointype) (a b : table) (r : list val), List.length on_a = List.length on_b ->
  In r (rows (sem_join false on_a on_b jt a b)) ->
  exists o1 o2, r = select_row (cols a) (cols b) o1 o2
    /\ match o1, o2 with
       | Some r1, Some r2 => In r1 (rows a) /\ In r2 (rows b) /\ on_holds (cols a) (cols b) (combine on_a on_b) r1 r2 = true
       | Some r1, None => In r1 (rows a) /\ partners_of_left (combine on_a on_b) a b r1 = [] /\ (jt = JLeft \/ jt = JFull)
       | None, Some r2 => In r2 (rows b) /\ partners_of_right (combine on_a on_b) a b r2 = [] /\ (jt = JRight \/ jt = JFull)
       | None, None => False
       end.
Proof. exact sem_join_row_origin. Qed.
Print Assumptions C16_every_result_row_has_an_origin.

(* 7. a column both tables have takes the left value, or the right value where the left is null (NULL-extended sides read
      as null, so a same-named key column shows the side that exists); the other columns come from their own table *)
Theorem C16_coalesce_left_then_right :
  forall (c1 c2 : list string) (r1 r2 : option row) (c : string),
  (In c c1 -> In c c2 -> get (out_cols c1 c2) (select_row c1 c2 r1 r2) c = (if is_null (cell c1 r1 c) then cell c2 r2 c else cell c1 r1 c))
  /\ (In c c1 -> ~ In c c2 -> get (out_cols c1 c2) (select_row c1 c2 r1 r2) c = cell c1 r1 c)
  /\ (~ In c c1 -> In c c2 -> get (out_cols c1 c2) (select_row c1 c2 r1 r2) c = cell c2 r2 c).
Proof.
  exact (fun c1 c2 r1 r2 c => conj (select_row_shared c1 c2 r1 r2 c) (conj (select_row_left_only c1 c2 r1 r2 c) (select_row_right_only c1 c2 r1 r2 c))).
Qed.
Print Assumptions C16_coalesce_left_then_right.

(* 8. a RIGHT join is the mirrored LEFT join -- sources exchanged, key lists exchanged with them, shared columns coalesced
      second-source-first -- up to the arrangement of columns and rows; for every key specification *)
Theorem C16_right_join_is_mirrored_left_join :
  forall (nm : bool) (on_a on_b : list string) (a b : table),
  Permutation (reorder_rows (mirror_left_join nm on_a on_b a b) (out_cols (cols a) (cols b))) (rows (sem_join nm on_a on_b JRight a b))
  /\ (forall c, In c (cols (mirror_left_join nm on_a on_b a b)) <-> In c (out_cols (cols a) (cols b))).
Proof. exact (fun nm on_a on_b a b => conj (right_join_is_mirrored_left_join nm on_a on_b a b) (mirror_left_join_cols nm on_a on_b a b)). Qed.
Print Assumptions C16_right_join_is_mirrored_left_join.

(* 9. SQLite _emit_right_join_as_left_join (sources AND key lists exchanged, COALESCE second-source-first): the RIGHT join, for
      every key specification.  Exchanging the sources alone -- what the code did before 786497c -- joins on the wrong
      columns (refuted with a witness). *)
Theorem C16_sqlite_right_join_emulation :
  forall (on_a on_b : list string) (a b : table), incl on_a (cols a) -> incl on_b (cols b) ->
  exists t, sqlite_right_emul on_a on_b a b = Some t
            /\ Permutation (reorder_rows t (out_cols (cols a) (cols b))) (rows (sem_join false on_a on_b JRight a b))
            /\ (forall c, In c (cols t) <-> In c (out_cols (cols a) (cols b))).
Proof. exact sqlite_right_emul_is_right_join. Qed.
Print Assumptions C16_sqlite_right_join_emulation.

Theorem C16_mirrored_join_without_exchanging_key_lists_refuted :
  exists on_a on_b a b, List.length on_a = List.length on_b /\ incl on_a (cols a) /\ incl on_b (cols b) /\
    ~ Permutation (reorder_rows (mirror_left_join false on_b on_a a b) (out_cols (cols a) (cols b))) (sql_join_rows SRight (combine on_a on_b) a b).
Proof. exact mirror_without_exchanging_key_lists_refuted. Qed.
Print Assumptions C16_mirrored_join_without_exchanging_key_lists_refuted.

(* 10. SQLite _emit_full_join_as_complex (distinct keys of both sides, LEFT JOIN left, LEFT JOIN right).
       partial: no key contains a NULL (and key values are canonical: equal keys are identical) -> the FULL join: per key,
       m*n / m / n rows.   refuted: with NULL keys the rows carrying them collapse into one row of NULLs. *)
Theorem C16_sqlite_full_join_emulation_partial :
  forall (J : list string) (a b : table),
  J <> [] -> wf_table a -> wf_table b -> incl J (cols a) -> incl J (cols b) ->
  (forall k, In k (map (key_of (cols a) J) (rows a) ++ map (key_of (cols b) J) (rows b)) -> existsb is_null k = false) ->
  (forall k1 k2, In k1 (map (key_of (cols a) J) (rows a) ++ map (key_of (cols b) J) (rows b)) ->
                 In k2 (map (key_of (cols a) J) (rows a) ++ map (key_of (cols b) J) (rows b)) -> keys_eqv k1 k2 = true -> k1 = k2) ->
  exists t, sqlite_full_emul J J a b = Some t
    /\ Permutation (reorder_rows t (out_cols (cols a) (cols b))) (sql_join_rows SFull (combine J J) a b)
    /\ (forall c, In c (cols t) <-> In c (out_cols (cols a) (cols b))).
Proof. exact sqlite_full_emul_partial. Qed.
Print Assumptions C16_sqlite_full_join_emulation_partial.

Theorem C16_sqlite_full_join_emulation_refuted :
  exists J a b t, J <> [] /\ wf_table a /\ wf_table b /\ incl J (cols a) /\ incl J (cols b) /\ sqlite_full_emul J J a b = Some t /\
    ~ Permutation (reorder_rows t (out_cols (cols a) (cols b))) (sql_join_rows SFull (combine J J) a b).
Proof. exact sqlite_full_emul_refuted. Qed.
Print Assumptions C16_sqlite_full_join_emulation_refuted.

Theorem C16_sqlite_full_join_emulation_asserts :
  forall (on_a on_b : list string) (a b : table), on_a = [] \/ on_a <> on_b -> sqlite_full_emul on_a on_b a b = None.
Proof. exact sqlite_full_emul_asserts. Qed.
Print Assumptions C16_sqlite_full_join_emulation_asserts.

(* 11. Pandas: pandas.merge alone matches a null key with a null key; _natural_join_step (since af27aca) adds a marker column
       to the keys exactly when both sides have a row with a null key.  With it the Pandas join IS the SQL join, for every
       input.  The plain merge is kept as history: refuted by one null key on each side, and equal to the SQL join when one
       side has no null key (which is why the marker is needed only then). *)
Theorem C16_pandas_join_is_sql_join :
  forall (on_a on_b : list string) (jt : jointype) (a b : table), List.length on_a = List.length on_b ->
  pandas_join on_a on_b jt a b = sql_join_spec (jt_of jt) (combine on_a on_b) a b.
Proof.
  exact (fun on_a on_b jt a b L => eq_trans (pandas_join_is_sem_join on_a on_b jt a b) (sem_join_is_spec on_a on_b jt a b L)).
Qed.
Print Assumptions C16_pandas_join_is_sql_join.

Theorem C16_markerless_merge_null_keys_match_refuted :
  exists on_a on_b jt a b, List.length on_a = List.length on_b /\
    ~ Permutation (rows (sem_join true on_a on_b jt a b)) (sql_join_rows (jt_of jt) (combine on_a on_b) a b).
Proof. exact markerless_merge_null_keys_refuted. Qed.
Print Assumptions C16_markerless_merge_null_keys_match_refuted.

Theorem C16_markerless_merge_without_null_keys_partial :
  forall (on_a on_b : list string) (jt : jointype) (a b : table), List.length on_a = List.length on_b ->
  no_null_keys (cols a) on_a a \/ no_null_keys (cols b) on_b b ->
  sem_join true on_a on_b jt a b = sql_join_spec (jt_of jt) (combine on_a on_b) a b.
Proof.
  exact (fun on_a on_b jt a b L G => eq_trans (pandas_join_no_null_keys on_a on_b jt a b G) (sem_join_is_spec on_a on_b jt a b L)).
Qed.
Print Assumptions C16_markerless_merge_without_null_keys_partial.

(* 12. a FULL join has to coalesce its key columns as well: keeping the two key columns apart and coalescing only the shared
       non-key columns (the Polars executor before c106ad7) loses the key of every row found only on the right.
       refuted: one unmatched right row.   It is the FULL join exactly when every right row has a partner. *)
Theorem C16_full_join_without_key_coalescing_refuted :
  exists J a b, ~ Permutation (rows (full_join_keys_not_coalesced J a b)) (sql_join_rows SFull (combine J J) a b).
Proof. exact full_join_keys_not_coalesced_refuted. Qed.
Print Assumptions C16_full_join_without_key_coalescing_refuted.

Theorem C16_full_join_without_key_coalescing_partial :
  forall (J : list string) (a b : table), unmatched_right (combine J J) a b = [] ->
  full_join_keys_not_coalesced J a b = sql_join_spec SFull (combine J J) a b.
Proof.
  exact (fun J a b U => eq_trans (keys_not_coalesced_ok_when_every_right_row_matches J a b U) (sem_join_is_spec J J JFull a b eq_refl)).
Qed.
Print Assumptions C16_full_join_without_key_coalescing_partial.

(* ------------------------------------------------------------------ non-vacuity *)
Local Open Scope string_scope.
(* the flavours of theorem 3 *)
Example C16_sql_flavours : map f_join_null_match [fl_spec; fl_pandas; fl_sqlite; fl_postgres; fl_polars] = [false; false; false; false; false].
Proof. reflexivity. Qed.

(* duplicate keys, a null key on each side, differently named keys, a shared non-key column with a null on the left *)
Definition ex_a : table := mktable ["ka"; "x"; "s"] [[VNum 1; VNum 10; VNull]; [VNum 1; VNum 11; VNum 1]; [VNull; VNum 12; VNum 2]; [VNum 2; VNum 13; VNull]].
Definition ex_b : table := mktable ["kb"; "y"; "s"] [[VNum 1; VNum 20; VNum 5]; [VNull; VNum 21; VNum 6]; [VNum 3; VNum 23; VNum 8]].
Example C16_full_join_example :
  rows (sem_join false ["ka"] ["kb"] JFull ex_a ex_b) =
  [ [VNum 1; VNum 10; VNum 5; VNum 1; VNum 20]; [VNum 1; VNum 11; VNum 1; VNum 1; VNum 20];      (* key 1: 2 x 1 rows, s coalesced *)
    [VNull; VNum 12; VNum 2; VNull; VNull]; [VNum 2; VNum 13; VNull; VNull; VNull];              (* left rows without partner (null key, key 2) *)
    [VNull; VNull; VNum 6; VNull; VNum 21]; [VNull; VNull; VNum 8; VNum 3; VNum 23] ].            (* right rows without partner (null key, key 3) *)
Proof. vm_compute. reflexivity. Qed.

(* guards of the partial theorems are satisfiable by joins that are not trivial *)
Definition ex_c : table := mktable ["k"; "x"] [[VNum 1; VNum 10]; [VNum 1; VNum 11]; [VNum 2; VNum 13]].
Definition ex_d : table := mktable ["k"; "y"] [[VNum 1; VNum 20]; [VNum 3; VNum 23]; [VNum 3; VNum 24]].
Example C16_sqlite_full_guard_example :
  (forall k, In k (map (key_of (cols ex_c) ["k"]) (rows ex_c) ++ map (key_of (cols ex_d) ["k"]) (rows ex_d)) -> existsb is_null k = false)
  /\ (forall k1 k2, In k1 (map (key_of (cols ex_c) ["k"]) (rows ex_c) ++ map (key_of (cols ex_d) ["k"]) (rows ex_d)) ->
                    In k2 (map (key_of (cols ex_c) ["k"]) (rows ex_c) ++ map (key_of (cols ex_d) ["k"]) (rows ex_d)) -> keys_eqv k1 k2 = true -> k1 = k2)
  /\ option_map (fun t => List.length (rows t)) (sqlite_full_emul ["k"] ["k"] ex_c ex_d) = Some 5%nat.
Proof.
  split; [|split].
  - vm_compute. intros k H. repeat (destruct H as [<-|H]; [reflexivity|]). destruct H.
  - intros k1 k2 H1 H2 E.
    set (ks := (map (key_of (cols ex_c) ["k"]) (rows ex_c) ++ map (key_of (cols ex_d) ["k"]) (rows ex_d))%list) in *.
    assert (forallb (fun a => forallb (fun b => implb (keys_eqv a b) (eqb a b)) ks) ks = true) as A by (vm_compute; reflexivity).
    pose proof (proj1 (forallb_forall _ _) (proj1 (forallb_forall _ _) A k1 H1) k2 H2) as I.
    cbv beta in I. rewrite E in I. apply eqb_true. exact I.
  - vm_compute. reflexivity.
Qed.
Example C16_pandas_guard_example : no_null_keys (cols ex_c) ["k"] ex_c /\ List.length (rows (sem_join true ["k"] ["k"] JFull ex_c ex_b)) = 6%nat.
Proof.
  split; [|vm_compute; reflexivity]. intros r H. vm_compute in H. repeat (destruct H as [<-|H]; [reflexivity|]). destruct H.
Qed.
Example C16_key_coalescing_guard_example :
  unmatched_right (combine ["k"] ["k"]) ex_c (mktable ["k"; "y"] [[VNum 1; VNum 20]; [VNum 2; VNum 21]]) = []
  /\ List.length (rows (full_join_keys_not_coalesced ["k"] ex_c (mktable ["k"; "y"] [[VNum 1; VNum 20]; [VNum 2; VNum 21]]))) = 3%nat.
Proof. split; vm_compute; reflexivity. Qed.
Example C16_sqlite_right_guard_example :
  option_map (fun t => List.length (rows t)) (sqlite_right_emul ["k"] ["k"] ex_c ex_d) = Some 4%nat.
Proof. vm_compute. reflexivity. Qed.
