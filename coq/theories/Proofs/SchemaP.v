(* Proofs about Model/Schema.v: the checks reject exactly the violations of the declarative reading (C22). *)
From Coq Require Import List Bool String Lia.
Import ListNotations.
From DA Require Import Base.PyRT Model.Schema.

Section P.
Context {ty atom : Type} `{EqDec ty} (isinst : atom -> ty -> bool) (type_of : atom -> ty).
Hypothesis isinst_type_of : forall a, isinst a (type_of a) = true.       (* isinstance(v, type(v)) *)
Notation check_atom := (check_atom isinst).
Notation check_frame := (check_frame isinst).
Notation check_value := (check_value isinst).
Notation check_args := (check_args isinst).
Notation value_violates := (value_violates isinst).

Lemma check_atom_iff c a : check_atom c a = false <-> atom_violates isinst c a.
Proof. destruct c as [|t|ts]; simpl.
  - split; [discriminate|tauto].
  - tauto.
  - split.
    + intros E t I. destruct (isinst a t) eqn:Et; [|reflexivity].
      assert (existsb (isinst a) ts = true) as X by (apply existsb_exists; eauto). congruence.
    + intros Hall. destruct (existsb (isinst a) ts) eqn:E; [|reflexivity].
      apply existsb_exists in E. destruct E as [t [I Et]]. rewrite (Hall t I) in Et. discriminate.
Qed.

Lemma check_frame_iff cols d : check_frame cols d = false <-> frame_violates isinst cols d.
Proof. unfold Schema.check_frame, frame_violates. rewrite forallb_false. split.
  - intros [[k c] [I E]]. simpl in E. exists k, c. split; [exact I|].
    destruct (dict_get d k) as [cells|] eqn:G; [|left; reflexivity]. right.
    apply orb_false_iff in E. destruct E as [Ec E]. apply forallb_false in E.
    destruct E as [[a|] [Ia Ea]]; [|discriminate].
    exists cells, a. split; [reflexivity|]. split; [exact Ia|]. apply check_atom_iff. exact Ea.
  - intros [k [c [I [G|[cells [a [G [Ia V]]]]]]]]; exists (k, c); (split; [exact I|]); simpl; rewrite G; [reflexivity|].
    apply orb_false_iff. split.
    + destruct c; simpl in *; [contradiction|reflexivity|reflexivity].
    + apply forallb_false. exists (Some a). split; [exact Ia|]. apply check_atom_iff. exact V.
Qed.

Lemma is_cnone_false (c : @colspec ty) : is_cnone c = false <-> c <> CNone.
Proof. destruct c; simpl; split; intros X; try reflexivity; try discriminate; try congruence. Qed.

(* the checker rejects a value exactly when the value violates the specification *)
Lemma check_value_iff s v : (forall cols, s = SFrame cols -> NoDup (map fst cols)) ->
  (check_value s v = false <-> value_violates s v).
Proof. intros _. destruct s as [c|cols], v as [|a|d]; simpl.
  - apply is_cnone_false.
  - apply check_atom_iff.
  - apply is_cnone_false.
  - split; [tauto|reflexivity].
  - split; [tauto|reflexivity].
  - apply check_frame_iff.
Qed.

Lemma zip_names_total names (args : list (@value atom)) :
  List.length args <= List.length names -> exists pos, zip_names names args = Some pos.
Proof. revert names. induction args as [|a t IH]; intros names L; [destruct names; simpl; eexists; reflexivity|].
  destruct names as [|n ns]; simpl in L; [lia|]. simpl.
  destruct (IH ns) as [pos E]; [lia|]. rewrite E. simpl. eexists; reflexivity. Qed.

Lemma zip_names_keys names (args : list (@value atom)) pos :
  zip_names names args = Some pos -> map fst pos = firstn (List.length args) names.
Proof. revert names pos. induction args as [|a t IH]; intros names pos E.
  - destruct names; simpl in E; inversion E; subst; reflexivity.
  - destruct names as [|n ns]; simpl in E; [discriminate|].
    destruct (zip_names ns t) as [p|] eqn:Z; [|discriminate]. simpl in E. inversion E; subst.
    simpl. f_equal. apply IH. exact Z. Qed.

Lemma NoDup_firstn' {A} n (l : list A) : NoDup l -> NoDup (firstn n l).
Proof. revert l. induction n as [|n IH]; intros l N; simpl; [constructor|].
  destruct l as [|x l]; [constructor|]. inversion N as [|y m Hx N']; subst.
  constructor; [|apply IH; exact N']. intros I. apply Hx.
  rewrite <- (firstn_skipn n l). apply in_or_app. left. exact I. Qed.

Lemma zip_names_NoDup names (args : list (@value atom)) pos :
  NoDup names -> zip_names names args = Some pos -> NoDup (map fst pos).
Proof. intros N E. rewrite (zip_names_keys _ _ _ E). apply NoDup_firstn'. exact N. Qed.

(* check_args raises TypeError exactly when a declared argument is missing or its value violates its specification *)
Definition arg_value (names : list string) (args : list (@value atom)) (kwargs : list (string * @value atom)) (k : string) : option (@value atom) :=
  match zip_names names args with
  | Some pos => match dict_get pos k with Some v => Some v | None => dict_get kwargs k end
  | None => None
  end.
Lemma check_args_iff sp names args kwargs :
  NoDup names -> List.length args <= List.length names -> NoDup (map fst sp) ->
  (forall k s cols, In (k, s) sp -> s = SFrame cols -> NoDup (map fst cols)) ->
  (check_args (Some sp) names args kwargs = TypeErr <->
   exists k s, In (k, s) sp /\
     match arg_value names args kwargs k with None => True | Some v => value_violates s v end).
Proof. intros Nn Hlen Nsp Hfr. unfold Schema.check_args, arg_value.
  destruct (zip_names_total names args Hlen) as [pos Ez]. rewrite Ez.
  pose proof (zip_names_NoDup _ _ _ Nn Ez) as Np.
  assert (forall k s v, In (k, s) sp -> (check_value s v = false <-> value_violates s v)) as CV.
  { intros k s v I. apply check_value_iff. intros cols E. exact (Hfr k s cols I E). }
  match goal with |- context [if ?a && ?b then _ else _] => set (pos_ok := a); set (named_ok := b) end.
  split.
  - intros E. destruct (pos_ok && named_ok) eqn:B; [discriminate|].
    apply andb_false_iff in B. destruct B as [B|B]; apply forallb_false in B.
    + destruct B as [[k v] [I E1]]. simpl in E1.
      destruct (dict_get sp k) as [s|] eqn:G; [|discriminate].
      apply dict_get_In in G. exists k, s. split; [exact G|].
      rewrite (dict_get_NoDup_In pos k v Np I). apply (CV k s v G). exact E1.
    + destruct B as [[k s] [I E1]]. simpl in E1.
      destruct (mem k (map fst pos)) eqn:M; [discriminate|].
      apply mem_keys_false_dict_get in M. exists k, s. split; [exact I|]. rewrite M.
      destruct (dict_get kwargs k) as [v|]; [|exact Logic.I]. apply (CV k s v I). exact E1.
  - intros [k [s [I V]]].
    assert (pos_ok && named_ok = false) as B; [|rewrite B; reflexivity].
    apply andb_false_iff. destruct (dict_get pos k) as [v|] eqn:G.
    + left. apply forallb_false. exists (k, v). split; [apply dict_get_In; exact G|]. simpl.
      rewrite (dict_get_NoDup_In sp k s Nsp I). apply (CV k s v I). exact V.
    + right. apply forallb_false. exists (k, s). split; [exact I|]. simpl.
      apply mem_keys_false_dict_get in G. rewrite G.
      destruct (dict_get kwargs k) as [v|]; [|reflexivity]. apply (CV k s v I). exact V.
Qed.

Lemma check_args_no_other sp names args kwargs :
  List.length args <= List.length names -> check_args sp names args kwargs <> OtherErr.
Proof. intros L. unfold Schema.check_args. destruct sp as [sp|]; [|discriminate].
  destruct (zip_names_total names args L) as [pos Ez]. rewrite Ez.
  match goal with |- context [if ?c then _ else _] => destruct c end; discriminate. Qed.

(* with the switch off the wrapper never raises and returns the function's own result *)
Lemma switch_off_transparent {R} specs ret (tv : R -> @value atom) names f args kwargs :
  wrapped isinst false specs ret tv names f args kwargs = Returned (f args kwargs).
Proof. reflexivity. Qed.

(* with the switch on: whatever is returned is the function's own result, unchanged *)
Lemma returns_unchanged {R} sw specs ret (tv : R -> @value atom) names f args kwargs r :
  wrapped isinst sw specs ret tv names f args kwargs = Returned r -> r = f args kwargs.
Proof. unfold wrapped. destruct sw; simpl; [|intros E; inversion E; reflexivity].
  destruct (check_args specs names args kwargs); try discriminate.
  destruct ret as [s|]; [|intros E; inversion E; reflexivity].
  destruct (check_value s (tv (f args kwargs))); [|discriminate]. intros E; inversion E; reflexivity. Qed.

(* ... and it is returned exactly when neither the arguments nor the result violate the schema *)
Lemma wrapped_returns_iff {R} specs ret (tv : R -> @value atom) names f args kwargs :
  List.length args <= List.length names ->
  (wrapped isinst true specs ret tv names f args kwargs = Returned (f args kwargs) <->
   check_args specs names args kwargs = Returned tt /\
   match ret with None => True | Some s => check_value s (tv (f args kwargs)) = true end).
Proof. intros _. unfold wrapped. simpl.
  destruct (check_args specs names args kwargs) as [[]| |].
  - destruct ret as [s|].
    + destruct (check_value s (tv (f args kwargs))); split; try tauto; try discriminate.
      intros [_ X]; discriminate.
    + tauto.
  - split; [discriminate|intros [X _]; discriminate].
  - split; [discriminate|intros [X _]; discriminate].
Qed.

(* example values declare their own types, alone and inside sets; and the example itself conforms *)
Lemma prep_example_alone a : prep_col type_of (RExample a) = CType (type_of a) /\ check_atom (prep_col type_of (RExample a)) a = true.
Proof. simpl. split; [reflexivity|apply isinst_type_of]. Qed.
Lemma prep_example_in_set l a : In (EExample a) l ->
  exists ts, prep_col type_of (RSet l) = CSet ts /\ In (type_of a) ts /\ check_atom (CSet ts) a = true.
Proof. intros I. simpl. eexists. split; [reflexivity|].
  assert (In (type_of a) (py_set (flat_map (prep_elem type_of) l))) as X.
  { apply In_py_set. apply in_flat_map. exists (EExample a). split; [exact I|]. simpl. left. reflexivity. }
  split; [exact X|]. simpl. apply existsb_exists. exists (type_of a). split; [exact X|apply isinst_type_of]. Qed.
Lemma prep_set_members l t : (exists ts, prep_col type_of (RSet l) = CSet ts /\
  (In t ts <-> (In (EType t) l \/ exists a, In (EExample a) l /\ type_of a = t))).
Proof. simpl. eexists. split; [reflexivity|]. rewrite In_py_set, in_flat_map. split.
  - intros [e [I X]]. destruct e as [|t'|a]; simpl in X.
    + contradiction.
    + destruct X as [->|[]]. left. exact I.
    + destruct X as [X|[]]. right. exists a. split; [exact I|exact X].
  - intros [I|[a [I E]]].
    + exists (EType t). split; [exact I|]. simpl. left. reflexivity.
    + exists (EExample a). split; [exact I|]. simpl. left. exact E.
Qed.
End P.

(* The letter of the property ("a NON-NULL value has none of the declared types") fails for a None argument of a typed
   parameter: the checker raises although no non-null value is involved.  Universe: one type, atoms = unit. *)
Lemma null_argument_raises_refuted :
  check_args (fun (_ : unit) (_ : unit) => true) (Some [("x"%string, SPlain (CType tt))]) ["x"%string] [VNone] [] = TypeErr.
Proof. vm_compute. reflexivity. Qed.

