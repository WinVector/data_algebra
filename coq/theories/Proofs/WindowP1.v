(* C27, part 1: the value sem_wextend writes at a row is the window function over that row's OWN partition, read in the
   declared order, at the row's position in that order; and that ordered partition is sorted and is a permutation of the
   partition.  Every statement is for all tables, window specifications and flavours. *)
From Coq Require Import List Bool Arith String Lia Permutation Sorted.
Import ListNotations.
From DA Require Import Base.PyRT Base.Val Model.Sem Model.WindowSpec Proofs.SemBasicP Proofs.SemOrderP Proofs.ListP Proofs.TabP.

(* ---------- cells written by a fold of assignments *)
Lemma index_of_app_r_fresh c cs : mem c cs = false -> index_of c (cs ++ [c]) = Some (List.length cs).
Proof.
  induction cs as [|x t IH]; simpl; intros M.
  - destruct (eq_dec c c); [reflexivity|congruence].
  - destruct (eq_dec c x); [discriminate|]. rewrite (IH M). reflexivity.
Qed.

Lemma set_cell_get_same ccs row k v :
  List.length row = List.length ccs -> get (add_end ccs k) (set_cell ccs row k v) k = v.
Proof.
  intros L. unfold set_cell, add_end, get. destruct (index_of k ccs) as [i|] eqn:E.
  - rewrite (index_of_Some_mem _ _ _ E), E. apply nth_set_nth_same. rewrite L. eapply index_of_lt; eassumption.
  - apply index_of_None in E. rewrite E, (index_of_app_r_fresh _ _ E), <- L.
    rewrite app_nth2, Nat.sub_diag; [reflexivity|lia].
Qed.

Section FoldAssigned.
  Context {X : Type} (F : string * X -> val).
  Let step := (fun (acc : list val * list string) (ke : string * X) =>
                 let '(row, ccs) := acc in (set_cell ccs row (fst ke) (F ke), add_end ccs (fst ke))).

  Lemma fold_cells_get_assigned l : forall row ccs ke,
    List.length row = List.length ccs -> NoDup (map fst l) -> In ke l ->
    get (ext_cols ccs (map fst l)) (fst (fold_left step l (row, ccs))) (fst ke) = F ke.
  Proof.
    induction l as [|ke0 l IH]; intros row ccs ke L N I; [destruct I|].
    simpl in N. inversion N as [|? ? Nk Nl]; subst.
    assert (List.length (set_cell ccs row (fst ke0) (F ke0)) = List.length (add_end ccs (fst ke0))) as L' by (apply set_cell_length; exact L).
    change (get (ext_cols (add_end ccs (fst ke0)) (map fst l))
                (fst (fold_left step l (set_cell ccs row (fst ke0) (F ke0), add_end ccs (fst ke0)))) (fst ke) = F ke).
    destruct I as [->|I].
    - pose proof (fold_cells_get F l (set_cell ccs row (fst ke) (F ke)) (add_end ccs (fst ke)) (fst ke) L') as G.
      etransitivity; [apply G; [apply In_add_end; right; reflexivity|exact Nk]|]. apply set_cell_get_same. exact L.
    - apply IH; assumption.
  Qed.
End FoldAssigned.

(* ---------- tagged rows *)
Lemma tag_from_In_nth n rs m r : In (m, r) (tag_from n rs) -> (n <= m)%nat /\ nth_error rs (m - n) = Some r.
Proof.
  revert n. induction rs as [|x t IH]; intros n H; [destruct H|]. simpl in H. destruct H as [E|H].
  - inversion E; subst. split; [lia|]. rewrite Nat.sub_diag. reflexivity.
  - apply IH in H. destruct H as [H1 H2]. split; [lia|]. replace (m - n)%nat with (S (m - S n)) by lia. exact H2.
Qed.

Lemma keys_eqv_other k k' x : keys_eqv k k' = false -> keys_eqv k x = true -> keys_eqv k' x = false.
Proof. intros N E. rewrite SemBasicP.keys_eqv_sym, <- (keys_eqv_cong_l k x k' E). exact N. Qed.

(* ---------- looking a position up in the concatenated window column *)
Definition tag_is (i : nat) (p : nat * val) : bool := Nat.eqb (fst p) i.

Lemma find_none_notin i (l : list (nat * val)) : ~ In i (map fst l) -> find (tag_is i) l = None.
Proof.
  induction l as [|[n v] t IH]; simpl; intros N; [reflexivity|]. unfold tag_is at 1. simpl.
  destruct (Nat.eqb n i) eqn:E; [apply Nat.eqb_eq in E; exfalso; apply N; left; exact E|]. apply IH. intros H. apply N. right. exact H.
Qed.

Lemma combine_fst_sub {A B} (a : list A) (b : list B) x : In x (map fst (combine a b)) -> In x a.
Proof.
  revert b. induction a as [|y t IH]; intros [|z u]; simpl; try tauto. intros [E|H]; [left; exact E|right; eapply IH; exact H].
Qed.

Lemma find_combine i tags : forall vals j, NoDup tags -> nth_error tags j = Some i ->
  find (tag_is i) (combine tags vals) = match nth_error vals j with Some v => Some (i, v) | None => None end.
Proof.
  induction tags as [|n t IH]; intros vals j N E; [destruct j; discriminate|].
  inversion N as [|? ? Nn Nt]; subst. destruct vals as [|v u].
  - simpl. destruct j; reflexivity.
  - destruct j as [|j]; simpl in E.
    + inversion E; subst. simpl. unfold tag_is at 1. simpl. rewrite Nat.eqb_refl. reflexivity.
    + simpl. unfold tag_is at 1. simpl. destruct (Nat.eqb n i) eqn:En.
      * apply Nat.eqb_eq in En. subst. exfalso. apply Nn. eapply nth_error_In; eassumption.
      * apply IH; assumption.
Qed.

(* ---------- the partition of a row, tagged *)
Lemma part_tagged_In cs pk rs r m r' :
  In (m, r') (part_tagged cs pk rs r) <-> nth_error rs m = Some r' /\ same_part cs pk r r' = true.
Proof.
  unfold part_tagged. rewrite filter_In. simpl. split.
  - intros [H S]. apply tag_from_In_nth in H. rewrite Nat.sub_0_r in H. tauto.
  - intros [H S]. split; [|exact S]. apply (tag_from_nth_error 0) in H. simpl in H. eapply nth_error_In; eassumption.
Qed.

Lemma part_tagged_NoDup cs pk rs r : NoDup (map fst (part_tagged cs pk rs r)).
Proof. unfold part_tagged. apply NoDup_map_filter. rewrite tag_from_fst. apply seq_NoDup. Qed.

Lemma sorted_tagged_NoDup fl cs w rs r : NoDup (map fst (sorted_tagged fl cs w rs r)).
Proof.
  eapply Permutation_NoDup; [apply Permutation_sym, Permutation_map, stable_sort_perm|]. apply part_tagged_NoDup.
Qed.

Lemma sorted_tagged_In fl cs w rs r m r' :
  In (m, r') (sorted_tagged fl cs w rs r) <-> nth_error rs m = Some r' /\ same_part cs (w_part w) r r' = true.
Proof.
  rewrite <- part_tagged_In. split; intros H.
  - eapply Permutation_in; [apply stable_sort_perm|exact H].
  - eapply Permutation_in; [apply Permutation_sym, stable_sort_perm|exact H].
Qed.

(* ---------- the window column at the tag of a row *)
Section Column.
  Variables (fl : flavor) (w : window) (t : table).
  Let cs := cols t.
  Let pk := w_part w.

  (* what one group contributes *)
  Definition group_cells (e : expr) (k : list val) : list (nat * val) :=
    let part := filter (fun ir => keys_eqv k (key_of cs pk (snd ir))) (tag_from 0 (rows t)) in
    let sorted := stable_sort (fun a b => row_le fl cs (okeys_of w) (snd a) (snd b)) part in
    match win_parts e with
    | Some (op, arg, extra) =>
        let vs := map (fun ir => match arg with Some a => eval_expr fl cs (snd ir) a | None => VBool true end) sorted in
        combine (map fst sorted) (win_fn fl op extra vs)
    | None => map (fun ir => (fst ir, VNull)) sorted
    end.

  Lemma window_column_groups e :
    window_column fl w t e = flat_map (group_cells e) (distinct_keys (map (fun r => key_of cs pk r) (rows t))).
  Proof. reflexivity. Qed.

  (* a group whose key is not equivalent to the row's key does not mention the row's tag *)
  Lemma group_cells_other e k i r :
    nth_error (rows t) i = Some r -> keys_eqv k (key_of cs pk r) = false -> ~ In i (map fst (group_cells e k)).
  Proof.
    intros Hr Hk I. unfold group_cells in I.
    set (part := filter (fun ir => keys_eqv k (key_of cs pk (snd ir))) (tag_from 0 (rows t))) in *.
    set (sorted := stable_sort (fun a b => row_le fl cs (okeys_of w) (snd a) (snd b)) part) in *.
    assert (In i (map fst sorted)) as Is.
    { destruct (win_parts e) as [[[op arg] extra]|].
      - eapply combine_fst_sub. exact I.
      - rewrite map_map in I. simpl in I. exact I. }
    apply in_map_iff in Is. destruct Is as [[m r'] [E Is]]. simpl in E. subst m.
    apply stable_sort_In in Is. unfold part in Is. apply filter_In in Is. simpl in Is. destruct Is as [It Ik].
    apply tag_from_In_nth in It. rewrite Nat.sub_0_r in It. destruct It as [_ It]. rewrite Hr in It. inversion It; subst.
    congruence.
  Qed.

  Lemma find_flat_other e ks i r :
    nth_error (rows t) i = Some r -> (forall k, In k ks -> keys_eqv k (key_of cs pk r) = false) ->
    find (tag_is i) (flat_map (group_cells e) ks) = None.
  Proof.
    intros Hr H. apply find_none_notin. intros I. apply in_map_iff in I. destruct I as [p [E I]].
    apply in_flat_map in I. destruct I as [k [Ik I]].
    apply (group_cells_other e k i r Hr (H k Ik)). apply in_map_iff. exists p. split; assumption.
  Qed.

  (* among pairwise inequivalent keys only the group of the row's own key mentions the row's tag *)
  Lemma find_flat_own e ks k i r :
    ForallOrdPairs (fun a b => keys_eqv a b = false) ks -> In k ks -> keys_eqv k (key_of cs pk r) = true ->
    nth_error (rows t) i = Some r ->
    find (tag_is i) (flat_map (group_cells e) ks) = find (tag_is i) (group_cells e k).
  Proof.
    intros P Ik Ek Hr. induction P as [|k0 ks' F P' IH]; [destruct Ik|]. rewrite Forall_forall in F.
    cbn [flat_map]. rewrite find_app. destruct Ik as [->|Ik].
    - rewrite (find_flat_other e ks' i r Hr) by (intros k' I'; apply (keys_eqv_other k), Ek; apply F, I').
      destruct (find (tag_is i) (group_cells e k)); reflexivity.
    - rewrite find_none_notin; [apply IH, Ik|]. apply (group_cells_other e k0 i r Hr), (keys_eqv_other k), Ek.
      rewrite SemBasicP.keys_eqv_sym. apply F, Ik.
  Qed.

  (* the group of the row's own key is the row's partition *)
  Lemma group_cells_own e k r op arg extra :
    keys_eqv k (key_of cs pk r) = true -> win_parts e = Some (op, arg, extra) ->
    group_cells e k = combine (map fst (sorted_tagged fl cs w (rows t) r))
                              (win_fn fl op extra (map (fun ir => arg_val fl cs arg (snd ir)) (sorted_tagged fl cs w (rows t) r))).
  Proof.
    intros Hk Hp. unfold group_cells. rewrite Hp.
    assert (filter (fun ir => keys_eqv k (key_of cs pk (snd ir))) (tag_from 0 (rows t)) = part_tagged cs pk (rows t) r) as E.
    { unfold part_tagged, same_part. apply filter_ext. intros ir. rewrite SemBasicP.keys_eqv_sym in Hk.
      symmetry. apply keys_eqv_cong_l. exact Hk. }
    rewrite E. reflexivity.
  Qed.

  Lemma window_column_at e op arg extra i r j :
    win_parts e = Some (op, arg, extra) ->
    nth_error (rows t) i = Some r ->
    nth_error (map fst (sorted_tagged fl cs w (rows t) r)) j = Some i ->
    lookup_pos (window_column fl w t e) i =
      nth j (win_fn fl op extra (map (fun ir => arg_val fl cs arg (snd ir)) (sorted_tagged fl cs w (rows t) r))) VNull.
  Proof.
    intros Hp Hr Hj. rewrite window_column_groups.
    destruct (distinct_keys_complete (map (fun r0 => key_of cs pk r0) (rows t)) (key_of cs pk r)) as [k [Ik Ek]].
    { apply in_map, nth_error_In with i, Hr. }
    unfold lookup_pos. change (fun p : nat * val => Nat.eqb (fst p) i) with (tag_is i).
    rewrite (find_flat_own e _ k i r (distinct_keys_pairwise _) Ik Ek Hr), (group_cells_own e k r op arg extra Ek Hp).
    rewrite (find_combine i _ _ j (sorted_tagged_NoDup fl cs w (rows t) r) Hj).
    set (vals := win_fn fl op extra _).
    destruct (nth_error vals j) as [v|] eqn:En; symmetry; [apply nth_error_nth, En|apply nth_overflow, nth_error_None, En].
  Qed.
End Column.

(* each row's value is the window function over its own ordered partition *)
Theorem window_value_over_own_partition :
  forall (fl : flavor) (ops : list (string * expr)) (w : window) (t : table)
         (k : string) (e : expr) (op : string) (arg : option expr) (extra : list val) (i : nat) (r : list val),
  wf_table t -> NoDup (map fst ops) -> In (k, e) ops -> win_parts e = Some (op, arg, extra) ->
  nth_error (rows t) i = Some r ->
  let srt := sorted_tagged fl (cols t) w (rows t) r in
  let vs := map (fun ir => arg_val fl (cols t) arg (snd ir)) srt in
  exists j r',
    nth_error srt j = Some (i, r)
    /\ (forall j', nth_error (map fst srt) j' = Some i -> j' = j)
    /\ nth_error (rows (sem_wextend fl ops w t)) i = Some r'
    /\ get (ext_cols (cols t) (map fst ops)) r' k = nth j (win_fn fl op extra vs) VNull.
Proof.
  intros fl ops w t k e op arg extra i r [_ W] N I Hp Hr srt vs.
  assert (In (i, r) srt) as Ii by (apply sorted_tagged_In; split; [exact Hr|apply keys_eqv_refl]).
  destruct (In_nth_error _ _ Ii) as [j Hj].
  assert (nth_error (map fst srt) j = Some i) as Hj' by (rewrite nth_error_map, Hj; reflexivity).
  set (wcols := map (fun ke : string * expr => (fst ke, window_column fl w t (snd ke))) ops).
  exists j, (fst (fold_left (fun (acc : list val * list string) (kc : string * list (nat * val)) =>
                               let '(row, ccs) := acc in (set_cell ccs row (fst kc) (lookup_pos (snd kc) i), add_end ccs (fst kc)))
                            wcols (r, cols t))).
  split; [exact Hj|]. split.
  - intros j' H'. pose proof (sorted_tagged_NoDup fl (cols t) w (rows t) r) as ND. fold srt in ND.
    rewrite NoDup_nth_error in ND. apply ND; [|congruence]. apply nth_error_Some. congruence.
  - split.
    + unfold sem_wextend. cbn [rows]. rewrite nth_error_map, (tag_from_nth_error 0 _ _ _ Hr). reflexivity.
    + rewrite Forall_forall in W. assert (List.length r = List.length (cols t)) as L by (apply W; eapply nth_error_In; eassumption).
      assert (In (k, window_column fl w t e) wcols) as Iw.
      { unfold wcols. apply in_map_iff. exists (k, e). split; [reflexivity|exact I]. }
      assert (map fst wcols = map fst ops) as Em by (unfold wcols; apply (map_fst_tagged (fun ke => window_column fl w t (snd ke)))).
      pose proof (fold_cells_get_assigned (fun kc : string * list (nat * val) => lookup_pos (snd kc) i) wcols r (cols t)
                    (k, window_column fl w t e) L) as G.
      rewrite Em in G. specialize (G N Iw). cbn [fst snd] in G.
      etransitivity; [exact G|].
      apply (window_column_at fl w t e op arg extra i r j Hp Hr Hj').
Qed.

(* the ordered partition is the partition, in the declared order *)
Theorem partition_sorted_in_declared_order :
  forall (fl : flavor) (w : window) (t : table) (r : list val),
  let srt := sorted_tagged fl (cols t) w (rows t) r in
  StronglySorted (fun a b => row_le fl (cols t) (okeys_of w) (snd a) (snd b) = true) srt
  /\ Permutation srt (part_tagged (cols t) (w_part w) (rows t) r)
  /\ (forall m r', In (m, r') srt <-> nth_error (rows t) m = Some r' /\ keys_eqv (key_of (cols t) (w_part w) r) (key_of (cols t) (w_part w) r') = true).
Proof.
  intros fl w t r srt. split; [|split].
  - apply (stable_sort_sorted (tle fl (cols t) (okeys_of w))); [intros; apply row_le_total|intros; eapply row_le_trans; eassumption].
  - apply stable_sort_perm.
  - intros m r'. apply sorted_tagged_In.
Qed.

(* the declared direction, made explicit on the FIRST order column: for two rows of the sorted partition whose values in that
   column are non-null and different, the earlier row has the smaller value -- the LARGER one when the column is reversed *)
Lemma first_key_direction fl cs c d keys r1 r2 :
  row_le fl cs ((c, d) :: keys) r1 r2 = true ->
  get cs r1 c <> VNull -> get cs r2 c <> VNull -> v_eqv (get cs r1 c) (get cs r2 c) = false ->
  (if d then v_le (get cs r2 c) (get cs r1 c) else v_le (get cs r1 c) (get cs r2 c)) = true.
Proof.
  cbn [row_le]. intros H N1 N2 E. rewrite E in H. unfold v_le_dir in H.
  destruct (get cs r1 c) eqn:A; [congruence|..]; destruct (get cs r2 c) eqn:B; try congruence; exact H.
Qed.

Theorem reversed_column_sorted_descending :
  forall (fl : flavor) (w : window) (t : table) (r : list val) (c : string) (rest : list string) (p q : nat) (a b : nat * list val),
  w_order w = c :: rest ->
  let srt := sorted_tagged fl (cols t) w (rows t) r in
  nth_error srt p = Some a -> nth_error srt q = Some b -> (p < q)%nat ->
  get (cols t) (snd a) c <> VNull -> get (cols t) (snd b) c <> VNull -> v_eqv (get (cols t) (snd a) c) (get (cols t) (snd b) c) = false ->
  (if mem c (w_rev w) then v_le (get (cols t) (snd b) c) (get (cols t) (snd a) c)
   else v_le (get (cols t) (snd a) c) (get (cols t) (snd b) c)) = true.
Proof.
  intros fl w t r c rest p q a b Ho srt Hp Hq Lt Na Nb E.
  destruct (partition_sorted_in_declared_order fl w t r) as [S _]. fold srt in S.
  assert (row_le fl (cols t) (okeys_of w) (snd a) (snd b) = true) as Le.
  { clear - S Hp Hq Lt. revert p q Hp Hq Lt. induction S as [|x l Sl IH Fx]; intros p q Hp Hq Lt; [destruct p; discriminate|].
    destruct q as [|q]; [lia|]. destruct p as [|p]; simpl in Hp, Hq.
    - inversion Hp; subst. rewrite Forall_forall in Fx. apply Fx. eapply nth_error_In; eassumption.
    - apply (IH p q Hp Hq). lia. }
  unfold okeys_of in Le. rewrite Ho in Le. cbn [map] in Le.
  eapply first_key_direction; eassumption.
Qed.
