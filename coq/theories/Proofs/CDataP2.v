(* C17, part 2: what a strict specification guarantees (spec_facts, both ways); table_is_keyed_by_columns on keyed data;
   the result of rowrecs_to_blocks and of blocks_to_rowrecs as explicit lists of rows (up to row order). *)
From Coq Require Import List Bool Arith String Lia Permutation.
Import ListNotations.
From DA Require Import Base.PyRT Base.Val Model.CData Proofs.CDataP1 Proofs.ListP.

(* control key tuple and value-cell names of one control-table row *)
Definition kap (S : recspec) (cr : list val) : list val := cells (cols (rs_ct S)) cr (rs_ctkeys S).
Definition nm (S : recspec) (cr : list val) : list string :=
  map (fun c => val_str (get (cols (rs_ct S)) cr c)) (value_cols S).
Definition cnames (S : recspec) : list string := map val_str (raw_content (rs_ct S) (rs_ctkeys S)).

Lemma ct_keys_of_kap S : ct_keys_of S = map (kap S) (rows (rs_ct S)).
Proof. reflexivity. Qed.

(* ------------------------------------------------------------------ small list facts *)

Lemma flat_map_if_filter {A B} (p : A -> bool) (f : A -> list B) l :
  flat_map (fun c => if p c then [] else f c) l = flat_map f (filter (fun c => negb (p c)) l).
Proof. induction l as [|x t IH]; simpl; [reflexivity|]. destruct (p x); simpl; rewrite IH; reflexivity. Qed.

(* one direction of eqb_true, for `apply ... in` *)

Lemma filter_key {A K} `{EqDec K} (key : A -> K) l x : NoDup (map key l) -> In x l ->
  filter (fun y => eqb (key y) (key x)) l = [x].
Proof. intros N Hx. apply filter_unique.
  - apply (NoDup_map_inv key). exact N.
  - exact Hx.
  - apply eqb_refl.
  - intros y Hy E. apply -> eqb_true in E. exact (NoDup_map_inj key l y x N Hy Hx E). Qed.

Definition lookup {A K} `{EqDec K} (key : A -> K) (l : list A) (d0 : A) (k : K) : A :=
  hd d0 (filter (fun y => eqb (key y) k) l).

Lemma lookup_key {A K} `{EqDec K} (key : A -> K) l d0 x : NoDup (map key l) -> In x l -> lookup key l d0 (key x) = x.
Proof. intros N Hx. unfold lookup. rewrite (filter_key key l x N Hx). reflexivity. Qed.

Lemma lookup_perm {A K} `{EqDec K} (key : A -> K) l d0 ks : NoDup (map key l) -> NoDup ks ->
  (forall k, In k ks <-> In k (map key l)) -> Permutation l (map (lookup key l d0) ks).
Proof. intros N Nk E.
  assert (El : map (lookup key l d0) (map key l) = l).
  { rewrite map_map. rewrite <- (map_id l) at 2. apply map_ext_in. intros x Hx. apply lookup_key; assumption. }
  rewrite <- El at 1. apply Permutation_map. apply NoDup_Permutation; [exact N|exact Nk|]. intros k. symmetry. apply E. Qed.

Lemma NoDup_flat_map_inv {A B} (f : A -> list B) l : NoDup (flat_map f l) ->
  (forall x, In x l -> NoDup (f x)) /\ (forall x y n, In x l -> In y l -> In n (f x) -> In n (f y) -> x = y).
Proof. induction l as [|z t IH]; simpl; intros N; [split; intros; contradiction|].
  apply NoDup_app_iff in N. destruct N as [Nz [Nt D]]. destruct (IH Nt) as [P Q]. split.
  - intros x [<-|Hx]; [exact Nz|apply P; exact Hx].
  - intros x y n [<-|Hx] [<-|Hy] Ix Iy; try reflexivity.
    + exfalso. apply (D n Ix). apply in_flat_map. exists y. tauto.
    + exfalso. apply (D n Iy). apply in_flat_map. exists x. tauto.
    + apply (Q x y n); assumption. Qed.

Lemma app_inv_length {A} (a1 a2 b1 b2 : list A) : List.length a1 = List.length a2 -> a1 ++ b1 = a2 ++ b2 -> a1 = a2 /\ b1 = b2.
Proof. revert a2. induction a1 as [|x a1 IH]; intros [|y a2] L E; simpl in *; try discriminate; [tauto|].
  inversion E; subst. destruct (IH a2) as [e1 e2]; [lia|assumption|]. subst. tauto. Qed.

(* keys (a x ++ b y) over a product are distinct when both factors are and the first components have one length *)
Lemma NoDup_product {X Y} (a : X -> list val) (b : Y -> list val) (xs : list X) (ys : list Y) n :
  NoDup (map a xs) -> NoDup (map b ys) -> (forall x, In x xs -> List.length (a x) = n) ->
  NoDup (flat_map (fun x => map (fun y => a x ++ b y) ys) xs).
Proof. intros Na Nb L. induction xs as [|x xs IH]; simpl; [constructor|].
  inversion Na as [|? ? Hx Nx]; subst.
  apply NoDup_app_iff; repeat split.
  - rewrite <- (map_map b (fun k => a x ++ k)). apply NoDup_map_inj_on; [exact Nb|].
    intros u v _ _ E. apply app_inv_head in E. exact E.
  - apply IH; [exact Nx|]. intros y Hy. apply L. right. exact Hy.
  - intros k Hk Hk2. apply in_map_iff in Hk. destruct Hk as [y [E Hy]]. subst k.
    apply in_flat_map in Hk2. destruct Hk2 as [x' [Hx' M]]. apply in_map_iff in M. destruct M as [y' [E' Hy']].
    apply app_inv_length in E'; [|rewrite (L x' (or_intror Hx')), (L x (or_introl eq_refl)); reflexivity].
    destruct E' as [E1 _]. apply Hx. rewrite <- E1. apply in_map. exact Hx'. Qed.

(* ------------------------------------------------------------------ what strict_spec gives *)
Record spec_facts (S : recspec) : Prop := {
  sf_cc_nodup : NoDup (cols (rs_ct S));
  sf_ck_ne : rs_ctkeys S <> [];
  sf_ck_sub : forall c, In c (rs_ctkeys S) -> In c (cols (rs_ct S));
  sf_ck_fewer : (List.length (rs_ctkeys S) < List.length (cols (rs_ct S)))%nat;
  sf_rk_ck : forall c, In c (rs_keys S) -> ~ In c (rs_ctkeys S);
  sf_keys_nodup : NoDup (ct_keys_of S);
  sf_names_str : forallb is_str_nonempty (raw_content (rs_ct S) (rs_ctkeys S)) = true;
  sf_rk_names : forall c, In c (rs_keys S) -> ~ In c (cnames S);
  sf_names_nodup : NoDup (cnames S);
  sf_rk_nodup : NoDup (rs_keys S);
  sf_rk_cc : forall c, In c (rs_keys S) -> ~ In c (cols (rs_ct S));
  sf_ck_nodup : NoDup (rs_ctkeys S);
  sf_keys_ok : forall cr, In cr (rows (rs_ct S)) -> key_ok (kap S cr) = true;
  sf_rows_len : forall cr, In cr (rows (rs_ct S)) -> List.length cr = List.length (cols (rs_ct S));
  sf_two_rows : (2 <= List.length (rows (rs_ct S)))%nat;
  sf_strict : rs_strict S = true
}.

Lemma key_ok_non_null k : key_ok k = true -> forallb non_null k = true.
Proof. unfold key_ok. rewrite !forallb_forall. intros h v Hv. specialize (h v Hv). apply andb_true_iff in h. tauto. Qed.

Lemma strict_spec_facts S : strict_spec S = true -> spec_facts S.
Proof. unfold strict_spec. intros H.
  apply andb_true_iff in H. destruct H as [H Hx]. apply andb_true_iff in H. destruct H as [H Hm].
  apply andb_true_iff in H. destruct H as [Hs Hr].
  unfold spec_extra in Hx. repeat (apply andb_true_iff in Hx; destruct Hx as [Hx ?]).
  rename H into x_len, H0 into x_kok, H1 into x_cknd, H2 into x_rkcc. rename Hx into x_rknd.
  apply negb_true_iff in Hr. unfold is_row_spec in Hr. apply Nat.leb_gt in Hr.
  destruct (mk_spec (rs_ct S) (rs_keys S) (Some (rs_ctkeys S)) true) as [s'|] eqn:M; [clear Hm|discriminate].
  (* every test of the constructor came out on the accepting side *)
  unfold mk_spec in M. cbv zeta in M.
  repeat match type of M with (if ?c then _ else _) = _ => let E := fresh "c" in destruct c eqn:E; [discriminate M|] end.
  assert (N1 : Nat.ltb 1 (List.length (rows (rs_ct S))) = true) by (apply Nat.ltb_lt; lia).
  rewrite N1 in *. simpl in c2, c3.
  assert (ckne : rs_ctkeys S <> []) by (intros E; rewrite E in c3; discriminate).
  apply negb_false_iff in c1, c4, c6, c9, c10.
  assert (kok : forall cr, In cr (rows (rs_ct S)) -> key_ok (kap S cr) = true).
  { intros cr Hcr. rewrite forallb_forall in x_kok. apply x_kok. exact Hcr. }
  constructor.
  - apply nodupb_NoDup. exact c1.
  - exact ckne.
  - apply subset_spec. exact c4.
  - apply Nat.leb_gt. exact c5.
  - apply disjointb_spec. exact c6.
  - (* control keys distinct: from table_is_keyed_by_columns *)
    destruct (is_keyed (rs_ctkeys S) (rs_ct S)) as [[|]| |] eqn:K; try discriminate.
    unfold is_keyed in K. assert (L2 : Nat.ltb (List.length (rows (rs_ct S))) 2 = false) by (apply Nat.ltb_ge; lia).
    rewrite L2, c4 in K. destruct (rs_ctkeys S) as [|k0 ks0] eqn:EK; [congruence|]. rewrite <- EK in *.
    rewrite filter_all in K.
    + destruct (map _ _) eqn:EM in K; [discriminate|]. rewrite <- EM in K. inversion K as [K']. apply nodupb_NoDup in K'. exact K'.
    + intros k Hk. apply in_map_iff in Hk. destruct Hk as [cr [E Hcr]]. subst k. apply key_ok_non_null. apply kok. exact Hcr.
  - exact c9.
  - apply disjointb_spec. exact c10.
  - rewrite andb_true_r in c11. apply negb_false_iff in c11. apply nodupb_NoDup. exact c11.
  - apply nodupb_NoDup. exact x_rknd.
  - apply disjointb_spec. exact x_rkcc.
  - apply nodupb_NoDup. exact x_cknd.
  - exact kok.
  - intros cr Hcr. rewrite forallb_forall in x_len. apply Nat.eqb_eq. apply x_len. exact Hcr.
  - lia.
  - exact Hs.
Qed.

(* the value-cell names: the constructor's column-by-column list is a rearrangement of the row-by-row list *)
Lemma cnames_perm S : Permutation (cnames S) (flat_map (nm S) (rows (rs_ct S))).
Proof. unfold cnames, raw_content, nm, value_cols.
  rewrite flat_map_if_filter, map_flat_map. unfold getcol.
  etransitivity; [|apply perm_transpose].
  apply Permutation_refl' . apply flat_map_ext. intros c. rewrite map_map. reflexivity. Qed.

Lemma content_keys_cnames S : spec_facts S -> content_keys S = cnames S.
Proof. intros F. unfold content_keys. apply dedup_NoDup_id; [apply (sf_names_nodup S F)|]. intros x _ [].  Qed.

Lemma value_cols_In S c : In c (value_cols S) <-> In c (cols (rs_ct S)) /\ ~ In c (rs_ctkeys S).
Proof. unfold value_cols. rewrite filter_In, negb_true_iff, mem_false. reflexivity. Qed.

Lemma str_nonempty_eta v : is_str_nonempty v = true -> VStr (val_str v) = v.
Proof. destruct v; try discriminate. reflexivity. Qed.

(* the value cells of a strict specification are non-empty strings *)
Lemma value_cell_str S cr c : spec_facts S -> In cr (rows (rs_ct S)) -> In c (value_cols S) ->
  is_str_nonempty (get (cols (rs_ct S)) cr c) = true.
Proof. intros F Hcr Hc. pose proof (sf_names_str S F) as SC. rewrite forallb_forall in SC. apply SC.
  apply value_cols_In in Hc. destruct Hc as [a b]. unfold raw_content. apply in_flat_map. exists c. split; [exact a|].
  apply mem_false in b. rewrite b. unfold getcol. apply (in_map (fun r0 => get (cols (rs_ct S)) r0 c)). exact Hcr. Qed.

Lemma nm_length S cr : List.length (nm S cr) = List.length (value_cols S).
Proof. apply map_length. Qed.

Lemma nm_In_cnames S cr n : In cr (rows (rs_ct S)) -> In n (nm S cr) -> In n (cnames S).
Proof. intros Hcr Hn. eapply Permutation_in; [symmetry; apply cnames_perm|]. apply in_flat_map. exists cr. tauto. Qed.

Lemma names_by_row_nodup S : spec_facts S -> NoDup (flat_map (nm S) (rows (rs_ct S))).
Proof. intros F. eapply Permutation_NoDup; [apply cnames_perm|apply (sf_names_nodup S F)]. Qed.

(* a name belongs to one control row only *)
Lemma nm_disjoint S cr1 cr2 n : spec_facts S -> In cr1 (rows (rs_ct S)) -> In cr2 (rows (rs_ct S)) ->
  In n (nm S cr1) -> In n (nm S cr2) -> cr1 = cr2.
Proof. intros F. apply (NoDup_flat_map_inv _ _ (names_by_row_nodup S F)). Qed.

Lemma nm_NoDup S cr : spec_facts S -> In cr (rows (rs_ct S)) -> NoDup (nm S cr).
Proof. intros F. apply (NoDup_flat_map_inv _ _ (names_by_row_nodup S F)). Qed.

Lemma ct_row_of_key S cr : spec_facts S -> In cr (rows (rs_ct S)) ->
  filter (fun cr0 => eqb (kap S cr0) (kap S cr)) (rows (rs_ct S)) = [cr].
Proof. intros F Hcr. apply (filter_key (kap S)); [apply (sf_keys_nodup S F)|exact Hcr]. Qed.

(* ------------------------------------------------------------------ table_is_keyed_by_columns *)
Record keyed_facts (ks : list string) (t : table) : Prop := {
  kf_sub : forall c, In c ks -> In c (cols t);
  kf_ok : forall r, In r (rows t) -> key_ok (cells (cols t) r ks) = true;
  kf_nodup : NoDup (map (fun r => cells (cols t) r ks) (rows t))
}.

Lemma keyed_by_facts ks t : keyed_by ks t = true <-> keyed_facts ks t.
Proof. unfold keyed_by. rewrite !andb_true_iff, subset_spec, forallb_forall, nodupb_NoDup. split.
  - intros [[a b] c]. constructor; assumption.
  - intros [a b c]. auto. Qed.

Lemma conforming_keyed S t : conforming_rows S t = true -> keyed_facts (rs_keys S) t.
Proof. unfold conforming_rows. intros H. apply andb_true_iff in H. apply keyed_by_facts. tauto. Qed.

Lemma conforming_sub S t : conforming_rows S t = true -> subset (row_columns S) (cols t) = true.
Proof. unfold conforming_rows. intros H. apply andb_true_iff in H. tauto. Qed.

Lemma is_keyed_ok ks t : keyed_facts ks t -> is_keyed ks t = Ok true.
Proof. intros [Sub K N]. unfold is_keyed. destruct (Nat.ltb (List.length (rows t)) 2) eqn:L; [reflexivity|].
  rewrite (proj2 (subset_spec _ _) Sub). apply Nat.ltb_ge in L. destruct ks as [|k0 ks'].
  - exfalso. destruct (rows t) as [|r1 [|r2 rs]]; simpl in L; try lia. simpl in N. inversion N as [|? ? H1 _]; subst. apply H1. left. reflexivity.
  - rewrite filter_all.
    + destruct (rows t) as [|r1 rs] eqn:E; [simpl in L; lia|]. simpl map at 1. cbv iota. f_equal. apply nodupb_NoDup. exact N.
    + intros k Hk. apply in_map_iff in Hk. destruct Hk as [r [<- Hr]]. apply key_ok_non_null. apply K. exact Hr. Qed.

(* conversely, these facts make RecordSpecification(..., strict=True) accept, test by test *)
Lemma spec_facts_mk_spec S : spec_facts S -> mk_spec (rs_ct S) (rs_keys S) (Some (rs_ctkeys S)) true = Some S.
Proof. intros F.
  assert (ES : mkspec (rs_keys S) (rs_ct S) (rs_ctkeys S) true = S).
  { pose proof (sf_strict S F) as ST. destruct S as [rk ct ctk st]. simpl in ST. rewrite ST. reflexivity. }
  rewrite <- ES at 4. clear ES.
  set (ct := rs_ct S). set (rk := rs_keys S). set (ctk := rs_ctkeys S).
  pose proof (sf_two_rows S F) as L2. pose proof (sf_ck_fewer S F) as Lk. pose proof (sf_ck_ne S F) as NE. fold ct ctk in L2, Lk, NE.
  assert (Sub : subset ctk (cols ct) = true) by (apply subset_spec; apply (sf_ck_sub S F)).
  assert (K : is_keyed ctk ct = Ok true).
  { apply is_keyed_ok. constructor; [apply (sf_ck_sub S F)|apply (sf_keys_ok S F)|apply (sf_keys_nodup S F)]. }
  unfold mk_spec. cbv zeta.
  assert (E1 : Nat.ltb (List.length (rows ct)) 1 = false) by (apply Nat.ltb_ge; lia). rewrite E1.
  assert (E2 : Nat.ltb (List.length (cols ct)) 2 = false) by (apply Nat.ltb_ge; destruct ctk; [congruence|simpl in Lk; lia]).
  rewrite E2.
  rewrite (proj2 (nodupb_NoDup _) (sf_cc_nodup S F)). simpl negb. cbv iota.
  assert (E4 : Nat.ltb 1 (List.length (rows ct)) = true) by (apply Nat.ltb_lt; lia). rewrite E4, K.
  assert (E0 : match ctk with [] => true | _ :: _ => false end = false) by (destruct ctk; [congruence|reflexivity]).
  rewrite E0. cbn [orb andb]. rewrite Sub. cbn [negb].
  rewrite (proj2 (Nat.leb_gt _ _) Lk).
  rewrite (proj2 (disjointb_spec rk ctk) (sf_rk_ck S F)). cbn [negb].
  subst ct rk ctk. rewrite existsb_false.
  - fold (cnames S). rewrite (sf_names_str S F). cbn [negb].
    rewrite (proj2 (disjointb_spec _ (cnames S)) (sf_rk_names S F)). cbn [negb].
    rewrite (proj2 (nodupb_NoDup _) (sf_names_nodup S F)). reflexivity.
  - (* no null in a key column: the key tuples are key_ok *)
    intros ck Hck. apply existsb_false. intros v Hv. unfold getcol in Hv. apply in_map_iff in Hv. destruct Hv as [r [<- Hr]].
    pose proof (key_ok_non_null _ (sf_keys_ok S F r Hr)) as h. unfold kap, cells in h. rewrite forallb_forall in h.
    rewrite (h _ (in_map _ _ _ Hck)). reflexivity. Qed.

Lemma spec_facts_strict S : spec_facts S -> strict_spec S = true.
Proof. intros F. unfold strict_spec. rewrite (sf_strict S F), (spec_facts_mk_spec S F).
  assert (R : is_row_spec S = false) by (unfold is_row_spec; apply Nat.leb_gt; apply (sf_two_rows S F)). rewrite R. simpl.
  unfold spec_extra. rewrite !andb_true_iff. repeat split.
  - apply nodupb_NoDup. apply (sf_rk_nodup S F).
  - apply disjointb_spec. apply (sf_rk_cc S F).
  - apply nodupb_NoDup. apply (sf_ck_nodup S F).
  - apply forallb_forall. apply (sf_keys_ok S F).
  - apply forallb_forall. intros r Hr. apply Nat.eqb_eq. apply (sf_rows_len S F). exact Hr. Qed.

Lemma keyed_facts_select ks cs X : (forall c, In c ks -> In c cs) -> keyed_facts ks X -> keyed_facts ks (select_cols cs X).
Proof. intros Sub KF.
  assert (E : forall r, cells cs (cells (cols X) r cs) ks = cells (cols X) r ks) by (intros r; apply cells_cells; exact Sub).
  constructor; simpl.
  - exact Sub.
  - intros x Hx. apply in_map_iff in Hx. destruct Hx as [r [<- Hr]]. rewrite E. apply (kf_ok _ _ KF). exact Hr.
  - rewrite map_map. rewrite (map_ext _ _ E). apply (kf_nodup _ _ KF). Qed.

Lemma In_rc S c : In c (row_columns S) <-> In c (rs_keys S) \/ In c (content_keys S).
Proof. unfold row_columns. apply in_app_iff. Qed.

Lemma rk_in_rc S c : In c (rs_keys S) -> In c (row_columns S).
Proof. intros Hc. apply In_rc. left. exact Hc. Qed.

Lemma is_keyed_select_ok S X : keyed_facts (rs_keys S) X -> is_keyed (rs_keys S) (select_cols (row_columns S) X) = Ok true.
Proof. intros KF. apply is_keyed_ok. apply keyed_facts_select; [apply rk_in_rc|exact KF]. Qed.

Lemma sort_rows_nil cs rs : sort_rows cs [] rs = rs.
Proof. unfold sort_rows. apply sort_by_const. reflexivity. Qed.

(* ------------------------------------------------------------------ rowrecs_to_blocks, unfolded *)
Definition r2b_row (S : recspec) (cr x : list val) : list val :=
  cells (row_columns S) x (rs_keys S) ++ kap S cr ++ cells (row_columns S) x (nm S cr).
Definition r2b_cols (S : recspec) : list string := rs_keys S ++ rs_ctkeys S ++ value_cols S.

Lemma r2b_unfold S T : rows T <> [] -> is_keyed (rs_keys S) (select_cols (row_columns S) T) = Ok true ->
  rowrecs_to_blocks S T =
  Ok (mktable (r2b_cols S)
        (sort_rows (r2b_cols S) (rs_keys S ++ rs_ctkeys S)
           (flat_map (fun cr => map (r2b_row S cr) (rows (select_cols (row_columns S) T))) (rows (rs_ct S))))).
Proof. intros NE K. unfold rowrecs_to_blocks. cbv zeta. rewrite K.
  destruct (rows (select_cols (row_columns S) T)) eqn:E.
  - simpl in E. destruct (rows T); [congruence|discriminate].
  - rewrite <- E. reflexivity. Qed.

Lemma r2b_empty S T : rows T = [] -> rowrecs_to_blocks S T = Ok (mktable (block_columns S) []).
Proof. intros E. unfold rowrecs_to_blocks. cbv zeta. simpl. rewrite E. reflexivity. Qed.

Lemma b2r_empty S T : rows T = [] -> blocks_to_rowrecs S T = Ok (mktable (row_columns S) []).
Proof. intros E. unfold blocks_to_rowrecs. cbv zeta. simpl. rewrite E. reflexivity. Qed.

(* blocks_to_rowrecs on a table whose (selected) rows are the complete blocks of a list of records: the result, as an
   explicit table up to row order.  The Pandas realisation (Model/CData.v) and the Polars one (Model/CDataPolars.v) run the
   same steps and differ in four places: how a group's names are looked up, the sort, a check for repeated column labels,
   and what an unknown control key gives.  The steps after the keyed check are written once, over these four (b2r_tail),
   and characterised once (b2r_tail_char). *)

Lemma key_ok_app a b : key_ok (a ++ b) = key_ok a && key_ok b.
Proof. unfold key_ok. apply forallb_app. Qed.

(* the columns kept by limit_and_rename_cols are the value columns *)
Lemma keep_eq S : spec_facts S ->
  filter (fun c => negb (mem c (rs_keys S ++ rs_ctkeys S))) (block_columns S) = value_cols S.
Proof. intros F. unfold block_columns, value_cols. rewrite filter_app.
  rewrite filter_none.
  - simpl. apply filter_ext_in. intros c Hc. rewrite mem_app.
    destruct (mem c (rs_keys S)) eqn:M; [|reflexivity]. apply mem_In in M. exfalso. exact (sf_rk_cc S F c M Hc).
  - intros c Hc. rewrite mem_app. apply negb_false_iff. apply orb_true_iff. left. apply mem_In. exact Hc. Qed.

Lemma lookup_names_ok S cr : spec_facts S -> In cr (rows (rs_ct S)) -> lookup_names S (kap S cr) = Ok (nm S cr).
Proof. intros F Hcr. pose proof (ct_row_of_key S cr F Hcr) as E. unfold lookup_names, kap in *. rewrite E. reflexivity. Qed.

Lemma match_nonempty {A B} (l : list A) (a b : B) : l <> [] -> match l with [] => a | _ :: _ => b end = b.
Proof. destruct l; [congruence|reflexivity]. Qed.

Lemma sort_unless_nil (srt : list string -> list string -> list (list val) -> list (list val)) cs ks g :
  srt cs ks g = sort_rows cs ks g -> match ks with [] => g | _ :: _ => srt cs ks g end = sort_rows cs ks g.
Proof. intros E. destruct ks; [symmetry; apply sort_rows_nil|exact E]. Qed.

Section Tail.
  Variable lk : list val -> res (list string).
  Variable srt : list string -> list string -> list (list val) -> list (list val).
  Variable chk : list string -> bool.
  Variable junk : res table.

  (* blocks_to_rowrecs after the groups are formed and sorted (the model's text; b2r_unfold ties them) *)
  Definition b2r_tail (S : recspec) (split : list (list val * list (list val))) : res table :=
    let RK := rs_keys S in let CK := rs_ctkeys S in let bc := block_columns S in
    match split with
    | [] => Reject
    | (_, g0) :: rest =>
      if negb (forallb (fun kg => Nat.eqb (List.length (snd kg)) (List.length g0)) rest) then Reject
      else
        let sk := map (fun r => cells bc r RK) g0 in
        let keep := filter (fun c => negb (mem c (RK ++ CK))) bc in
        let pieces := map (fun kg => map (fun r => cells bc r keep) (snd kg)) split in
        match res_all (map (fun kg => lk (fst kg)) split) with
        | Reject => Reject
        | Junk => junk
        | Ok names =>
          if negb (forallb (fun ns => Nat.eqb (List.length ns) (List.length keep)) names) then Reject
          else
            let cs := RK ++ List.concat names in
            if negb (chk cs) then Reject
            else
              let body := hcat2 sk (hcat_all (List.length g0) pieces) in
              Ok (mktable cs (match RK with [] => body | _ => srt cs RK body end))
        end
    end.

  (* the tail on groups that are all images of one list of records *)
  Lemma b2r_tail_explicit S (F : spec_facts S) {X} (rk : X -> list val) (vals : X -> list val -> list val)
        (brow : X -> list val -> list val) (cr_of : list val -> list val) (Rs : list X) (Ks : list (list val)) :
    (forall cr, In cr (rows (rs_ct S)) -> lk (kap S cr) = Ok (nm S cr)) ->
    (forall cs ks rs, Permutation (srt cs ks rs) rs) ->
    chk (rs_keys S ++ List.concat (map (nm S) (map cr_of Ks))) = true ->
    Ks <> [] ->
    (forall k, In k Ks -> In (cr_of k) (rows (rs_ct S)) /\ k = kap S (cr_of k)) ->
    (forall x k, In x Rs -> In k Ks -> cells (block_columns S) (brow x (cr_of k)) (rs_keys S) = rk x) ->
    (forall x k, In x Rs -> In k Ks -> cells (block_columns S) (brow x (cr_of k)) (value_cols S) = vals x (cr_of k)) ->
    exists rows',
      b2r_tail S (map (fun k => (k, map (fun x => brow x (cr_of k)) Rs)) Ks)
      = Ok (mktable (rs_keys S ++ List.concat (map (nm S) (map cr_of Ks))) rows') /\
      Permutation rows' (map (fun x => rk x ++ List.concat (map (vals x) (map cr_of Ks))) Rs).
  Proof. intros Hlk Hsrt Hchk NE KI Hrk Hvc.
    exists (match rs_keys S with
            | [] => map (fun x => rk x ++ List.concat (map (vals x) (map cr_of Ks))) Rs
            | _ :: _ => srt (rs_keys S ++ List.concat (map (nm S) (map cr_of Ks))) (rs_keys S)
                          (map (fun x => rk x ++ List.concat (map (vals x) (map cr_of Ks))) Rs)
            end).
    split; [|destruct (rs_keys S); [reflexivity|apply Hsrt]].
    unfold b2r_tail. cbv zeta. rewrite (keep_eq S F).
    destruct Ks as [|k0 Ks'] eqn:EK; [congruence|]. rewrite <- EK in *. rewrite EK at 1. simpl map at 1. cbv iota beta.
    match goal with |- context [forallb ?f ?l] => assert (FA : forallb f l = true) end.
    { apply forallb_forall. intros kg Hkg. apply in_map_iff in Hkg. destruct Hkg as [k [<- _]]. simpl.
      rewrite !map_length. apply Nat.eqb_refl. }
    rewrite FA. clear FA. simpl negb. cbv iota.
    assert (EN : res_all (map (fun kg : list val * list (list val) => lk (fst kg))
                            (map (fun k => (k, map (fun x => brow x (cr_of k)) Rs)) Ks))
                 = Ok (map (fun k => nm S (cr_of k)) Ks)).
    { rewrite map_map. simpl. clear EK NE Hrk Hvc Hchk. induction Ks as [|k l IH]; simpl; [reflexivity|].
      destruct (KI k (or_introl eq_refl)) as [Hk Ek]. rewrite Ek at 1. rewrite (Hlk _ Hk).
      rewrite IH by (intros k' Hk'; apply KI; right; exact Hk'). reflexivity. }
    rewrite EN. clear EN.
    match goal with |- context [forallb ?f ?l] => assert (FA : forallb f l = true) end.
    { apply forallb_forall. intros ns Hns. apply in_map_iff in Hns. destruct Hns as [k [<- _]]. rewrite nm_length. apply Nat.eqb_refl. }
    rewrite FA. clear FA. simpl negb. cbv iota.
    rewrite <- (map_map cr_of (nm S)). rewrite Hchk. simpl negb. cbv iota.
    assert (Hk0 : In k0 Ks) by (rewrite EK; left; reflexivity).
    assert (EB : hcat2 (map (fun r => cells (block_columns S) r (rs_keys S)) (map (fun x => brow x (cr_of k0)) Rs))
                   (hcat_all (List.length (map (fun x => brow x (cr_of k0)) Rs))
                      (map (fun kg : list val * list (list val) => map (fun r => cells (block_columns S) r (value_cols S)) (snd kg))
                         (map (fun k => (k, map (fun x => brow x (cr_of k)) Rs)) Ks)))
                 = map (fun x => rk x ++ List.concat (map (vals x) (map cr_of Ks))) Rs).
    { rewrite (map_ext (fun x => rk x ++ List.concat (map (vals x) (map cr_of Ks)))
                       (fun x => rk x ++ List.concat (map (fun k => vals x (cr_of k)) Ks))) by (intros x; rewrite map_map; reflexivity).
      rewrite map_length. rewrite !map_map. simpl.
      rewrite (map_ext_in (fun x => cells (block_columns S) (brow x (cr_of k0)) (rs_keys S)) rk) by (intros x Hx; apply Hrk; assumption).
      rewrite (map_ext_in _ (fun k => map (fun x => vals x (cr_of k)) Rs)).
      - rewrite (hcat_all_map (fun k x => vals x (cr_of k)) Ks Rs). apply hcat2_map.
      - intros k Hk. rewrite map_map. apply map_ext_in. intros x Hx. apply Hvc; assumption. }
    rewrite EB. reflexivity. Qed.
End Tail.

Lemma b2r_unfold S T :
  rows (select_cols (block_columns S) T) <> [] ->
  is_keyed (rs_keys S ++ rs_ctkeys S) (select_cols (block_columns S) T) = Ok true ->
  blocks_to_rowrecs S T =
  b2r_tail (lookup_names S) sort_rows (fun _ => true) Junk S
    (map (fun kg : list val * list (list val) =>
            (fst kg, match rs_keys S with [] => snd kg | _ :: _ => sort_rows (block_columns S) (rs_keys S) (snd kg) end))
         (groupby (rs_ctkeys S) (select_cols (block_columns S) T))).
Proof. intros NE K. unfold blocks_to_rowrecs. cbv zeta. rewrite (match_nonempty _ _ _ NE). rewrite K. reflexivity. Qed.

(* the selected block rows are the rows brow x cr, one for every record x and control row cr *)
Section B2R.
  Variable S : recspec.
  Hypothesis F : spec_facts S.
  Variable X : Type.
  Variable rk : X -> list val.
  Variable vals : X -> list val -> list val.
  Variable brow : X -> list val -> list val.
  Variable recs : list X.
  Variable T : table.
  Let bc := block_columns S.
  Let RK := rs_keys S.
  Let CK := rs_ctkeys S.
  Let ctrows := rows (rs_ct S).
  Hypothesis Hperm : Permutation (rows (select_cols bc T)) (flat_map (fun x => map (brow x) ctrows) recs).
  Hypothesis Hne : recs <> [].
  Hypothesis Hrk_nodup : NoDup (map rk recs).
  Hypothesis Hrk_ok : forall x, In x recs -> key_ok (rk x) = true.
  Hypothesis Hrk_len : forall x, In x recs -> List.length (rk x) = List.length RK.
  Hypothesis Hb_rk : forall x cr, In x recs -> In cr ctrows -> cells bc (brow x cr) RK = rk x.
  Hypothesis Hb_ck : forall x cr, In x recs -> In cr ctrows -> cells bc (brow x cr) CK = kap S cr.
  Hypothesis Hb_vc : forall x cr, In x recs -> In cr ctrows -> cells bc (brow x cr) (value_cols S) = vals x cr.

  Let d := rows (select_cols bc T).
  Let grp (k : list val) := filter (fun r => eqb (cells bc r CK) k) d.
  Let cr_of : list val -> list val := lookup (kap S) ctrows [].
  Let Rs := sort_by rk recs.

  Lemma b2r_ctrows_nodup : NoDup ctrows.
  Proof. apply (NoDup_map_inv (kap S)). apply (sf_keys_nodup S F). Qed.

  Lemma b2r_cr_of cr : In cr ctrows -> cr_of (kap S cr) = cr.
  Proof. intros Hcr. apply lookup_key; [apply (sf_keys_nodup S F)|exact Hcr]. Qed.

  Lemma b2r_d_In r : In r d <-> exists x cr, In x recs /\ In cr ctrows /\ r = brow x cr.
  Proof. split.
    - intros I. apply (Permutation_in _ Hperm) in I. apply in_flat_map in I. destruct I as [x [Hx M]].
      apply in_map_iff in M. destruct M as [cr [E Hcr]]. exists x, cr. auto.
    - intros [x [cr [Hx [Hcr E]]]]. apply (Permutation_in _ (Permutation_sym Hperm)). apply in_flat_map. exists x. split; [exact Hx|].
      apply in_map_iff. exists cr. auto. Qed.

  Lemma b2r_keyed : keyed_facts (RK ++ CK) (select_cols bc T).
  Proof. constructor; simpl.
    - intros c Hc. unfold bc, block_columns. apply in_app_iff in Hc. apply in_app_iff.
      destruct Hc as [i|i]; [left; exact i|right; apply (sf_ck_sub S F); exact i].
    - intros r Hr. apply b2r_d_In in Hr. destruct Hr as [x [cr [Hx [Hcr ->]]]].
      rewrite cells_app, key_ok_app, (Hb_rk x cr Hx Hcr), (Hb_ck x cr Hx Hcr), (Hrk_ok x Hx), (sf_keys_ok S F cr Hcr). reflexivity.
    - eapply Permutation_NoDup; [apply Permutation_map; apply Permutation_sym; exact Hperm|].
      rewrite map_flat_map.
      rewrite (flat_map_ext_in _ (fun x => map (fun cr => rk x ++ kap S cr) ctrows)).
      + apply NoDup_product with (n := List.length RK); [exact Hrk_nodup|apply (sf_keys_nodup S F)|exact Hrk_len].
      + intros x Hx. rewrite map_map. apply map_ext_in. intros cr Hcr.
        rewrite cells_app, (Hb_rk x cr Hx Hcr), (Hb_ck x cr Hx Hcr). reflexivity. Qed.

  Lemma b2r_rec_ex : exists x0, In x0 recs.
  Proof. destruct recs as [|x0 rest]; [congruence|]. exists x0. left. reflexivity. Qed.
  Lemma b2r_cr_ex : exists cr0, In cr0 ctrows.
  Proof. pose proof (sf_two_rows S F) as L. unfold ctrows. destruct (rows (rs_ct S)) as [|cr0 t]; [simpl in L; lia|].
    exists cr0. left. reflexivity. Qed.

  Lemma b2r_d_ne : d <> [].
  Proof. intros E. destruct b2r_rec_ex as [x0 Hx0]. destruct b2r_cr_ex as [cr0 Hcr0].
    assert (I : In (brow x0 cr0) d) by (apply b2r_d_In; exists x0, cr0; auto).
    rewrite E in I. destruct I. Qed.

  Lemma b2r_keys_In k : In k (map (fun r => cells bc r CK) d) <-> exists cr, In cr ctrows /\ k = kap S cr.
  Proof. rewrite in_map_iff. split.
    - intros [r [E Hr]]. apply b2r_d_In in Hr. destruct Hr as [x [cr [Hx [Hcr ->]]]].
      exists cr. split; [exact Hcr|]. rewrite <- E. apply Hb_ck; assumption.
    - intros [cr [Hcr ->]]. destruct b2r_rec_ex as [x0 Hx0].
      exists (brow x0 cr). split; [apply Hb_ck; assumption|]. apply b2r_d_In. exists x0, cr. auto. Qed.

  (* one group, sorted by the record keys: the rows of that control key, in the order of the sorted records *)
  Lemma b2r_group cr : In cr ctrows -> sort_rows bc RK (grp (kap S cr)) = map (fun x => brow x cr) Rs.
  Proof. intros Hcr. unfold sort_rows, Rs.
    rewrite <- (sort_by_map_in rk (fun r => cells bc r RK) (fun x => brow x cr)) by (intros a Ha; apply Hb_rk; assumption).
    symmetry. apply sort_by_perm_eq.
    - (* the group is a rearrangement of the rows brow x cr *)
      etransitivity; [|apply perm_filter; apply Permutation_sym; exact Hperm].
      rewrite filter_flat_map.
      rewrite (flat_map_ext_in _ (fun x => [brow x cr])); [rewrite flat_map_singleton; reflexivity|].
      intros x Hx. rewrite filter_map_comm.
      rewrite (filter_ext_in _ (fun cr0 => eqb (kap S cr0) (kap S cr))) by (intros y Hy; rewrite (Hb_ck x y Hx Hy); reflexivity).
      unfold ctrows. rewrite (ct_row_of_key S cr F Hcr). reflexivity.
    - rewrite map_map. rewrite (map_ext_in _ rk); [exact Hrk_nodup|]. intros a Ha. apply Hb_rk; assumption.
    - apply Forall_forall. intros r Hr. apply in_map_iff in Hr. destruct Hr as [x [<- Hx]].
      rewrite (Hb_rk x cr Hx Hcr). apply key_ok_keyc. apply Hrk_ok. exact Hx. Qed.

  Lemma b2r_group_nn k r : In r (grp k) -> forallb non_null (cells bc r RK) = true.
  Proof. intros Hr. apply filter_In in Hr. destruct Hr as [Hr _]. apply b2r_d_In in Hr. destruct Hr as [x [cr [Hx [Hcr ->]]]].
    rewrite (Hb_rk x cr Hx Hcr). apply key_ok_non_null. apply Hrk_ok. exact Hx. Qed.

  Theorem b2r_tail_char lk srt chk junk Ks :
    (forall cr, In cr ctrows -> lk (kap S cr) = Ok (nm S cr)) ->
    (forall cs ks rs, Permutation (srt cs ks rs) rs) ->
    (forall cs ks rs, (forall r, In r rs -> forallb non_null (cells cs r ks) = true) -> srt cs ks rs = sort_rows cs ks rs) ->
    (forall G, Permutation G ctrows -> chk (RK ++ List.concat (map (nm S) G)) = true) ->
    NoDup Ks -> (forall k, In k Ks <-> exists cr, In cr ctrows /\ k = kap S cr) ->
    exists G rows', Permutation G ctrows /\
      b2r_tail lk srt chk junk S (map (fun k => (k, match RK with [] => grp k | _ :: _ => srt bc RK (grp k) end)) Ks)
      = Ok (mktable (RK ++ List.concat (map (nm S) G)) rows') /\
      Permutation rows' (map (fun x => rk x ++ List.concat (map (vals x) G)) recs).
  Proof. intros Hlk Hsrt_perm Hsrt Hchk NK KsIn.
    exists (map cr_of Ks).
    assert (KI : forall k, In k Ks -> In (cr_of k) ctrows /\ k = kap S (cr_of k)).
    { intros k Hk. apply KsIn in Hk. destruct Hk as [cr [Hcr ->]]. rewrite b2r_cr_of by exact Hcr. auto. }
    assert (KsNE : Ks <> []).
    { intros E. destruct b2r_cr_ex as [cr0 Hcr0].
      assert (I : In (kap S cr0) Ks) by (apply KsIn; exists cr0; auto). rewrite E in I. destruct I. }
    assert (HG : Permutation (map cr_of Ks) ctrows).
    { apply NoDup_Permutation.
      - apply (NoDup_map_inv (kap S)). rewrite map_map.
        rewrite (map_ext_in _ (fun k => k)); [rewrite map_id; exact NK|].
        intros k Hk. symmetry. apply KI. exact Hk.
      - apply b2r_ctrows_nodup.
      - intros cr. rewrite in_map_iff. split.
        + intros [k [<- Hk]]. apply KI. exact Hk.
        + intros Hcr. exists (kap S cr). split; [apply b2r_cr_of; exact Hcr|]. apply KsIn. exists cr. auto. }
    assert (Split : map (fun k => (k, match RK with [] => grp k | _ :: _ => srt bc RK (grp k) end)) Ks
                    = map (fun k => (k, map (fun x => brow x (cr_of k)) Rs)) Ks).
    { apply map_ext_in. intros k Hk. f_equal. rewrite sort_unless_nil by (apply Hsrt; apply b2r_group_nn).
      destruct (KI k Hk) as [Hcr Ek]. rewrite Ek at 1. apply b2r_group. exact Hcr. }
    rewrite Split.
    destruct (b2r_tail_explicit lk srt chk junk S F rk vals brow cr_of Rs Ks Hlk Hsrt_perm (Hchk _ HG) KsNE KI) as [rows' [E P]].
    - intros x k Hx Hk. apply Hb_rk; [apply (sort_by_In rk recs x); exact Hx|apply KI; exact Hk].
    - intros x k Hx Hk. apply Hb_vc; [apply (sort_by_In rk recs x); exact Hx|apply KI; exact Hk].
    - exists rows'. split; [exact HG|]. split; [exact E|].
      etransitivity; [exact P|]. apply Permutation_map. apply sort_by_perm.
  Qed.

  Lemma b2r_group_keys_In k : In k (group_keys CK (select_cols bc T)) <-> exists cr, In cr ctrows /\ k = kap S cr.
  Proof. unfold group_keys. rewrite sort_by_In, In_dedup, filter_In.
    change (map _ (rows (select_cols bc T))) with (map (fun r => cells bc r CK) d). rewrite b2r_keys_In. split.
    - tauto.
    - intros [cr [Hcr ->]]. split; [|tauto]. split; [exists cr; auto|]. apply key_ok_non_null. apply (sf_keys_ok S F). exact Hcr. Qed.

  Theorem b2r_char :
    exists G rows', Permutation G ctrows /\
      blocks_to_rowrecs S T = Ok (mktable (RK ++ List.concat (map (nm S) G)) rows') /\
      Permutation rows' (map (fun x => rk x ++ List.concat (map (vals x) G)) recs).
  Proof. rewrite (b2r_unfold S T b2r_d_ne (is_keyed_ok _ _ b2r_keyed)). unfold groupby. rewrite map_map.
    apply (b2r_tail_char (lookup_names S) sort_rows (fun _ => true) Junk (group_keys CK (select_cols bc T))).
    - intros cr Hcr. apply lookup_names_ok; assumption.
    - intros cs ks rs. apply sort_by_perm.
    - reflexivity.
    - reflexivity.
    - eapply Permutation_NoDup; [apply Permutation_sym; apply sort_by_perm|apply NoDup_dedup].
    - apply b2r_group_keys_In.
  Qed.
End B2R.
