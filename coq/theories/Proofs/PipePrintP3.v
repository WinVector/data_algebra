(* Proofs/PipePrintP3.v -- C12, character level, part 3: the text of an expression (text_py) lexes to the tokens of
   the token printer (ExprPrint.to_py). *)
From Coq Require Import List Bool String Ascii QArith Lia ZifyBool.
Import ListNotations.
From DA Require Import Model.PyExpr Model.ExprPrint Model.PipePrintStr Proofs.ExprParseP12 Proofs.PipePrintP1 Proofs.PipePrintP2.
Local Close Scope Q_scope.
Local Open Scope string_scope.
Local Open Scope bool_scope.
Local Open Scope list_scope.

(* ------------------------------------------------------------------ equations of the two printers *)
Lemma sjoin_cons2 (sep a b : string) (l : list string) : sjoin sep (a :: b :: l) = a +++ sep +++ sjoin sep (b :: l).
Proof. reflexivity. Qed.
Lemma join_with_cons2 (sep a b : list tok) (l : list (list tok)) : join_with sep (a :: b :: l) = a ++ sep ++ join_with sep (b :: l).
Proof. reflexivity. Qed.

Section Printers.
Variable F : ffmt.
Variable np : N -> bool.

Lemma text_py_nil want op i m p : text_py F np want (EOp op i m p []) = (op +++ "(" +++ sjoin ", " [] +++ ")", false).
Proof. reflexivity. Qed.
Lemma to_py_nil want op i m p :
  to_py want (EOp op i m p []) = (op_tok op :: TSym "(" :: join_with [TSym ","] [] ++ [TSym ")"], false).
Proof. reflexivity. Qed.

Definition unary_text (op : string) (a : expr) : string :=
  op +++ (if snd (text_py F np false a) then fst (text_py F np false a) else sparen (fst (text_py F np false a))).
Definition unary_toks (op : string) (a : expr) : list tok :=
  op_tok op :: (if snd (to_py false a) then fst (to_py false a) else paren (fst (to_py false a))).

Lemma text_py_unary want op m p a :
  text_py F np want (EOp op true m p [a]) = (if want then sparen (unary_text op a) else unary_text op a, want).
Proof. unfold unary_text. cbn [text_py]. destruct (text_py F np false a) as [t0 p0]. destruct want; reflexivity. Qed.
Lemma to_py_unary want op m p a :
  to_py want (EOp op true m p [a]) = (if want then paren (unary_toks op a) else unary_toks op a, want).
Proof. unfold unary_toks. cbn [to_py]. destruct (to_py false a) as [t0 p0]. destruct want; reflexivity. Qed.

Definition infix_text (op : string) (args : list expr) : string :=
  sjoin (" " +++ op +++ " ") (map (fun a => fst (text_py F np true a)) args).
Definition infix_toks (op : string) (args : list expr) : list tok :=
  join_with [op_tok op] (map (fun a => fst (to_py true a)) args).

Lemma text_py_infix want op m p a b l :
  text_py F np want (EOp op true m p (a :: b :: l))
  = (if want then sparen (infix_text op (a :: b :: l)) else infix_text op (a :: b :: l), want).
Proof. unfold infix_text. destruct want; reflexivity. Qed.
Lemma to_py_infix want op m p a b l :
  to_py want (EOp op true m p (a :: b :: l))
  = (if want then paren (infix_toks op (a :: b :: l)) else infix_toks op (a :: b :: l), want).
Proof. unfold infix_toks. destruct want; reflexivity. Qed.

Definition recv_text (a : expr) : string :=
  if snd (text_py F np false a) || is_col a then fst (text_py F np false a) else sparen (fst (text_py F np false a)).
Definition recv_toks (a : expr) : list tok :=
  if snd (to_py false a) || is_col a then fst (to_py false a) else paren (fst (to_py false a)).

Lemma text_py_method want op p a l :
  text_py F np want (EOp op false true p (a :: l))
  = (recv_text a +++ "." +++ op +++ "(" +++ sjoin ", " (map (fun x => fst (text_py F np false x)) l) +++ ")", false).
Proof. unfold recv_text. rewrite <- (map_map (text_py F np false) fst).
  destruct l as [|b l]; cbn [text_py map]; destruct (text_py F np false a) as [t0 p0]; reflexivity. Qed.
Lemma to_py_method want op p a l :
  to_py want (EOp op false true p (a :: l))
  = (recv_toks a ++ TSym "." :: op_tok op :: TSym "(" :: join_with [TSym ","] (map (fun x => fst (to_py false x)) l) ++ [TSym ")"], false).
Proof. unfold recv_toks. rewrite <- (map_map (to_py false) fst).
  destruct l as [|b l]; cbn [to_py map]; destruct (to_py false a) as [t0 p0]; reflexivity. Qed.

Lemma text_py_func want op p a l :
  text_py F np want (EOp op false false p (a :: l))
  = (op +++ "(" +++ sjoin ", " (map (fun x => fst (text_py F np false x)) (a :: l)) +++ ")", false).
Proof. rewrite <- (map_map (text_py F np false) fst).
  destruct l as [|b l]; cbn [text_py map]; [destruct (text_py F np false a) as [t0 p0]|]; reflexivity. Qed.
Lemma to_py_func want op p a l :
  to_py want (EOp op false false p (a :: l))
  = (op_tok op :: TSym "(" :: join_with [TSym ","] (map (fun x => fst (to_py false x)) (a :: l)) ++ [TSym ")"], false).
Proof. rewrite <- (map_map (to_py false) fst).
  destruct l as [|b l]; cbn [to_py map]; [destruct (to_py false a) as [t0 p0]|]; reflexivity. Qed.

(* the two printers put parentheses in the same places *)
Lemma snd_text_py (want : bool) (e : expr) : snd (text_py F np want e) = snd (to_py want e).
Proof. destruct e as [n|v|vs|kvs|op i m p args]; try reflexivity.
  - cbn [text_py to_py]. destruct (want && prints_with_sign v); reflexivity.
  - destruct args as [|a [|b l]]; [reflexivity| |].
    + destruct i; [rewrite text_py_unary, to_py_unary; reflexivity|].
      destruct m; [rewrite text_py_method, to_py_method|rewrite text_py_func, to_py_func]; reflexivity.
    + destruct i; [rewrite text_py_infix, to_py_infix; reflexivity|].
      destruct m; [rewrite text_py_method, to_py_method|rewrite text_py_func, to_py_func]; reflexivity. Qed.

(* a text flagged as parenthesised is "(" ... ")" *)
Lemma text_py_parens (want : bool) (e : expr) : snd (text_py F np want e) = true ->
  exists t, fst (text_py F np want e) = sparen t.
Proof. destruct e as [n|v|vs|kvs|op i m p args]; try discriminate.
  - cbn [text_py]. destruct (want && prints_with_sign v); [|discriminate]. intros _. eexists. reflexivity.
  - destruct args as [|a [|b l]]; [discriminate| |].
    + destruct i; [rewrite text_py_unary|destruct m; [rewrite text_py_method|rewrite text_py_func]; discriminate].
      cbn [fst snd]. intros ->. eexists. reflexivity.
    + destruct i; [rewrite text_py_infix|destruct m; [rewrite text_py_method|rewrite text_py_func]; discriminate].
      cbn [fst snd]. intros ->. eexists. reflexivity. Qed.

Lemma oapp_two {A} (x y : A) (o : option (list A)) : oapp [x; y] o = ocons x (ocons y o).
Proof. destruct o; reflexivity. Qed.

Lemma lexg_neg (t r : string) : starts_with is_idchar t = true ->
  lexg F (("-" +++ t) +++ r) = ocons (TSym "-") (lexg F (t +++ r)).
Proof. intros H. destruct t as [|c d]; [discriminate H|]. cbn [starts_with] in H.
  change (("-" +++ String c d) +++ r) with (String "-" (String c (d +++ r))).
  change (String c d +++ r) with (String c (d +++ r)). apply lexg_minus. exact H. Qed.

Lemma starts_digit_idchar (t : string) : starts_with is_digit t = true -> starts_with is_idchar t = true.
Proof. destruct t as [|c d]; [discriminate|]. cbn [starts_with]. intros H. unfold is_idchar. rewrite H. apply orb_true_r. Qed.

Lemma lexg_opname (op : string) (inline : bool) (c : ascii) (r : string) :
  (if inline then smem op sym_texts else ident_ok op) = true -> (c = " "%char \/ c = "("%char) ->
  lexg F (op +++ String c r) = ocons (op_tok op) (lexg F (String c r)).
Proof. intros H Hc. destruct inline; [apply lexg_op; assumption|]. rewrite (op_tok_ident op H).
  apply lexg_ident; [exact H| |]; destruct Hc as [-> | ->]; reflexivity. Qed.

Lemma lexg_dot_ident (op r : string) : ident_ok op = true ->
  lexg F (String "." (op +++ r)) = ocons (TSym ".") (lexg F (op +++ r)).
Proof. intros H. apply ident_ok_spec in H as [H _]. destruct op as [|x op]; [discriminate H|]. cbn [starts_with] in H.
  change (String x op +++ r) with (String x (op +++ r)). apply lexg_dot. exact H. Qed.

Lemma lexg_val (v : pval) (rest : string) : (forall m, In m (floats_of_val v) -> float_lex_ok F m) ->
  delim_start rest = true -> lexg F (val_text F np v +++ rest) = oapp (val_toks v) (lexg F rest).
Proof. intros Hf Hr. destruct (delim_start_spec rest Hr) as [H1 [H2 H3]].
  destruct v as [|b|z|neg m|neg|s]; cbn [val_text val_toks].
  - rewrite oapp_one. apply lexg_keyword; [reflexivity|reflexivity|reflexivity|exact H1|exact H2].
  - rewrite oapp_one. destruct b; apply lexg_keyword; [reflexivity|reflexivity|reflexivity|exact H1|exact H2|reflexivity|reflexivity|reflexivity|exact H1|exact H2].
  - destruct (Z.ltb z 0).
    + rewrite oapp_two. rewrite lexg_neg by (apply starts_digit_idchar, dec_of_N_starts).
      rewrite (lexg_dec F _ rest H1 H3). reflexivity.
    + rewrite oapp_one. apply lexg_dec; assumption.
  - assert (Hm : float_lex_ok F m) by (apply Hf; left; reflexivity). destruct neg; cbn [app].
    + rewrite oapp_two. rewrite lexg_neg by (apply starts_digit_idchar, Hm). rewrite (lexg_float F m rest Hm Hr). reflexivity.
    + rewrite oapp_one. change (EmptyString +++ frepr F m) with (frepr F m). apply lexg_float; assumption.
  - destruct neg; cbn [app].
    + rewrite oapp_two. rewrite lexg_neg by reflexivity. rewrite (lexg_ident F "inf" rest); [reflexivity|reflexivity|exact H1|exact H2].
    + rewrite oapp_one. change (EmptyString +++ "inf") with "inf". apply lexg_ident; [reflexivity|exact H1|exact H2].
  - rewrite oapp_one. apply lexg_repr. exact H2. Qed.

Definition items_ok {A} (f : A -> string) (g : A -> list tok) (xs : list A) : Prop :=
  forall x r, In x xs -> delim_start r = true -> lexg F (f x +++ r) = oapp (g x) (lexg F r).

Lemma lexg_sjoin {A} (f : A -> string) (g : A -> list tok) (sep : string) (septoks : list tok) :
  (forall r, lexg F (sep +++ r) = oapp septoks (lexg F r)) -> (forall r, delim_start (sep +++ r) = true) ->
  forall (xs : list A), items_ok f g xs -> forall rest, delim_start rest = true ->
  lexg F (sjoin sep (map f xs) +++ rest) = oapp (join_with septoks (map g xs)) (lexg F rest).
Proof. intros Hsep Hdel. induction xs as [|x xs IH]; intros Hit rest Hr.
  - cbn [map sjoin join_with String.append]. rewrite oapp_nil. reflexivity.
  - destruct xs as [|y l].
    + cbn [map sjoin join_with]. apply Hit; [left; reflexivity|exact Hr].
    + cbn [map]. rewrite sjoin_cons2, join_with_cons2. rewrite !PyStr.str_append_assoc, !oapp_app.
      rewrite (Hit x); [|left; reflexivity|apply Hdel]. rewrite Hsep.
      change (f y :: map f l) with (map f (y :: l)). change (g y :: map g l) with (map g (y :: l)).
      rewrite IH; [reflexivity| |exact Hr]. intros z r Hz. apply Hit. right. exact Hz. Qed.

Lemma comma_sep (r : string) : lexg F (", " +++ r) = oapp [TSym ","] (lexg F r).
Proof. rewrite oapp_one. apply lexg_comma_space. Qed.

Lemma lexg_bracketed {A} (f : A -> string) (g : A -> list tok) (o c : ascii) (xs : list A) (rest : string) :
  In o brackets -> In c [")"; "]"; "}"]%char -> items_ok f g xs ->
  lexg F (String o (sjoin ", " (map f xs) +++ String c rest))
  = oapp (TSym (s1 o) :: join_with [TSym ","] (map g xs) ++ [TSym (s1 c)]) (lexg F rest).
Proof. intros Ho Hc Hit. rewrite (lexg_bracket F o _ Ho).
  assert (Hc2 : In c brackets) by (unfold brackets; cbn [In] in *; tauto).
  assert (Hd : delim_start (String c rest) = true) by (apply delim_start_cons; cbn [In] in *; tauto).
  rewrite (lexg_sjoin f g ", " [TSym ","] comma_sep (fun r => eq_refl) xs Hit _ Hd).
  rewrite (lexg_bracket F c _ Hc2). rewrite oapp_cons, oapp_app, oapp_one. reflexivity. Qed.

Lemma lexg_paren (X : string) (TS : list tok) (rest : string) :
  (forall r, delim_start r = true -> lexg F (X +++ r) = oapp TS (lexg F r)) ->
  lexg F (sparen X +++ rest) = oapp (paren TS) (lexg F rest).
Proof. intros H. unfold sparen, paren. rewrite !PyStr.str_append_assoc.
  cbn [String.append].
  rewrite lexg_bracket by (unfold brackets; cbn [In]; tauto). rewrite H by reflexivity.
  rewrite lexg_bracket by (unfold brackets; cbn [In]; tauto). rewrite oapp_cons, oapp_app, oapp_one. reflexivity. Qed.

(* ------------------------------------------------------------------ the statement, expression by expression *)
Definition goodrest (e : expr) (p : bool) (rest : string) : Prop :=
  p = true \/ delim_start rest = true \/ (is_col e = true /\ starts_with (Ascii.eqb "."%char) rest = true).

Definition lex_ok (e : expr) : Prop := forall want rest, goodrest e (snd (text_py F np want e)) rest ->
  lexg F (fst (text_py F np want e) +++ rest) = oapp (fst (to_py want e)) (lexg F rest).

Lemma goodrest_plain (e : expr) (rest : string) : is_col e = false -> goodrest e false rest -> delim_start rest = true.
Proof. intros Hc [G|[G|[G _]]]; [discriminate G|exact G|congruence]. Qed.

Lemma lex_ok_col (n : string) : ident_ok n = true -> lex_ok (ECol n).
Proof. intros Hn want rest G. cbn [text_py to_py fst snd] in *. rewrite oapp_one.
  destruct G as [G|[G|[_ G]]]; [discriminate G| |].
  - destruct (delim_start_spec rest G) as [H1 [H2 _]]. apply lexg_ident; assumption.
  - destruct rest as [|c r]; [discriminate G|]. cbn [starts_with] in G. apply Ascii.eqb_eq in G. subst c.
    apply lexg_ident; [exact Hn|reflexivity|reflexivity]. Qed.

Lemma lex_ok_val (v : pval) : (forall m, In m (floats_of_val v) -> float_lex_ok F m) -> lex_ok (EVal v).
Proof. intros Hf want rest G. cbn [text_py to_py] in *. destruct (want && prints_with_sign v); cbn [fst snd] in *.
  - apply lexg_paren. intros r Hr. apply lexg_val; assumption.
  - apply lexg_val; [exact Hf|]. exact (goodrest_plain (EVal v) rest eq_refl G). Qed.

Lemma in_flat_map_intro {A B} (f : A -> list B) (l : list A) (x : A) (y : B) : In x l -> In y (f x) -> In y (flat_map f l).
Proof. intros H1 H2. apply in_flat_map. exists x. split; assumption. Qed.

Lemma lex_ok_list (vs : list pval) : (forall m, In m (flat_map floats_of_val vs) -> float_lex_ok F m) -> lex_ok (EList vs).
Proof. intros Hf want rest G. cbn [text_py to_py fst snd] in *. rewrite !PyStr.str_append_assoc.
  cbn [String.append].
  apply (lexg_bracketed (val_text F np) val_toks "[" "]" vs rest); [unfold brackets; cbn [In]; tauto|cbn [In]; tauto|].
  intros v r Hv Hr. apply lexg_val; [|exact Hr]. intros m Hm. apply Hf. exact (in_flat_map_intro _ _ v m Hv Hm). Qed.

Lemma lex_ok_dict (kvs : list (pval * pval)) :
  (forall m, In m (flat_map (fun kv => floats_of_val (fst kv) ++ floats_of_val (snd kv)) kvs) -> float_lex_ok F m) ->
  lex_ok (EDict kvs).
Proof. intros Hf want rest G. cbn [text_py to_py fst snd] in *. rewrite !PyStr.str_append_assoc.
  cbn [String.append].
  apply (lexg_bracketed (fun kv => val_text F np (fst kv) +++ ": " +++ val_text F np (snd kv))
           (fun kv => val_toks (fst kv) ++ TSym ":" :: val_toks (snd kv)) "{" "}" kvs rest);
    [unfold brackets; cbn [In]; tauto|cbn [In]; tauto|].
  intros kv r Hkv Hr. rewrite !PyStr.str_append_assoc.
  assert (Hk : forall m, In m (floats_of_val (fst kv)) -> float_lex_ok F m).
  { intros m Hm. apply Hf. apply (in_flat_map_intro _ _ kv m Hkv). apply in_or_app. left. exact Hm. }
  assert (Hv : forall m, In m (floats_of_val (snd kv)) -> float_lex_ok F m).
  { intros m Hm. apply Hf. apply (in_flat_map_intro _ _ kv m Hkv). apply in_or_app. right. exact Hm. }
  rewrite (lexg_val (fst kv) _ Hk) by reflexivity.
  cbn [String.append].
  rewrite lexg_colon_space. rewrite (lexg_val (snd kv) r Hv Hr). rewrite oapp_app, oapp_cons. reflexivity. Qed.

Section Op.
Variables (op : string) (inline : bool).
Hypothesis Hop : (if inline then smem op sym_texts else ident_ok op) = true.

(* op "(" args ")" *)
Lemma lexg_call (args : list expr) (rest : string) :
  items_ok (fun a => fst (text_py F np false a)) (fun a => fst (to_py false a)) args ->
  lexg F (op +++ String "(" (sjoin ", " (map (fun a => fst (text_py F np false a)) args) +++ String ")" rest))
  = oapp (op_tok op :: TSym "(" :: join_with [TSym ","] (map (fun a => fst (to_py false a)) args) ++ [TSym ")"]) (lexg F rest).
Proof. intros Hit. rewrite (lexg_opname op inline "(" _ Hop) by (right; reflexivity).
  rewrite (lexg_bracketed _ _ "(" ")" args rest) by (try exact Hit; unfold brackets; cbn [In]; tauto).
  rewrite !oapp_cons. reflexivity. Qed.
End Op.

Lemma lex_ok_items (want : bool) (args : list expr) : (forall a, In a args -> lex_ok a) ->
  items_ok (fun a => fst (text_py F np want a)) (fun a => fst (to_py want a)) args.
Proof. intros IH a r Ha Hr. apply (IH a Ha want r). right. left. exact Hr. Qed.

(* the receiver of a method call, followed by "." *)
Lemma lexg_recv (a : expr) (r : string) : lex_ok a ->
  lexg F (recv_text a +++ String "." r) = oapp (recv_toks a) (lexg F (String "." r)).
Proof. intros Ha. unfold recv_text, recv_toks. rewrite <- (snd_text_py false a).
  destruct (snd (text_py F np false a)) eqn:P; cbn [orb].
  - apply Ha. left. exact P.
  - destruct (is_col a) eqn:C.
    + apply Ha. right. right. split; [exact C|reflexivity].
    + apply lexg_paren. intros r' Hr'. apply Ha. right. left. exact Hr'. Qed.

Lemma lexg_op_paren (op X r : string) : smem op sym_texts = true ->
  lexg F (op +++ sparen X +++ r) = ocons (op_tok op) (lexg F (sparen X +++ r)).
Proof. intros Hop. exact (lexg_opname op true "(" ((X +++ ")") +++ r) Hop (or_intror eq_refl)). Qed.

(* a unary operator and its operand, which is in parentheses of its own or is given them: followed by anything *)
Lemma lexg_unary (op : string) (a : expr) (r : string) : smem op sym_texts = true -> lex_ok a ->
  lexg F (unary_text op a +++ r) = oapp (unary_toks op a) (lexg F r).
Proof. intros Hop Ha. unfold unary_text, unary_toks. rewrite <- (snd_text_py false a). rewrite PyStr.str_append_assoc.
  destruct (snd (text_py F np false a)) eqn:P.
  - destruct (text_py_parens false a P) as [t Et]. rewrite Et, (lexg_op_paren op t r Hop), <- Et.
    rewrite (Ha false r) by (left; exact P). rewrite oapp_cons. reflexivity.
  - rewrite (lexg_op_paren op _ r Hop), (lexg_paren (fst (text_py F np false a)) (fst (to_py false a)) r); [rewrite oapp_cons; reflexivity|].
    intros r' Hr'. apply Ha. right. left. exact Hr'. Qed.

(* a op b op c: followed by a delimiter *)
Lemma lexg_infix (op : string) (args : list expr) (r : string) : smem op sym_texts = true ->
  (forall a, In a args -> lex_ok a) -> delim_start r = true ->
  lexg F (infix_text op args +++ r) = oapp (infix_toks op args) (lexg F r).
Proof. intros Hop IH Hr. unfold infix_text, infix_toks.
  apply (lexg_sjoin (fun a => fst (text_py F np true a)) (fun a => fst (to_py true a))); [| |apply lex_ok_items; exact IH|exact Hr].
  - intros r'. rewrite !PyStr.str_append_assoc. cbn [String.append].
    rewrite lexg_space. rewrite (lexg_opname op true " " r' Hop) by (left; reflexivity). rewrite lexg_space, oapp_one. reflexivity.
  - intros r'. reflexivity. Qed.

Lemma lex_ok_op (op : string) (inline method : bool) (params : option (list (string * pval))) (args : list expr) :
  (if inline then smem op sym_texts else ident_ok op) = true -> (forall a, In a args -> lex_ok a) ->
  lex_ok (EOp op inline method params args).
Proof. intros Hop IH want rest G.
  pose proof (lex_ok_items false args IH) as Hit.
  destruct args as [|a l].
  { rewrite text_py_nil, to_py_nil. cbn [fst]. rewrite !PyStr.str_append_assoc.
    cbn [String.append].
    exact (lexg_call op inline Hop [] rest Hit). }
  destruct inline.
  - destruct l as [|b l].
    + rewrite text_py_unary, to_py_unary. cbn [fst]. assert (Ha : lex_ok a) by (apply IH; left; reflexivity).
      destruct want; [apply lexg_paren; intros r _|]; apply lexg_unary; assumption.
    + rewrite text_py_infix, to_py_infix in *. cbn [fst snd] in *.
      destruct want; [apply lexg_paren; intros r Hr|]; apply lexg_infix; try assumption.
      exact (goodrest_plain (EOp op true method params (a :: b :: l)) rest eq_refl G).
  - destruct method.
    + rewrite text_py_method, to_py_method. cbn [fst]. rewrite !PyStr.str_append_assoc.
      cbn [String.append].
      rewrite lexg_recv by (apply IH; left; reflexivity). rewrite (lexg_dot_ident op _ Hop).
      rewrite (lexg_call op false Hop l rest) by (intros x r Hx; apply Hit; right; exact Hx).
      rewrite oapp_app, !oapp_cons. reflexivity.
    + rewrite text_py_func, to_py_func. cbn [fst]. rewrite !PyStr.str_append_assoc.
      cbn [String.append].
      exact (lexg_call op false Hop (a :: l) rest Hit). Qed.

Lemma lex_ok_n : forall (n : nat) (e : expr), esize e < n -> lexable e = true ->
  (forall m, In m (floats_of e) -> float_lex_ok F m) -> lex_ok e.
Proof. induction n as [|n IHn]; intros e Hs Hl Hf; [lia|].
  destruct e as [c|v|vs|kvs|op inline method params args].
  - apply lex_ok_col. exact Hl.
  - apply lex_ok_val. exact Hf.
  - apply lex_ok_list. exact Hf.
  - apply lex_ok_dict. exact Hf.
  - cbn [lexable] in Hl. apply andb_prop in Hl as [Hop Hargs]. apply lex_ok_op; [exact Hop|].
    intros a Ha. apply IHn.
    + pose proof (esize_arg op inline method params args a Ha). lia.
    + rewrite forallb_forall in Hargs. apply Hargs. exact Ha.
    + intros m Hm. apply Hf. cbn [floats_of]. exact (in_flat_map_intro _ _ a m Ha Hm). Qed.

End Printers.

Theorem lexg_text_py : forall (F : ffmt) (np : N -> bool) (e : expr) (want : bool) (rest : string),
  lexable e = true -> (forall m, In m (floats_of e) -> float_lex_ok F m) ->
  (snd (text_py F np want e) = true \/ delim_start rest = true \/ (is_col e = true /\ starts_with (Ascii.eqb "."%char) rest = true)) ->
  lexg F (fst (text_py F np want e) +++ rest) = oapp (fst (to_py want e)) (lexg F rest).
Proof. intros F np e want rest Hl Hf G. exact (lex_ok_n F np (S (esize e)) e (Nat.lt_succ_diag_r _) Hl Hf want rest G). Qed.

Corollary lexg_expr_text : forall (F : ffmt) (np : N -> bool) (e : expr),
  lexable e = true -> (forall m, In m (floats_of e) -> float_lex_ok F m) ->
  lexg F (expr_text F np e) = Some (to_python e).
Proof. intros F np e Hl Hf. unfold expr_text, to_python.
  pose proof (lexg_text_py F np e false EmptyString Hl Hf (or_intror (or_introl eq_refl))) as H.
  rewrite PyStr.str_append_nil_r in H. rewrite H. rewrite lexg_nil. cbn [oapp option_map]. rewrite app_nil_r. reflexivity. Qed.

Print Assumptions snd_text_py.
Print Assumptions lexg_text_py.
Print Assumptions lexg_expr_text.
