(* C06, part 3: extend merging in the reference semantics Model/Sem.v.
   Whenever the REGENERATED try_to_merge_ops (Gen/G_MergeOps.v) merges the assignments of two extend steps that have the same
   window, the merged extend denotes the same table as the two extends applied one after the other, up to the order of the new
   columns (merging lists a re-assigned column later): the same column set, the same rows in the same order, every row the same
   function from column names to values (tab_eqv) -- for row-wise extends and for windowed extends of every flavour.
   Uses the characterisation merge_spec_holds of Proofs/MergeOpsP.v (the only fact about the generated text that is needed). *)
From Coq Require Import List Bool String .
Import ListNotations.
From DA Require Import Base.PyRT Base.Val Model.Sem Model.Extend Model.MergeGuard Model.Simplify Gen.G_MergeOps
  Proofs.MergeOpsP Proofs.SemBasicP Proofs.ComposeP5 Proofs.SimplifyP1 Proofs.ListP Proofs.TabP.
Local Open Scope list_scope.

(* ------------------------------------------------------------------ values depend only on the columns an expression names *)
Definition agree (D : list string) (c1 c2 : list string) (r1 r2 : list val) : Prop := forall c, In c D -> get c1 r1 c = get c2 r2 c.

Lemma cols_used_arg o a args c : In a args -> In c (cols_used a) -> In c (cols_used (EOp o args)).
Proof.
  cbn [cols_used]. induction args as [|x t IH]; intros I J; [destruct I|].
  apply in_app_iff. destruct I as [->|I]; [left; exact J|right; apply IH; assumption].
Qed.

Lemma eval_expr_agree fl c1 c2 r1 r2 e : agree (cols_used e) c1 c2 r1 r2 -> eval_expr fl c1 r1 e = eval_expr fl c2 r2 e.
Proof.
  induction e as [c|v|o args IH] using ComposeP5.expr_ind2; intros A; cbn [eval_expr].
  - apply A. left. reflexivity.
  - reflexivity.
  - f_equal.
    assert (forall a, In a args -> eval_expr fl c1 r1 a = eval_expr fl c2 r2 a) as H.
    { intros a Ia. rewrite Forall_forall in IH. apply (IH a Ia). intros c Ic. apply A. eapply cols_used_arg; eassumption. }
    clear IH A. induction args as [|a t IHt]; [reflexivity|]. rewrite (H a) by (left; reflexivity). rewrite IHt; [reflexivity|].
    intros x Ix. apply H. right. exact Ix.
Qed.

Lemma key_of_agree c1 c2 r1 r2 ks : agree ks c1 c2 r1 r2 -> key_of c1 ks r1 = key_of c2 ks r2.
Proof. intros A. unfold key_of. apply map_ext_in. intros c I. apply A, I. Qed.

Lemma row_le_agree fl c1 c2 keys r1 r2 r1' r2' :
  agree (map fst keys) c1 c2 r1 r2 -> agree (map fst keys) c1 c2 r1' r2' -> row_le fl c1 keys r1 r1' = row_le fl c2 keys r2 r2'.
Proof.
  induction keys as [|[c d] t IH]; intros A A'; cbn [row_le]; [reflexivity|].
  rewrite (A c), (A' c) by (left; reflexivity). rewrite IH; [reflexivity| |]; intros x I; [apply A|apply A']; right; exact I.
Qed.

Lemma win_parts_arg e o a extra c : win_parts e = Some (o, Some a, extra) -> In c (cols_used a) -> In c (cols_used e).
Proof.
  destruct e as [|?|o' [|x rest]]; cbn [win_parts]; intros H; inversion H; subst.
  intros I. eapply cols_used_arg; [left; reflexivity|exact I].
Qed.

(* the column a window expression denotes depends on the table only through the expression's columns and the window's columns *)
Lemma window_column_agree fl w t1 t2 e :
  Forall2 (agree (cols_used e ++ w_part w ++ w_order w) (cols t1) (cols t2)) (rows t1) (rows t2) ->
  window_column fl w t1 e = window_column fl w t2 e.
Proof.
  intros F. unfold window_column.
  set (D := cols_used e ++ w_part w ++ w_order w) in *.
  assert (forall a b, agree D (cols t1) (cols t2) a b -> key_of (cols t1) (w_part w) a = key_of (cols t2) (w_part w) b) as KA.
  { intros a b R. apply key_of_agree. intros c I. apply R. unfold D. rewrite !in_app_iff. tauto. }
  assert (map (fun r => key_of (cols t1) (w_part w) r) (rows t1) = map (fun r => key_of (cols t2) (w_part w) r) (rows t2)) as K.
  { eapply ColumnsUsedP1.F2_map_eq; [exact F|]. exact KA. }
  rewrite K. apply flat_map_ext. intros k.
  pose proof (tag_from_Forall2 _ 0 _ _ F) as T.
  set (okeys := map (fun c => (c, mem c (w_rev w))) (w_order w)).
  set (Rt := fun a b : nat * list val => fst a = fst b /\ agree D (cols t1) (cols t2) (snd a) (snd b)) in *.
  assert (map fst okeys = w_order w) as Ok. { unfold okeys. rewrite map_map. apply map_id. }
  assert (Forall2 Rt
            (stable_sort (fun a b => row_le fl (cols t1) okeys (snd a) (snd b))
               (filter (fun ir => keys_eqv k (key_of (cols t1) (w_part w) (snd ir))) (tag_from 0 (rows t1))))
            (stable_sort (fun a b => row_le fl (cols t2) okeys (snd a) (snd b))
               (filter (fun ir => keys_eqv k (key_of (cols t2) (w_part w) (snd ir))) (tag_from 0 (rows t2))))) as S.
  { apply ColumnsUsedP1.F2_stable_sort.
    - intros a b a' b' [_ R] [_ R']. apply row_le_agree; rewrite Ok; intros c I; [apply R|apply R']; unfold D; rewrite !in_app_iff; tauto.
    - eapply ColumnsUsedP1.F2_filter; [exact T|]. intros a b [_ R]. rewrite (KA _ _ R). reflexivity. }
  assert (forall l1 l2, Forall2 Rt l1 l2 -> map fst l1 = map fst l2) as Mf.
  { intros l1 l2 FF. eapply ColumnsUsedP1.F2_map_eq; [exact FF|]. intros a b [E _]. exact E. }
  destruct (win_parts e) as [[[o arg] extra]|] eqn:WP.
  - rewrite (Mf _ _ S). f_equal. f_equal. eapply ColumnsUsedP1.F2_map_eq; [exact S|].
    intros a b [_ R]. destruct arg as [x|]; [|reflexivity]. apply eval_expr_agree. intros c I. apply R.
    unfold D. apply in_app_iff. left. eapply win_parts_arg; eassumption.
  - eapply ColumnsUsedP1.F2_map_eq; [exact S|]. intros a b [E _]. rewrite E. reflexivity.
Qed.

(* ------------------------------------------------------------------ reading cells of an extended row *)
Lemma last_assign_nodup {X} (F : string * X -> val) (l : list (string * X)) c :
  NoDup (map fst l) -> last_assign F l c = match dict_get l c with Some x => Some (F (c, x)) | None => None end.
Proof.
  induction l as [|[k x] t IH]; intros N; cbn [last_assign dict_get]; [reflexivity|].
  inversion N as [|? ? Hk Nt]; subst. rewrite IH by exact Nt. cbn [fst].
  destruct (eq_dec c k) as [->|Ne].
  - destruct (dict_get t k) eqn:E; [|reflexivity]. exfalso. apply Hk. apply (dict_get_Some_keys t k x0 E).
  - destruct (dict_get t c); reflexivity.
Qed.

Lemma extend_row_cell fl cs ops r c : List.length r = List.length cs -> NoDup (map fst ops) ->
  get (ext_cols cs (map fst ops)) (extend_row fl cs ops r) c
  = match dict_get ops c with Some x => eval_expr fl cs r x | None => get cs r c end.
Proof.
  intros L N. rewrite extend_row_get by exact L. rewrite last_assign_nodup by exact N. cbn [snd].
  destruct (dict_get ops c); reflexivity.
Qed.

(* the row a windowed extend builds for input row number i *)
Definition wrow (fl : flavor) (ops : list (string * expr)) (w : window) (t : table) (ir : nat * list val) : list val :=
  fst (fold_left (fun acc kc => let '(row, ccs) := acc in
                                (set_cell ccs row (fst kc) (lookup_pos (snd kc) (fst ir)), add_end ccs (fst kc)))
                 (map (fun ke => (fst ke, window_column fl w t (snd ke))) ops) (snd ir, cols t)).

Lemma sem_wextend_rows fl ops w t : rows (sem_wextend fl ops w t) = map (wrow fl ops w t) (tag_from 0 (rows t)).
Proof. reflexivity. Qed.

Lemma wrow_cell fl ops w t i r c : List.length r = List.length (cols t) -> NoDup (map fst ops) ->
  get (ext_cols (cols t) (map fst ops)) (wrow fl ops w t (i, r)) c
  = match dict_get ops c with Some x => lookup_pos (window_column fl w t x) i | None => get (cols t) r c end.
Proof.
  intros L N. unfold wrow. cbn [fst snd].
  set (wc := map (fun ke => (fst ke, window_column fl w t (snd ke))) ops).
  assert (map fst wc = map fst ops) as Mw. { unfold wc. apply (map_fst_tagged (fun ke => window_column fl w t (snd ke))). }
  destruct (fold_cells_inv (fun kc : string * list (nat * val) => lookup_pos (snd kc) i) wc r (cols t) L) as [_ H2].
  rewrite Mw in H2. rewrite <- H2.
  rewrite (fold_get (fun kc : string * list (nat * val) => lookup_pos (snd kc) i) wc r (cols t) c L).
  rewrite last_assign_nodup by (rewrite Mw; exact N). cbn [snd].
  unfold wc. rewrite (dict_get_map_val (fun x => window_column fl w t x) ops c).
  destruct (dict_get ops c); reflexivity.
Qed.

Lemma wrow_length fl ops w t ir : List.length (snd ir) = List.length (cols t) ->
  List.length (wrow fl ops w t ir) = List.length (ext_cols (cols t) (map fst ops)).
Proof.
  intros L. unfold wrow.
  destruct (fold_cells_inv (fun kc : string * list (nat * val) => lookup_pos (snd kc) (fst ir))
              (map (fun ke => (fst ke, window_column fl w t (snd ke))) ops) (snd ir) (cols t) L) as [H1 H2].
  rewrite (map_fst_tagged (fun ke => window_column fl w t (snd ke))) in H2. rewrite <- H2. exact H1.
Qed.

Lemma tag_from_width n rs L ir : Forall (fun r => List.length r = L) rs -> In ir (tag_from n rs) -> List.length (snd ir) = L.
Proof. intros W I. apply tag_from_In in I. rewrite Forall_forall in W. apply W, I. Qed.

(* ------------------------------------------------------------------ merged extend = the two extends in turn *)
Section Merge.
  Variables (o1 o2 m : list (string * expr)).
  Hypothesis N1 : NoDup (map fst o1).
  Hypothesis N2 : NoDup (map fst o2).
  Hypothesis Hm : try_to_merge_ops gcu o1 o2 = Some m.

  Let spec := merge_spec_holds cols_used o1 o2 m N1 N2 Hm.

  Lemma merged_get k : dict_get m k = match dict_get o2 k with Some v => Some v | None => dict_get o1 k end.
  Proof. destruct spec as (G & _). apply G. Qed.
  Lemma merged_disjoint k x e : dict_get o2 k = Some e -> In x (cols_used e) -> ~ In x (map fst o1).
  Proof. destruct spec as (_ & D & _). intros E I. apply D. eapply deps_in_gcu; eassumption. Qed.
  Lemma merged_nodup : NoDup (map fst m).
  Proof. destruct spec as (_ & _ & Nm & _). exact Nm. Qed.
  Lemma merged_keys k : In k (map fst m) <-> In k (map fst o1) \/ In k (map fst o2).
  Proof. destruct spec as (_ & _ & _ & Km). apply Km. Qed.

  Lemma merged_cols cs : same_set (ext_cols cs (map fst m)) (ext_cols (ext_cols cs (map fst o1)) (map fst o2)).
  Proof. intros c. unfold ext_cols. rewrite !In_fold_add_end, merged_keys. tauto. Qed.

  Lemma merge_sem_extend fl t : width_ok t -> tab_eqv (sem_extend fl m t) (sem_extend fl o2 (sem_extend fl o1 t)).
  Proof.
    intros W. split; cbn [cols rows sem_extend]; [apply merged_cols|]. rewrite map_map.
    apply Forall2_map_same. intros r I. unfold width_ok in W. rewrite Forall_forall in W. specialize (W r I).
    intros c. rewrite extend_row_cell by (exact W || exact merged_nodup).
    rewrite extend_row_cell by (apply extend_row_width, W || exact N2).
    rewrite merged_get. destruct (dict_get o2 c) as [x2|] eqn:E2.
    - symmetry. apply eval_expr_agree. intros y Iy. rewrite extend_row_cell by (exact W || exact N1).
      pose proof (merged_disjoint c y x2 E2 Iy) as Ny. apply (dict_get_None o1 y) in Ny. rewrite Ny. reflexivity.
    - rewrite extend_row_cell by (exact W || exact N1). reflexivity.
  Qed.

  Lemma merge_sem_wextend fl w t : width_ok t ->
    (forall k, In k (map fst o1) -> ~ In k (w_part w ++ w_order w)) ->
    tab_eqv (sem_wextend fl m w t) (sem_wextend fl o2 w (sem_wextend fl o1 w t)).
  Proof.
    intros W HW. split; [cbn [cols sem_wextend]; apply merged_cols|].
    rewrite !sem_wextend_rows. rewrite tag_from_map_tag. rewrite map_map.
    apply Forall2_map_same. intros [i r] I. cbn [fst].
    assert (List.length r = List.length (cols t)) as L by (apply (tag_from_width 0 (rows t) _ (i, r) W I)).
    set (t1 := sem_wextend fl o1 w t).
    assert (cols t1 = ext_cols (cols t) (map fst o1)) as C1 by reflexivity.
    intros c.
    change (cols (sem_wextend fl m w t)) with (ext_cols (cols t) (map fst m)).
    change (cols (sem_wextend fl o2 w t1)) with (ext_cols (cols t1) (map fst o2)).
    rewrite wrow_cell by (exact L || exact merged_nodup).
    rewrite wrow_cell by ((rewrite C1; apply (wrow_length fl o1 w t (i, r)); exact L) || exact N2).
    rewrite merged_get. destruct (dict_get o2 c) as [x2|] eqn:E2.
    - f_equal. symmetry. apply window_column_agree.
      unfold t1. rewrite sem_wextend_rows.
      assert (forall l (f : nat * list val -> list val) (R : list val -> list val -> Prop) n,
                (forall ir, In ir (tag_from n l) -> R (f ir) (snd ir)) -> Forall2 R (map f (tag_from n l)) l) as G.
      { induction l as [|y l0 IH]; intros f R n H; simpl; constructor; [apply (H (n, y)); left; reflexivity|].
        apply IH. intros ir Iir. apply H. right. exact Iir. }
      apply G. intros [j rj] Ij y Iy. cbn [snd].
      assert (List.length rj = List.length (cols t)) as Lj by (apply (tag_from_width 0 (rows t) _ (j, rj) W Ij)).
      change (cols (sem_wextend fl o1 w t)) with (ext_cols (cols t) (map fst o1)).
      rewrite wrow_cell by (exact Lj || exact N1).
      assert (~ In y (map fst o1)) as Ny.
      { apply in_app_iff in Iy. destruct Iy as [Iy|Iy]; [eapply merged_disjoint; eassumption|]. intros K. exact (HW y K Iy). }
      apply (dict_get_None o1 y) in Ny. rewrite Ny. reflexivity.
    - rewrite C1. rewrite wrow_cell by (exact L || exact N1). reflexivity.
  Qed.
End Merge.
