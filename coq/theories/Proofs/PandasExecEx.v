(* PEXEC: concrete witnesses (vm_compute).  Where the faithful transcription of pandas_base.py differs from sem_gen fl_pandas, and
   where a premise of the theorems is needed; plus instances showing that the premises are satisfiable. *)
From Coq Require Import List Bool QArith String Permutation.
Import ListNotations.
From DA Require Import Base.PyRT Base.Val Model.Sem Model.PdPrim Model.PandasExec Model.PermGuard Proofs.PermP4 Proofs.PandasExecP1.
Local Open Scope string_scope.
Local Open Scope list_scope.

Definition n (z : Z) : val := VNum (Qred (z # 1)).

(* ---- 1. row order: pandas lists the groups of a project in SORTED key order, Sem.v by first occurrence.  (Sem.v as a MODEL of the
        Pandas executor is right only up to row order; the theorems say "permutation".) *)
Definition ex_project : op := OProject (OTable "d" ["g"; "x"]) [("s", EOp "sum" [ECol "x"])] ["g"].
Definition ex_project_env : env := [("d", mktable ["g"; "x"] [[n 2; n 1]; [n 1; n 5]])].
Lemma row_order_witness :
  wf_op_b ex_project = true /\
  pexec q_code ex_project ex_project_env = Some (mktable ["g"; "s"] [[n 1; n 5]; [n 2; n 1]]) /\
  sem_gen fl_pandas ex_project ex_project_env = Some (mktable ["g"; "s"] [[n 2; n 1]; [n 1; n 5]]).
Proof. vm_compute. repeat split. Qed.

(* ---- 2. column order: an extend that assigns more than half as many columns as the frame has goes through pd.concat(axis=1):
        an overwritten column moves to the END; Sem.column_names (the declared order) keeps it in place. *)
Definition ex_extend : op := OExtend (OTable "d" ["a"; "b"]) [("a", EOp "+" [ECol "a"; EConst (n 1)]); ("x", ECol "b")] false (mkwin [] [] []).
Definition ex_extend_env : env := [("d", mktable ["a"; "b"] [[n 1; n 7]])].
Lemma column_order_witness :
  wf_op_b ex_extend = true /\
  pexec q_code ex_extend ex_extend_env = Some (mktable ["b"; "a"; "x"] [[n 7; n 2; n 7]]) /\
  sem_gen fl_pandas ex_extend ex_extend_env = Some (mktable ["a"; "b"; "x"] [[n 2; n 7; n 7]]).
Proof. vm_compute. repeat split. Qed.

(* ---- 3. the window premise is needed: _extend_step sorts the sub-frame by partition, order AND value columns, so rows that tie on
        the order columns are taken in the order of their VALUES; Sem.v takes them in frame order. *)
Definition ex_window : op := OExtend (OTable "d" ["k"; "a"]) [("c", EOp "cumsum" [ECol "a"])] true (mkwin [] ["k"] []).
Definition ex_window_env : env := [("d", mktable ["k"; "a"] [[n 1; n 2]; [n 1; n 1]])].
Lemma window_ties_witness :
  wf_op_b ex_window = true /\
  pexec q_code ex_window ex_window_env = Some (mktable ["k"; "a"; "c"] [[n 1; n 2; n 3]; [n 1; n 1; n 1]]) /\
  sem_gen fl_pandas ex_window ex_window_env = Some (mktable ["k"; "a"; "c"] [[n 1; n 2; n 2]; [n 1; n 1; n 3]]).
Proof. vm_compute. repeat split. Qed.

(* ---- 4. (history) a left key that is also a non-key column of the right table, paired with a differently named right key: before
        /repo 756a9c2 the suffixed copy `p_tmp_right_col` survived (finding C16-pandas-overlap-leftover-column); the loop now folds
        back every suffixed copy merge produced, and the case is covered by the theorems *)
Definition ex_overlap : op := OJoin (OTable "d1" ["p"; "a"]) (OTable "d2" ["q"; "p"; "b"]) ["p"] ["q"] JInner.
Definition ex_overlap_env : env := [("d1", mktable ["p"; "a"] [[n 1; n 10]]); ("d2", mktable ["q"; "p"; "b"] [[n 1; n 7; n 5]])].
Lemma overlap_now_clean :
  wf_op_b ex_overlap = true /\
  pexec q_code ex_overlap ex_overlap_env = Some (mktable ["p"; "a"; "q"; "b"] [[n 1; n 10; n 1; n 5]]) /\
  sem_gen fl_pandas ex_overlap ex_overlap_env = Some (mktable ["p"; "a"; "q"; "b"] [[n 1; n 10; n 1; n 5]]).
Proof. vm_compute. repeat split. Qed.

(* ---- 4b. null keys: both tables have a row with a null key; pandas.merge alone would pair them, the marker column prevents it
        (since /repo af27aca), as in SQL and in sem_gen fl_pandas *)
Definition ex_nulljoin : op := OJoin (OTable "d1" ["k"; "a"]) (OTable "d2" ["k"; "b"]) ["k"] ["k"] JFull.
Definition ex_nulljoin_env : env := [("d1", mktable ["k"; "a"] [[VNull; n 1]; [n 2; n 3]]); ("d2", mktable ["k"; "b"] [[VNull; n 5]; [n 2; n 7]])].
Lemma null_keys_never_match :
  wf_op_b ex_nulljoin = true /\
  pexec q_code ex_nulljoin ex_nulljoin_env = Some (mktable ["k"; "a"; "b"] [[n 2; n 3; n 7]; [VNull; VNull; n 5]; [VNull; n 1; VNull]]) /\
  sem_gen fl_pandas ex_nulljoin ex_nulljoin_env = Some (mktable ["k"; "a"; "b"] [[n 2; n 3; n 7]; [VNull; n 1; VNull]; [VNull; VNull; n 5]]).
Proof. vm_compute. repeat split. Qed.

(* ---- 5. (history) the closing keyed check of _project_step raised when every group key contained a null (finding
        PEXEC-project-keyed-check-drops-null-keys, fixed by /repo db5bdc2: dropna=False in that check) *)
Definition ex_nullkeys : op := OProject (OTable "d" ["g"; "h"; "x"]) [("s", EOp "sum" [ECol "x"])] ["g"; "h"].
Definition ex_nullkeys_env : env := [("d", mktable ["g"; "h"; "x"] [[VNull; n 1; n 1]; [VNull; n 2; n 2]; [VNull; n 2; n 3]])].
Lemma keyed_check_witness :
  wf_op_b ex_nullkeys = true /\
  pexec q_before_db5bdc2 ex_nullkeys ex_nullkeys_env = None /\
  pexec q_code ex_nullkeys ex_nullkeys_env = Some (mktable ["g"; "h"; "s"] [[VNull; n 1; n 1]; [VNull; n 2; n 5]]) /\
  sem_gen fl_pandas ex_nullkeys ex_nullkeys_env = Some (mktable ["g"; "h"; "s"] [[VNull; n 1; n 1]; [VNull; n 2; n 5]]).
Proof. vm_compute. repeat split. Qed.

(* ---- the premises are satisfiable: a pipeline through every step kind with scratch columns *)
Definition ex_all : op :=
  OOrder
    (OProject
       (OExtend
          (OJoin (OTable "d1" ["k"; "s"; "a"; "u"]) (OTable "d2" ["k"; "s"; "b"]) ["k"] ["k"] JLeft)
          [("c", EOp "cumsum" [ECol "a"]); ("rn", EOp "_row_number" [])] true (mkwin ["k"] ["u"] ["u"]))
       [("m", EOp "max" [ECol "c"]); ("z", EOp "_size" [])] ["k"; "s"])
    ["k"; "s"] ["k"] (Some 2%nat).
Definition ex_all_env : env :=
  [("d1", mktable ["k"; "s"; "a"; "u"] [[n 1; VNull; n 2; n 0]; [n 2; n 7; n 3; n 1]; [n 1; n 8; n 4; n 2]]);
   ("d2", mktable ["k"; "s"; "b"] [[n 1; n 9; n 5]; [n 3; n 9; n 6]])].
Lemma ex_all_premises :
  wf_op_b ex_all = true /\ perm_guard_b fl_pandas ex_all ex_all_env = true /\
  pexec q_code ex_all ex_all_env = Some (mktable ["k"; "s"; "m"; "z"] [[n 2; n 7; n 3; n 1]; [n 1; n 8; n 4; n 1]]).
Proof. vm_compute. repeat split. Qed.

(* ------------------------------------------------------------------ the witnesses as refutations *)
Lemma exact_row_order_refuted :
  exists p e t t', wf_op_b p = true /\ perm_guard_b fl_pandas p e = true /\ pexec q_code p e = Some t /\ sem_gen fl_pandas p e = Some t' /\
                   cols t = cols t' /\ rows t <> rows t'.
Proof.
  exists ex_project, ex_project_env. eexists. eexists. destruct row_order_witness as [W [P S]].
  split; [exact W|]. split; [vm_compute; reflexivity|]. split; [exact P|]. split; [exact S|]. split; [reflexivity|]. cbn [rows]. intros E. inversion E.
Qed.

Lemma exact_column_order_refuted :
  exists p e t t', wf_op_b p = true /\ perm_guard_b fl_pandas p e = true /\ pexec q_code p e = Some t /\ sem_gen fl_pandas p e = Some t' /\ cols t <> cols t'.
Proof.
  exists ex_extend, ex_extend_env. eexists. eexists. destruct column_order_witness as [W [P S]].
  split; [exact W|]. split; [vm_compute; reflexivity|]. split; [exact P|]. split; [exact S|]. cbn [cols]. intros E. inversion E.
Qed.

Lemma refines_row t t' : refines t t' -> forall r, In r (rows t) -> exists r', In r' (rows t') /\ forall c, get (cols t) r c = get (cols t') r' c.
Proof.
  intros [v [[_ F] [C P]]] r I.
  assert (exists r', In r' (rows v) /\ forall c, get (cols t) r c = get (cols v) r' c) as [r' [I' R]].
  { clear -F I. induction F as [|a b l m Rab F IH]; [contradiction|]. destruct I as [<-|I]; [exists b; split; [left; reflexivity|exact Rab]|].
    destruct (IH I) as [r' [I' R]]. exists r'. split; [right; exact I'|exact R]. }
  exists r'. split; [eapply Permutation_in; eassumption|]. rewrite <- C. exact R.
Qed.

Lemma window_premise_refuted :
  exists p e t t', wf_op_b p = true /\ exact_keys_b fl_pandas p e = true /\ total_orders_b fl_pandas p e = false /\
                   pexec q_code p e = Some t /\ sem_gen fl_pandas p e = Some t' /\ ~ refines t t'.
Proof.
  exists ex_window, ex_window_env. eexists. eexists. destruct window_ties_witness as [W [P S]].
  split; [exact W|]. split; [vm_compute; reflexivity|]. split; [vm_compute; reflexivity|]. split; [exact P|]. split; [exact S|].
  intros Rf. destruct (refines_row _ _ Rf [n 1; n 2; n 3]) as [r' [I R]]; [left; reflexivity|]. cbn [rows cols] in I, R.
  destruct I as [<-|[<-|[]]].
  - specialize (R "c"). vm_compute in R. discriminate R.
  - specialize (R "a"). vm_compute in R. discriminate R.
Qed.

Lemma project_keyed_check_refuted :
  exists p e t', wf_op_b p = true /\ perm_guard_b fl_pandas p e = true /\ sem_gen fl_pandas p e = Some t' /\
                 pexec q_before_db5bdc2 p e = None /\ pexec q_code p e = Some t'.
Proof.
  exists ex_nullkeys, ex_nullkeys_env. eexists. destruct keyed_check_witness as [W [P1 [P2 S]]].
  split; [exact W|]. split; [vm_compute; reflexivity|]. split; [exact S|]. split; [exact P1|exact P2].
Qed.
