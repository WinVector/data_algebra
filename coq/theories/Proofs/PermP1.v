(* C18, part 1: aggregates and window functions of Model/Sem.v under a permutation of the values they see.
   - every aggregate of agg_fn (sum, mean, min, max, count, size; anything else is null) is permutation-invariant over Q
   - a window function whose name is not order-sensitive is the group aggregate broadcast to every row *)
From Coq Require Import List Bool Qreduction String Permutation Sorted.
Import ListNotations.
From DA Require Import Base.PyRT Base.Val Model.Sem Model.PermGuard Proofs.SemBasicP Proofs.SemOrderP Proofs.TabP Proofs.ListP.
Local Open Scope string_scope.
Local Open Scope list_scope.

(* ---------- sums over Q *)

(* ---------- minimum / maximum over Q: the fold of a selection function *)
Section Extremum.
  Variable f : Q -> Q -> Q.
  Variable R : Q -> Q -> Prop.
  Hypothesis f_l : forall x y, R (f x y) x.
  Hypothesis f_r : forall x y, R (f x y) y.
  Hypothesis f_in : forall x y, f x y = x \/ f x y = y.
  Hypothesis R_trans : forall a b c, R a b -> R b c -> R a c.
  Hypothesis R_antisym : forall a b, R a b -> R b a -> Qeq a b.

  Lemma fold_ext_spec t : forall x, (forall y, In y (x :: t) -> R (fold_left f t x) y) /\ In (fold_left f t x) (x :: t).
  Proof.
    induction t as [|a t IH]; intros x; simpl.
    - split; [intros y [<-|[]]|left; reflexivity].
      destruct (f_in x x) as [E|E]; rewrite <- E at 1; apply f_l.
    - destruct (IH (f x a)) as [B I]. split.
      + intros y [<-|[<-|Hy]].
        * eapply R_trans; [apply B; left; reflexivity|apply f_l].
        * eapply R_trans; [apply B; left; reflexivity|apply f_r].
        * apply B. right. exact Hy.
      + destruct I as [E|I]; [|right; right; exact I].
        destruct (f_in x a) as [E2|E2]; [left|right; left]; congruence.
  Qed.

  Lemma qfold1_perm l l' : Permutation l l' ->
    match qfold1 f l, qfold1 f l' with Some a, Some b => Qeq a b | None, None => True | _, _ => False end.
  Proof.
    intros P. destruct l as [|x t]; destruct l' as [|y u]; simpl.
    - exact I.
    - apply Permutation_nil in P. discriminate.
    - apply Permutation_sym, Permutation_nil in P. discriminate.
    - destruct (fold_ext_spec t x) as [B1 I1]. destruct (fold_ext_spec u y) as [B2 I2].
      apply R_antisym.
      + apply B1. eapply Permutation_in; [apply Permutation_sym, P|exact I2].
      + apply B2. eapply Permutation_in; [apply P|exact I1].
  Qed.
End Extremum.

Lemma qle_bool_false x y : Qle_bool x y = false -> Qle y x.
Proof.
  intros E. destruct (Qlt_le_dec y x) as [h|h]; [apply Qlt_le_weak, h|].
  apply Qle_bool_iff in h. congruence.
Qed.
Lemma qmin_le_l x y : Qle (qmin x y) x.
Proof. unfold qmin. destruct (Qle_bool x y) eqn:E; [apply Qle_refl|apply qle_bool_false, E]. Qed.
Lemma qmin_le_r x y : Qle (qmin x y) y.
Proof. unfold qmin. destruct (Qle_bool x y) eqn:E; [apply Qle_bool_iff, E|apply Qle_refl]. Qed.
Lemma qmin_in x y : qmin x y = x \/ qmin x y = y.
Proof. unfold qmin. destruct (Qle_bool x y); auto. Qed.
Lemma qmax_ge_l x y : Qle x (qmax x y).
Proof. unfold qmax. destruct (Qle_bool x y) eqn:E; [apply Qle_bool_iff, E|apply Qle_refl]. Qed.
Lemma qmax_ge_r x y : Qle y (qmax x y).
Proof. unfold qmax. destruct (Qle_bool x y) eqn:E; [apply Qle_refl|apply qle_bool_false, E]. Qed.
Lemma qmax_in x y : qmax x y = x \/ qmax x y = y.
Proof. unfold qmax. destruct (Qle_bool x y); auto. Qed.

Lemma opt_num_eq a b : match a, b with Some x, Some y => Qeq x y | None, None => True | _, _ => False end -> opt_num a = opt_num b.
Proof. destruct a, b; simpl; intros H; try contradiction; [|reflexivity]. unfold qn. f_equal. apply Qred_complete, H. Qed.

Lemma qmin_fold_perm l l' : Permutation l l' -> opt_num (qfold1 qmin l) = opt_num (qfold1 qmin l').
Proof.
  intros P. apply opt_num_eq.
  apply (qfold1_perm qmin Qle qmin_le_l qmin_le_r qmin_in Qle_trans Qle_antisym l l' P).
Qed.
Lemma qmax_fold_perm l l' : Permutation l l' -> opt_num (qfold1 qmax l) = opt_num (qfold1 qmax l').
Proof.
  intros P. apply opt_num_eq.
  apply (qfold1_perm qmax (fun a b => Qle b a) qmax_ge_l qmax_ge_r qmax_in); [| |exact P].
  - intros a b c H1 H2. eapply Qle_trans; eassumption.
  - intros a b H1 H2. apply Qle_antisym; assumption.
Qed.

(* ---------- every aggregate is permutation-invariant *)
Lemma perm_nil_iff {A} (l l' : list A) : Permutation l l' -> (l = [] <-> l' = []).
Proof.
  intros P. split; intros ->; [apply Permutation_nil in P|apply Permutation_sym, Permutation_nil in P]; exact P.
Qed.

(* the branches of agg_fn that treat the empty list apart *)
Lemma perm_nil_case {A B} (d : B) (f f' : list A -> B) l l' : Permutation l l' -> f l = f' l' ->
  match l with [] => d | x :: t => f (x :: t) end = match l' with [] => d | x :: t => f' (x :: t) end.
Proof.
  intros P E. destruct l as [|x t].
  - rewrite (proj1 (perm_nil_iff _ _ P) eq_refl). reflexivity.
  - destruct l'; [discriminate (proj2 (perm_nil_iff _ _ P) eq_refl)|exact E].
Qed.

(* two dispatches on the aggregate's name with equal branches: no case analysis on the name is needed *)
Lemma agg_match_ext {A} (op : string) (a1 a2 a3 a4 a5 a6 d b1 b2 b3 b4 b5 b6 : A) :
  a1 = b1 -> a2 = b2 -> a3 = b3 -> a4 = b4 -> a5 = b5 -> a6 = b6 ->
  match op with "sum" => a1 | "mean" => a2 | "min" => a3 | "max" => a4 | "count" => a5 | "size" | "_size" => a6 | _ => d end
  = match op with "sum" => b1 | "mean" => b2 | "min" => b3 | "max" => b4 | "count" => b5 | "size" | "_size" => b6 | _ => d end.
Proof. intros -> -> -> -> -> ->. reflexivity. Qed.

(* sum / mean / min / max / count / size over a permuted group give the same value (exactly: results are Qred-normal) *)
Lemma agg_fn_perm fl op vs vs' : Permutation vs vs' -> agg_fn fl op vs = agg_fn fl op vs'.
Proof.
  intros P. pose proof (nums_perm vs vs' P) as Pn. unfold agg_fn. apply agg_match_ext.
  - apply (perm_nil_case _ (fun l => qn (qsum l)) (fun l => qn (qsum l))); [exact Pn|].
    unfold qn. f_equal. apply Qred_complete, qsum_perm, Pn.
  - apply (perm_nil_case _ (fun l => qn (Qdiv (qsum l) (inject_Z (Z.of_nat (List.length l)))))
                           (fun l => qn (Qdiv (qsum l) (inject_Z (Z.of_nat (List.length l)))))); [exact Pn|].
    unfold qn. f_equal. apply Qred_complete. rewrite (Permutation_length Pn), (qsum_perm _ _ Pn). reflexivity.
  - apply qmin_fold_perm, Pn.
  - apply qmax_fold_perm, Pn.
  - apply (perm_nil_case _ (fun _ => qn (inject_Z (Z.of_nat (List.length (filter (fun v => negb (is_null v)) vs)))))
                           (fun _ => qn (inject_Z (Z.of_nat (List.length (filter (fun v => negb (is_null v)) vs')))))); [exact P|].
    rewrite (Permutation_length (perm_filter (fun v => negb (is_null v)) _ _ P)). reflexivity.
  - apply (perm_nil_case _ (fun _ => qn (inject_Z (Z.of_nat (List.length vs)))) (fun _ => qn (inject_Z (Z.of_nat (List.length vs'))))); [exact P|].
    rewrite (Permutation_length P). reflexivity.
Qed.

Lemma agg_value_perm fl cs grp grp' e : Permutation grp grp' -> agg_value fl cs grp e = agg_value fl cs grp' e.
Proof.
  intros P. unfold agg_value. destruct (agg_parts e) as [[op arg]|]; [|reflexivity].
  apply agg_fn_perm. apply Permutation_map, P.
Qed.

(* ---------- window functions: which ones look at the order of the partition (Model/PermGuard.order_sensitive) *)
(* every other window function is the group aggregate, the same value on every row of the partition *)
Lemma win_fn_broadcast fl op extra vs : order_sensitive op = false -> win_fn fl op extra vs = map (fun _ => agg_fn fl op vs) vs.
Proof.
  unfold order_sensitive. intros S. apply negb_false_iff in S. apply mem_In in S. unfold plain_aggregates in S.
  repeat (destruct S as [<-|S]; [reflexivity|]). destruct S.
Qed.

(* ---------- small list facts used by the later parts *)
Lemma fold_left_map_in {A B C} (f : A -> B -> A) (g : C -> B) l : forall a, fold_left f (map g l) a = fold_left (fun a x => f a (g x)) l a.
Proof. induction l as [|x t IH]; intros a; simpl; [reflexivity|apply IH]. Qed.

