(* C11, part 5: pipelines that compare equal denote the same table in the reference semantics Model/Sem.v (every backend
   flavour, every environment), provided same-named tables list the same columns and no constant pair conflates a bool
   with a number (the two known findings that reach results).  The ORDER of the assignments of an extend is not needed. *)
From Coq Require Import List Bool String Permutation.
Import ListNotations.
From DA Require Import Base.PyRT Base.Val Model.Sem Model.Equiv Proofs.SemBasicP Proofs.EquivP1 Proofs.EquivP2 Proofs.EquivP3 Proofs.EquivP4.
Local Open Scope list_scope.

Lemma map_snd_swap (m : list (string * string)) : map snd (map swap_pair m) = map fst m.
Proof. rewrite map_map. apply map_ext. intros [a b]. reflexivity. Qed.

(* the images of equal assignment dicts have unique keys and the same lookups *)
Lemma ops_images q ops ops' l l' :
  NoDup (map fst ops) -> NoDup (map fst ops') -> ops_eq q ops ops' = true -> ragree_ops q ops ops' = true ->
  ops_sem ops = Some l -> ops_sem ops' = Some l' ->
  NoDup (map fst l) /\ NoDup (map fst l') /\ (forall k, dict_get l k = dict_get l' k).
Proof. intros N N' E G S S'. rewrite (ops_sem_keys _ _ S), (ops_sem_keys _ _ S').
  split; [exact N|]. split; [exact N'|]. eapply ops_lookups; eassumption. Qed.

Lemma eop_sound q a : forall b sa sb,
  wfb a = true -> wfb b = true -> eop_eqb q a b = true -> ragree q a b = true ->
  to_sem a = Some sa -> to_sem b = Some sb -> forall fl env, sem_gen fl sa env = sem_gen fl sb env.
Proof. induction a; intros b; destruct b; intros sa sb Wa Wb E; try discriminate E; intros G Ta Tb fl env.
  all: pose proof (eqb_cols q _ _ E G) as C; cbn [ecolumn_names] in C.
  all: cbn [eop_eqb ragree wfb to_sem] in E, G, Wa, Wb, Ta, Tb; split_andb.
  12: discriminate Ta.
  (* one source: its two images x, y mean the same by induction *)
  2-9: inv_some; nodups.
  2-9: match goal with IH : forall b sa sb, _, Tx : to_sem _ = Some ?x, Ty : to_sem ?b' = Some ?y |- _ =>
         assert (sem_gen fl x env = sem_gen fl y env) as IHs by (apply (IH b' x y); trivial);
         cbn [sem_gen]; rewrite IHs; destruct (sem_gen fl y env) as [t|] eqn:St; [|reflexivity]; cbn [option_map] end.
  - (* table *)
    inv_some. subst. assert (name = name0) as ->; [|reflexivity].
    destruct (q_table_key_only q); split_andb; eqb_to_eq; assumption.
  - (* extend: the same assignments, possibly in another order, giving the same column list *)
    match goal with S : ops_sem ops = Some ?l, S' : ops_sem ops0 = Some ?l', Ty : to_sem b = Some ?y |- _ =>
      destruct (ops_images q ops ops0 l l') as [N [N' L]]; trivial;
      assert (ext_cols (cols t) (map fst l) = ext_cols (cols t) (map fst l')) as X
        by (rewrite (sem_cols _ _ _ _ St), (cn_to_sem _ _ Ty), (ops_sem_keys _ _ S), (ops_sem_keys _ _ S');
            rewrite <- (eqb_cols q a b) at 1 by assumption; exact C)
    end.
    pose proof (sem_rows_width _ _ _ _ St) as Wt. eqb_to_eq. subst. f_equal.
    destruct windowed0; [apply sem_wextend_perm|apply sem_extend_perm]; assumption.
  - (* project: the column list fixes the order of the assignments *)
    eqb_to_eq. subst. rewrite !filter_disjoint_id in C by assumption. apply app_inv_head in C.
    match goal with S : ops_sem ops = Some ?l, S' : ops_sem ops0 = Some ?l' |- _ =>
      destruct (ops_images q ops ops0 l l') as [N [N' L]]; trivial;
      rewrite <- (ops_sem_keys _ _ S), <- (ops_sem_keys _ _ S') in C;
      rewrite (same_keys_same_ops l l' N N' L C) end.
    reflexivity.
  - (* select_rows *)
    match goal with H : is_equal q e e0 = true, H2 : ragree_expr q e e0 = true |- _ => pose proof (is_equal_sem q e e0 H H2) as Ee end.
    match goal with A : expr_sem e = Some ?u, B : expr_sem e0 = Some ?v |- _ => assert (u = v) as -> by congruence end.
    reflexivity.
  - (* select_columns *) eqb_to_eq. subst. reflexivity.
  - (* drop_columns *) eqb_to_eq. subst. reflexivity.
  - (* rename_columns: the maps are equal as mappings; their entry order does not matter to sem_rename *)
    f_equal. apply sem_rename_perm; [|assumption].
    apply lookups_perm; try assumption. eapply smap_eq_lookups; eassumption.
  - (* map_columns *)
    eqb_to_eq. subst. f_equal. apply sem_rename_perm.
    + apply Permutation_map. apply lookups_perm; try assumption. eapply smap_eq_lookups; eassumption.
    + rewrite map_snd_swap. assumption.
  - (* order_rows *) eqb_to_eq. subst. reflexivity.
  - (* natural_join *)
    match goal with H : eop_eqb q a1 b1 = true, H2 : ragree q a1 b1 = true |- _ => pose proof (eqb_cols q a1 b1 H H2) as Cx end.
    match goal with H : eop_eqb q a2 b2 = true, H2 : ragree q a2 b2 = true |- _ => pose proof (eqb_cols q a2 b2 H H2) as Cy end.
    rewrite <- Cx, <- Cy in Tb.
    destruct (to_sem a1) as [x1|] eqn:Tx; [|discriminate]. destruct (to_sem a2) as [y1|] eqn:Ty; [|discriminate].
    destruct (to_sem b1) as [x2|] eqn:Tx'; [|discriminate]. destruct (to_sem b2) as [y2|] eqn:Ty'; [|discriminate].
    assert (sem_gen fl x1 env = sem_gen fl x2 env) as IH1 by (apply (IHa1 b1 x1 x2); trivial).
    assert (sem_gen fl y1 env = sem_gen fl y2 env) as IH2 by (apply (IHa2 b2 y1 y2); trivial).
    eqb_to_eq. subst. destruct (jt_sem jt0) as [j|]; [|discriminate].
    destruct (eqb (join_cols (ecolumn_names a1) (ecolumn_names a2)) _); inv_some; cbn [sem_gen]; rewrite IH1, IH2; reflexivity.
  - (* concat_rows *)
    destruct (to_sem a1) as [x1|] eqn:Tx; [|discriminate]. destruct (to_sem a2) as [y1|] eqn:Ty; [|discriminate].
    destruct (to_sem b1) as [x2|] eqn:Tx'; [|discriminate]. destruct (to_sem b2) as [y2|] eqn:Ty'; [|discriminate].
    assert (sem_gen fl x1 env = sem_gen fl x2 env) as IH1 by (apply (IHa1 b1 x1 x2); trivial).
    assert (sem_gen fl y1 env = sem_gen fl y2 env) as IH2 by (apply (IHa2 b2 y1 y2); trivial).
    inv_some. eqb_to_eq. subst. cbn [sem_gen]. rewrite IH1, IH2. reflexivity.
Qed.
