(* C12, part 6: one lemma per node class (table description, select_columns, drop_columns, rename_columns, map_columns,
   order_rows, natural_join, concat_rows; the other four are in part 7) -- evaluating the arguments a node prints and running
   the builder on them gives the node back, for nodes in builder-normal form. *)
From Coq Require Import List Bool String NArith Arith .
Import ListNotations.
From DA Require Import Base.PyRT Model.Equiv Gen.G_MergeOps Proofs.EquivP1 Proofs.EquivP2 Proofs.ListP.
From DA Require Import Model.PyExpr Model.ExprPrint Model.ExprParse Model.ExprRoundtrip Model.PipePrintStr Model.PipePrintSyn Model.PipePrint.
From DA Require Import Proofs.ExprParseP14 Proofs.PipePrintP5.
Local Close Scope Q_scope.
Local Open Scope string_scope.
Local Open Scope bool_scope.
Local Open Scope list_scope.

Ltac split_andb :=
  repeat match goal with
         | H : _ && _ = true |- _ => apply andb_true_iff in H; destruct H
         end.

Lemma mapM_app {A B} (f : A -> option B) (l1 l2 : list A) r1 r2 :
  mapM f l1 = Some r1 -> mapM f l2 = Some r2 -> mapM f (l1 ++ l2) = Some (r1 ++ r2).
Proof. revert r1. induction l1 as [|x t IH]; intros r1 H1 H2; simpl in *.
  - inversion H1. exact H2.
  - destruct (f x) as [y|]; [|discriminate]. destruct (mapM f t) as [ys|] eqn:Ft; [|discriminate]. inversion H1; subst.
    rewrite (IH ys eq_refl H2). reflexivity. Qed.
Lemma mapM_as_str l : mapM as_str (map YStr l) = Some l.
Proof. rewrite mapM_map. simpl. apply mapM_Some. Qed.

Lemma strip_trivial_id p : negb (is_trivial p) = true -> strip_trivial p = p.
Proof. destruct p; try reflexivity. destruct limit; [reflexivity|discriminate]. Qed.
Lemma strip_select_id p : select_src_ok p = true -> strip_select p = p.
Proof. destruct p; try reflexivity; try discriminate. destruct limit; [reflexivity|discriminate]. Qed.

Lemma str_upper_join_types jt : smem jt join_types = true -> standardize_join_type jt = Some jt.
Proof. unfold smem. intros H. apply existsb_exists in H as [x [Hx E]]. apply String.eqb_eq in E. subst x.
  unfold join_types in Hx. cbn [In] in Hx. repeat (destruct Hx as [<-|Hx]; [reflexivity|]). destruct Hx. Qed.

Definition opt_val (b : bool) (k : string) (v : pyv) : args_t := if b then [(Some k, v)] else [].

Section Builders.
Variable E : penv.
Hypothesis unq : forall s, py_unquote (py_repr (e_np E) s) = Some s.
Hypothesis lexh : forall e, lexable e = true -> (forall m, In m (floats_of e) -> float_lex_ok (e_F E) m) ->
  lexg (e_F E) (expr_text (e_F E) (e_np E) e) = Some (to_python e).

(* the float constants of an expression satisfy the repr / float() assumption *)
Definition px_floats_ok (x : pexpr) : Prop :=
  forall e, to_e x = Some e -> forall m, In m (floats_of e) -> float_lex_ok (e_F E) m.

Lemma parse_px_ok cols x : expr_ok E cols x = true -> px_floats_ok x ->
  exists e, to_e x = Some e /\ parse_px E cols (expr_text (e_F E) (e_np E) e) = Some x.
Proof. unfold expr_ok, px_floats_ok. intros H Fl. destruct (to_e x) as [e|] eqn:Te; [|discriminate]. split_andb.
  exists e. split; [reflexivity|]. unfold parse_px, parse_text. rewrite (lexh e) by (try assumption; apply Fl; reflexivity).
  rewrite (printable_roundtrip (e_cfg E) cols e) by assumption. apply of_to_e; assumption. Qed.

(* what the printed text of an expression evaluates to *)
Definition expr_val (x : pexpr) : pyv :=
  match to_e x with Some e => YStr (expr_text (e_F E) (e_np E) e) | None => YNone end.

Lemma eval_expr_syn cols x : expr_ok E cols x = true -> px_floats_ok x ->
  prints E (expr_syn E) expr_val x /\ exists t, expr_val x = YStr t /\ parse_px E cols t = Some x.
Proof. intros H Fl. destruct (parse_px_ok cols x H Fl) as [e [Te Pe]]. unfold prints, expr_syn, expr_val. rewrite Te. split.
  - eexists. repeat split. apply eval_str, unq.
  - eexists. split; [reflexivity|exact Pe]. Qed.

Lemma eval_args_cons k x v rest vs :
  eval_syn E x = Some v -> eval_args E rest = Some vs -> eval_args E ((k, x) :: rest) = Some ((k, v) :: vs).
Proof. intros Hx Hr. unfold eval_args in *. cbn [mapM fst snd]. rewrite Hx. simpl option_map. rewrite Hr. reflexivity. Qed.
Lemma eval_args_nil : eval_args E [] = Some [].
Proof. reflexivity. Qed.
Lemma eval_opt_arg b k x v : eval_syn E x = Some v -> eval_args E (opt_arg b k x) = Some (opt_val b k v).
Proof. intros H. destruct b; [|reflexivity]. apply eval_args_cons; [exact H|reflexivity]. Qed.

Lemma wf_strs l : wf_syn (strs_syn E l) = true.
Proof. unfold strs_syn. cbn [wf_syn]. induction l as [|x t IH]; [reflexivity|]. cbn [map forallb]. rewrite IH. reflexivity. Qed.
Lemma wf_str s : wf_syn (str_syn E s) = true.
Proof. reflexivity. Qed.
(* the argument values of a TableDescription call, and what g_table finds in them *)
Definition table_vals (N C : pyv) (b : bool) (Q : pyv) : args_t :=
  [(Some "table_name", N); (Some "column_names", C)] ++ opt_val b "qualifiers" Q.

Lemma table_vals_spec N C b Q :
  pos_args (table_vals N C b Q) = [] /\ kws_ok ["table_name"; "column_names"; "qualifiers"] (table_vals N C b Q) = true
  /\ kwarg "column_names" (table_vals N C b Q) = Some C /\ kwarg "table_name" (table_vals N C b Q) = Some N
  /\ kwarg "qualifiers" (table_vals N C b Q) = (if b then Some Q else None).
Proof. destruct b; repeat split; reflexivity. Qed.

Lemma table_ok name cols quals : normal E (ETable name cols quals) = true ->
  exists s, syn_of_op E (ETable name cols quals) = Some s /\ wf_syn s = true /\ eval_syn E s = Some (YOp (ETable name cols quals)).
Proof. cbn [normal]. intros H. split_andb. destruct (ssdict_print E unq quals) as [Wq Eq]. eexists. split; [reflexivity|]. split.
  - cbn [wf_syn nonempty_path forallb is_const_name smem existsb const_names String.eqb Ascii.eqb Bool.eqb negb andb orb fst snd app].
    rewrite wf_strs. destruct quals as [|q0 qt]; [reflexivity|]. cbn [nonempty opt_arg app forallb snd]. rewrite Wq. reflexivity.
  - destruct (table_vals_spec (YStr name) (YList (map YStr cols)) (nonempty quals) (sdict_val YStr quals)) as [P1 [P2 [Kc [Kn Kq]]]].
    set (A := table_vals (YStr name) (YList (map YStr cols)) (nonempty quals) (sdict_val YStr quals)) in *.
    assert (Ea : eval_args E ([(Some "table_name", str_syn E name); (Some "column_names", strs_syn E cols)]
                    ++ opt_arg (nonempty quals) "qualifiers" (SDict false (map (fun kv => (str_syn E (fst kv), str_syn E (snd kv))) quals)))
                 = Some A).
    { apply mapM_app; [|apply eval_opt_arg, Eq].
      apply eval_args_cons; [apply eval_str; exact unq|]. apply eval_args_cons; [apply eval_strs; exact unq|reflexivity]. }
    rewrite eval_call, Ea. change (call_global ["TableDescription"] A) with (g_table A). unfold g_table.
    rewrite P1, P2, Kc, Kn, Kq, as_strs1_list. destruct quals as [|q0 qt]; cbn [nonempty].
    + rewrite H. reflexivity.
    + unfold sdict_val at 1. rewrite as_sdict_val by (apply nodups_NoDup; assumption).
      rewrite mapM_vals by (intros [k v] _; reflexivity). rewrite H. reflexivity. Qed.

(* ---- the common shape of a method-call node *)
Definition good (p : eop) : Prop :=
  exists s, syn_of_op E p = Some s /\ wf_syn s = true /\ recv_ok s = true /\ eval_syn E s = Some (YOp p).

Lemma table_good name cols quals : normal E (ETable name cols quals) = true -> good (ETable name cols quals).
Proof. intros H. destruct (table_ok name cols quals H) as [s [S1 [S2 S3]]]. exists s. repeat split; try assumption.
  cbn [syn_of_op] in S1. inversion S1. reflexivity. Qed.

Definition wf_args (args : list (option string * syn)) : bool := forallb (fun a => wf_syn (snd a)) args.
Lemma wf_meth_node ss m args : wf_syn ss = true -> recv_ok ss = true -> is_const_name m = false -> wf_args args = true ->
  wf_syn (SMeth ss m args) = true.
Proof. intros W R M A. cbn [wf_syn]. rewrite R, M, W. exact A. Qed.

Lemma meth_good src m args vals node :
  good src -> eval_args E args = Some vals -> wf_args args = true -> is_const_name m = false ->
  call_method_op E src m vals = Some node ->
  forall sn, (forall ss, syn_of_op E src = Some ss -> sn = Some (SMeth ss m args)) -> syn_of_op E node = sn -> good node.
Proof. intros [ss [S1 [S2 [S3 S4]]]] Ea Wa Mc Cm sn Hsn Hn. exists (SMeth ss m args). split; [rewrite Hn; apply Hsn; exact S1|].
  split; [apply wf_meth_node; assumption|]. split; [reflexivity|]. rewrite eval_meth, S4, Ea, Cm. reflexivity. Qed.

Lemma wf_args_app a b : wf_args (a ++ b) = wf_args a && wf_args b.
Proof. apply forallb_app. Qed.
Lemma wf_opt_arg b k x : wf_syn x = true -> wf_args (opt_arg b k x) = true.
Proof. intros H. destruct b; [cbn; rewrite H; reflexivity|reflexivity]. Qed.

Lemma select_cols_good s cs : normal E (ESelectCols s cs) = true -> good s -> good (ESelectCols s cs).
Proof. cbn [normal]. intros H G. split_andb.
  eapply (meth_good s "select_columns" [(None, strs_syn E cs)] [(None, YList (map YStr cs))]); try eassumption; try reflexivity.
  - apply eval_args_cons; [apply eval_strs; exact unq|reflexivity].
  - cbn [wf_args forallb snd]. rewrite wf_strs. reflexivity.
  - change (call_method_op E s "select_columns" [(None, YList (map YStr cs))]) with (b_select_columns s [(None, YList (map YStr cs))]).
    unfold b_select_columns. rewrite as_strs1_list. rewrite strip_select_id by assumption.
    repeat match goal with Hx : _ = true |- _ => rewrite Hx end. reflexivity.
  - intros ss Hs. cbn [syn_of_op]. rewrite Hs. reflexivity. Qed.

Lemma drop_cols_good s ds : normal E (EDropCols s ds) = true -> good s -> good (EDropCols s ds).
Proof. cbn [normal]. intros H G. split_andb.
  eapply (meth_good s "drop_columns" [(None, strs_syn E ds)] [(None, YList (map YStr ds))]); try eassumption; try reflexivity.
  - apply eval_args_cons; [apply eval_strs; exact unq|reflexivity].
  - cbn [wf_args forallb snd]. rewrite wf_strs. reflexivity.
  - change (call_method_op E s "drop_columns" [(None, YList (map YStr ds))]) with (b_drop_columns s [(None, YList (map YStr ds))]).
    unfold b_drop_columns. rewrite as_strs1_list.
    rewrite strip_trivial_id by assumption.
    destruct ds as [|d0 dt]; [discriminate|].
    repeat match goal with Hx : _ = true |- _ => rewrite Hx end. reflexivity.
  - intros ss Hs. cbn [syn_of_op]. rewrite Hs. reflexivity. Qed.

Lemma rename_good s m : normal E (ERename s m) = true -> good s -> good (ERename s m).
Proof. cbn [normal]. intros H G. split_andb. destruct (ssdict_print E unq m) as [Wm Em].
  eapply (meth_good s "rename_columns" [(None, SDict false (map (fun kv => (str_syn E (fst kv), str_syn E (snd kv))) m))]
            [(None, sdict_val YStr m)]); try eassumption; try reflexivity.
  - apply eval_args_cons; [exact Em|reflexivity].
  - cbn [wf_args forallb snd]. rewrite Wm. reflexivity.
  - change (call_method_op E s "rename_columns" [(None, sdict_val YStr m)]) with (b_rename_columns s [(None, sdict_val YStr m)]).
    unfold b_rename_columns. cbn [pos_args flat_map fst snd app]. rewrite as_sdict_val by (apply nodups_NoDup; assumption).
    destruct m as [|m0 mt]; [discriminate|].
    change (vals YStr (m0 :: mt)) with ((fst m0, YStr (snd m0)) :: vals YStr mt). cbv iota.
    change ((fst m0, YStr (snd m0)) :: vals YStr mt) with (vals YStr (m0 :: mt)).
    rewrite mapM_vals by (intros [k v] _; reflexivity).
    rewrite strip_trivial_id by assumption.
    repeat match goal with Hx : _ = true |- _ => rewrite Hx end. reflexivity.
  - intros ss Hs. cbn [syn_of_op]. rewrite Hs. reflexivity. Qed.

(* ---- map_columns: the dict sends a column to its new name, or to None when it is dropped *)
Definition target_syn (o : option string) : syn := match o with Some n => str_syn E n | None => none_syn end.
Definition target_val (o : option string) : pyv := match o with Some n => YStr n | None => YNone end.

(* the dict as the builder reads it back: a string is a renaming, None a deletion *)
Lemma map_vals_spec (m : list (string * string)) (dels : list string) :
  let d := map (fun kv : string * string => (fst kv, YStr (snd kv))) m ++ map (fun k : string => (k, YNone)) dels in
  forallb (fun kv : string * pyv => match snd kv with YStr _ | YNone => true | _ => false end) d = true
  /\ flat_map (fun kv : string * pyv => match snd kv with YStr n => [(fst kv, n)] | _ => [] end) d = m
  /\ flat_map (fun kv : string * pyv => match snd kv with YNone => [fst kv] | _ => [] end) d = dels.
Proof. cbv zeta. induction m as [|[k v] t [I1 [I2 I3]]]; [induction dels as [|k t [I1 [I2 I3]]]; [repeat split|]|];
    cbn [map app forallb flat_map fst snd] in *; rewrite I1, I2, I3; repeat split. Qed.

Lemma map_cols_good s m dels : normal E (EMapCols s m dels) = true -> good s -> good (EMapCols s m dels).
Proof. cbn [normal]. intros H G. split_andb.
  set (l := map (fun kv : string * string => (fst kv, Some (snd kv))) m ++ map (fun k : string => (k, @None string)) dels).
  destruct (sdict_print E unq (fun o => Some (target_syn o)) target_val l) as [kvs [M1 [M2 [_ M4]]]].
  { intros [k [n|]] _; eexists; repeat split. apply eval_str, unq. }
  cbn [option_map] in M1. rewrite mapM_some_map in M1. injection M1 as <-.
  assert (Eprint : map (fun kv : string * string => (str_syn E (fst kv), str_syn E (snd kv))) m ++ map (fun k : string => (str_syn E k, none_syn)) dels
                   = map (fun kx => (str_syn E (fst kx), target_syn (snd kx))) l) by (unfold l; rewrite map_app, !map_map; reflexivity).
  assert (Kv : map fst l = map fst m ++ dels) by (unfold l; rewrite map_app, !map_map; cbn [fst]; rewrite map_id; reflexivity).
  assert (Ev : vals target_val l = map (fun kv : string * string => (fst kv, YStr (snd kv))) m ++ map (fun k : string => (k, YNone)) dels)
    by (unfold l, vals; rewrite map_app, !map_map; reflexivity).
  pose proof (map_vals_spec m dels) as F. cbv zeta in F. rewrite <- Ev in F. destruct F as [F1 [F2 F3]].
  assert (Ne : vals target_val l <> []) by (rewrite Ev; destruct m; [|discriminate]; destruct dels; discriminate).
  clear Ev. clearbody l.
  eapply (meth_good s "map_columns" [(None, SDict false (map (fun kx => (str_syn E (fst kx), target_syn (snd kx))) l))]
            [(None, sdict_val target_val l)]); try eassumption; try reflexivity.
  - apply eval_args_cons; [apply M4|reflexivity].
  - cbn [wf_args forallb snd wf_syn]. rewrite M2. reflexivity.
  - change (call_method_op E s "map_columns" [(None, sdict_val target_val l)]) with (b_map_columns s [(None, sdict_val target_val l)]).
    unfold b_map_columns. rewrite as_sdict_val by (rewrite Kv; apply nodups_NoDup; assumption).
    rewrite <- (vals_keys target_val l) in Kv. destruct (vals target_val l) as [|v0 vt]; [contradiction|].
    rewrite F1, F2, F3, Kv.
    rewrite strip_trivial_id by assumption.
    repeat match goal with Hx : _ = true |- _ => rewrite Hx end. reflexivity.
  - intros ss Hs. cbn [syn_of_op]. rewrite Hs, Eprint. reflexivity. Qed.

(* the argument values of an order_rows call, and what the builder finds in them *)
Definition order_vals (V : pyv) (rev : list string) (limit : option nat) : args_t :=
  [(None, V)] ++ opt_val (nonempty rev) "reverse" (YList (map YStr rev))
    ++ match limit with Some n => [(Some "limit", YInt (N.of_nat n))] | None => [] end.

Lemma order_vals_spec V rev limit :
  pos_args (order_vals V rev limit) = [V] /\ kws_ok ["reverse"; "limit"] (order_vals V rev limit) = true
  /\ match kwarg "reverse" (order_vals V rev limit) with None | Some YNone => Some [] | Some r => as_strs1 r end = Some rev
  /\ as_limit (kwarg "limit" (order_vals V rev limit)) = Some limit.
Proof. destruct rev as [|r0 rt], limit; repeat split; try reflexivity;
    try exact (as_strs1_list (r0 :: rt)); cbn; rewrite Nnat.Nat2N.id; reflexivity. Qed.

Lemma order_good s cs rev limit : normal E (EOrder s cs rev limit) = true -> good s -> good (EOrder s cs rev limit).
Proof. cbn [normal]. intros H G. split_andb.
  destruct (order_vals_spec (YList (map YStr cs)) rev limit) as [P1 [P2 [P3 P4]]].
  set (A := order_vals (YList (map YStr cs)) rev limit) in *.
  eapply (meth_good s "order_rows"
            ([(None, strs_syn E cs)] ++ opt_arg (nonempty rev) "reverse" (strs_syn E rev)
               ++ match limit with Some n => [(Some "limit", SAtom (TkInt (N.of_nat n)))] | None => [] end) A); try eassumption; try reflexivity.
  - unfold A, order_vals. apply mapM_app; [apply eval_args_cons; [apply eval_strs; exact unq|reflexivity]|].
    apply mapM_app; [apply eval_opt_arg, eval_strs; exact unq|]. destruct limit; reflexivity.
  - rewrite !wf_args_app. cbn [wf_args forallb snd]. rewrite wf_strs, wf_opt_arg by apply wf_strs. destruct limit; reflexivity.
  - change (call_method_op E s "order_rows" A) with (b_order_rows s A).
    unfold b_order_rows. rewrite P1, P2, as_strs1_list, P3, P4, strip_trivial_id by assumption.
    match goal with Hx : nonempty cs || _ = true |- _ =>
      destruct (nonempty cs); [cbn [negb andb]|destruct limit; [cbn [negb andb]|discriminate Hx]] end;
    repeat match goal with Hx : _ = true |- _ => rewrite Hx end; reflexivity.
  - intros ss Hs. cbn [syn_of_op]. rewrite Hs. reflexivity. Qed.

Definition on_val (ab : string * string) : pyv :=
  if String.eqb (fst ab) (snd ab) then YStr (fst ab) else YTuple [YStr (fst ab); YStr (snd ab)].
Lemma eval_on_syn oa ob : eval_syn E (on_syn E oa ob) = Some (YList (map on_val (combine oa ob))).
Proof. unfold on_syn. rewrite eval_list, mapM_map.
  rewrite (mapM_ext _ (fun ab => Some (on_val ab))); [rewrite mapM_some_map; reflexivity|].
  intros [a b] _. unfold on_val. cbn [fst snd]. destruct (String.eqb a b); [apply eval_str; exact unq|].
  rewrite eval_tuple. cbn [mapM]. rewrite !eval_str by exact unq. reflexivity. Qed.
Lemma wf_on_syn oa ob : wf_syn (on_syn E oa ob) = true.
Proof. unfold on_syn. cbn [wf_syn]. apply forallb_forall. intros x Hx. apply in_map_iff in Hx. destruct Hx as [[a b] [<- _]].
  cbn [fst snd]. destruct (String.eqb a b); reflexivity. Qed.
Lemma on_lists_val oa ob : List.length oa = List.length ob ->
  on_lists (Some (YList (map on_val (combine oa ob)))) = Some (oa, ob).
Proof. intros L. cbn [on_lists]. rewrite mapM_map.
  assert (M : mapM (fun ab : string * string =>
                 match on_val ab with
                 | YStr s => Some (s, s)
                 | YTuple [YStr x; YStr y] | YList [YStr x; YStr y] => Some (x, y)
                 | _ => None
                 end) (combine oa ob) = Some (combine oa ob)).
  { rewrite (mapM_ext _ (fun ab => Some ab)); [apply mapM_Some|]. intros [a b] _. unfold on_val. cbn [fst snd].
    destruct (String.eqb a b) eqn:Eab; [apply String.eqb_eq in Eab; subst b; reflexivity|reflexivity]. }
  rewrite M. cbn [option_map]. rewrite (map_fst_combine oa ob L), (map_snd_combine oa ob L). reflexivity. Qed.

Lemma join_good a b oa ob jt : normal E (EJoin a b oa ob jt) = true -> good a -> good b -> good (EJoin a b oa ob jt).
Proof. cbn [normal]. intros H Ga Gb. split_andb. destruct Gb as [sb [B1 [B2 [B3 B4]]]].
  set (A := [(Some "b", YOp b); (Some "on", YList (map on_val (combine oa ob))); (Some "jointype", YStr jt)]).
  eapply (meth_good a "natural_join" [(Some "b", sb); (Some "on", on_syn E oa ob); (Some "jointype", str_syn E jt)] A); try eassumption; try reflexivity.
  - unfold A. apply eval_args_cons; [exact B4|]. apply eval_args_cons; [apply eval_on_syn|]. apply eval_args_cons; [apply eval_str; exact unq|reflexivity].
  - cbn [wf_args forallb snd]. rewrite B2, wf_on_syn. reflexivity.
  - change (call_method_op E a "natural_join" A) with (b_natural_join a A). unfold b_natural_join.
    change (pos_args A) with (@nil pyv). change (kws_ok ["b"; "on"; "jointype"] A) with true.
    change (kwarg "b" A) with (Some (YOp b)). change (kwarg "jointype" A) with (Some (YStr jt)).
    change (kwarg "on" A) with (Some (YList (map on_val (combine oa ob)))).
    rewrite on_lists_val by (apply Nat.eqb_eq; assumption). rewrite str_upper_join_types by assumption.
    rewrite strip_trivial_id by assumption.
    repeat match goal with Hx : _ = true |- _ => rewrite Hx end. reflexivity.
  - intros ss Hs. cbn [syn_of_op]. rewrite B1, Hs. reflexivity. Qed.

Lemma concat_good a b idc an bn : normal E (EConcat a b idc an bn) = true -> good a -> good b -> good (EConcat a b idc an bn).
Proof. cbn [normal]. intros H Ga Gb. split_andb. destruct Gb as [sb [B1 [B2 [B3 B4]]]].
  set (A := [(Some "b", YOp b); (Some "id_column", match idc with Some c => YStr c | None => YNone end); (Some "a_name", YStr an); (Some "b_name", YStr bn)]).
  eapply (meth_good a "concat_rows"
            [(Some "b", sb); (Some "id_column", match idc with Some c => str_syn E c | None => none_syn end);
             (Some "a_name", str_syn E an); (Some "b_name", str_syn E bn)] A); try eassumption; try reflexivity.
  - unfold A. apply eval_args_cons; [exact B4|]. apply eval_args_cons; [destruct idc; [apply eval_str; exact unq|reflexivity]|].
    apply eval_args_cons; [apply eval_str; exact unq|]. apply eval_args_cons; [apply eval_str; exact unq|reflexivity].
  - cbn [wf_args forallb snd]. rewrite B2. destruct idc; reflexivity.
  - change (call_method_op E a "concat_rows" A) with (b_concat_rows a A). unfold b_concat_rows.
    change (pos_args A) with (@nil pyv). change (kws_ok ["b"; "id_column"; "a_name"; "b_name"] A) with true.
    change (kwarg "b" A) with (Some (YOp b)). change (kwarg "a_name" A) with (Some (YStr an)). change (kwarg "b_name" A) with (Some (YStr bn)).
    change (kwarg "id_column" A) with (Some (match idc with Some c => YStr c | None => YNone end)).
    rewrite strip_trivial_id by assumption.
    destruct idc; repeat match goal with Hx : _ = true |- _ => rewrite Hx end; reflexivity.
  - intros ss Hs. cbn [syn_of_op]. rewrite B1, Hs. reflexivity. Qed.

End Builders.
