(* PEXEC, part 8: the statements of Props/PEXEC.v read off the pipeline induction (part 7): refinement, and the column theorem (no
   scratch column survives) without any premise on the data; the join coalescing statement; scratch-name freshness per step. *)
From Coq Require Import List Bool String Permutation Sorted.
Import ListNotations.
From DA Require Import Base.PyRT Base.Val Model.Sem Model.PdPrim Model.PandasExec Model.PermGuard
  Proofs.SemBasicP Proofs.SemOrderP Proofs.PermP1 Proofs.PermP2 Proofs.PermP3 Proofs.PermP4 Proofs.ComposeP5
  Proofs.PandasExecP1 Proofs.PandasExecP2 Proofs.PandasExecP3 Proofs.PandasExecP4 Proofs.PandasExecP5 Proofs.PandasExecP6 Proofs.PandasExecP7 Proofs.PandasExecP9 Proofs.TabP.
Local Open Scope string_scope.
Local Open Scope list_scope.

(* ------------------------------------------------------------------ the pipeline theorem, every step kind *)
Theorem pexec_refines_sem srt arr q p e t :
  sorter_ok srt -> arranger_ok arr -> wf_op_b p = true -> total_orders fl_pandas p e -> exact_group_keys fl_pandas p e ->
  pexec_gen srt arr q p e = Some t ->
  exists t', sem_gen fl_pandas p e = Some t' /\ refines t t' /\ width_ok t.
Proof.
  intros So Ao W TO EG H. destruct (pexec_sound srt So arr Ao q p e t W H) as [[_ Wt] R].
  destruct (R TO EG) as [t' [E Rf]]. exists t'. split; [exact E|]. split; [exact Rf|exact Wt].
Qed.

(* the same, spelled out: the result has the declared columns (as a set, each of them once in the reference table) and, read in
   the reference column order, its rows are a permutation of the reference rows *)
Lemma refines_cells t t' : refines t t' -> NoDup (cols t') -> width_ok t' ->
  same_set (cols t) (cols t') /\ Permutation (rows (sem_select_cols (cols t') t)) (rows t').
Proof.
  intros Rf N W. split; [apply refines_same_set, Rf|]. destruct (refines_width_witness _ _ Rf W) as [v [[Sc F] [C [P Wv]]]].
  cbn [rows sem_select_cols]. eapply perm_trans; [|exact P].
  assert (map (fun r => map (get (cols t) r) (cols t')) (rows t) = rows v) as ->; [|apply Permutation_refl].
  rewrite <- (map_id (rows v)).
  assert (Forall (fun _ : list val => True) (rows t)) as Ft by (apply Forall_forall; intros; exact I).
  eapply ColumnsUsedP1.F2_map_eq; [exact (Forall2_with_Forall _ _ _ _ _ Ft Wv F)|]. intros a b [_ [Lb Rab]].
  rewrite <- C. rewrite (map_ext _ _ (fun c => Rab c)). apply get_map_self; [rewrite C; exact N|exact Lb].
Qed.

Theorem pexec_refines_sem_cells srt arr q p e t :
  sorter_ok srt -> arranger_ok arr -> wf_op_b p = true -> total_orders fl_pandas p e -> exact_group_keys fl_pandas p e ->
  pexec_gen srt arr q p e = Some t ->
  exists t', sem_gen fl_pandas p e = Some t' /\ same_set (cols t) (cols t') /\ NoDup (cols t') /\
             Permutation (rows (sem_select_cols (cols t') t)) (rows t').
Proof.
  intros So Ao W TO EG H. destruct (pexec_refines_sem srt arr q p e t So Ao W TO EG H) as [t' [E [Rf _]]]. exists t'. split; [exact E|].
  pose proof (sem_rows_width _ _ _ _ E) as Wt'. pose proof (sem_cols _ _ _ _ E) as Ct'.
  assert (NoDup (cols t')) as N by (rewrite Ct'; apply (wf_op_inv p W)).
  destruct (refines_cells t t' Rf N Wt') as [S P]. split; [exact S|]. split; [exact N|exact P].
Qed.

(* ------------------------------------------------------------------ no scratch column survives (no premise on the data) *)
Theorem pexec_shape srt arr q p : sorter_ok srt -> arranger_ok arr -> forall e t,
  wf_op_b p = true -> pexec_gen srt arr q p e = Some t -> same_set (cols t) (column_names p) /\ width_ok t.
Proof. intros So Ao e t W H. apply (pexec_sound srt So arr Ao q p e t W H). Qed.

(* ------------------------------------------------------------------ the join result, cell by cell *)
(* every row of the executor's join result is built from a pair (left row or none, right row or none) that the reference join
   produces, and every cell is COALESCE(left, right): the left value, or the right one where the left is null / absent *)
Theorem join_coalesce arr declared on_a on_b jt l r x :
  arranger_ok arr -> width_ok l -> width_ok r ->
  (forall c, In c on_a -> In c (cols l)) -> (forall c, In c on_b -> In c (cols r)) -> List.length on_a = List.length on_b ->
  same_set declared (cols l ++ filter (fun c => negb (mem c (cols l))) (cols r)) ->
  px_join_with arr declared on_a on_b jt l r = Some x ->
  forall row, In row (rows x) ->
    exists p, In p (sem_pairs (join_match false (cols l) (cols r) on_a on_b) (how_of jt) (rows l) (rows r)) /\
              (forall ra, fst p = Some ra -> In ra (rows l)) /\ (forall rb, snd p = Some rb -> In rb (rows r)) /\
              (forall ra rb, fst p = Some ra -> snd p = Some rb -> join_match false (cols l) (cols r) on_a on_b ra rb = true) /\
              forall c, In c (cols l) \/ In c (cols r) -> get (cols x) row c = sem_cell (cols l) (cols r) p c.
Proof.
  intros Ao Wl Wr Ha Hb Hlen Sd H row Irow.
  destruct (px_join_with_refines arr declared on_a on_b jt l r x Ao Wl Wr Ha Hb Hlen Sd H) as [[v [[Sc F] [C P]]] _].
  rewrite sem_join_as_pairs in C, P. cbn [cols rows] in C, P.
  destruct (Forall2_In_l _ _ _ _ F Irow) as [row' [Irow' Rr]].
  apply (Permutation_in _ P) in Irow'. apply in_map_iff in Irow'. destruct Irow' as [p [Ep Ip]]. exists p. split; [exact Ip|].
  destruct (sem_pairs_from _ (fun _ => []) (fun _ => []) _ _ _ _ Ip) as [Fa [Fb _]]. split; [exact Fa|]. split; [exact Fb|]. split.
  - intros ra rb Ea Eb. destruct p as [oa ob]. cbn [fst snd] in Ea, Eb. subst oa ob.
    apply (sem_pairs_matched _ (fun _ => []) (fun _ => []) _ _ _ _ _ Ip).
  - intros c Ic. rewrite (Rr c), C, <- Ep. unfold sem_mk. rewrite (get_map_cols (fun c0 => sem_cell (cols l) (cols r) p c0)).
    replace (mem c (cols l ++ filter (fun c0 => negb (mem c0 (cols l))) (cols r))) with true; [reflexivity|].
    symmetry. apply mem_In. apply (proj2 (same_set_union_form (cols l) (cols r) c)). apply in_app_iff. exact Ic.
Qed.

(* ------------------------------------------------------------------ the scratch names of the three steps *)
(* windowed extend: the stand-in and original-index columns are new names, different from each other *)
Lemma extend_scratch_fresh (ops : list (string * expr)) (res : table) :
  let names0 := set_union (cols res) (map fst ops) in
  let standin := unused_column_name base_standin names0 in
  let orig := unused_column_name base_orig_index (names0 ++ [standin]) in
  (~ In standin (cols res) /\ ~ In standin (map fst ops)) /\ (~ In orig (cols res) /\ ~ In orig (map fst ops)) /\ orig <> standin.
Proof.
  cbv zeta. set (names0 := set_union (cols res) (map fst ops)). set (standin := unused_column_name base_standin names0).
  pose proof (unused_column_name_fresh base_standin names0) as F1. pose proof (unused_column_name_fresh base_orig_index (names0 ++ [standin])) as F2.
  fold standin in F1. split; [|split].
  - split; intros I; apply F1, In_set_union; [left|right]; exact I.
  - split; intros I; apply F2, in_app_iff; left; apply In_set_union; [left|right]; exact I.
  - intros E. apply F2, in_app_iff. right. left. symmetry. exact E.
Qed.
(* the stand-in column of a constant window / aggregate argument is a new name *)
Lemma wcollect_fresh st ke st' : wcollect st ke = Some st' ->
  ws_temps st' = ws_temps st \/ exists v name, ws_temps st' = ws_temps st ++ [(v, name)] /\ ~ In name (ws_names st) /\ ws_names st' = ws_names st ++ [name].
Proof.
  unfold wcollect. destruct (win_shape (snd ke)) as [[[fn [[c|v]|]] ex]|]; try discriminate.
  - intros H. injection H as <-. left. destruct (mem c (ws_cols st)); reflexivity.
  - destruct (const_lookup v (ws_temps st)); intros H; injection H as <-; [left; reflexivity|]. right. eexists v, _. cbn [ws_temps ws_names].
    split; [reflexivity|]. split; [apply unused_column_name_fresh|reflexivity].
  - intros H. injection H as <-. left. reflexivity.
Qed.
Lemma pcollect_fresh st ke st' : pcollect st ke = Some st' ->
  ps_temps st' = ps_temps st \/ exists v name, ps_temps st' = ps_temps st ++ [(v, name)] /\ ~ In name (ps_names st) /\ ps_names st' = ps_names st ++ [name].
Proof.
  intros H. destruct (pcollect_cases _ _ _ H) as [->|[v [name [Fr ->]]]]; [left; reflexivity|].
  right. exists v, name. split; [reflexivity|]. split; [exact Fr|reflexivity].
Qed.
Lemma project_scratch_fresh (ops : list (string * expr)) (res : table) :
  let temp := unused_column_name base_project_temp (set_union (cols res) (map fst ops)) in ~ In temp (cols res) /\ ~ In temp (map fst ops).
Proof. cbv zeta. exact (T_fresh ops res). Qed.
Lemma join_scratch_fresh (left right : table) :
  let names := set_union (cols left) (cols right) in
  let common := set_inter (cols left) (cols right) in
  (forall c, In c common -> ~ In (sapp c (right_suffix common names)) (cols left) /\ ~ In (sapp c (right_suffix common names)) (cols right)) /\
  (~ In (unused_column_name base_merge_col names) (cols left) /\ ~ In (unused_column_name base_merge_col names) (cols right)) /\
  (~ In (unused_column_name base_null_key names) (cols left) /\ ~ In (unused_column_name base_null_key names) (cols right)).
Proof.
  cbv zeta. split; [|split; split].
  - intros c Ic. pose proof (right_suffix_fresh _ (set_union (cols left) (cols right)) c Ic) as F. split; intros I; apply F, In_set_union; [left|right]; exact I.
  - intros I. apply (unused_column_name_fresh base_merge_col (set_union (cols left) (cols right))), In_set_union. left. exact I.
  - intros I. apply (unused_column_name_fresh base_merge_col (set_union (cols left) (cols right))), In_set_union. right. exact I.
  - intros I. apply (unused_column_name_fresh base_null_key (set_union (cols left) (cols right))), In_set_union. left. exact I.
  - intros I. apply (unused_column_name_fresh base_null_key (set_union (cols left) (cols right))), In_set_union. right. exact I.
Qed.
