(* SQLGEN, part 6: the fragment the theorems are stated for (stage1, with m = the dialect merges extends at SQL level and jok =
   the join types written as a join, join_covered; wf_env); steps that return the sub-query they were given (select_columns /
   drop_columns narrow its terms, an extend none of whose outputs is used passes it on); UNION ALL (concat_rows). *)
From Coq Require Import List Bool Arith String.
Import ListNotations.
From DA Require Import Base.PyRT Base.Val Model.Sem Proofs.SemBasicP Model.ColumnsUsed Proofs.ColumnsUsedP1 Proofs.ColumnsUsedP2
  Proofs.ColumnsUsedP3 Proofs.ColumnsUsedP4 Proofs.ComposeP Model.SqlGen Model.SqlSem Proofs.SqlGenP1 Proofs.SqlGenP2 Proofs.SqlGenP3
  Proofs.SqlGenP4 Proofs.TabP.
Local Open Scope list_scope.

(* ------------------------------------------------------------------ the fragment *)
Definition window_is_empty (w : window) : bool := is_nil (w_part w) && is_nil (w_order w) && is_nil (w_rev w).
(* the source of an id-column concat is not an order_rows without limit (the builder's `.extend({id: label})` would skip it:
   rows in another order); over an un-windowed extend the builder merges the label into that ExtendNode, anything else gets
   a new ExtendNode on top *)
Definition concat_src_ok (a : op) : bool :=
  match a with
  | OOrder _ _ _ None => false
  | _ => true
  end.
(* the step generated for p may be one extend_to_near_sql merges into (an extend step, possibly narrowed by select_columns /
   drop_columns above it) *)
Fixpoint mergeable_src (p : op) : bool :=
  match p with
  | OExtend _ _ _ _ => true
  | OSelectCols s _ | ODropCols s _ => mergeable_src s
  | _ => false
  end.
(* ... and that step may carry window items *)
Fixpoint win_top (p : op) : bool :=
  match p with
  | OExtend _ _ wd _ => wd
  | OSelectCols s _ | ODropCols s _ => win_top s
  | _ => false
  end.

Definition join_covered (d : dialect) (fl : flavor) (jt : jointype) : bool :=
  d_join_carry d && negb (f_join_null_match fl) &&
  match jt with JRight => negb (d_rewrite_right d) | JFull => negb (d_rewrite_full d) | _ => true end.

Fixpoint stage1 (m : bool) (jok : jointype -> bool) (p : op) : bool :=
  match p with
  | OTable _ _ => true
  | OExtend s _ wd w => stage1 m jok s && (if wd then true else window_is_empty w)
  | OSelectRows s _ | OSelectCols s _ | ODropCols s _ | ORename s _ | OMapCols s _ _ | OOrder s _ _ _ => stage1 m jok s
  | OConcat a b idc _ _ => stage1 m jok a && stage1 m jok b &&
                           match idc with Some _ => concat_src_ok a && concat_src_ok b | None => true end
  | OProject s ops gb => stage1 m jok s && negb (is_nil gb && is_nil ops)       (* the builder: "project must have ops or group_by" *)
  | OJoin a b _ _ jt => stage1 m jok a && stage1 m jok b && jok jt
  end.

(* every table description of p is bound to a stored table with exactly the declared columns *)
Definition wf_env (e : env) (p : op) : Prop :=
  forall n cs, In (n, cs) (table_descrs p) -> exists st, dict_get e n = Some st /\ wf_table_for cs st.

Lemma window_empty_is w : window_is_empty w = true -> w = no_window.
Proof. destruct w as [[|a p] [|b o] [|c r]]; try discriminate. reflexivity. Qed.

Lemma stage1_cols_nonempty mg jok p : builder_ok p = true -> stage1 mg jok p = true -> column_names p <> [].
Proof.
  induction p as [n cs|s IH ops wd w|s IH ops gb|s IH x|s IH cs|s IH ds|s IH m|s IH m dels|s IH cs rev lim|a IHa b IHb on_a on_b jt|a IHa b IHb idc an bn];
    intros BO St; simpl in St; try discriminate.
  - simpl in BO. apply andb_true_iff in BO. destruct BO as [B _]. simpl. destruct cs; [discriminate|discriminate].
  - apply andb_true_iff in St. destruct St as [St _].
    destruct (bok_extend_full _ _ _ _ BO) as [BOs _]. specialize (IH BOs St). simpl. intros X.
    destruct (column_names s) as [|c0 t] eqn:E; [congruence|]. assert (In c0 (ext_cols (c0 :: t) (map fst ops))) as I by (apply In_ext_cols; left; left; reflexivity).
    rewrite X in I. destruct I.
  - apply andb_true_iff in St. destruct St as [_ St]. simpl. destruct gb; [destruct ops; [discriminate|discriminate]|discriminate].
  - apply bok_select_rows in BO. exact (IH BO St).
  - simpl in BO. rewrite !andb_true_iff in BO. simpl. destruct cs; [destruct BO as [[[_ B] _] _]; discriminate|discriminate].
  - simpl in BO. rewrite !andb_true_iff in BO. destruct BO as [_ B]. intros X. simpl in X. rewrite X in B. discriminate.
  - destruct (bok_rename _ _ BO) as [BOs _]. specialize (IH BOs St). simpl. destruct (column_names s); [congruence|discriminate].
  - simpl in BO. rewrite !andb_true_iff in BO. destruct BO as [_ B]. intros X. simpl in X. rewrite X in B. discriminate.
  - apply bok_order in BO. exact (IH BO St).
  - rewrite !andb_true_iff in St. destruct St as [[Sa _] _]. destruct (bok_join _ _ _ _ _ BO) as [BOa _]. specialize (IHa BOa Sa).
    simpl. destruct (column_names a); [congruence|discriminate].
  - rewrite !andb_true_iff in St. destruct St as [[Sa _] _]. destruct (bok_concat _ _ _ _ _ BO) as [BOa _]. specialize (IHa BOa Sa).
    simpl. destruct (column_names a); [congruence|discriminate].
Qed.

Section Stage1.
Variable fl : flavor.
Variable e : env.

(* ------------------------------------------------------------------ the same sub-query against a different table *)
Lemma delivers_transfer q u T T' :
  Delivers fl e q u T -> sel [] T' = sel [] T -> (forall K, incl K u -> sel K T' = sel K T) -> incl u (cols T') ->
  Delivers fl e q u T'.
Proof.
  intros D E0 EK Ic. destruct D as [A B C0 C D0 E1]. constructor; try assumption.
  - intros K NE N IK. destruct (C K NE N IK) as [R [Q1 [Q2 [Q3 Q4]]]]. exists R. split; [exact Q1|]. split; [congruence|]. split.
    + intros IKu. rewrite (EK K IKu). apply Q3, IKu.
    + intros C1 N1 I1 I2. rewrite (EK C1 I2). apply Q4; assumption.
  - destruct D0 as [R [Q1 Q2]]. exists R. split; [exact Q1|congruence].
  - intros n ts Eq. destruct (E1 n ts Eq) as [st [G1 G2]]. exists st. split; [exact G1|congruence].
Qed.

Lemma restrict_terms_nil q : restrict_terms q [] = Some (empty_terms q).
Proof. destruct q; reflexivity. Qed.

(* select_columns_to_near_sql / drop_columns_to_near_sql: T' is a projection of T that keeps every requested column *)
Lemma delivers_narrowing q us T keep u T' :
  Delivers fl e q us T -> NoDup keep -> incl keep us -> incl u keep -> incl u (cols T') ->
  sel [] T' = sel [] T -> (forall C, incl C u -> sel C T' = sel C T) ->
  forall q', (if terms_is_none q then (match keep with [] => Some (empty_terms q) | _ => None end) else narrow_or_first q keep) = Some q' ->
  Delivers fl e q' u T'.
Proof.
  intros D Nk Iku Iuk IuT E0 EC q' Eq.
  assert (incl u us) as Iuus by (intros x Hx; apply Iku, Iuk, Hx).
  destruct (terms_is_none q) eqn:TN.
  - destruct keep as [|k0 keep']; [|discriminate]. injection Eq as <-.
    assert (u = []) as -> by (destruct u as [|x u']; [reflexivity|destruct (Iuk x (or_introl eq_refl))]).
    assert (tkeys q = []) as EK by (destruct q as [n [ts|]|nm [l|] s ci sfx mg dp|nm [l|] s1 c1 j s2 c2 on]; try discriminate; reflexivity).
    apply (delivers_empty_terms fl e q T T'); [|exact EK|exact E0]. apply (delivers_mono fl e q us [] T D). intros x [].
  - unfold narrow_or_first in Eq. destruct keep as [|k1 keep'].
    + assert (u = []) as -> by (destruct u as [|x u']; [reflexivity|destruct (Iuk x (or_introl eq_refl))]).
      destruct (tkeys q) as [|k0 rest] eqn:EK.
      * rewrite restrict_terms_nil in Eq. injection Eq as <-.
        apply (delivers_empty_terms fl e q T T'); [|exact EK|exact E0]. apply (delivers_mono fl e q us [] T D). intros x [].
      * apply (delivers_narrow fl e q us T [k0] q' [] T' D Eq).
        { discriminate. }
        { constructor; [intros []|constructor]. }
        { intros x []. }
        { intros x []. }
        { intros x []. }
        { exact E0. }
        { intros C IC. destruct C as [|c C']; [exact E0|destruct (IC c (or_introl eq_refl))]. }
    + assert (restrict_terms q (k1 :: keep') = Some q') as Eq' by (destruct (tkeys q); exact Eq).
      apply (delivers_narrow fl e q us T (k1 :: keep') q' u T' D Eq'); try assumption. discriminate.
Qed.

(* ------------------------------------------------------------------ extend with no requested output *)
Lemma sel_extend_unused ops S K :
  width_ok S -> (forall k, In k K -> ~ In k (map fst ops)) -> sel K (sem_extend fl ops S) = sel K S.
Proof.
  intros W H. unfold sem_select_cols, sem_extend. cbn [cols rows]. f_equal. rewrite map_map.
  apply map_ext_in. intros r Ir. apply map_ext_in. intros k Ik. unfold extend_row.
  assert (List.length r = List.length (cols S)) as L by (unfold width_ok in W; rewrite Forall_forall in W; apply W, Ir).
  rewrite (fold_cells_get_full (fun ke => eval_expr fl (cols S) r (snd ke)) ops r (cols S) k L).
  rewrite (last_for_not_key k ops (H k Ik)). reflexivity.
Qed.

(* ------------------------------------------------------------------ UNION ALL *)
Lemma extend_fold_snd (F : list val -> string * expr -> val) (ops : list (string * expr)) r0 : forall row ccs,
  snd (fold_left (fun (acc : list val * list string) ke => let '(row, ccs) := acc in (set_cell ccs row (fst ke) (F r0 ke), add_end ccs (fst ke))) ops (row, ccs))
  = ext_cols ccs (map fst ops).
Proof. induction ops as [|ke t IH]; intros row ccs; simpl; [reflexivity|]. rewrite IH. reflexivity. Qed.

(* appending a constant assignment to an extend = a second extend (the builder's merge of the id column) *)
Lemma sem_extend_app_const ops c v S :
  sem_extend fl (ops ++ [(c, EConst v)]) S = sem_extend fl [(c, EConst v)] (sem_extend fl ops S).
Proof.
  unfold sem_extend. cbn [cols rows]. f_equal.
  - unfold ext_cols. rewrite map_app, fold_left_app. reflexivity.
  - rewrite map_map. apply map_ext. intros r. unfold extend_row. rewrite fold_left_app. cbn [fold_left].
    pose proof (extend_fold_snd (fun r0 ke => eval_expr fl (cols S) r0 (snd ke)) ops r r (cols S)) as E2.
    destruct (fold_left _ ops (r, cols S)) as [row ccs] eqn:EF. cbn [snd] in E2. cbn [fst snd eval_expr]. rewrite E2. reflexivity.
Qed.

Lemma sem_extend_const_fresh c v A : mem c (cols A) = false ->
  sem_extend fl [(c, EConst v)] A = mktable (cols A ++ [c]) (map (fun r => r ++ [v]) (rows A)).
Proof.
  intros M. unfold sem_extend, ext_cols. simpl. unfold add_end. rewrite M. f_equal.
  apply map_ext_in. intros r Ir. unfold extend_row. simpl. unfold set_cell. apply index_of_None in M. rewrite M. reflexivity.
Qed.

(* the rows of a concat, column by column, are the rows of its two (labelled) operands *)
Lemma sel_concat idc an bn A B K :
  width_ok B -> (forall c, In c (cols A) <-> In c (cols B)) ->
  match idc with Some c => ~ In c (cols A) | None => True end ->
  let A' := match idc with Some c => mktable (cols A ++ [c]) (map (fun r => r ++ [VStr an]) (rows A)) | None => A end in
  let B' := match idc with Some c => mktable (cols B ++ [c]) (map (fun r => r ++ [VStr bn]) (rows B)) | None => B end in
  incl K (cols A') ->
  sel K (sem_concat idc an bn A B) = mktable K (rows (sel K A') ++ rows (sel K B')).
Proof.
  intros WB EAB Hc A' B' IK. unfold sem_concat. destruct idc as [c|].
  - unfold sem_select_cols. subst A' B'. cbn [cols rows] in *. f_equal. rewrite map_app. f_equal.
    rewrite !map_map. apply map_ext_in. intros r Ir. apply map_ext_in. intros k Ik.
    assert (List.length r = List.length (cols B)) as L by (unfold width_ok in WB; rewrite Forall_forall in WB; apply WB, Ir).
    specialize (IK k Ik). apply in_app_iff in IK. destruct IK as [IkA|[<-|[]]].
    + rewrite (get_app_l (cols A) [c] _ [VStr bn] k) by (try apply map_length; exact IkA).
      rewrite (get_app_l (cols B) [c] r [VStr bn] k) by (try exact L; apply EAB, IkA). apply get_sel_row, IkA.
    + rewrite (get_app_r (cols A) [c] _ [VStr bn] c) by (try apply map_length; exact Hc).
      rewrite (get_app_r (cols B) [c] r [VStr bn] c) by (try exact L; intros I; apply Hc, EAB, I). reflexivity.
  - unfold sem_select_cols. subst A' B'. cbn [cols rows] in *. f_equal. rewrite map_app. f_equal.
    rewrite map_map. apply map_ext_in. intros r Ir. apply map_ext_in. intros k Ik. apply get_sel_row. apply IK, Ik.
Qed.

Lemma union_all_sel uj A B : union_all (sel uj A) (sel uj B) = Some (mktable uj (rows (sel uj A) ++ rows (sel uj B))).
Proof. unfold union_all. cbn [cols]. rewrite Nat.eqb_refl. reflexivity. Qed.

Lemma delivers_union nm uj ql qr TA TB u T :
  Delivers fl e ql uj TA -> Delivers fl e qr uj TB -> NoDup uj -> uj <> [] -> incl u uj -> incl u (cols T) ->
  (forall K, incl K uj -> sel K T = mktable K (rows (sel K TA) ++ rows (sel K TB))) ->
  Delivers fl e (TBinary nm (norm (pass_terms uj)) ql (mk_tci (Some uj) true None) TUnion qr (mk_tci (Some uj) true None) []) u T.
Proof.
  intros DL DR Nuj NE Iu IuT HT.
  destruct (deliver_csem fl e ql uj TA uj true None DL Nuj (incl_refl _)) as [A' [EA [_ XA]]].
  destruct (deliver_csem fl e qr uj TB uj true None DR Nuj (incl_refl _)) as [B' [EB [_ XB]]].
  assert (A' = sel uj TA) as -> by (apply XA; [exact NE|destruct ql; reflexivity]).
  assert (B' = sel uj TB) as -> by (apply XB; [exact NE|destruct qr; reflexivity]).
  assert (norm (pass_terms uj) = Some (pass_terms uj)) as EN by (destruct uj; [congruence|reflexivity]).
  rewrite EN.
  set (U := mktable uj (rows (sel uj TA) ++ rows (sel uj TB))).
  assert (forall want, qsem fl e (TBinary nm (Some (pass_terms uj)) ql (mk_tci (Some uj) true None) TUnion qr (mk_tci (Some uj) true None) []) want
                       = sql_select fl false (Some (pass_terms uj)) want SfxNone U) as EQ.
  { intros want. cbn [qsem]. unfold csem in EA, EB.
    assert (by_name ql (mk_tci (Some uj) true None) = false) as B1 by (destruct ql; reflexivity).
    assert (by_name qr (mk_tci (Some uj) true None) = false) as B2 by (destruct qr; reflexivity).
    rewrite B1 in *. rewrite B2 in *. cbn [tc_cols] in *. rewrite EA, EB, union_all_sel. reflexivity. }
  assert (sel [] U = sel [] T) as E0.
  { rewrite (HT [] (fun x (H : In x []) => match H with end)). unfold U, sem_select_cols. cbn [cols rows]. f_equal. rewrite map_app, !map_map. reflexivity. }
  assert (forall K, K <> [] -> incl K uj -> sql_select fl false (Some (pass_terms uj)) (Some K) SfxNone U = Some (sel K U)) as ES.
  { intros K NK IK. rewrite (sql_select_scalar fl false (pass_terms uj) K SfxNone U NK eq_refl (pass_scalar uj)).
    f_equal. unfold sem_select_cols. f_equal. apply map_ext. intros r. apply map_ext. intros k. rewrite term_of_pass. reflexivity. }
  assert (forall K, incl K uj -> sel K U = sel K T) as EU.
  { intros K IK. rewrite (HT K IK). unfold U, sem_select_cols. cbn [cols rows]. f_equal. rewrite map_app, !map_map. f_equal;
      apply map_ext; intros r; apply map_ext_in; intros k Ik; apply get_sel_row, IK, Ik. }
  constructor.
  - simpl. rewrite keys_pass. exact Nuj.
  - simpl. rewrite keys_pass. exact Iu.
  - exact IuT.
  - intros K NK NDK IK. simpl in IK. rewrite keys_pass in IK. rewrite EQ, (ES K NK IK). eexists. split; [reflexivity|]. split.
    + rewrite sel_nil_sel. exact E0.
    + split; [intros _; apply EU, IK|]. intros C _ IC _. rewrite (sel_sel C K U IC). apply EU. intros x Hx. apply IK, IC, Hx.
  - rewrite EQ. exists U. split; [|exact E0]. unfold sql_select. destruct uj; [congruence|reflexivity].
  - intros n ts X. discriminate.
Qed.

End Stage1.
