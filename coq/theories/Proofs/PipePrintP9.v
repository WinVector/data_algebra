(* C12, part 9: the closed statements (the two section hypotheses of parts 5-8 are the theorems of parts 1 and 3), the
   expression-level statement, equal results through C11, the refutation witnesses and the non-vacuity examples. *)
From Coq Require Import List Bool String QArith .
Import ListNotations.
From DA Require Import Base.PyRT Base.Val Model.Sem Model.Equiv Proofs.EquivP1 Proofs.EquivP2 Proofs.EquivP5 Proofs.EquivP6 Proofs.ListP.
From DA Require Import Model.PyExpr Model.ExprPrint Model.ExprParse Model.ExprRoundtrip Model.PipePrintStr Model.PipePrintSyn Model.PipePrint.
From DA Require Import Proofs.ExprParseP14 Proofs.PipePrintP1 Proofs.PipePrintP2 Proofs.PipePrintP3 Proofs.PipePrintP4 Proofs.PipePrintP5
  Proofs.PipePrintP6 Proofs.PipePrintP7 Proofs.PipePrintP8.
Local Close Scope Q_scope.
Local Open Scope string_scope.
Local Open Scope bool_scope.
Local Open Scope list_scope.

Lemma unq_E (E : penv) s : py_unquote (py_repr (e_np E) s) = Some s.
Proof. apply py_unquote_repr. Qed.
Lemma lexh_E (E : penv) e : lexable e = true -> (forall m, In m (floats_of e) -> float_lex_ok (e_F E) m) ->
  lexg (e_F E) (expr_text (e_F E) (e_np E) e) = Some (to_python e).
Proof. apply lexg_expr_text. Qed.

(* the text of a printable expression, written as a Python string literal, read back by Python and parsed by the library *)
Theorem print_rebuild_expr (F : ffmt) (np : N -> bool) (c : cfg) (dd : list string) (e : expr) :
  printable c dd e = true -> is_term e = true -> lexable e = true -> (forall m, In m (floats_of e) -> float_lex_ok F m) ->
  exists text, py_unquote (py_repr np (expr_text F np e)) = Some text /\ text = expr_text F np e
               /\ parse_text F c dd text = Ok e.
Proof. intros P T L Fl. exists (expr_text F np e). split; [apply py_unquote_repr|]. split; [reflexivity|].
  unfold parse_text. rewrite (lexg_expr_text F np e L Fl). exact (printable_roundtrip c dd e P T). Qed.

Theorem print_rebuild_op (E : penv) (p : eop) : normal E p = true -> floats_ok_op E p ->
  exists ts p', print_op E p = Some ts /\ rebuild E ts = Some p' /\ p' = p /\ pipeline_eqb p p' = true /\ pipeline_eqb p' p = true.
Proof. intros N F. destruct (print_rebuild E (unq_E E) (lexh_E E) p N F) as [ts [P R]].
  exists ts, p. repeat split; try assumption; apply pipeline_eqb_refl. Qed.

Theorem printer_injective (E : penv) (p q : eop) : normal E p = true -> normal E q = true -> floats_ok_op E p -> floats_ok_op E q ->
  print_op E p = print_op E q -> p = q.
Proof. exact (print_injective E (unq_E E) (lexh_E E) p q). Qed.

Ltac split_all := repeat match goal with Hx : _ && _ = true |- _ => apply andb_true_iff in Hx; destruct Hx end.
(* the dict invariants of C11 (wfb) hold of normal pipelines *)
Lemma normal_wfb (E : penv) (p : eop) : normal E p = true -> wfb p = true.
Proof. induction p as [name cols quals|s IH ops part order rev w|s IH ops gb|s IH e|s IH cs|s IH ds|s IH m|s IH m dels|s IH cs rev limit
                       |a IHa b IHb oa ob jt|a IHa b IHb idc an bn|s IH rm]; intros N; cbn [normal] in N; cbn [wfb]; split_all.
  - reflexivity.
  - rewrite IH by assumption. rewrite andb_true_r. apply nodupb_NoDup. eapply ops_ok_nodup. eassumption.
  - rewrite IH by assumption. rewrite andb_true_r. apply nodupb_NoDup. eapply ops_ok_nodup. eassumption.
  - apply IH. assumption.
  - apply IH. assumption.
  - apply IH. assumption.
  - rewrite IH by assumption. rewrite andb_true_r. assumption.
  - rewrite IH by assumption. rewrite andb_true_r.
    match goal with Hd : nodups (map fst _ ++ _) = true |- _ => apply nodups_NoDup, NoDup_app_l in Hd; apply nodupb_NoDup; exact Hd end.
  - apply IH. assumption.
  - rewrite IHa, IHb by assumption. reflexivity.
  - rewrite IHa, IHb by assumption. reflexivity.
  - apply IH. assumption. Qed.

(* the rebuilt pipeline denotes the same table as the original, for every backend flavour and every input: C11's
   soundness theorem applied to the `==` of print_rebuild_op *)
Theorem print_rebuild_same_result (E : penv) (p : eop) : normal E p = true -> floats_ok_op E p ->
  exists ts p', print_op E p = Some ts /\ rebuild E ts = Some p' /\ pipeline_eqb p p' = true /\
    forall sa sb, to_sem p = Some sa -> to_sem p' = Some sb -> forall fl env, sem_gen fl sa env = sem_gen fl sb env.
Proof. intros N F. destruct (print_rebuild_op E p N F) as [ts [p' [P [R [Ep [Q1 Q2]]]]]]. exists ts, p'. repeat split; try assumption.
  intros sa sb Sa Sb fl env. subst p'. exact (pipeline_sound p p sa sb (normal_wfb E p N) (normal_wfb E p N) Q1 Sa Sb fl env). Qed.

Definition F0 : ffmt :=
  mkF (fun q => if Qeqb_s q (3 # 2) then "1.5" else if Qeqb_s q 0 then "0.0" else "?")
      (fun s => if String.eqb s "1.5" then Some (3 # 2)%Q else if String.eqb s "0.0" then Some 0%Q else None).
Definition E0 : penv :=
  mkE (mkcfg ["+"; "-"; "*"; "**"; "sum"; "max"; "=="; "is_in"; "and"; "cumsum"]) F0 (fun _ => false) ["sum"; "max"; "cumsum"].

Lemma F0_float_ok : float_lex_ok F0 (3 # 2).
Proof. split; [reflexivity|]. intros [|c r] H; [reflexivity|]. apply delim_start_In in H. cbn [In] in H.
  repeat (destruct H as [<-|H]; [reflexivity|]). destruct H. Qed.
Lemma F0_zero_ok : float_lex_ok F0 0.
Proof. split; [reflexivity|]. intros [|c r] H; [reflexivity|]. apply delim_start_In in H. cbn [In] in H.
  repeat (destruct H as [<-|H]; [reflexivity|]). destruct H. Qed.

(* a pipeline with every kind of step that prints something optional: windowed extend, quoted string constant, reversed
   order with limit, join on a pair, qualifiers *)
Definition ex_t : eop := ETable "d" ["x"; "y"; "g"] [].
Definition ex_p1 : eop := EExtend ex_t [("z", POp "+" true false [PCol "x"; PVal (KFloat (3 # 2))])] [] [] [] false.
Definition ex_p2 : eop := EExtend ex_p1 [("w", POp "sum" false true [PCol "z"])] ["g"] [] [] true.
Definition ex_p3 : eop := EOrder (ESelectRows ex_p2 (POp "==" true false [PCol "g"; PVal (KStr "a'b")])) ["x"] ["x"] (Some 3%nat).
Definition ex_p4 : eop := EJoin ex_p3 (ETable "e" ["x"; "k"] [("schema", "s")]) ["x"; "g"] ["x"; "k"] "LEFT".

Lemma ex_p4_normal : normal E0 ex_p4 = true.
Proof. vm_compute. reflexivity. Qed.
Lemma ex_p4_floats : floats_ok_op E0 ex_p4.
Proof. cbn [floats_ok_op ex_p4 ex_p3 ex_p2 ex_p1 ex_t]. refine (conj (conj _ (conj _ (conj _ I))) I).
  - intros e He m Hm. vm_compute in He. inversion He; subst e. cbn in Hm. tauto.
  - intros ke [<-|[]] e He m Hm. vm_compute in He. inversion He; subst e. cbn in Hm. tauto.
  - intros ke [<-|[]] e He m Hm. vm_compute in He. inversion He; subst e. cbn in Hm. destruct Hm as [<-|[]]. exact F0_float_ok. Qed.

(* (1) a tree the builders never produce: an extend directly over an order_rows without limit.  The text is re-read by the
   builder, which skips the order_rows: the rebuilt pipeline is a different one *)
Definition w_skip : eop := EExtend (EOrder ex_t ["x"] [] None) [("z", POp "+" true false [PCol "x"; PVal (KInt 1)])] [] [] [] false.
Definition w_skip' : eop := EExtend ex_t [("z", POp "+" true false [PCol "x"; PVal (KInt 1)])] [] [] [] false.
Lemma refuted_without_normal :
  exists ts, print_op E0 w_skip = Some ts /\ rebuild E0 ts = Some w_skip' /\ pipeline_eqb w_skip w_skip' = false /\ normal E0 w_skip = false.
Proof. eexists. split; [vm_compute; reflexivity|]. repeat split; vm_compute; reflexivity. Qed.

(* (2) a column whose name is not an identifier, used in an expression: the text of the expression does not parse *)
Definition w_col : eop := EExtend (ETable "d" ["x"; "my col"] []) [("z", POp "+" true false [PCol "my col"; PVal (KInt 1)])] [] [] [] false.
Lemma refuted_column_name :
  exists ts, print_op E0 w_col = Some ts /\ rebuild E0 ts = None /\ normal E0 w_col = false
             /\ wfb w_col = true /\ subset (ops_cols [("z", POp "+" true false [PCol "my col"; PVal (KInt 1)])]) ["x"; "my col"] = true.
Proof. eexists. split; [vm_compute; reflexivity|]. repeat split; vm_compute; reflexivity. Qed.

(* (3) expressions: an infinite constant (built from term objects) prints as the NAME inf *)
Definition w_inf : expr := EOp "+" true false None [ECol "x"; EVal (PInf false)].
Lemma refuted_expr_infinity :
  exists text, py_unquote (py_repr (fun _ => false) (expr_text F0 (fun _ => false) w_inf)) = Some text
               /\ parse_text F0 (e_cfg E0) ["x"] text = Err /\ printable (e_cfg E0) ["x"] w_inf = false.
Proof. eexists. split; [vm_compute; reflexivity|]. split; vm_compute; reflexivity. Qed.
