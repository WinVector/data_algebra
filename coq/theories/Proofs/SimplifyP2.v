(* C06, part 2: select_columns collapsing, the "select exactly the declared columns" exit, declared_names, and the builders that
   only step over order_rows steps without limit: they put their node on `unorder p`. *)
From Coq Require Import List Bool String Permutation.
Import ListNotations.
From DA Require Import Base.PyRT Base.Val Model.Sem Model.PermGuard Model.MergeGuard Model.Simplify
  Proofs.SemBasicP Proofs.SemOrderP Proofs.PermP2 Proofs.PermP3 Proofs.PermP4 Proofs.ComposeP5 Proofs.SimplifyP1 Proofs.TabP.
Local Open Scope list_scope.

(* ------------------------------------------------------------------ select_columns after select_columns / drop_columns *)

Lemma select_drop ds cs2 t : (forall c, In c cs2 -> In c (cols t) -> ~ In c ds) -> sem_select_cols cs2 (sem_drop_cols ds t) = sem_select_cols cs2 t.
Proof.
  intros S. unfold sem_drop_cols, sem_select_cols. cbn [cols rows]. f_equal. rewrite map_map. apply map_ext. intros r.
  apply map_ext_in. intros c I. rewrite get_map_cols.
  destruct (mem c (filter (fun c0 => negb (mem c0 ds)) (cols t))) eqn:M; [reflexivity|].
  apply mem_false in M. symmetry. apply get_absent. intros Ic. apply M. apply filter_In. split; [exact Ic|].
  apply negb_true_iff, mem_false. apply S; assumption.
Qed.

(* pipelines *)
Lemma select_collapse_select fl s cs1 cs2 e : (forall c, In c cs2 -> In c cs1) ->
  sem_gen fl (OSelectCols (OSelectCols s cs1) cs2) e = sem_gen fl (OSelectCols s cs2) e.
Proof. intros S. cbn [sem_gen]. destruct (sem_gen fl s e) as [t|]; [|reflexivity]. cbn [option_map]. rewrite select_select by exact S. reflexivity. Qed.

Lemma select_collapse_drop fl s ds cs2 e : (forall c, In c cs2 -> In c (column_names (ODropCols s ds))) ->
  sem_gen fl (OSelectCols (ODropCols s ds) cs2) e = sem_gen fl (OSelectCols s cs2) e.
Proof.
  intros S. cbn [sem_gen]. destruct (sem_gen fl s e) as [t|] eqn:E; [|reflexivity]. cbn [option_map]. rewrite select_drop; [reflexivity|].
  intros c I _. specialize (S c I). cbn [column_names] in S. apply filter_In in S. destruct S as [_ S]. apply negb_true_iff, mem_false in S. exact S.
Qed.

(* without the inclusion the collapse is wrong: selecting a column the first selection removed *)
Lemma select_collapse_needs_inclusion :
  exists fl s cs1 cs2 e, sem_gen fl (OSelectCols (OSelectCols s cs1) cs2) e <> sem_gen fl (OSelectCols s cs2) e.
Proof.
  exists fl_spec, (OTable "d" ["a"; "b"]%string), ["a"%string], ["b"%string], [("d"%string, mktable ["a"; "b"]%string [[VBool true; VBool false]])].
  vm_compute. intros H. discriminate H.
Qed.

(* ------------------------------------------------------------------ selecting exactly the columns of the table, in any order *)
Lemma select_all_eqv cs t : same_set cs (cols t) -> tab_eqv t (sem_select_cols cs t).
Proof.
  intros S. split; cbn [cols rows sem_select_cols]; [apply same_set_sym, S|].
  induction (rows t) as [|r l IH]; simpl; constructor; [|exact IH].
  intros c. rewrite get_map_cols. destruct (mem c cs) eqn:M; [reflexivity|].
  apply mem_false in M. apply get_absent. intros I. apply M. apply S. exact I.
Qed.

(* ------------------------------------------------------------------ declared_names *)

Lemma declared_names_same_set p : same_set (declared_names p) (column_names p).
Proof.
  induction p as [n cs|s IH ops wd w|s IH ops gb|s IH x|s IH cs|s IH cs|s IH m|s IH m dels|s IH cs rev lim|a IHa b IHb on_a on_b jt|a IHa b IHb idc an bn];
    cbn [declared_names column_names]; try apply same_set_refl; try exact IH.
  - apply same_set_ext_cols, IH.
  - apply same_set_filter, IH.
  - apply same_set_map, IH.
  - apply same_set_filter, same_set_map, IH.
  - set (na := declared_names a) in *. set (nb := declared_names b) in *.
    assert (same_set (na ++ filter (fun c => negb (mem c na)) nb) (column_names a ++ filter (fun c => negb (mem c (column_names a))) (column_names b))) as A.
    { intros c. rewrite !in_app_iff, !filter_In, (IHa c), (IHb c), (mem_same_set _ _ c IHa). tauto. }
    destruct (subset _ na) eqn:S1.
    + eapply same_set_trans; [|exact A]. intros c. split; [intros I; apply in_app_iff; left; exact I|]. rewrite subset_spec in S1. apply S1.
    + destruct (subset _ nb && subset nb _) eqn:S2; [|exact A].
      apply andb_true_iff in S2. destruct S2 as [S2 S3]. rewrite subset_spec in S2, S3.
      eapply same_set_trans; [|exact A]. intros c. split; [apply S3|apply S2].
  - apply same_set_app; [exact IHa|apply same_set_refl].
Qed.

(* the pipeline a builder applies its step to *)
Fixpoint unorder (p : op) : op := match p with OOrder s _ _ None => unorder s | _ => p end.

(* the steps whose builder looks no deeper into the prefix than that ... *)
Definition skipping (x : step) : bool := match x with SExtend _ _ _ _ _ | SSelectCols _ _ => false | _ => true end.
(* ... and the calls that return the prefix itself whatever it is *)
Definition no_op (x : step) : bool :=
  match x with
  | SExtend ops _ _ _ _ => is_nil ops
  | SDropCols cs => is_nil cs
  | SRename m => is_nil m
  | SMapCols m => is_nil m
  | SOrder cs _ lim => is_nil cs && (match lim with None => true | Some _ => false end)
  | _ => false
  end.

Lemma build_step_no_op iw p x : no_op x = true -> build_step iw p x = p.
Proof. destruct x; cbn [no_op build_step]; intros N; try discriminate N; rewrite N; reflexivity. Qed.

Lemma build_step_unorder iw p x : skipping x = true -> no_op x = false -> build_step iw p x = build_unsimplified iw (unorder p) x.
Proof.
  intros K N. destruct x; try discriminate K; cbn [no_op] in N; cbn [build_step]; rewrite ?N;
    (induction p; try reflexivity; destruct limit; [reflexivity|exact IHp]).
Qed.

(* what survives stepping over them: the denoted table up to the order of its rows, and not evaluating at all *)
Lemma sim_under_order fl e r s cs rev :
  (exists t, sem_gen fl (OOrder s cs rev None) e = Some t /\ tab_sim t r) -> exists t, sem_gen fl s e = Some t /\ tab_sim t r.
Proof.
  intros [t [E S]]. cbn [sem_gen] in E. destruct (sem_gen fl s e) as [t0|]; [|discriminate]. cbn [option_map] in E. inversion E; subst t.
  exists t0. split; [reflexivity|]. eapply tab_sim_trans; [|exact S].
  apply tab_sim_of_perm; [reflexivity|apply Permutation_sym, order_rows_is_permutation].
Qed.
Lemma none_under_order fl e s cs rev : sem_gen fl (OOrder s cs rev None) e = None -> sem_gen fl s e = None.
Proof. cbn [sem_gen]. destruct (sem_gen fl s e); [discriminate|reflexivity]. Qed.

Lemma sim_unorder fl e r p : (exists t, sem_gen fl p e = Some t /\ tab_sim t r) -> exists t, sem_gen fl (unorder p) e = Some t /\ tab_sim t r.
Proof. induction p; intros D; try exact D. destruct limit; [exact D|]. eapply IHp, sim_under_order, D. Qed.
Lemma none_unorder fl e p : sem_gen fl p e = None -> sem_gen fl (unorder p) e = None.
Proof. induction p; intros E; try exact E. destruct limit; [exact E|]. eapply IHp, none_under_order, E. Qed.

(* what the builder validated of an accepted step, with respect to the columns cs of the table it is applied to *)
Definition step_valid (x : step) (cs : list string) : Prop :=
  match x with
  | SExtend ops one part order _ =>
      NoDup (map fst ops) /\ (forall k, In k (map fst ops) -> ~ In k (eff_part (mkwargs one part order []) ++ order))
  | SSelectCols sel _ => forall c, In c sel -> In c cs
  | SRename m => inj_on (rename_col m) cs
  | SMapCols m => inj_on (rename_col (map_remap m)) cs
  | _ => True
  end.

(* C18's premise for the one step x on its actual input r: an order-sensitive window orders each partition strictly, a project's
   group keys have one representation per value, a limit is taken under a total order.  Nothing is asked of any other step. *)
Definition step_insensitive (iw : list string) (fl : flavor) (x : step) (r : table) : Prop :=
  match x with
  | SExtend ops one part order rev =>
      let n := node_of (implies iw ops) (mkwargs one part order rev) in
      n_windowed n = true -> ops_order_sensitive ops = true -> window_total fl (cols r) (mkwin (n_part n) (n_order n) (n_rev n)) (rows r)
  | SProject _ gb => keys_exact (cols r) gb (rows r)
  | SOrder cs rev lim => lim <> None -> total_on fl (cols r) (map (fun c => (c, mem c rev)) cs) (rows r)
  | _ => True
  end.

Lemma step_valid_same_set x cs cs' : same_set cs cs' -> step_valid x cs -> step_valid x cs'.
Proof.
  intros S. destruct x; cbn [step_valid]; try tauto.
  - intros H c I. apply S, H, I.
  - intros J a b Ia Ib. apply J; apply S; assumption.
  - intros J a b Ia Ib. apply J; apply S; assumption.
Qed.

(* ------------------------------------------------------------------ one step on materialised tables respects tab_sim *)
Lemma width_apply iw fl e x t t' : width_ok t -> apply_sem iw fl e x t = Some t' -> width_ok t'.
Proof.
  intros W. destruct x; cbn [apply_sem]; intros H.
  - injection H as <-. match goal with |- width_ok (if ?b then _ else _) => destruct b end; [apply width_wextend|apply width_extend]; exact W.
  - inversion H; subst. apply width_project.
  - inversion H; subst. apply width_select_rows, W.
  - inversion H; subst. apply width_select_cols.
  - inversion H; subst. apply width_select_cols.
  - inversion H; subst. apply width_rename, W.
  - inversion H; subst. apply width_select_cols.
  - inversion H; subst. apply width_order, W.
  - destruct (sem_gen fl b e); [|discriminate]. inversion H; subst. apply width_join.
  - destruct (sem_gen fl b e); [|discriminate]. inversion H; subst. apply width_concat, W.
Qed.

Lemma sim_apply iw fl e x t r : width_ok t -> width_ok r -> tab_sim t r -> step_valid x (cols r) -> step_insensitive iw fl x r ->
  otab_sim (apply_sem iw fl e x t) (apply_sem iw fl e x r).
Proof.
  intros Wt Wr S V I. destruct x; cbn [apply_sem otab_sim step_valid step_insensitive] in *.
  - destruct (n_windowed _) eqn:Wd; [apply sim_wextend; try assumption; intros Se; apply I; [reflexivity|exact Se]|apply sim_extend; assumption].
  - apply sim_project; assumption.
  - apply sim_select_rows, S.
  - apply sim_select_cols, S.
  - apply sim_drop_cols, S.
  - apply sim_rename; assumption.
  - apply sim_drop_cols, sim_rename; assumption.
  - apply sim_order; assumption.
  - destruct (sem_gen fl b e); [apply sim_join, S|exact Logic.I].
  - destruct (sem_gen fl b e); [apply sim_concat; assumption|exact Logic.I].
Qed.
