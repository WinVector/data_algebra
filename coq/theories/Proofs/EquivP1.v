(* C11, part 1: expression equality (is_equal) -- symmetry, reflexivity, and what it implies for the fields read by
   executors and SQL generation (core_expr) and for the reference semantics (expr_sem). *)
From Coq Require Import List Bool QArith String .
Import ListNotations.
From DA Require Import Base.PyRT Base.Val Model.Sem Model.Equiv.
Local Open Scope list_scope.

(* ------------------------------------------------------------------ induction over expressions (nested lists) *)
Section PexprInd.
  Variable P : pexpr -> Prop.
  Hypothesis Hcol : forall c, P (PCol c).
  Hypothesis Hval : forall k, P (PVal k).
  Hypothesis Hlist : forall w xs, P (PList w xs).
  Hypothesis Hop : forall o i m args, Forall P args -> P (POp o i m args).
  Fixpoint pexpr_ind' (e : pexpr) : P e :=
    match e with
    | PCol c => Hcol c
    | PVal k => Hval k
    | PList w xs => Hlist w xs
    | POp o i m args =>
        Hop o i m args ((fix go (l : list pexpr) : Forall P l :=
                           match l with [] => Forall_nil P | x :: t => Forall_cons x (pexpr_ind' x) (go t) end) args)
    end.
End PexprInd.

(* the nested fixpoints of the model, as ordinary list functions *)
Fixpoint list_all2 {A} (f : A -> A -> bool) (l1 l2 : list A) : bool :=
  match l1, l2 with x :: t, y :: u => f x y && list_all2 f t u | _, _ => true end.
Fixpoint opt_list {A B} (f : A -> option B) (l : list A) : option (list B) :=
  match l with
  | [] => Some []
  | x :: t => match f x, opt_list f t with Some x', Some t' => Some (x' :: t') | _, _ => None end
  end.

Lemma is_equal_op q o i m xs o' i' m' ys :
  is_equal q (POp o i m xs) (POp o' i' m' ys) = String.eqb o o' && Bool.eqb i i' && list_eqb (is_equal q) xs ys.
Proof. simpl. f_equal. revert ys. induction xs as [|x t IH]; intros [|y u]; simpl; try reflexivity. rewrite IH. reflexivity. Qed.
Lemma agree_expr_op q o i m xs o' i' m' ys :
  agree_expr q (POp o i m xs) (POp o' i' m' ys) = list_all2 (agree_expr q) xs ys.
Proof. simpl. revert ys. induction xs as [|x t IH]; intros [|y u]; simpl; try reflexivity. rewrite IH. reflexivity. Qed.
Lemma ragree_expr_op q o i m xs o' i' m' ys :
  ragree_expr q (POp o i m xs) (POp o' i' m' ys) = list_all2 (ragree_expr q) xs ys.
Proof. simpl. revert ys. induction xs as [|x t IH]; intros [|y u]; simpl; try reflexivity. rewrite IH. reflexivity. Qed.
Lemma expr_sem_op o i m args : expr_sem (POp o i m args) = option_map (EOp o) (opt_list expr_sem args).
Proof. simpl. f_equal. induction args as [|x t IH]; simpl; [reflexivity|]. rewrite IH. reflexivity. Qed.
Lemma core_expr_op o i m args : core_expr (POp o i m args) = POp o i false (map core_expr args).
Proof. reflexivity. Qed.

(* ------------------------------------------------------------------ generic list_eqb facts *)
Lemma list_eqb_sym {A} (f : A -> A -> bool) l1 : forall l2,
  Forall (fun x => forall y, f x y = f y x) l1 -> list_eqb f l1 l2 = list_eqb f l2 l1.
Proof. induction l1 as [|x t IH]; intros [|y u] F; simpl; try reflexivity.
  inversion F as [|? ? Hx Ht]; subst. rewrite Hx, (IH u Ht). reflexivity. Qed.
Lemma list_eqb_refl {A} (f : A -> A -> bool) l : Forall (fun x => f x x = true) l -> list_eqb f l l = true.
Proof. induction 1 as [|x t Hx _ IH]; simpl; [reflexivity|]. rewrite Hx, IH. reflexivity. Qed.
Lemma list_eqb_length {A} (f : A -> A -> bool) l1 : forall l2, list_eqb f l1 l2 = true -> List.length l1 = List.length l2.
Proof. induction l1 as [|x t IH]; intros [|y u] E; simpl in *; try discriminate; try reflexivity.
  apply andb_true_iff in E. destruct E as [_ E]. f_equal. apply IH, E. Qed.
Lemma list_eqb_eq {A} (f : A -> A -> bool) l1 : forall l2,
  (forall x y, In x l1 -> f x y = true -> x = y) -> list_eqb f l1 l2 = true -> l1 = l2.
Proof. induction l1 as [|x t IH]; intros [|y u] Hf E; simpl in *; try discriminate; try reflexivity.
  apply andb_true_iff in E. destruct E as [E1 E2]. f_equal; [apply Hf; auto|]. apply IH; [|exact E2].
  intros a b Ia. apply Hf. right. exact Ia. Qed.
Lemma list_eqb_eqb {A} `{EqDec A} (l1 l2 : list A) : list_eqb eqb l1 l2 = true <-> l1 = l2.
Proof. split.
  - apply list_eqb_eq. intros x y _ E. exact (proj1 (eqb_true x y) E).
  - intros <-. apply list_eqb_refl. apply Forall_forall. intros x _. apply eqb_refl. Qed.

(* ------------------------------------------------------------------ constants *)
Lemma py_eq_sym a b : py_eq a b = py_eq b a.
Proof. destruct a, b; simpl; try reflexivity; try apply Qeq_bool_comm; apply String.eqb_sym. Qed.
Lemma py_eq_refl a : const_nan_free a = true -> py_eq a a = true.
Proof. destruct a; simpl; intros E; try reflexivity; try discriminate; try apply Qeq_bool_refl. apply String.eqb_refl. Qed.
Lemma eqb_sym {A} `{EqDec A} (x y : A) : eqb x y = eqb y x.
Proof. unfold eqb. destruct (eq_dec x y), (eq_dec y x); congruence. Qed.
Lemma const_eq_sym q a b : const_eq q a b = const_eq q b a.
Proof. unfold const_eq. destruct (q_const_py_eq q); [apply py_eq_sym|apply eqb_sym]. Qed.
Lemma const_eq_refl q a : (q_const_py_eq q = true -> const_nan_free a = true) -> const_eq q a a = true.
Proof. unfold const_eq. destruct (q_const_py_eq q); intros N; [apply py_eq_refl, N; reflexivity|apply eqb_refl]. Qed.

(* Python == between constants of which none or both are booleans means the same value of the reference semantics *)
Lemma Qeq_bool_Qred x y : Qeq_bool x y = true -> Qred x = Qred y.
Proof. intros E. apply Qred_complete. apply Qeq_bool_iff. exact E. Qed.
Lemma py_eq_val a b : py_eq a b = true -> Bool.eqb (is_kbool a) (is_kbool b) = true -> val_of a = val_of b.
Proof. destruct a as [|x|x|x| |x], b as [|y|y|y| |y]; cbn [py_eq knum val_of is_kbool Bool.eqb]; intros E K; try discriminate; try reflexivity;
    try (apply Qeq_bool_Qred in E; rewrite E; reflexivity).
  - destruct x, y; try reflexivity; vm_compute in E; discriminate.
  - apply String.eqb_eq in E. rewrite E. reflexivity. Qed.

(* ------------------------------------------------------------------ is_equal: symmetric *)
Lemma is_equal_sym q a : forall b, is_equal q a b = is_equal q b a.
Proof. induction a as [c|k|w xs|o i m args IH] using pexpr_ind'; intros [c'|k'|w' ys|o' i' m' args']; try reflexivity.
  - simpl. apply String.eqb_sym.
  - simpl. apply const_eq_sym.
  - simpl. destruct (q_list_len_only q).
    + rewrite (orb_comm w' w). destruct (w || w'); [apply Nat.eqb_sym|].
      apply list_eqb_sym. apply Forall_forall. intros x _ y. apply py_eq_sym.
    + apply list_eqb_sym. apply Forall_forall. intros x _ y. apply eqb_sym.
  - rewrite !is_equal_op. rewrite (String.eqb_sym o o'). f_equal; [f_equal|].
    + destruct i, i'; reflexivity.
    + apply list_eqb_sym. exact IH. Qed.

(* ------------------------------------------------------------------ is_equal: reflexive (nan-free, or repaired code) *)
(* nan <> nan matters to the unrepaired Value.is_equal and to Python's == on raw list literals *)
Definition nan_matters (q : quirks) : bool := q_const_py_eq q || q_list_len_only q.

Lemma is_equal_refl q a : (nan_matters q = true -> expr_nan_free a = true) -> is_equal q a a = true.
Proof. unfold nan_matters. induction a as [c|k|w xs|o i m args IH] using pexpr_ind'; intros N.
  - simpl. apply String.eqb_refl.
  - simpl. apply const_eq_refl. intros Q. apply N. rewrite Q. reflexivity.
  - simpl. destruct (q_list_len_only q) eqn:QL.
    + destruct (w || w); [apply Nat.eqb_refl|].
      apply list_eqb_refl. apply Forall_forall. intros x Hx. apply py_eq_refl.
      assert (expr_nan_free (PList w xs) = true) as F by (apply N; apply orb_true_r).
      simpl in F. rewrite forallb_forall in F. apply F, Hx.
    + apply list_eqb_eqb. reflexivity.
  - rewrite is_equal_op, String.eqb_refl, Bool.eqb_reflx. simpl. apply list_eqb_refl.
    rewrite Forall_forall in IH |- *. intros x Hx. apply IH; [exact Hx|]. intros Q. specialize (N Q). simpl in N.
    rewrite forallb_forall in N. apply N, Hx. Qed.

(* ------------------------------------------------------------------ is_equal, given the forgotten fields: same core *)
Lemma is_equal_core q a : forall b, is_equal q a b = true -> agree_expr q a b = true -> core_expr a = core_expr b.
Proof. induction a as [c|k|w xs|o i m args IH] using pexpr_ind'; intros [c'|k'|w' ys|o' i' m' args'] E G; try discriminate.
  - simpl in E. apply String.eqb_eq in E. subst. reflexivity.
  - simpl in E, G. unfold const_eq in E. destruct (q_const_py_eq q).
    + rewrite (proj1 (eqb_true k k') G). reflexivity.
    + rewrite (proj1 (eqb_true k k') E). reflexivity.
  - simpl in E, G. destruct (q_list_len_only q).
    + rewrite (proj1 (eqb_true xs ys) G). reflexivity.
    + apply list_eqb_eqb in E. subst. reflexivity.
  - rewrite is_equal_op in E. rewrite agree_expr_op in G. rewrite !core_expr_op.
    apply andb_true_iff in E. destruct E as [E E3]. apply andb_true_iff in E. destruct E as [E1 E2].
    apply String.eqb_eq in E1. apply Bool.eqb_prop in E2. subst. f_equal.
    revert args' E3 G. induction IH as [|x t Hx _ IHt]; intros [|y u] E3 G; simpl in *; try discriminate; try reflexivity.
    apply andb_true_iff in E3. destruct E3 as [Ex Et]. apply andb_true_iff in G. destruct G as [Gx Gt].
    f_equal; [apply Hx; assumption | apply IHt; assumption]. Qed.

(* ------------------------------------------------------------------ is_equal, given no bool/number conflation: same meaning *)
Lemma is_equal_sem q a : forall b, is_equal q a b = true -> ragree_expr q a b = true -> expr_sem a = expr_sem b.
Proof. induction a as [c|k|w xs|o i m args IH] using pexpr_ind'; intros [c'|k'|w' ys|o' i' m' args'] E G; try discriminate.
  - simpl in E. apply String.eqb_eq in E. subst. reflexivity.
  - simpl in E, G. unfold const_eq in E. simpl. destruct (q_const_py_eq q).
    + rewrite (py_eq_val k k' E G). reflexivity.
    + rewrite (proj1 (eqb_true k k') E). reflexivity.
  - reflexivity.
  - rewrite is_equal_op in E. rewrite ragree_expr_op in G. rewrite !expr_sem_op.
    apply andb_true_iff in E. destruct E as [E E3]. apply andb_true_iff in E. destruct E as [E1 E2].
    apply String.eqb_eq in E1. subst. f_equal.
    revert args' E3 G. induction IH as [|x t Hx _ IHt]; intros [|y u] E3 G; simpl in *; try discriminate; try reflexivity.
    apply andb_true_iff in E3. destruct E3 as [Ex Et]. apply andb_true_iff in G. destruct G as [Gx Gt].
    rewrite (Hx y Ex Gx), (IHt u Et Gt). reflexivity. Qed.

(* with the repaired flags nothing is forgotten *)
Lemma list_all2_true {A} (f : A -> A -> bool) l1 : Forall (fun x => forall y, f x y = true) l1 -> forall l2, list_all2 f l1 l2 = true.
Proof. induction 1 as [|x t Hx _ IHt]; intros [|y u]; simpl; try reflexivity. rewrite Hx, IHt. reflexivity. Qed.
Lemma agree_expr_fixed a : forall b, agree_expr q_fixed a b = true.
Proof. induction a as [c|k|w xs|o i m args IH] using pexpr_ind'; intros [c'|k'|w' ys|o' i' m' args']; try reflexivity.
  rewrite agree_expr_op. apply list_all2_true, IH. Qed.
Lemma ragree_expr_fixed a : forall b, ragree_expr q_fixed a b = true.
Proof. induction a as [c|k|w xs|o i m args IH] using pexpr_ind'; intros [c'|k'|w' ys|o' i' m' args']; try reflexivity.
  rewrite ragree_expr_op. apply list_all2_true, IH. Qed.

(* the erased fields do not reach the reference semantics *)
Lemma expr_sem_core a : expr_sem (core_expr a) = expr_sem a.
Proof. induction a as [c|k|w xs|o i m args IH] using pexpr_ind'; try reflexivity.
  rewrite core_expr_op, !expr_sem_op. f_equal.
  induction IH as [|x t Hx _ IHt]; simpl; [reflexivity|]. rewrite Hx, IHt. reflexivity. Qed.
