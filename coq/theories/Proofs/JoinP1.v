(* C16, part 1: the reference semantics of natural_join (Model/Sem.v, sem_join with "null keys never match") IS the
   standard SQL join of Model/JoinSpec.v: same columns, same rows in the same order, for every join type, every key
   specification (same or different names, any number of key columns) and all tables. *)
From Coq Require Import List Bool QArith String Permutation.
Import ListNotations.
From DA Require Import Base.PyRT Base.Val Model.Sem Model.JoinSpec Model.JoinEmul Proofs.ListP Proofs.TabP.
Local Open Scope list_scope.

Definition jt_of (jt : jointype) : sqljoin :=
  match jt with JInner => SInner | JLeft => SLeft | JRight => SRight | JFull => SFull end.

(* ---------- the scalar level: SQL `=` is TRUE exactly when both operands are non-null and equal *)
Lemma sql_is_null_eq v : sql_is_null v = is_null v.
Proof. destruct v; reflexivity. Qed.

Lemma sql_eq_true a b : is_true (sql_eq a b) = negb (is_null a) && v_eqv a b.
Proof.
  destruct a as [|[|]|x|x|x], b as [|[|]|y|y|y]; unfold sql_eq, v_eqv, sql_num, num_of, is_null; cbv beta iota;
    try reflexivity; try (destruct (Qeq_bool _ _); reflexivity); destruct (String.eqb _ _); reflexivity.
Qed.

Lemma is_true_and x y : is_true (tv_and x y) = is_true x && is_true y.
Proof. destruct x, y; reflexivity. Qed.

Lemma on_holds_keys_match c1 c2 on_a : forall on_b r1 r2, List.length on_a = List.length on_b ->
  on_holds c1 c2 (combine on_a on_b) r1 r2 = keys_match false (key_of c1 on_a r1) (key_of c2 on_b r2).
Proof.
  unfold on_holds, keys_match, key_of. induction on_a as [|ka ta IH]; intros [|kb tb] r1 r2 L; simpl in L; try discriminate.
  - reflexivity.
  - cbn [combine on_cond fold_right map existsb keys_eqv fst snd orb].
    rewrite is_true_and, sql_eq_true. specialize (IH tb r1 r2 (eq_add_S _ _ L)). unfold on_cond in IH. rewrite IH.
    cbn [orb]. destruct (is_null (get c1 r1 ka)), (existsb is_null (map (get c1 r1) ta)); cbn [negb andb]; rewrite ?andb_false_r; reflexivity.
Qed.

(* ---------- the select list *)
Definition mk_sem (ca cb : list string) (ra rb : option (list val)) : list val :=
  map (fun c => let va := match ra with Some r => if mem c ca then get ca r c else VNull | None => VNull end in
                let vb := match rb with Some r => if mem c cb then get cb r c else VNull | None => VNull end in
                if is_null va then vb else va) (ca ++ filter (fun c => negb (mem c ca)) cb).

Lemma cell_absent cs r c : mem c cs = false -> cell cs r c = VNull.
Proof. intros M. destruct r; [apply get_absent, mem_false, M|reflexivity]. Qed.

(* the select list in one formula, for every column name: the left cell, or the right cell where the left is null or missing *)
Lemma coalesce_cell_eq c1 c2 r1 r2 c :
  coalesce_cell c1 c2 r1 r2 c = if is_null (cell c1 r1 c) then cell c2 r2 c else cell c1 r1 c.
Proof. reflexivity. Qed.

Lemma coalesce_absent_l c1 c2 r1 r2 c : mem c c1 = false -> coalesce_cell c1 c2 r1 r2 c = cell c2 r2 c.
Proof. intros M. rewrite coalesce_cell_eq, (cell_absent c1 r1 c M). reflexivity. Qed.

Lemma coalesce_absent_r c1 c2 r1 r2 c : mem c c2 = false -> coalesce_cell c1 c2 r1 r2 c = cell c1 r1 c.
Proof. intros M. rewrite coalesce_cell_eq, (cell_absent c2 r2 c M). destruct (cell c1 r1 c); reflexivity. Qed.

Lemma eval_item_coalesce c1 c2 r1 r2 c : eval_item c1 c2 r1 r2 (item_of c1 c2 c) = coalesce_cell c1 c2 r1 r2 c.
Proof.
  unfold item_of. destruct (mem c c1) eqn:M1; [destruct (mem c c2) eqn:M2|]; cbn [eval_item].
  - rewrite sql_is_null_eq. reflexivity.
  - symmetry. apply coalesce_absent_r, M2.
  - symmetry. apply coalesce_absent_l, M1.
Qed.

Lemma select_row_coalesce c1 c2 r1 r2 : select_row c1 c2 r1 r2 = map (coalesce_cell c1 c2 r1 r2) (out_cols c1 c2).
Proof. apply map_ext. intros c. apply eval_item_coalesce. Qed.

Lemma mk_sem_select ca cb ra rb : mk_sem ca cb ra rb = select_row ca cb ra rb.
Proof.
  rewrite select_row_coalesce. apply map_ext. intros c. unfold coalesce_cell.
  assert (forall cs r, (if mem c cs then get cs r c else VNull) = get cs r c) as G
    by (intros cs r; destruct (mem c cs) eqn:M; [reflexivity|symmetry; apply get_absent, mem_false, M]).
  destruct ra, rb; rewrite ?G; reflexivity.
Qed.

(* ---------- the shape every join has: the pairs that hit, then the rows of a preserved side that hit nothing.
   sem_join, the SQL join of JoinSpec.v and the emulations of JoinEmul.v are all join_rows of their own hit and mk. *)
Section JoinRows.
  Context {A B C : Type}.

  Definition matched_rows (hit : A -> B -> bool) (mk : A -> B -> C) (la : list A) (lb : list B) : list C :=
    flat_map (fun x => flat_map (fun y => if hit x y then [mk x y] else []) lb) la.
  Definition unmatched_rows (hit : A -> B -> bool) (mk : A -> C) (la : list A) (lb : list B) : list C :=
    flat_map (fun x => if existsb (hit x) lb then [] else [mk x]) la.

  Lemma matched_rows_by_row hit mk la lb : matched_rows hit mk la lb = flat_map (fun x => map (mk x) (filter (hit x) lb)) la.
  Proof. apply flat_map_ext. intros x. apply flat_map_if. Qed.

  Lemma matched_rows_prod hit mk la lb :
    matched_rows hit mk la lb = map (fun q => mk (fst q) (snd q)) (filter (fun q => hit (fst q) (snd q)) (list_prod la lb)).
  Proof.
    rewrite matched_rows_by_row. induction la as [|x t IH]; simpl; [reflexivity|].
    rewrite filter_app, map_app, IH. f_equal. clear IH.
    induction lb as [|y u IHu]; simpl; [reflexivity|]. destruct (hit x y); simpl; rewrite IHu; reflexivity.
  Qed.

  Lemma unmatched_rows_filter hit mk la lb : unmatched_rows hit mk la lb = map mk (filter (fun x => negb (existsb (hit x) lb)) la).
  Proof. induction la as [|x t IH]; simpl; [reflexivity|]. destruct (existsb (hit x) lb); simpl; rewrite IH; reflexivity. Qed.

  Lemma matched_rows_ext_in hit hit' mk mk' la lb :
    (forall x y, In x la -> In y lb -> hit x y = hit' x y) -> (forall x y, mk x y = mk' x y) ->
    matched_rows hit mk la lb = matched_rows hit' mk' la lb.
  Proof.
    intros H M. apply flat_map_ext_in. intros x Ix. apply flat_map_ext_in. intros y Iy. rewrite (H x y Ix Iy), M. reflexivity.
  Qed.

  Lemma unmatched_rows_ext_in hit hit' mk mk' la lb :
    (forall x y, In x la -> In y lb -> hit x y = hit' x y) -> (forall x, mk x = mk' x) ->
    unmatched_rows hit mk la lb = unmatched_rows hit' mk' la lb.
  Proof.
    intros H M. apply flat_map_ext_in. intros x Ix. rewrite (existsb_ext_in (hit x) (hit' x) lb), M; [reflexivity|].
    intros y Iy. apply H; assumption.
  Qed.
End JoinRows.

Definition join_rows {A B C} (hit : A -> B -> bool) (mk : option A -> option B -> C) (jt : jointype) (la : list A) (lb : list B) : list C :=
  matched_rows hit (fun x y => mk (Some x) (Some y)) la lb
  ++ (match jt with JLeft | JFull => unmatched_rows hit (fun x => mk (Some x) None) la lb | _ => [] end)
  ++ (match jt with JRight | JFull => unmatched_rows (fun y x => hit x y) (fun y => mk None (Some y)) lb la | _ => [] end).

Lemma join_rows_ext_in {A B C} (hit hit' : A -> B -> bool) (mk mk' : option A -> option B -> C) jt la lb :
  (forall x y, In x la -> In y lb -> hit x y = hit' x y) -> (forall o1 o2, mk o1 o2 = mk' o1 o2) ->
  join_rows hit mk jt la lb = join_rows hit' mk' jt la lb.
Proof.
  intros H M. unfold join_rows.
  rewrite (matched_rows_ext_in hit hit' _ (fun x y => mk' (Some x) (Some y)) la lb H) by (intros; apply M).
  rewrite (unmatched_rows_ext_in hit hit' _ (fun x => mk' (Some x) None) la lb H) by (intros; apply M).
  rewrite (unmatched_rows_ext_in (fun y x => hit x y) (fun y x => hit' x y) _ (fun y => mk' None (Some y)) lb la)
    by (intros; auto).
  reflexivity.
Qed.

Lemma sem_join_unfold nm on_a on_b jt a b :
  sem_join nm on_a on_b jt a b =
  mktable (out_cols (cols a) (cols b))
    (join_rows (fun ra rb => keys_match nm (key_of (cols a) on_a ra) (key_of (cols b) on_b rb)) (select_row (cols a) (cols b))
       jt (rows a) (rows b)).
Proof.
  transitivity (mktable (out_cols (cols a) (cols b))
                  (join_rows (fun ra rb => keys_match nm (key_of (cols a) on_a ra) (key_of (cols b) on_b rb)) (mk_sem (cols a) (cols b))
                     jt (rows a) (rows b))); [reflexivity|].
  f_equal. apply join_rows_ext_in; [reflexivity|apply mk_sem_select].
Qed.

Lemma sql_join_rows_shape jt on a b :
  sql_join_rows (jt_of jt) on a b = join_rows (on_holds (cols a) (cols b) on) (select_row (cols a) (cols b)) jt (rows a) (rows b).
Proof.
  unfold join_rows. rewrite matched_rows_prod, !unmatched_rows_filter. destruct jt; cbn [jt_of]; rewrite ?app_nil_r; reflexivity.
Qed.

(* ---------- the main statement *)
Theorem sem_join_is_spec on_a on_b jt a b : List.length on_a = List.length on_b ->
  sem_join false on_a on_b jt a b = sql_join_spec (jt_of jt) (combine on_a on_b) a b.
Proof.
  intros L. rewrite sem_join_unfold. unfold sql_join_spec. rewrite sql_join_rows_shape. f_equal.
  apply join_rows_ext_in; [|reflexivity]. intros ra rb _ _. symmetry. apply on_holds_keys_match, L.
Qed.

(* natural_join(on=[], jointype='CROSS') is built as an inner join without keys: every pair of rows *)
Theorem sem_cross_is_spec a b : sem_join false [] [] JInner a b = sql_join_spec SCross [] a b.
Proof.
  rewrite (sem_join_is_spec [] [] JInner a b eq_refl). unfold sql_join_spec, sql_join_rows, joined_TN. cbn [jt_of combine].
  f_equal. f_equal. clear. induction (list_prod (rows a) (rows b)) as [|p t IH]; simpl; [reflexivity|]. rewrite IH. reflexivity.
Qed.

Corollary sem_join_rows_perm on_a on_b jt a b : List.length on_a = List.length on_b ->
  Permutation (rows (sem_join false on_a on_b jt a b)) (sql_join_rows (jt_of jt) (combine on_a on_b) a b).
Proof. intros L. rewrite (sem_join_is_spec _ _ _ _ _ L). apply Permutation_refl. Qed.

(* every backend flavour except Pandas' evaluates a join node with "null keys never match", hence as the SQL join *)
Lemma sem_gen_join_is_spec fl pa pb on_a on_b jt e ta tb :
  f_join_null_match fl = false -> List.length on_a = List.length on_b ->
  sem_gen fl pa e = Some ta -> sem_gen fl pb e = Some tb ->
  sem_gen fl (OJoin pa pb on_a on_b jt) e = Some (sql_join_spec (jt_of jt) (combine on_a on_b) ta tb).
Proof. intros N L Ha Hb. cbn [sem_gen]. rewrite Ha, Hb, N. f_equal. apply sem_join_is_spec, L. Qed.
