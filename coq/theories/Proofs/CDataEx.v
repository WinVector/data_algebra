(* C17: concrete instances used by the Examples and by the refutation witnesses of Props/C17.v *)
From Coq Require Import List Bool QArith String.
Import ListNotations.
From DA Require Import Base.PyRT Base.Val Model.CData.
Local Open Scope string_scope.

Definition s (x : string) : val := VStr x.
Definition n (a : Z) (b : positive) : val := VNum (a # b).

(* A: one control key, two value columns, two control rows *)
Definition ex_A : recspec :=
  mkspec ["id"] (mktable ["k"; "v1"; "v2"] [[s "a"; s "x1"; s "y1"]; [s "b"; s "x2"; s "y2"]]) ["k"] true.
(* B: the same four names in one value column, four control rows *)
Definition ex_B : recspec :=
  mkspec ["id"] (mktable ["j"; "w"] [[s "p"; s "x1"]; [s "q"; s "y2"]; [s "r"; s "y1"]; [s "t"; s "x2"]]) ["j"] true.
(* C: two control keys (a number and a string), keys listed in the other order, key columns not first *)
Definition ex_C : recspec :=
  mkspec ["id"] (mktable ["u1"; "m"; "u2"; "g"] [[s "y2"; n 1 1; s "x2"; s "l"]; [s "x1"; n 1 1; s "y1"; s "r"]]) ["g"; "m"] true.

(* two records, a null, an extra column, shuffled columns and rows *)
Definition ex_rows : table :=
  mktable ["x1"; "id"; "y1"; "x2"; "y2"; "extra"]
    [[n 3 2; n 2 1; s "s"; VNull; n 4 1; n 9 1]; [n 5 2; n 1 1; VNull; n 3 1; n 5 1; n 9 1]].
(* the same records as complete A-blocks *)
Definition ex_blocks : table :=
  mktable ["v2"; "id"; "k"; "v1"]
    [[n 4 1; n 2 1; s "b"; VNull]; [s "s"; n 2 1; s "a"; n 3 2]; [VNull; n 1 1; s "a"; n 5 2]; [n 5 1; n 1 1; s "b"; n 3 1]].

(* L: a layout over only two of the four names: A -> L drops values *)
Definition ex_L : recspec :=
  mkspec ["id"] (mktable ["j"; "w"] [[s "p"; s "x1"]; [s "q"; s "y2"]]) ["j"] true.
Definition m_AL := mkmap (Some ex_A) (Some ex_L) true.
Definition m_Lr := mkmap (Some ex_L) None true.

Definition m_rA := mkmap None (Some ex_A) true.
Definition m_AB := mkmap (Some ex_A) (Some ex_B) true.
Definition m_BC := mkmap (Some ex_B) (Some ex_C) true.
Definition m_Br := mkmap (Some ex_B) None true.

Definition unwrap (c : cres) : recmap := match c with CMap m => m | _ => mkmap None None false end.
Definition get_ok (r : res table) : table := match r with Ok t => t | _ => mktable [] [] end.
