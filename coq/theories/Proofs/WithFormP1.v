(* The WITH list produced by to_with_form denotes what the nested query denotes, for every compositional engine.
   to_with_form has ONE code path, with an optional common-table-expression cache (cte_cache: None unless use_cte_elim), and
   twf_spec follows it: whatever cache comes in, under the invariant CI.  No cache is the trivial instance (use_with alone,
   with_form_preserves below); the empty cache under `cache_sound` is in WithFormP2.v. *)
From Coq Require Import List Bool String .
Import ListNotations.
From DA Require Import Base.PyRT Model.NearSql Model.WithForm Proofs.ListP.

(* ------------------------------------------------------------------ lists / booleans *)
Lemma nodupb_NoDup l : nodupb l = true <-> NoDup l.
Proof. induction l as [|x t IH]; simpl.
  - split; [constructor|reflexivity].
  - rewrite andb_true_iff, negb_true_iff, mem_false, IH, NoDup_cons_iff. reflexivity. Qed.

Lemma hygienic_spec q : hygienic q = true ->
  NoDup (step_names q) /\ (forall n, In n (step_names q) -> ~ In n (ref_names q)) /\ terms_ok q = true.
Proof. unfold hygienic. rewrite !andb_true_iff. intros [[a b] c]. repeat split.
  - apply nodupb_NoDup, a.
  - apply disjointb_spec, b.
  - exact c. Qed.

Lemma norm_terms_ok t : match t with Some [] => false | _ => true end = true -> norm_terms t = t.
Proof. destruct t as [[|x l]|]; simpl; intros H; try reflexivity; discriminate. Qed.

Lemma is_table_ref q : is_table q = true -> In (qname q) (ref_names q).
Proof. destruct q; simpl; intros H; try discriminate; left; reflexivity. Qed.
Lemma step_names_head q : is_table q = false -> step_names q = qname q :: tl (step_names q).
Proof. destruct q; simpl; intros H; try discriminate; reflexivity. Qed.
Lemma step_names_table q : is_table q = true -> step_names q = [].
Proof. destruct q; simpl; intros H; try discriminate; reflexivity. Qed.
Lemma conts_table q : is_table q = true -> conts q = [].
Proof. destruct q; simpl; intros H; try discriminate; reflexivity. Qed.

Lemma merge_seq_id seen (sq : wseq) :
  NoDup (map fst sq) -> (forall n, In n (map fst sq) -> ~ In n seen) -> merge_seq seen sq = sq.
Proof. revert seen. induction sq as [|[n c] t IH]; intros seen N D; simpl; [reflexivity|].
  simpl in N, D. inversion N; subst.
  assert (mem n seen = false) as M by (apply mem_false, D; left; reflexivity). rewrite M. f_equal.
  apply IH; [assumption|]. intros m I [->|J]; [contradiction|]. exact (D m (or_intror I) J). Qed.

(* the cache keys a container (s, ci) contributes to the step it is an operand of *)
Definition ckeys (fl : flags) (s : nearsql) (ci : cinfo) : list string :=
  if is_table s then [] else okeys (ckey fl (s, ci)) ++ desc_keys fl s.

Lemma in_operand_conts c s ci :
  In c ((if is_table s then [] else [(s, ci)]) ++ conts s) -> c = (s, ci) /\ is_table s = false \/ In c (conts s).
Proof. intros I. apply in_app_iff in I. destruct I as [I|I]; [|right; exact I].
  destruct (is_table s); [contradiction|]. destruct I as [<-|[]]. left. split; reflexivity. Qed.

Lemma desc_keys_one fl s ci : flat_map (fun c => okeys (ckey fl c)) ((if is_table s then [] else [(s, ci)]) ++ conts s) = ckeys fl s ci.
Proof. unfold ckeys. destruct (is_table s) eqn:It; simpl.
  - rewrite conts_table by exact It. reflexivity.
  - reflexivity. Qed.
Lemma desc_keys_unary fl n t s ci sfx an mg dp k : desc_keys fl (NUnary n t s ci sfx an mg dp k) = ckeys fl s ci.
Proof. apply desc_keys_one. Qed.
Lemma desc_keys_raw1 fl n p s ci sfx an a k : desc_keys fl (NRaw1 n p s ci sfx an a k) = ckeys fl s ci.
Proof. apply desc_keys_one. Qed.
Lemma desc_keys_binary fl n t s1 c1 j s2 c2 sfx an k :
  desc_keys fl (NBinary n t s1 c1 j s2 c2 sfx an k) = ckeys fl s1 c1 ++ ckeys fl s2 c2.
Proof. unfold desc_keys. simpl. rewrite flat_map_app, !desc_keys_one. reflexivity. Qed.

Lemma conts_refs q : forall c, In c (conts q) -> incl (ref_names (fst c)) (ref_names q).
Proof. induction q as [n t|n k|n t s IH ci sfx an mg dp k|n t s1 IH1 c1 j s2 IH2 c2 sfx an k|n p sfx an a k|n p s IH ci sfx an a k];
  simpl; intros c I; try contradiction.
  - destruct (in_operand_conts _ _ _ I) as [[-> _]|J]; [apply incl_refl|apply IH, J].
  - apply in_app_iff in I. destruct I as [I|I]; destruct (in_operand_conts _ _ _ I) as [[-> _]|J].
    + apply incl_appl, incl_refl.
    + apply incl_appl, IH1, J.
    + apply incl_appr, incl_refl.
    + apply incl_appr, IH2, J.
  - destruct (in_operand_conts _ _ _ I) as [[-> _]|J]; [apply incl_refl|apply IH, J].
Qed.

(* to_with_form_stub on a step that is not a table: reuse what the cache has under the container's key ... *)
Lemma stub_step_hit fl s ci (sq : wseq) last oc cte :
  is_table last = false -> oc_lookup oc (ckey fl (s, ci)) = Some cte -> stub_step fl s ci (sq, last, oc) = ((cte, ci), [], oc).
Proof. intros It L. unfold stub_step. rewrite It. unfold ckey in L. cbn [fst snd] in L. rewrite L. reflexivity. Qed.
(* ... or append the step under its own name and remember it *)
Lemma stub_step_miss fl s ci (sq : wseq) last oc :
  is_table last = false -> oc_lookup oc (ckey fl (s, ci)) = None -> ~ In (qname last) (map fst sq) ->
  stub_step fl s ci (sq, last, oc)
  = ((NCte (qname last) (ckey fl (s, ci)), ci), sq ++ [(qname last, (last, mk_ci (ccols ci) (cforce ci) None))],
     oc_insert oc (ckey fl (s, ci)) (NCte (qname last) (ckey fl (s, ci)))).
Proof. intros It L M. apply mem_false in M. unfold stub_step. rewrite It, M. unfold ckey in *. cbn [fst snd] in *. rewrite L. reflexivity. Qed.

Lemma oc_insert_cases oc key v :
  (exists s k, oc = Some s /\ key = Some k /\ oc_insert oc key v = Some (dict_set s k v)) \/
  ((oc = None \/ key = None) /\ oc_insert oc key v = oc).
Proof. destruct oc as [s|], key as [k|]; simpl; [left; exists s, k| | |]; tauto. Qed.

(* to_with_form_stub, also for the operands that are tables (which to_with_form leaves alone) *)
Definition opnd (fl : flags) (oc : option cache) (s : nearsql) (ci : cinfo) : container * wseq * option cache :=
  if is_table s then ((s, ci), [], oc) else stub_step fl s ci (twf fl oc s).

(* to_with_form rebuilds a step over the stubs of its operands.  When all operands are tables the code returns the step
   itself: the same thing, as its terms are not the empty dict, up to the two fields no translation reads. *)
Lemma twf_unary fl n t s ci sfx an mg dp k : match t with Some [] => false | _ => true end = true ->
  exists mg' dp', forall oc, twf fl oc (NUnary n t s ci sfx an mg dp k) =
    let '(st, sq, oc') := opnd fl oc s ci in (sq, NUnary n t (fst st) (snd st) sfx an mg' dp' k, oc').
Proof. intros Tt. unfold opnd. simpl. rewrite (norm_terms_ok _ Tt). destruct (is_table s).
  - exists mg, dp. reflexivity.
  - exists false, None. reflexivity. Qed.
Lemma twf_raw1 fl n p s ci sfx an a k oc : twf fl oc (NRaw1 n p s ci sfx an a k) =
  let '(st, sq, oc') := opnd fl oc s ci in (sq, NRaw1 n p (fst st) (snd st) sfx an a k, oc').
Proof. unfold opnd. simpl. destruct (is_table s); reflexivity. Qed.
Lemma twf_binary fl n t s1 c1 j s2 c2 sfx an k oc : match t with Some [] => false | _ => true end = true ->
  twf fl oc (NBinary n t s1 c1 j s2 c2 sfx an k) =
    let '(st1, sq1, oc1) := opnd fl oc s1 c1 in
    let '(st2, sq2, oc2) := opnd fl oc1 s2 c2 in
    (sq1 ++ merge_seq (map fst sq1) sq2, NBinary n t (fst st1) (snd st1) j (fst st2) (snd st2) sfx an k, oc2).
Proof. intros Tt. unfold opnd. simpl. rewrite (norm_terms_ok _ Tt). destruct (is_table s1), (is_table s2); reflexivity. Qed.

Section P.
Variable T : Type.
Variable E : engine T.
Notation nsem := (nsem E).
Notation csem := (csem E).
Notation run_steps := (run_steps E).

Lemma bind_same n (v : T) r : bind n v r n = v.
Proof. unfold bind. rewrite String.eqb_refl. reflexivity. Qed.
Lemma bind_other n (v : T) r m : m <> n -> bind n v r m = r m.
Proof. unfold bind. intros H. destruct (String.eqb m n) eqn:Eq; [apply String.eqb_eq in Eq; contradiction|reflexivity]. Qed.

(* a reference to a common table expression denotes what its name is bound to, forced or not *)
Lemma csem_cte r n k ci : csem r (NCte n k, ci) = r n.
Proof. unfold csem, by_name. simpl. destruct (cforce ci); reflexivity. Qed.
Lemma csem_nontable r s ci : is_table s = false -> csem r (s, ci) = nsem r s (ccols ci).
Proof. intros H. unfold csem, by_name. simpl. rewrite H. reflexivity. Qed.

(* the unary / binary / raw steps read their operands through csem *)
Lemma nsem_unary r n t s ci sfx an mg dp k cols :
  nsem r (NUnary n t s ci sfx an mg dp k) cols = e_unary E t cols sfx (csem r (s, ci)).
Proof. reflexivity. Qed.
Lemma nsem_binary r n t s1 c1 j s2 c2 sfx an k cols :
  nsem r (NBinary n t s1 c1 j s2 c2 sfx an k) cols
  = e_binary E t cols j sfx (cpub c1) (cpub c2) (csem r (s1, c1)) (csem r (s2, c2)).
Proof. reflexivity. Qed.
Lemma nsem_raw1 r n p s ci sfx an a k cols :
  nsem r (NRaw1 n p s ci sfx an a k) cols = e_raw1 E p sfx a (csem r (s, ci)).
Proof. reflexivity. Qed.

Lemma csem_named_stub r (st : container) nm :
  is_table (fst st) = true -> qname (fst st) = nm -> (cforce (snd st) = false \/ exists n k, fst st = NCte n k) -> csem r st = r nm.
Proof. destruct st as [s' ci']. cbn [fst snd]. intros It <- H. unfold csem, by_name. cbn [fst snd]. rewrite It.
  destruct H as [->|(n & k & ->)]; [reflexivity|]. destruct (cforce ci'); reflexivity. Qed.

(* a query only looks at the names it mentions *)
Lemma csem_ext_from (r1 r2 : env T) s ci :
  (forall cols, nsem r1 s cols = nsem r2 s cols) -> (forall n, In n (ref_names s) -> r1 n = r2 n) -> csem r1 (s, ci) = csem r2 (s, ci).
Proof. intros Hn Hr. unfold csem. cbn [fst snd]. destruct (by_name s ci) eqn:B; [|apply Hn].
  apply Hr, is_table_ref. apply andb_true_iff in B. apply B. Qed.

Lemma nsem_ext (r1 r2 : env T) q : (forall n, In n (ref_names q) -> r1 n = r2 n) -> forall cols, nsem r1 q cols = nsem r2 q cols.
Proof. induction q as [n t|n k|n t s IH ci sfx an mg dp k|n t s1 IH1 c1 j s2 IH2 c2 sfx an k|n p sfx an a k|n p s IH ci sfx an a k];
  intros H cols.
  - simpl. rewrite H by (left; reflexivity). reflexivity.
  - apply H. left; reflexivity.
  - rewrite !nsem_unary. f_equal. apply csem_ext_from; [apply IH, H|exact H].
  - assert (forall m, In m (ref_names s1) -> r1 m = r2 m) as H1 by (intros m I; apply H, in_app_iff; left; exact I).
    assert (forall m, In m (ref_names s2) -> r1 m = r2 m) as H2 by (intros m I; apply H, in_app_iff; right; exact I).
    rewrite !nsem_binary. f_equal; apply csem_ext_from; auto.
  - reflexivity.
  - rewrite !nsem_raw1. f_equal. apply csem_ext_from; [apply IH, H|exact H].
Qed.

Lemma csem_ext (r1 r2 : env T) c : (forall n, In n (ref_names (fst c)) -> r1 n = r2 n) -> csem r1 c = csem r2 c.
Proof. destruct c as [s ci]. intros H. apply csem_ext_from; [apply nsem_ext, H|exact H]. Qed.

Lemma run_steps_app r (a b : wseq) : run_steps r (a ++ b) = run_steps (run_steps r a) b.
Proof. unfold WithForm.run_steps. apply fold_left_app. Qed.
Lemma run_steps_other (sq : wseq) : forall r n, ~ In n (map fst sq) -> run_steps r sq n = r n.
Proof. induction sq as [|[m c] t IH]; intros r n H; simpl; [reflexivity|].
  simpl in H. rewrite IH by tauto. apply bind_other. intros ->. tauto. Qed.
Lemma run_steps_snoc r (sq : wseq) n s ci :
  run_steps r (sq ++ [(n, (s, ci))]) = bind n (nsem (run_steps r sq) s (ccols ci)) (run_steps r sq).
Proof. rewrite run_steps_app. reflexivity. Qed.

Section C.
Variable fl : flags.
Variable Q : nearsql.
Hypothesis HD : forall n, In n (step_names Q) -> ~ In n (ref_names Q).

Definition cget (oc : option cache) (k : string) : option nearsql := oc_lookup oc (Some k).
Definition has (oc : option cache) (k : string) : Prop := cget oc k <> None.
Definition cached_name (oc : option cache) (n : string) : Prop := exists k ko, cget oc k = Some (NCte n ko).

(* what the cache promises while the WITH list of Q is being built; r = the bindings made so far.
   Only a cache that is there needs sound keys. *)
Record CI (oc : option cache) (r : env T) : Prop := mkCI {
  ci_snd : oc <> None -> cache_sound E fl Q;
  ci_sem : forall k v, cget oc k = Some v -> exists n, v = NCte n (Some k) /\ In n (step_names Q) /\
             forall c, In c (conts Q) -> ckey fl c = Some k -> r n = csem r c;
  ci_clo : forall k c k', has oc k -> In c (conts Q) -> ckey fl c = Some k -> In k' (desc_keys fl (fst c)) -> has oc k' }.

Lemma CI_none r : CI None r.
Proof. split; [intros []; reflexivity|discriminate|intros k c k' []; reflexivity]. Qed.
Lemma cached_name_none n : ~ cached_name None n.
Proof. intros (k & ko & G). discriminate G. Qed.

Lemma has_set s k v k2 : has (Some (dict_set s k v)) k2 <-> k2 = k \/ has (Some s) k2.
Proof. unfold has, cget. cbn [oc_lookup]. destruct (string_dec k2 k) as [->|n].
  - rewrite dict_get_set_same. split; [tauto|discriminate].
  - rewrite dict_get_set_other by exact n. tauto. Qed.
Lemma has_mono (a b : option cache) : (forall k v, cget a k = Some v -> cget b k = Some v) -> forall k, has a k -> has b k.
Proof. intros M k H. unfold has in *. destruct (cget a k) as [v|] eqn:G; [|congruence]. rewrite (M _ _ G). discriminate. Qed.

Definition sub_of (q : nearsql) : Prop :=
  incl (conts q) (conts Q) /\ incl (step_names q) (step_names Q) /\ incl (ref_names q) (ref_names Q).

Lemma csem_run_steps r (sq : wseq) c :
  In c (conts Q) -> incl (map fst sq) (step_names Q) -> csem (run_steps r sq) c = csem r c.
Proof. intros Ic Im. apply csem_ext. intros n In_. apply run_steps_other. intros J.
  apply (HD n (Im n J)). eapply conts_refs; eassumption. Qed.

(* binding a step name that is not a cached name keeps the promise *)
Lemma CI_bind oc r m s ci :
  CI oc r -> In m (step_names Q) -> (forall n, cached_name oc n -> n <> m) -> CI oc (run_steps r [(m, (s, ci))]).
Proof. intros [Sd S C] Im Hn. split; [exact Sd| |exact C].
  intros k v0 G. destruct (S k v0 G) as (n & -> & In_ & Sem). exists n. repeat split; try assumption.
  intros c Ic Kc. rewrite csem_run_steps by (try assumption; intros x [<-|[]]; exact Im).
  rewrite run_steps_other; [apply Sem; assumption|]. intros [Eq|[]]. apply (Hn n); [exists k, (Some k); exact G|symmetry; exact Eq]. Qed.

(* ------------------------------------------------------------------ specifications *)
(* what running the steps sq does to the cache: names bound, keys added *)
Record post (names keys : list string) (oc : option cache) (r : env T) (sq : wseq) (oc' : option cache) : Prop := mkPost {
  p_nodup : NoDup (map fst sq);
  p_names : incl (map fst sq) names;
  p_ci : CI oc' (run_steps r sq);
  p_cn : forall n, cached_name oc' n -> cached_name oc n \/ In n names;
  p_mono : forall k v, cget oc k = Some v -> cget oc' k = Some v;
  p_all : oc' <> None -> forall k, In k keys -> has oc' k;
  p_new : forall k, has oc' k -> has oc k \/ In k keys;
  p_same : (oc <> None -> forall k, In k keys -> has oc k) -> oc' = oc }.

Lemma post_id names keys oc r : CI oc r -> (forall k, In k keys -> has oc k) -> post names keys oc r [] oc.
Proof. intros HCI Hk. split; auto; [constructor|intros n []]. Qed.

Lemma post_seq n1 n2 k1 k2 oc r sq1 oca sq2 ocb :
  post n1 k1 oc r sq1 oca -> post n2 k2 oca (run_steps r sq1) sq2 ocb -> (forall m, In m n1 -> ~ In m n2) ->
  post (n1 ++ n2) (k1 ++ k2) oc r (sq1 ++ sq2) ocb.
Proof.
  intros [Na Ia Ca Cna Ma Aa Wa Sa] [Nb Ib Cb Cnb Mb Ab Wb Sb] D.
  assert (ocb <> None -> oca <> None) as Live by (intros L ->; apply L, Sb; intros []; reflexivity).
  split.
  - rewrite map_app. apply NoDup_app_iff. repeat split; try assumption. intros m I1 I2. exact (D m (Ia m I1) (Ib m I2)).
  - rewrite map_app. apply incl_app; [apply incl_appl, Ia|apply incl_appr, Ib].
  - rewrite run_steps_app. exact Cb.
  - intros m C. rewrite in_app_iff. destruct (Cnb m C) as [C1|I]; [|right; right; exact I].
    destruct (Cna m C1) as [C0|I]; [left; exact C0|right; left; exact I].
  - intros k v G. apply Mb, Ma, G.
  - intros L k I. apply in_app_iff in I. destruct I as [I|I]; [apply (has_mono _ _ Mb), Aa; auto|apply Ab; assumption].
  - intros k H. rewrite in_app_iff. destruct (Wb k H) as [H1|I]; [|right; right; exact I].
    destruct (Wa k H1) as [H0|I]; [left; exact H0|right; left; exact I].
  - intros Hall. assert (oca = oc) as -> by (apply Sa; intros L k I; apply Hall; [exact L|apply in_app_iff; left; exact I]).
    apply Sb. intros L k I. apply Hall; [exact L|apply in_app_iff; right; exact I].
Qed.

(* a node: the steps it emits bind names below it, and the last step denotes, after them, what the node denoted *)
Definition node_spec (q : nearsql) : Prop :=
  forall oc r sq last oc',
   CI oc r -> (forall n, cached_name oc n -> ~ In n (step_names q)) ->
   twf fl oc q = (sq, last, oc') ->
   post (tl (step_names q)) (desc_keys fl q) oc r sq oc' /\
   qname last = qname q /\ is_table last = is_table q /\
   forall cols, nsem (run_steps r sq) last cols = nsem r q cols.

(* an operand of a step, table or not: the stub denotes, after the steps it needs, what the operand denoted *)
Definition operand_spec (s0 : nearsql) (ci : cinfo) : Prop :=
  forall oc r st sq oc',
   CI oc r -> (forall n, cached_name oc n -> ~ In n (step_names s0)) ->
   opnd fl oc s0 ci = (st, sq, oc') ->
   post (step_names s0) (ckeys fl s0 ci) oc r sq oc' /\
   snd st = ci /\
   (forall m, In m (ref_names (fst st)) -> In m (ref_names s0) \/ In m (step_names s0) \/ cached_name oc m) /\
   csem (run_steps r sq) st = csem r (s0, ci).

(* the container level: what to_with_form_stub adds to the node level result *)
Lemma operand_from_node s0 ci :
  (is_table s0 = false -> In (s0, ci) (conts Q)) -> sub_of s0 -> NoDup (step_names s0) -> node_spec s0 -> operand_spec s0 ci.
Proof.
  intros Hc (Sc & Ss & Sr) N NS oc r st sq oc' HCI Hcn H. unfold opnd, ckeys in *.
  destruct (is_table s0) eqn:It.
  { injection H as <- <- <-. split; [apply post_id; [exact HCI|intros k []]|]. repeat split. intros m I. left; exact I. }
  specialize (Hc eq_refl).
  destruct (twf fl oc s0) as [[sq0 last] oc1] eqn:Et.
  destruct (NS oc r sq0 last oc1 HCI Hcn Et) as ([N0 I0 CI1 Cn1 Mono K5 K6 K7] & Qn & Itl & Sem).
  rewrite It in Itl. rewrite step_names_head in * by exact It. rewrite <- Qn in *.
  apply NoDup_cons_iff in N. destruct N as [Hx _].
  assert (~ In (qname last) (map fst sq0)) as M by (intros I; apply Hx, I0, I).
  assert (In (qname last) (step_names Q)) as InQ by (apply Ss; left; reflexivity).
  assert (forall n, cached_name oc1 n -> n <> qname last) as Cne.
  { intros n Cn ->. destruct (Cn1 _ Cn) as [C|C]; [apply (Hcn _ C); left; reflexivity|contradiction]. }
  destruct (oc_lookup oc1 (ckey fl (s0, ci))) as [v|] eqn:L.
  - (* found in the cache: the cache is as it was before the operand was looked at *)
    rewrite (stub_step_hit _ _ _ _ _ _ _ Itl L) in H. injection H as <- <- <-.
    destruct oc1 as [s1|], (ckey fl (s0, ci)) as [k|] eqn:Ek; try discriminate L.
    pose proof (ci_snd _ _ CI1 ltac:(discriminate)) as HS.
    assert (has oc k) as Hk.
    { destruct (K6 k) as [Hk|Hk]; [unfold has, cget; rewrite L; discriminate|exact Hk|].
      exfalso. destruct (HS _ _ _ Hc Hc Ek Ek) as (_ & _ & Nk). exact (Nk Hk). }
    assert (forall k', In k' (k :: desc_keys fl s0) -> has oc k') as Hks.
    { intros k' [<-|Ik']; [exact Hk|]. eapply (ci_clo _ _ HCI); eassumption. }
    assert (Some s1 = oc) as <- by (apply K7; intros _ k' Ik'; apply Hks; right; exact Ik').
    destruct (ci_sem _ _ HCI k v L) as (n & -> & InQn & Semn).
    split; [apply post_id; assumption|]. repeat split.
    + simpl. intros m [<-|[]]. right. right. exists k, (Some k). exact L.
    + rewrite csem_cte. apply Semn; assumption.
  - (* not in the cache: emit the step, remember it if there is a cache and a key *)
    rewrite (stub_step_miss _ _ _ _ _ _ Itl L M) in H. injection H as <- <- <-.
    set (step := (qname last, (last, mk_ci (ccols ci) (cforce ci) None))).
    assert (run_steps r (sq0 ++ [step]) (qname last) = csem r (s0, ci)) as Val.
    { unfold step. rewrite run_steps_snoc, bind_same, (csem_nontable r s0 ci It). apply Sem. }
    assert (NoDup (map fst (sq0 ++ [step]))) as Nsq by (rewrite map_app; apply NoDup_snoc; assumption).
    assert (incl (map fst (sq0 ++ [step])) (qname last :: tl (step_names s0))) as Isq.
    { rewrite map_app. apply incl_app; [apply incl_tl, I0|intros x [<-|[]]; left; reflexivity]. }
    assert (oc1 <> None -> oc <> None) as Live by (intros L1 ->; apply L1, K7; intros []; reflexivity).
    cut (post (qname last :: tl (step_names s0)) (okeys (ckey fl (s0, ci)) ++ desc_keys fl s0) oc r (sq0 ++ [step])
              (oc_insert oc1 (ckey fl (s0, ci)) (NCte (qname last) (ckey fl (s0, ci))))).
    { intros P. split; [exact P|]. repeat split; [|rewrite csem_cte; exact Val].
      simpl. intros m [<-|[]]. right. left. left; reflexivity. }
    destruct (oc_insert_cases oc1 (ckey fl (s0, ci)) (NCte (qname last) (ckey fl (s0, ci)))) as [(s1 & k & -> & Ek & ->)|[No ->]].
    + rewrite Ek in *. cbn [oc_lookup] in L. simpl okeys. simpl app.
      pose proof (ci_snd _ _ CI1 ltac:(discriminate)) as HS.
      split; try assumption.
      * (* the promise for the new cache *)
        split; [intros _; exact HS| |].
        -- intros k2 v2 G2. cbn [cget oc_lookup] in G2. destruct (string_dec k2 k) as [->|Nk].
           ++ rewrite dict_get_set_same in G2. injection G2 as <-. exists (qname last). repeat split; [exact InQ|].
              intros c Ic Kc. rewrite Val. destruct (HS _ _ _ Hc Ic Ek Kc) as (Eq & _ & _). rewrite Eq.
              symmetry. apply csem_run_steps; [exact Ic|]. intros x I. apply Ss, Isq, I.
           ++ rewrite dict_get_set_other in G2 by exact Nk. rewrite run_steps_app.
              apply (ci_sem _ _ (CI_bind _ _ _ last (mk_ci (ccols ci) (cforce ci) None) CI1 InQ Cne)). exact G2.
        -- intros k2 c k' H2 Ic Kc Ik'. apply has_set. apply has_set in H2. right. destruct H2 as [->|H2].
           ++ apply K5; [discriminate|]. destruct (HS _ _ _ Ic Hc Kc Ek) as (_ & Eqk & _). apply Eqk, Ik'.
           ++ eapply (ci_clo _ _ CI1); eassumption.
      * intros n (k2 & ko & G2). cbn [cget oc_lookup] in G2. destruct (string_dec k2 k) as [->|Nk].
        -- rewrite dict_get_set_same in G2. injection G2 as <- _. right. left; reflexivity.
        -- rewrite dict_get_set_other in G2 by exact Nk. destruct (Cn1 n) as [C|C]; [exists k2, ko; exact G2|left; exact C|].
           right. right; exact C.
      * intros k2 v2 G2. apply Mono in G2. cbn [cget oc_lookup] in *. rewrite dict_get_set_other; [exact G2|]. intros ->. congruence.
      * intros _ k' [<-|Ik']; apply has_set; [left; reflexivity|right; apply K5; [discriminate|exact Ik']].
      * intros k' Hk'. apply has_set in Hk'. destruct Hk' as [->|Hk']; [right; left; reflexivity|].
        destruct (K6 _ Hk') as [A|A]; [left; exact A|right; right; exact A].
      * intros Hall. exfalso. assert (has oc k) as Hk by (apply Hall; [apply Live; discriminate|left; reflexivity]).
        unfold has in Hk. destruct (cget oc k) as [v|] eqn:Gs; [|congruence]. apply Mono in Gs. cbn [cget oc_lookup] in Gs. congruence.
    + (* nothing to remember: the cache is what the node left *)
      split; try assumption.
      * rewrite run_steps_app. apply CI_bind; assumption.
      * intros n C. destruct (Cn1 n C) as [A|A]; [left; exact A|right; right; exact A].
      * intros L1 k' I. apply in_app_iff in I. destruct I as [I|I]; [|apply K5; assumption].
        destruct No as [->|Ek]; [contradiction L1; reflexivity|rewrite Ek in I; destruct I].
      * intros k' Hk'. destruct (K6 _ Hk') as [A|A]; [left; exact A|right; apply in_app_iff; right; exact A].
      * intros Hall. apply K7. intros L0 k' I. apply Hall; [exact L0|apply in_app_iff; right; exact I].
Qed.

Lemma sub_of_refl : sub_of Q.
Proof. repeat split; apply incl_refl. Qed.
Lemma sub_of_operand q s ci :
  sub_of q -> is_table q = false ->
  incl ((if is_table s then [] else [(s, ci)]) ++ conts s) (conts q) -> incl (step_names s) (tl (step_names q)) ->
  incl (ref_names s) (ref_names q) -> sub_of s /\ (is_table s = false -> In (s, ci) (conts Q)).
Proof. intros (Sc & Ss & Sr) Itq Ic Is Ir. rewrite (step_names_head q Itq) in Ss. repeat split.
  - intros c I. apply Sc, Ic, in_app_iff. right; exact I.
  - intros m I. apply Ss. right. apply Is, I.
  - intros m I. apply Sr, Ir, I.
  - intros It. apply Sc, Ic. rewrite It. left; reflexivity. Qed.

Lemma leaf_node q oc r : CI oc r -> desc_keys fl q = [] ->
  post (tl (step_names q)) (desc_keys fl q) oc r [] oc /\ qname q = qname q /\ is_table q = is_table q /\
  forall cols, nsem (run_steps r []) q cols = nsem r q cols.
Proof. intros HCI ->. split; [apply post_id; [exact HCI|intros k []]|]. repeat split. Qed.

(* a step with one operand (unary step, raw query over a sub-query); mk = the step rebuilt over the operand's stub *)
Lemma one_operand_node (q s0 : nearsql) (ci : cinfo) (mk : container -> nearsql) :
  (forall oc, twf fl oc q = let '(st, sq, oc') := opnd fl oc s0 ci in (sq, mk st, oc')) ->
  step_names q = qname q :: step_names s0 -> is_table q = false -> desc_keys fl q = ckeys fl s0 ci ->
  (forall st, qname (mk st) = qname q /\ is_table (mk st) = false) ->
  (forall r' st r cols, csem r' st = csem r (s0, ci) -> nsem r' (mk st) cols = nsem r q cols) ->
  operand_spec s0 ci -> node_spec q.
Proof.
  intros Tw Sn Itq Dk Hmk Hsem OP oc r sq last oc' HCI Hcn H. rewrite Tw in H.
  destruct (opnd fl oc s0 ci) as [[st sq0] oc0] eqn:Es. injection H as <- <- <-.
  assert (forall n, cached_name oc n -> ~ In n (step_names s0)) as Hcn0.
  { intros m C I. apply (Hcn m C). rewrite Sn. right; exact I. }
  destruct (OP oc r st sq0 oc0 HCI Hcn0 Es) as (P & _ & _ & Sem).
  rewrite Sn, Dk, Itq. cbn [tl]. destruct (Hmk st) as [Hq Ht].
  split; [exact P|]. split; [exact Hq|]. split; [exact Ht|]. intros cols. apply Hsem, Sem.
Qed.

Lemma twf_spec q : sub_of q -> NoDup (step_names q) -> terms_ok q = true -> node_spec q.
Proof.
  induction q as [n t|n k|n t s0 IH ci sfx an mg dp k|n t s1 IH1 c1 j s2 IH2 c2 sfx an k|n p sfx an a k|n p s0 IH ci sfx an a k];
  intros Sub N TO.
  - intros oc r sq last oc' HCI _ H. injection H as <- <- <-. apply leaf_node; [exact HCI|reflexivity].
  - intros oc r sq last oc' HCI _ H. injection H as <- <- <-. apply leaf_node; [exact HCI|reflexivity].
  - (* unary *)
    destruct (sub_of_operand _ s0 ci Sub eq_refl (incl_refl _) (incl_refl _) (incl_refl _)) as [Sub0 Hc].
    simpl in N, TO. apply andb_true_iff in TO. destruct TO as [Tt Ts]. apply NoDup_cons_iff in N. destruct N as [_ Ns].
    destruct (twf_unary fl n t s0 ci sfx an mg dp k Tt) as (mg' & dp' & Tw).
    apply (one_operand_node _ s0 ci (fun st => NUnary n t (fst st) (snd st) sfx an mg' dp' k) Tw); try reflexivity.
    + apply desc_keys_unary.
    + intros st0. split; reflexivity.
    + intros r' st0 r0 cols Hs. rewrite !nsem_unary. f_equal. rewrite <- Hs. destruct st0; reflexivity.
    + apply operand_from_node; try assumption. apply IH; assumption.
  - (* binary *)
    destruct (sub_of_operand _ s1 c1 Sub eq_refl (incl_appl _ (incl_refl _)) (incl_appl _ (incl_refl _)) (incl_appl _ (incl_refl _)))
      as [Sub1 Hc1].
    destruct (sub_of_operand _ s2 c2 Sub eq_refl (incl_appr _ (incl_refl _)) (incl_appr _ (incl_refl _)) (incl_appr _ (incl_refl _)))
      as [Sub2 Hc2].
    simpl in N, TO. apply andb_true_iff in TO. destruct TO as [TO Ts2]. apply andb_true_iff in TO. destruct TO as [Tt Ts1].
    apply NoDup_cons_iff in N. destruct N as [_ Ns]. apply NoDup_app_iff in Ns. destruct Ns as (N1 & N2 & D12).
    assert (operand_spec s1 c1) as OP1 by (apply operand_from_node; try assumption; apply IH1; assumption).
    assert (operand_spec s2 c2) as OP2 by (apply operand_from_node; try assumption; apply IH2; assumption).
    intros oc r sq last oc' HCI Hcn H. rewrite (twf_binary _ _ _ _ _ _ _ _ _ _ _ _ Tt) in H.
    destruct (opnd fl oc s1 c1) as [[st1 sq1] oca] eqn:E1.
    assert (forall m, cached_name oc m -> ~ In m (step_names s1)) as Hcn1.
    { intros m C I. apply (Hcn m C). simpl. right. apply in_app_iff. left; exact I. }
    destruct (OP1 oc r st1 sq1 oca HCI Hcn1 E1) as (P1 & Ec1 & Rf1 & Sem1).
    destruct (opnd fl oca s2 c2) as [[st2 sq2] ocb] eqn:E2.
    assert (forall m, cached_name oca m -> ~ In m (step_names s2)) as Hcn2.
    { intros m C I. destruct (p_cn _ _ _ _ _ _ P1 m C) as [C0|I1].
      - apply (Hcn m C0). simpl. right. apply in_app_iff. right; exact I.
      - exact (D12 m I1 I). }
    destruct (OP2 oca (run_steps r sq1) st2 sq2 ocb (p_ci _ _ _ _ _ _ P1) Hcn2 E2) as (P2 & Ec2 & Rf2 & Sem2).
    injection H as <- <- <-.
    pose proof (p_names _ _ _ _ _ _ P1) as Iq1. pose proof (p_names _ _ _ _ _ _ P2) as Iq2.
    rewrite merge_seq_id; [|apply P2|intros m I2 I1; exact (D12 m (Iq1 m I1) (Iq2 m I2))].
    destruct Sub as (Sc & Ss & Sr).
    rewrite desc_keys_binary. cbn [step_names tl qname is_table].
    split; [apply post_seq with oca; assumption|]. repeat split.
    intros cols. rewrite !nsem_binary.
    destruct st1 as [s1' c1']. destruct st2 as [s2' c2']. cbn [fst snd] in *. subst c1' c2'. f_equal.
    + (* first operand: the second sequence does not touch what it reads *)
      rewrite run_steps_app. rewrite <- Sem1. apply csem_ext. cbn [fst]. intros m Im. apply run_steps_other. intros J.
      apply Iq2 in J. destruct (Rf1 m Im) as [K|[K|K]].
      * apply (HD m); [apply Ss; simpl; right; apply in_app_iff; right; exact J|apply Sr; simpl; apply in_app_iff; left; exact K].
      * exact (D12 m K J).
      * apply (Hcn m K). simpl. right. apply in_app_iff. right; exact J.
    + rewrite run_steps_app. rewrite Sem2. apply csem_ext. cbn [fst]. intros m Im. apply run_steps_other. intros J.
      apply Iq1 in J.
      apply (HD m); [apply Ss; simpl; right; apply in_app_iff; left; exact J|apply Sr; simpl; apply in_app_iff; right; exact Im].
  - intros oc r sq last oc' HCI _ H. injection H as <- <- <-. apply leaf_node; [exact HCI|reflexivity].
  - (* raw query over a sub-query *)
    destruct (sub_of_operand _ s0 ci Sub eq_refl (incl_refl _) (incl_refl _) (incl_refl _)) as [Sub0 Hc].
    simpl in N, TO. apply NoDup_cons_iff in N. destruct N as [_ Ns].
    apply (one_operand_node _ s0 ci (fun st => NRaw1 n p (fst st) (snd st) sfx an a k) (twf_raw1 fl n p s0 ci sfx an a k));
      try reflexivity.
    + apply desc_keys_raw1.
    + intros st0. split; reflexivity.
    + intros r' st0 r0 cols Hs. rewrite !nsem_raw1. f_equal. rewrite <- Hs. destruct st0; reflexivity.
    + apply operand_from_node; try assumption. apply IH; assumption.
Qed.

End C.

(* every engine has a table (a raw query's), hence environments: the facts below that mention none are read off twf_spec at one *)
Lemma twf_none_spec fl q :
  NoDup (step_names q) -> (forall n, In n (step_names q) -> ~ In n (ref_names q)) -> terms_ok q = true ->
  forall sq last oc, twf fl None q = (sq, last, oc) ->
    oc = None /\ NoDup (map fst sq) /\ incl (map fst sq) (tl (step_names q))
    /\ qname last = qname q /\ is_table last = is_table q
    /\ forall r cols, nsem (run_steps r sq) last cols = nsem r q cols.
Proof.
  intros N D TO sq last oc H.
  assert (forall r, post fl q (tl (step_names q)) (desc_keys fl q) None r sq oc /\ qname last = qname q /\
                    is_table last = is_table q /\ forall cols, nsem (run_steps r sq) last cols = nsem r q cols) as G.
  { intros r. apply (twf_spec fl q D q (sub_of_refl q) N TO None r); [apply CI_none|intros n C; destruct (cached_name_none n C)|exact H]. }
  destruct (G (fun _ => e_raw0 E [] [] false)) as ([Nq Iq _ _ _ _ _ Sm] & Qn & It & _).
  repeat split; try assumption; [apply Sm; intros []; reflexivity|intros r; apply G].
Qed.

(* use_with on / off denote the same table *)
Theorem with_form_preserves fl q r :
  hygienic q = true -> nsem_with E r (fst (to_with_form fl None q)) = nsem r q None.
Proof.
  intros H. destruct (hygienic_spec q H) as (N & D & TO). unfold to_with_form.
  destruct (twf fl None q) as [[sq last] oc] eqn:Et. simpl.
  destruct (twf_none_spec fl q N D TO _ _ _ Et) as (_ & _ & _ & _ & _ & Sem). unfold nsem_with. simpl. apply Sem.
Qed.

(* the assertions of SQLWithList hold for hygienic queries *)
Lemma with_form_names fl q : hygienic q = true ->
  NoDup (map fst (w_prev (fst (to_with_form fl None q)))) /\
  (is_table q = true \/ ~ In (qname q) (map fst (w_prev (fst (to_with_form fl None q))))).
Proof.
  intros H. destruct (hygienic_spec q H) as (N & D & TO). unfold to_with_form.
  destruct (twf fl None q) as [[sq last] oc] eqn:Et. simpl.
  destruct (twf_none_spec fl q N D TO _ _ _ Et) as (_ & Nq & Iq & _ & _ & _).
  split; [exact Nq|]. destruct (is_table q) eqn:It; [left; reflexivity|right].
  intros I. rewrite step_names_head in N by exact It. inversion N; subst. apply Iq in I. contradiction.
Qed.
End P.
