(* C05 -- the per-method lemmas assembled over the index sets derived from the catalogue; witnesses of the known findings *)
From Coq Require Import List Bool Qround Qabs Qpower String Lqa.
Import ListNotations.
From DA Require Import Model.Scalar Model.SqlTemplates Model.ScalarBackends Model.ScalarCatalog Model.ScalarIndex
  Proofs.ScalarP0 Proofs.ScalarP1 Proofs.ScalarP1d Proofs.ScalarP2 Proofs.ScalarP3.
Local Open Scope string_scope.

(* One lemma per catalogued method (ScalarP1, ScalarP1d, ScalarP2, ScalarP3); the databases let the theorems below find the
   lemma of a method by its name.  Premises of the family lemmas (`str_in m [...] = true`) are closed by computation. *)
Create HintDb sql_doc discriminated.
Create HintDb np_doc discriminated.
Create HintDb pl_doc discriminated.
#[local] Hint Extern 0 (_ = true) => reflexivity : sql_doc np_doc pl_doc.
#[local] Hint Resolve sql_add sql_mul sql_sub sql_div sql_fdiv sql_floordiv sql_cmp_ops sql_and sql_or sql_mod_sqlite sql_mod_pg
  sql_remainder_pg sql_pow sql_abs_pg sql_sign_pg sql_abs_sqlite sql_sign_sqlite sql_floor sql_ceil sql_round sql_around
  sql_maximum sql_minimum sql_fmax sql_fmin sql_if_else sql_where sql_coalesce sql_is_null sql_is_nan_sqlite sql_is_nan_pg
  sql_is_inf sql_is_bad sql_concat sql_as_str sql_as_int64 sql_trimstr sql_is_in sql_mapv sql_math_sqlite sql_math_pg : sql_doc.
#[local] Hint Resolve np_add np_mul np_sub np_div np_fdiv np_floordiv np_mod np_pow np_cmp_ops np_and np_or np_abs np_sign np_floor
  np_ceil np_round np_around np_maximum np_minimum np_fmax np_fmin np_if_else np_where np_coalesce np_is_null np_is_nan np_is_inf
  np_is_bad np_is_in np_mapv np_concat np_trimstr np_as_str np_as_int64 np_arctan2 np_math : np_doc.
#[local] Hint Resolve pl_add pl_mul pl_sub pl_div pl_fdiv pl_floordiv pl_mod pl_pow pl_cmp_ops pl_and pl_or pl_abs pl_sign pl_floor
  pl_ceil pl_round pl_around pl_maximum pl_minimum pl_fmax pl_fmin pl_if_else pl_where pl_coalesce pl_is_null pl_is_nan pl_is_inf
  pl_is_bad pl_is_in pl_mapv pl_concat pl_trimstr pl_as_str pl_as_int64 pl_arctan2 pl_math : pl_doc.

Section Top.
Variable mf : string -> Q -> option Q.
Variable mf2 : string -> Q -> Q -> option Q.

Lemma atoms_from_ext d l1 l2 k vs : (forall i, flag_at l1 i = flag_at l2 i) -> atoms_from d l1 k vs = atoms_from d l2 k vs.
Proof. intros E. revert k. induction vs as [|v t IH]; intros k; [reflexivity|]. cbn [atoms_from]. rewrite E, IH. reflexivity. Qed.
Lemma sql_eval_flags vr d m l1 l2 args : (forall i, flag_at l1 i = flag_at l2 i) ->
  sql_eval mf mf2 vr d m l1 args = sql_eval mf mf2 vr d m l2 args.
Proof. intros E. unfold sql_eval, sql_eval_on. rewrite (atoms_from_ext d l1 l2 0 args E). reflexivity. Qed.
(* around, trimstr, is_in and mapv take literals after their first argument; their lemmas are stated for the flags [false; true],
   which stand for every list of flags that is `false` followed by one or more `true` (a position past the end has the last flag) *)
Definition tail_literal (lits : list bool) : bool :=
  match lits with false :: b :: t => forallb (fun x => x) (b :: t) | _ => false end.
Lemma last_nonempty_In {A} (l : list A) a d : In (last (a :: l) d) (a :: l).
Proof. revert a. induction l as [|b l IH]; intros a; [left; reflexivity|]. right. exact (IH b). Qed.
Lemma tail_literal_flags lits i : tail_literal lits = true -> flag_at lits i = flag_at [false; true] i.
Proof. destruct lits as [|[|] [|b t]]; try discriminate. intros T. destruct i as [|i]; [reflexivity|].
  rewrite flag_tail. change (nth i (b :: t) (last (b :: t) false) = true).
  pose proof (proj1 (forallb_forall _ _) T) as A.
  destruct (nth_in_or_default i (b :: t) (last (b :: t) false)) as [I|E]; [exact (A _ I)|].
  rewrite E. exact (A _ (last_nonempty_In t b false)). Qed.
Lemma documented_sql_tail_literal vr d m lits g :
  tail_literal lits = true -> documented_sql mf mf2 vr d m [false; true] g -> documented_sql mf mf2 vr d m lits g.
Proof. intros T D args r G H. rewrite (sql_eval_flags _ _ _ lits [false; true]); [exact (D args r G H)|].
  intros i. apply tail_literal_flags. exact T. Qed.
Hint Resolve documented_sql_tail_literal : sql_doc.

(* a constant in any argument position: except for the four methods whose extra arguments MUST be literals (and are indexed with
   their flags), the templates do not look at whether an operand is a column or a literal, so the statement holds for every
   assignment of literal flags *)
Definition literal_arg_methods : list string := ["around"; "trimstr"; "is_in"; "mapv"].
Lemma sql_documented vr d m lits0 lits :
  In (m, lits0) (supported_sql d) -> lits = lits0 \/ str_in m literal_arg_methods = false ->
  documented_sql mf mf2 vr d m lits (sql_guard vr d m).
Proof. intros I L.
  (* one goal per catalogue entry; the guard a method lemma is stated with is what sql_guard computes to for that method, so the
     hypothesis G is handed over by conversion *)
  destruct d; vm_compute in I; repeat (destruct I as [I|I]; [injection I as <- <-|]); try contradiction;
    (eapply documented_sql_guard; [|first [solve [eauto with sql_doc nocore] | destruct L as [->|L]; [solve [eauto with sql_doc nocore] | discriminate L]]]);
    intros args G; exact G. Qed.
Theorem sql_supported_documented vr d m lits :
  In (m, lits) (supported_sql d) ->
  forall args r, sql_guard vr d m args = true -> spec_method mf mf2 m args = Some r ->
    exists r', sql_eval mf mf2 vr d m lits args = Some r' /\ sv_eqv r' r.
Proof. intros I. exact (sql_documented vr d m lits lits I (or_introl eq_refl)). Qed.
Theorem sql_supported_documented_any_literals vr d m lits0 :
  In (m, lits0) (supported_sql d) -> str_in m literal_arg_methods = false ->
  forall lits args r, sql_guard vr d m args = true -> spec_method mf mf2 m args = Some r ->
    exists r', sql_eval mf mf2 vr d m lits args = Some r' /\ sv_eqv r' r.
Proof. intros I NL lits. exact (sql_documented vr d m lits0 lits I (or_intror NL)). Qed.

Theorem pandas_supported_documented m lits :
  In (m, lits) supported_pandas ->
  forall args r, np_guard m args = true -> spec_method mf mf2 m args = Some r ->
    exists r', np_eval mf mf2 m args = Some r' /\ sv_eqv r' r.
Proof. intros I. change (documented_np mf mf2 m (np_guard m)).
  vm_compute in I; repeat (destruct I as [I|I]; [injection I as <- <-|]); try contradiction;
    eauto with np_doc nocore. Qed.

Theorem polars_catalogued_documented m lits :
  In (m, lits) supported_polars ->
  forall args r, pl_guard m args = true -> spec_method mf mf2 m args = Some r ->
    forall r', pl_eval mf mf2 m args = Some r' -> sv_eqv r' r.
Proof. intros I. change (documented_pl mf mf2 m (pl_guard m)).
  vm_compute in I; repeat (destruct I as [I|I]; [injection I as <- <-|]); try contradiction;
    eauto with pl_doc nocore. Qed.

(* ------------------------------------------------------------------ witnesses: the full statement is false for the shipped code *)
Definition differs (a b : sval) : Prop := sv_eqvb a b = false.
Lemma sql_maxmin_refuted d :
  (exists args r r', spec_method mf mf2 "maximum" args = Some r /\ sql_eval mf mf2 shipped d "maximum" [false; false] args = Some r' /\ differs r' r) /\
  (exists args r r', spec_method mf mf2 "minimum" args = Some r /\ sql_eval mf mf2 shipped d "minimum" [false; false] args = Some r' /\ differs r' r) /\
  (exists args r r', spec_method mf mf2 "fmax" args = Some r /\ sql_eval mf mf2 shipped d "fmax" [false; false] args = Some r' /\ differs r' r) /\
  (exists args r r', spec_method mf mf2 "fmin" args = Some r /\ sql_eval mf mf2 shipped d "fmin" [false; false] args = Some r' /\ differs r' r).
Proof. repeat split.
  - exists [SNum 1; SNull], SNull, (SNum 1). destruct d; repeat split; reflexivity.
  - exists [SNum 1; SNull], SNull, (SNum 1). destruct d; repeat split; reflexivity.
  - exists [SNum 1; SNull], (SNum 1), SNull. destruct d; repeat split; reflexivity.
  - exists [SNum 1; SNull], (SNum 1), SNull. destruct d; repeat split; reflexivity. Qed.
Lemma sql_trimstr_refuted d :
  exists args r r', spec_method mf mf2 "trimstr" args = Some r /\ sql_eval mf mf2 shipped d "trimstr" [false; true; true] args = Some r' /\ differs r' r.
Proof. exists [SStr "abcdef"; SNum 1; SNum 3], (SStr "bc"), (SStr "bcd"). destruct d; repeat split; reflexivity. Qed.
Lemma sqlite_abs_sign_inf_refuted :
  (exists args r r', spec_method mf mf2 "abs" args = Some r /\ sql_eval mf mf2 shipped DSqlite "abs" [false] args = Some r' /\ differs r' r) /\
  (exists args r r', spec_method mf mf2 "sign" args = Some r /\ sql_eval mf mf2 shipped DSqlite "sign" [false] args = Some r' /\ differs r' r).
Proof. split.
  - exists [SNInf], SPInf, SNull. repeat split; reflexivity.
  - exists [SPInf], (SNum 1), SNull. repeat split; reflexivity. Qed.
Lemma pg_is_nan_of_nan_refuted vr :
  exists args r r', spec_method mf mf2 "is_nan" args = Some r /\ sql_eval mf mf2 vr DPg "is_nan" [false] args = Some r' /\ differs r' r.
Proof. exists [SNaN], (SBool true), (SBool false). repeat split; reflexivity. Qed.
Lemma polars_maxmin_nan_refuted :
  (exists args r r', spec_method mf mf2 "maximum" args = Some r /\ pl_eval mf mf2 "maximum" args = Some r' /\ differs r' r) /\
  (exists args r r', spec_method mf mf2 "minimum" args = Some r /\ pl_eval mf mf2 "minimum" args = Some r' /\ differs r' r).
Proof. split; exists [SNaN; SNum 1], SNull, (SNum 1); repeat split; reflexivity. Qed.
End Top.
