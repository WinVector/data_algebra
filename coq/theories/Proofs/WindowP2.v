(* C27, part 2: with a total order inside the partition and no null order key, the ordered partition is ONE list -- whatever
   the backend's null-placement convention and whatever physical order the backend holds the rows in -- hence every backend
   whose function-level conventions agree writes the same value at every row.  The conventions that remain are named
   (fn_conventions_agree) and the real differences are exhibited (`_refuted`). *)
From Coq Require Import List Bool QArith String Lia Permutation Sorted.
Import ListNotations.
From DA Require Import Base.PyRT Base.Val Model.Sem Model.WindowSpec Proofs.SemBasicP Proofs.SemOrderP Proofs.WindowP1 Proofs.ListP Proofs.TabP.
Local Open Scope string_scope.
Local Open Scope list_scope.

Lemma insert_sorted_map {A B} (f : A -> B) (le : B -> B -> bool) x l :
  map f (insert_sorted (fun a b => le (f a) (f b)) x l) = insert_sorted le (f x) (map f l).
Proof. induction l as [|y t IH]; simpl; [reflexivity|]. destruct (le (f x) (f y)); simpl; [reflexivity|]. rewrite IH. reflexivity. Qed.

Lemma stable_sort_map {A B} (f : A -> B) (le : B -> B -> bool) l :
  map f (stable_sort (fun a b => le (f a) (f b)) l) = stable_sort le (map f l).
Proof. induction l as [|a t IH]; simpl; [reflexivity|]. rewrite insert_sorted_map, IH. reflexivity. Qed.

Lemma map_filter_comm {A B} (f : A -> B) (p : B -> bool) l : map f (filter (fun a => p (f a)) l) = filter p (map f l).
Proof. induction l as [|a t IH]; simpl; [reflexivity|]. destruct (p (f a)); simpl; rewrite IH; reflexivity. Qed.

(* the tagged ordered partition, forgetting the tags, is the ordered partition of the rows *)
Lemma sorted_tagged_rows fl cs w rs r : map snd (sorted_tagged fl cs w rs r) = sorted_rows fl cs w rs r.
Proof.
  unfold sorted_tagged, sorted_rows, tle. rewrite (stable_sort_map snd (row_le fl cs (okeys_of w))).
  f_equal. unfold part_tagged, part_rows. rewrite (map_filter_comm snd (same_part cs (w_part w) r)), tag_from_snd. reflexivity.
Qed.

(* ---------- the comparison of two rows without null order keys does not depend on the null-placement convention *)
Lemma v_le_dir_nonnull nf1 nf2 d a b : a <> VNull -> b <> VNull -> v_le_dir nf1 d a b = v_le_dir nf2 d a b.
Proof. intros Na Nb. destruct a; [congruence|..]; destruct b; try congruence; reflexivity. Qed.

Lemma row_le_flavor_free fl1 fl2 cs keys r1 r2 :
  (forall c d, In (c, d) keys -> get cs r1 c <> VNull /\ get cs r2 c <> VNull) ->
  row_le fl1 cs keys r1 r2 = row_le fl2 cs keys r1 r2.
Proof.
  induction keys as [|[c d] t IH]; intros H; cbn [row_le]; [reflexivity|].
  destruct (H c d (or_introl eq_refl)) as [N1 N2].
  rewrite IH by (intros c' d' I; apply (H c' d'); right; exact I).
  rewrite (v_le_dir_nonnull (nulls_first fl1 d) (nulls_first fl2 d) d _ _ N1 N2). reflexivity.
Qed.

Lemma okeys_In w c d : In (c, d) (okeys_of w) -> In c (w_order w).
Proof. unfold okeys_of. intros H. apply in_map_iff in H. destruct H as [x [E I]]. inversion E; subst. exact I. Qed.

Lemma sorted_rows_flavor_free fl1 fl2 cs w rs r :
  no_null_order_keys cs w (part_rows cs (w_part w) rs r) -> sorted_rows fl1 cs w rs r = sorted_rows fl2 cs w rs r.
Proof.
  intros NN. unfold sorted_rows. apply stable_sort_ext_in. intros a b Ia Ib. apply row_le_flavor_free.
  intros c d I. apply okeys_In in I. split; apply NN; assumption.
Qed.

(* ---------- a strict total order makes the ordered partition independent of the physical row order *)

Lemma strict_total_NoDup fl cs keys (l : list (list val)) : strict_total_on (row_le fl cs keys) l -> NoDup l.
Proof.
  intros T. apply NoDup_nth_error. intros i j Li E.
  destruct (nth_error l i) as [a|] eqn:Ea; [|apply nth_error_None in Ea; lia].
  symmetry in E. apply (T i j a a Ea E); apply row_le_refl.
Qed.

Lemma strict_total_antisym {A} (le : A -> A -> bool) l :
  strict_total_on le l -> forall a b, In a l -> In b l -> le a b = true -> le b a = true -> a = b.
Proof.
  intros T a b Ia Ib H1 H2. destruct (In_nth_error _ _ Ia) as [i Ei]. destruct (In_nth_error _ _ Ib) as [j Ej].
  assert (i = j) by (eapply T; eassumption). subst. congruence.
Qed.

Lemma sorted_rows_input_order fl cs w rs1 rs2 r :
  Permutation rs1 rs2 -> strict_total_on (row_le fl cs (okeys_of w)) (part_rows cs (w_part w) rs1 r) ->
  sorted_rows fl cs w rs1 r = sorted_rows fl cs w rs2 r.
Proof.
  intros P T. unfold sorted_rows.
  apply (stable_sort_perm_invariant (row_le fl cs (okeys_of w)) (row_le_total _ _ _) (row_le_trans _ _ _)).
  - unfold part_rows. apply perm_filter. exact P.
  - apply strict_total_antisym. exact T.
Qed.

(* both together: one ordered partition for all conventions and all physical row orders *)
Lemma ordered_partition_convention_free fl1 fl2 cs w rs1 rs2 r :
  Permutation rs1 rs2 ->
  strict_total_on (row_le fl1 cs (okeys_of w)) (part_rows cs (w_part w) rs1 r) ->
  no_null_order_keys cs w (part_rows cs (w_part w) rs2 r) ->
  sorted_rows fl1 cs w rs1 r = sorted_rows fl2 cs w rs2 r.
Proof.
  intros P T NN. rewrite (sorted_rows_input_order fl1 cs w rs1 rs2 r P T). apply sorted_rows_flavor_free. exact NN.
Qed.

(* the argument of a window function is a column or a constant: its value does not depend on the backend *)
Lemma arg_val_simple fl1 fl2 cs arg r : simple_arg arg -> arg_val fl1 cs arg r = arg_val fl2 cs arg r.
Proof. destruct arg as [[c|v|o l]|]; simpl; intros H; try reflexivity. destruct H. Qed.

(* ---------- which function-level conventions remain *)
Lemma running_no_null c1 c2 f vs : forall acc, Forall (fun v => num_of v <> None) vs -> running c1 f acc vs = running c2 f acc vs.
Proof.
  induction vs as [|v t IH]; intros acc F; simpl; [reflexivity|]. inversion F as [|? ? Fv Ft]; subst.
  destruct (num_of v) as [x|]; [|congruence]. rewrite (IH _ Ft). reflexivity.
Qed.

Lemma win_fn_conventions fl1 fl2 op extra vs :
  fn_conventions_agree fl1 fl2 op vs -> win_fn fl1 op extra vs = win_fn fl2 op extra vs.
Proof.
  intros [H|[[H Nv]|[[-> H]|[H Hc]]]].
  - assert (Forall (fun o => win_fn fl1 o extra vs = win_fn fl2 o extra vs) convention_free_fns) as F by (repeat constructor).
    rewrite Forall_forall in F. apply F, H.
  - simpl in H. destruct vs as [|v t]; [congruence|].
    repeat (destruct H as [<-|H]; [reflexivity|]). destruct H.
  - unfold win_fn, agg_fn. destruct H as [H|H].
    + destruct (nums vs); [congruence|reflexivity].
    + rewrite H. reflexivity.
  - simpl in H. destruct Hc as [Hc|Hc].
    + repeat (destruct H as [<-|H]; [unfold win_fn; apply running_no_null; exact Hc|]). destruct H.
    + repeat (destruct H as [<-|H]; [unfold win_fn; rewrite Hc; reflexivity|]). destruct H.
Qed.

(* the value written at a row, in terms of the ordered partition without the tags *)
Lemma window_value_untagged fl ops w t k e op arg extra i r r' :
  wf_table t -> NoDup (map fst ops) -> In (k, e) ops -> win_parts e = Some (op, arg, extra) ->
  nth_error (rows t) i = Some r -> nth_error (rows (sem_wextend fl ops w t)) i = Some r' ->
  exists j, nth_error (sorted_rows fl (cols t) w (rows t) r) j = Some r
    /\ get (ext_cols (cols t) (map fst ops)) r' k
       = nth j (win_fn fl op extra (map (arg_val fl (cols t) arg) (sorted_rows fl (cols t) w (rows t) r))) VNull.
Proof.
  intros W N I Hp Hr R.
  destruct (window_value_over_own_partition fl ops w t k e op arg extra i r W N I Hp Hr) as [j [x [A [_ [B C]]]]].
  rewrite R in B. injection B as <-. exists j. rewrite <- sorted_tagged_rows, map_map, nth_error_map, A. split; [reflexivity|exact C].
Qed.

(* on a total order every backend writes the same value at every row *)
Theorem total_order_backends_agree :
  forall (fl1 fl2 : flavor) (ops : list (string * expr)) (w : window) (t1 t2 : table)
         (k : string) (e : expr) (op : string) (arg : option expr) (extra : list val) (i1 i2 : nat) (r r1' r2' : list val),
  wf_table t1 -> wf_table t2 -> cols t1 = cols t2 -> Permutation (rows t1) (rows t2) ->
  NoDup (map fst ops) -> In (k, e) ops -> win_parts e = Some (op, arg, extra) -> simple_arg arg ->
  nth_error (rows t1) i1 = Some r -> nth_error (rows t2) i2 = Some r ->
  strict_total_on (row_le fl1 (cols t1) (okeys_of w)) (part_rows (cols t1) (w_part w) (rows t1) r) ->
  no_null_order_keys (cols t1) w (part_rows (cols t1) (w_part w) (rows t1) r) ->
  fn_conventions_agree fl1 fl2 op (map (arg_val fl1 (cols t1) arg) (sorted_rows fl1 (cols t1) w (rows t1) r)) ->
  nth_error (rows (sem_wextend fl1 ops w t1)) i1 = Some r1' -> nth_error (rows (sem_wextend fl2 ops w t2)) i2 = Some r2' ->
  get (ext_cols (cols t1) (map fst ops)) r1' k = get (ext_cols (cols t2) (map fst ops)) r2' k.
Proof.
  intros fl1 fl2 ops w t1 t2 k e op arg extra i1 i2 r r1' r2' W1 W2 Ec P N I Hp Sa H1 H2 T NN Ag R1 R2.
  destruct (window_value_untagged fl1 ops w t1 k e op arg extra i1 r r1' W1 N I Hp H1 R1) as [j1 [P1 ->]].
  destruct (window_value_untagged fl2 ops w t2 k e op arg extra i2 r r2' W2 N I Hp H2 R2) as [j2 [P2 ->]].
  rewrite <- Ec in *.
  (* one ordered partition *)
  assert (sorted_rows fl2 (cols t1) w (rows t2) r = sorted_rows fl1 (cols t1) w (rows t1) r) as ES.
  { symmetry. apply ordered_partition_convention_free; [exact P|exact T|].
    intros r0 c I0 Ic. apply NN; [|exact Ic]. unfold part_rows in *. apply filter_In in I0. apply filter_In.
    split; [eapply Permutation_in; [apply Permutation_sym, P|tauto]|tauto]. }
  rewrite ES in *.
  (* the values the function sees, and the position of the row *)
  rewrite (map_ext _ _ (fun a => arg_val_simple fl2 fl1 (cols t1) arg a Sa)), <- (win_fn_conventions fl1 fl2 op extra _ Ag).
  assert (NoDup (sorted_rows fl1 (cols t1) w (rows t1) r)) as ND.
  { eapply Permutation_NoDup; [apply Permutation_sym, stable_sort_perm|]. eapply strict_total_NoDup. exact T. }
  rewrite NoDup_nth_error in ND. rewrite (ND j1 j2); [reflexivity| |congruence]. apply nth_error_Some. congruence.
Qed.

(* sufficient: the partition is never empty at one of its own rows, so count / size never meet the empty-group convention *)
Lemma own_partition_nonempty fl cs w rs r i : nth_error rs i = Some r -> sorted_rows fl cs w rs r <> [].
Proof.
  intros H E. assert (In r (sorted_rows fl cs w rs r)) as I.
  { unfold sorted_rows. eapply Permutation_in; [apply Permutation_sym, stable_sort_perm|]. unfold part_rows. apply filter_In.
    split; [eapply nth_error_In; eassumption|apply keys_eqv_refl]. }
  rewrite E in I. destruct I.
Qed.

(* ---------- decidable versions of the two guards (for concrete instances) *)
Fixpoint no_tie_with {A} (le : A -> A -> bool) (a : A) (l : list A) : bool :=
  match l with [] => true | b :: t => negb (le a b && le b a) && no_tie_with le a t end.
Fixpoint strict_total_b {A} (le : A -> A -> bool) (l : list A) : bool :=
  match l with [] => true | a :: t => no_tie_with le a t && strict_total_b le t end.

Lemma no_tie_with_In {A} (le : A -> A -> bool) a l b : no_tie_with le a l = true -> In b l -> le a b && le b a = false.
Proof.
  induction l as [|c t IH]; simpl; intros H I; [destruct I|]. apply andb_true_iff in H. destruct H as [H1 H2].
  destruct I as [->|I]; [apply negb_true_iff; exact H1|apply IH; assumption].
Qed.

Lemma strict_total_b_sound {A} (le : A -> A -> bool) l : strict_total_b le l = true -> strict_total_on le l.
Proof.
  induction l as [|a t IH]; intros H i j x y Hi Hj L1 L2; [destruct i; discriminate|].
  simpl in H. apply andb_true_iff in H. destruct H as [H1 H2].
  destruct i as [|i]; destruct j as [|j]; simpl in Hi, Hj.
  - reflexivity.
  - inversion Hi; subst. apply nth_error_In in Hj. pose proof (no_tie_with_In le x t y H1 Hj) as C. rewrite L1, L2 in C. discriminate.
  - inversion Hj; subst. apply nth_error_In in Hi. pose proof (no_tie_with_In le y t x H1 Hi) as C. rewrite L1, L2 in C. discriminate.
  - f_equal. apply (IH H2 i j x y); assumption.
Qed.

Definition no_null_order_keys_b (cs : list string) (w : window) (l : list (list val)) : bool :=
  forallb (fun r => forallb (fun c => negb (is_null (get cs r c))) (w_order w)) l.
Lemma no_null_order_keys_b_sound cs w l : no_null_order_keys_b cs w l = true -> no_null_order_keys cs w l.
Proof.
  unfold no_null_order_keys_b, no_null_order_keys. rewrite forallb_forall. intros H r c Ir Ic E.
  specialize (H r Ir). rewrite forallb_forall in H. specialize (H c Ic). rewrite E in H. discriminate.
Qed.

(* ---------- the differences that are real (each is a listed finding; the witnesses are total orders without null keys) *)
Definition wit_tab : table :=
  mktable ["g"; "o"; "x"] [[VStr "a"; VNum 1; VNum 5]; [VStr "a"; VNum 2; VNull]; [VStr "a"; VNum 3; VNum 2]].
Definition wit_win : window := mkwin ["g"] ["o"] [].

(* Pandas leaves a null at a null-valued row of a running sum, SQL's SUM() OVER carries the running value *)
Lemma running_at_null_row_refuted :
  exists (t : table) (w : window) (ops : list (string * expr)) (i : nat) (r1 r2 : list val),
    strict_total_on (row_le fl_pandas (cols t) (okeys_of w)) (rows t) /\ no_null_order_keys (cols t) w (rows t)
    /\ nth_error (rows (sem_wextend fl_pandas ops w t)) i = Some r1 /\ nth_error (rows (sem_wextend fl_sqlite ops w t)) i = Some r2
    /\ get (ext_cols (cols t) (map fst ops)) r1 "s" = VNull /\ get (ext_cols (cols t) (map fst ops)) r2 "s" = VNum 5.
Proof.
  exists wit_tab, wit_win, [("s", EOp "cumsum" [ECol "x"])], 1%nat.
  eexists. eexists. split; [|split; [|split; [vm_compute; reflexivity|split; [vm_compute; reflexivity|split; vm_compute; reflexivity]]]].
  - apply strict_total_b_sound. vm_compute. reflexivity.
  - apply no_null_order_keys_b_sound. vm_compute. reflexivity.
Qed.

(* a GROUP aggregate written in an ORDERED window: SQL's default frame makes it a running aggregate *)
Lemma sql_group_aggregate_in_ordered_window_refuted :
  exists (vs : list val) (j : nat),
    nth j (sql_ordered_agg fl_sqlite "mean" vs) VNull <> nth j (win_fn fl_pandas "mean" [] vs) VNull.
Proof. exists [VNum 1; VNum 3], 0%nat. vm_compute. discriminate. Qed.

(* Polars first()/last() do not skip nulls; Polars n_unique() counts null *)
Lemma polars_first_last_nunique_refuted :
  exists vs : list val,
    polars_first vs <> win_fn fl_polars "first" [] vs /\ polars_last (rev vs) <> win_fn fl_polars "last" [] (rev vs)
    /\ polars_nunique vs <> win_fn fl_polars "nunique" [] vs.
Proof. exists [VNull; VNum 2]. repeat split; vm_compute; discriminate. Qed.
