(* C16, part 2: consequences of "natural_join = the SQL join": what one row contributes (m partners -> m rows, none -> one
   NULL-extended row in the preserving join types), row counts, null keys never match, the value of a shared column,
   and Pandas' null-matching merge (refuted in general, proved when no null key can meet a null key). *)
From Coq Require Import List Bool QArith String Permutation.
Import ListNotations.
From DA Require Import Base.PyRT Base.Val Model.Sem Model.JoinSpec Model.JoinEmul Proofs.SemBasicP Proofs.JoinP1 Proofs.ListP Proofs.TabP.
Local Open Scope list_scope.

Lemma flat_map_app_perm {A B} (f g : A -> list B) l :
  Permutation (flat_map f l ++ flat_map g l) (flat_map (fun x => f x ++ g x) l).
Proof.
  induction l as [|x t IH]; simpl; [constructor|].
  rewrite <- !app_assoc. apply Permutation_app_head.
  eapply perm_trans; [|apply Permutation_app_head, IH].
  rewrite !app_assoc. apply Permutation_app_tail, Permutation_app_comm.
Qed.

Lemma existsb_filter {A} (p : A -> bool) l : existsb p l = match filter p l with [] => false | _ => true end.
Proof. induction l as [|x t IH]; simpl; [reflexivity|]. destruct (p x); [reflexivity|exact IH]. Qed.

Lemma length_flat_map {A B} (f : A -> list B) l : List.length (flat_map f l) = list_sum (map (fun x => List.length (f x)) l).
Proof. induction l as [|x t IH]; simpl; [reflexivity|]. rewrite app_length, IH. reflexivity. Qed.

(* ---------- optional partners: the rows a preserved row is joined with, or the NULL extension when there is none *)
Definition opts {A} (l : list A) : list (option A) := match l with [] => [None] | _ => map Some l end.

Lemma opts_length {A} (l : list A) : List.length (opts l) = Nat.max 1 (List.length l).
Proof. destruct l; [reflexivity|]. cbn [opts]. rewrite map_length. reflexivity. Qed.

Lemma In_opts {A} (l : list A) o : In o (opts l) -> (forall x, o = Some x -> In x l) /\ (o = None -> l = []).
Proof.
  destruct l as [|y t]; cbn [opts].
  - intros [<-|[]]. split; [discriminate|reflexivity].
  - intros I. apply in_map_iff in I. destruct I as [x [<- I]]. split; [intros z E; inversion E; subst; exact I|discriminate].
Qed.

Lemma left_contribution_opts on a b r1 :
  left_contribution on a b r1 = map (select_row (cols a) (cols b) (Some r1)) (opts (partners_of_left on a b r1)).
Proof. unfold left_contribution. destruct (partners_of_left on a b r1); [reflexivity|]. cbn [opts]. rewrite map_map. reflexivity. Qed.

(* ---------- what one row of the preserved side contributes *)
Lemma preserved_rows_by_row {A B C} (hit : A -> B -> bool) (mk : option A -> option B -> C) la lb :
  Permutation (matched_rows hit (fun x y => mk (Some x) (Some y)) la lb ++ unmatched_rows hit (fun x => mk (Some x) None) la lb)
              (flat_map (fun x => map (mk (Some x)) (opts (filter (hit x) lb))) la).
Proof.
  eapply perm_trans; [apply flat_map_app_perm|]. erewrite flat_map_ext; [reflexivity|]. intros x.
  rewrite flat_map_if, existsb_filter. destruct (filter (hit x) lb); [reflexivity|].
  rewrite app_nil_r. cbn [opts]. symmetry. apply map_map.
Qed.

Lemma In_matched_rows {A B C} (hit : A -> B -> bool) (mk : A -> B -> C) la lb r :
  In r (matched_rows hit mk la lb) -> exists x y, r = mk x y /\ In x la /\ In y lb /\ hit x y = true.
Proof.
  rewrite matched_rows_prod, in_map_iff. intros [[x y] [<- H]]. apply filter_In in H. rewrite in_prod_iff in H. exists x, y. tauto.
Qed.

Lemma In_unmatched_rows {A B C} (hit : A -> B -> bool) (mk : A -> C) la lb r :
  In r (unmatched_rows hit mk la lb) -> exists x, r = mk x /\ In x la /\ filter (hit x) lb = [].
Proof.
  rewrite unmatched_rows_filter, in_map_iff. intros [x [<- H]]. apply filter_In in H. rewrite existsb_filter in H. exists x.
  destruct (filter (hit x) lb); [tauto|]. destruct H. discriminate.
Qed.

Lemma In_join_rows {A B C} (hit : A -> B -> bool) (mk : option A -> option B -> C) jt la lb r :
  In r (join_rows hit mk jt la lb) ->
  exists o1 o2, r = mk o1 o2
    /\ match o1, o2 with
       | Some x, Some y => In x la /\ In y lb /\ hit x y = true
       | Some x, None => In x la /\ filter (hit x) lb = [] /\ (jt = JLeft \/ jt = JFull)
       | None, Some y => In y lb /\ filter (fun x => hit x y) la = [] /\ (jt = JRight \/ jt = JFull)
       | None, None => False
       end.
Proof.
  unfold join_rows. rewrite !in_app_iff. intros [H|[H|H]].
  - apply In_matched_rows in H. destruct H as [x [y [E H]]]. exists (Some x), (Some y). split; assumption.
  - destruct jt; try contradiction; apply In_unmatched_rows in H; destruct H as [x [E [I F]]]; exists (Some x), None; auto.
  - destruct jt; try contradiction; apply In_unmatched_rows in H; destruct H as [y [E [I F]]]; exists None, (Some y); auto.
Qed.

(* LEFT join: the result is, row of T1 by row of T1, that row's contribution *)
Lemma left_join_by_left_row on a b :
  Permutation (sql_join_rows SLeft on a b) (flat_map (left_contribution on a b) (rows a)).
Proof.
  rewrite (sql_join_rows_shape JLeft). unfold join_rows. rewrite app_nil_r.
  eapply perm_trans; [apply preserved_rows_by_row|]. erewrite flat_map_ext; [reflexivity|].
  intros r1. symmetry. apply left_contribution_opts.
Qed.

Lemma right_join_rows on a b :
  sql_join_rows SRight on a b
  = sql_join_rows SInner on a b ++ map (fun r2 => select_row (cols a) (cols b) None (Some r2)) (unmatched_right on a b).
Proof. reflexivity. Qed.
Lemma full_join_rows on a b :
  sql_join_rows SFull on a b
  = sql_join_rows SLeft on a b ++ map (fun r2 => select_row (cols a) (cols b) None (Some r2)) (unmatched_right on a b).
Proof. unfold sql_join_rows. cbv zeta. apply app_assoc. Qed.

Lemma full_join_by_left_row on a b :
  Permutation (sql_join_rows SFull on a b)
    (flat_map (left_contribution on a b) (rows a) ++ map (fun r2 => select_row (cols a) (cols b) None (Some r2)) (unmatched_right on a b)).
Proof. rewrite full_join_rows. apply Permutation_app_tail, left_join_by_left_row. Qed.

(* row counts: a left row with m partners contributes m rows; in a LEFT / FULL join one row when m = 0 *)
Lemma left_contribution_length on_a on_b a b r1 :
  List.length (left_contribution (combine on_a on_b) a b r1) = Nat.max 1 (List.length (partners_of_left (combine on_a on_b) a b r1)).
Proof. rewrite left_contribution_opts, map_length. apply opts_length. Qed.

Lemma inner_join_row_count on a b :
  List.length (sql_join_rows SInner on a b) = list_sum (map (fun r1 => List.length (partners_of_left on a b r1)) (rows a)).
Proof.
  rewrite (sql_join_rows_shape JInner). unfold join_rows. rewrite !app_nil_r, matched_rows_by_row, length_flat_map.
  f_equal. apply map_ext. intros r1. apply map_length.
Qed.

Lemma left_join_row_count on a b :
  List.length (sql_join_rows SLeft on a b) = list_sum (map (fun r1 => Nat.max 1 (List.length (partners_of_left on a b r1))) (rows a)).
Proof.
  rewrite (Permutation_length (left_join_by_left_row on a b)), length_flat_map. f_equal. apply map_ext. intros r1.
  rewrite left_contribution_opts, map_length. apply opts_length.
Qed.

(* the same facts for the reference semantics of natural_join *)
Lemma sem_left_join_by_left_row on_a on_b a b : List.length on_a = List.length on_b ->
  Permutation (rows (sem_join false on_a on_b JLeft a b)) (flat_map (left_contribution (combine on_a on_b) a b) (rows a)).
Proof. intros L. rewrite (sem_join_is_spec _ _ _ _ _ L). apply left_join_by_left_row. Qed.

Lemma sem_full_join_by_left_row on_a on_b a b : List.length on_a = List.length on_b ->
  Permutation (rows (sem_join false on_a on_b JFull a b))
    (flat_map (left_contribution (combine on_a on_b) a b) (rows a)
     ++ map (fun r2 => select_row (cols a) (cols b) None (Some r2)) (unmatched_right (combine on_a on_b) a b)).
Proof. intros L. rewrite (sem_join_is_spec _ _ _ _ _ L). apply full_join_by_left_row. Qed.

Lemma sem_join_row_counts on_a on_b a b : List.length on_a = List.length on_b ->
  let on := combine on_a on_b in
  let m := fun r1 => List.length (partners_of_left on a b r1) in
  List.length (rows (sem_join false on_a on_b JInner a b)) = list_sum (map m (rows a))
  /\ List.length (rows (sem_join false on_a on_b JLeft a b)) = list_sum (map (fun r1 => Nat.max 1 (m r1)) (rows a))
  /\ List.length (rows (sem_join false on_a on_b JRight a b)) = (list_sum (map m (rows a)) + List.length (unmatched_right on a b))%nat
  /\ List.length (rows (sem_join false on_a on_b JFull a b))
     = (list_sum (map (fun r1 => Nat.max 1 (m r1)) (rows a)) + List.length (unmatched_right on a b))%nat.
Proof.
  intros L. cbv zeta. rewrite !(sem_join_is_spec _ _ _ _ _ L). cbn [jt_of sql_join_spec rows].
  rewrite right_join_rows, full_join_rows, !app_length, !map_length, !inner_join_row_count, !left_join_row_count.
  repeat split; reflexivity.
Qed.

(* ---------- null keys never match *)
Lemma on_cond_null_left c1 c2 on r1 r2 :
  has_null_key c1 (map fst on) r1 = true -> on_holds c1 c2 on r1 r2 = false.
Proof.
  unfold on_holds, has_null_key. induction on as [|[ka kb] t IH]; simpl; [discriminate|].
  intros H. apply orb_true_iff in H. rewrite is_true_and. destruct H as [H|H].
  - destruct (get c1 r1 ka); try discriminate. reflexivity.
  - rewrite (IH H). apply andb_false_r.
Qed.

Lemma on_cond_null_right c1 c2 on r1 r2 :
  has_null_key c2 (map snd on) r2 = true -> on_holds c1 c2 on r1 r2 = false.
Proof.
  unfold on_holds, has_null_key. induction on as [|[ka kb] t IH]; simpl; [discriminate|].
  intros H. apply orb_true_iff in H. rewrite is_true_and. destruct H as [H|H].
  - destruct (get c2 r2 kb); try discriminate. destruct (get c1 r1 ka); reflexivity.
  - rewrite (IH H). apply andb_false_r.
Qed.

(* a row with a null key has no partner: it appears only NULL-extended (LEFT / FULL), never joined with a row of the other table *)
Lemma null_key_left_row_alone on a b r1 :
  has_null_key (cols a) (map fst on) r1 = true ->
  partners_of_left on a b r1 = [] /\ left_contribution on a b r1 = [select_row (cols a) (cols b) (Some r1) None].
Proof.
  intros H. assert (partners_of_left on a b r1 = []) as E.
  { unfold partners_of_left. apply filter_none. intros r2 _. apply on_cond_null_left, H. }
  split; [exact E|]. unfold left_contribution. rewrite E. reflexivity.
Qed.

Lemma null_key_right_row_alone on a b r2 :
  has_null_key (cols b) (map snd on) r2 = true ->
  partners_of_right on a b r2 = [] /\ right_contribution on a b r2 = [select_row (cols a) (cols b) None (Some r2)].
Proof.
  intros H. assert (partners_of_right on a b r2 = []) as E.
  { unfold partners_of_right. apply filter_none. intros r1 _. apply on_cond_null_right, H. }
  split; [exact E|]. unfold right_contribution. rewrite E. reflexivity.
Qed.

(* in terms of Sem.v: keys_match false rejects every pair in which either key has a null *)
Lemma keys_eqv_null_free ka : forall kb, keys_eqv ka kb = true -> existsb is_null kb = existsb is_null ka.
Proof.
  induction ka as [|x t IH]; intros [|y u]; simpl; try discriminate; [reflexivity|].
  intros H. apply andb_true_iff in H. destruct H as [H1 H2]. rewrite (IH u H2). f_equal.
  destruct x as [|[]| | |], y as [|[]| | |]; simpl in *; try reflexivity; discriminate.
Qed.

Lemma keys_match_null_never ka kb :
  existsb is_null ka = true \/ existsb is_null kb = true -> keys_match false ka kb = false.
Proof.
  unfold keys_match. cbn [orb]. intros [H|H].
  - rewrite H. reflexivity.
  - destruct (keys_eqv ka kb) eqn:E; [|apply andb_false_r]. rewrite <- (keys_eqv_null_free ka kb E), H. reflexivity.
Qed.

(* ---------- the value of each output column *)

Lemma In_out_cols c1 c2 c : In c (out_cols c1 c2) <-> In c c1 \/ In c c2.
Proof.
  unfold out_cols. rewrite in_app_iff, filter_In, negb_true_iff. split.
  - intros [H|[H _]]; auto.
  - intros [H|H]; [left; exact H|]. destruct (mem c c1) eqn:M; [left; apply mem_In, M|right; split; [exact H|reflexivity]].
Qed.

Lemma get_select_row c1 c2 r1 r2 c : get (out_cols c1 c2) (select_row c1 c2 r1 r2) c = coalesce_cell c1 c2 r1 r2 c.
Proof.
  destruct (mem c (out_cols c1 c2)) eqn:M.
  - rewrite select_row_coalesce. apply get_map_in, mem_In, M.
  - apply mem_false in M. rewrite (get_absent _ _ _ M). rewrite In_out_cols in M.
    rewrite coalesce_absent_l, cell_absent; [reflexivity| |]; apply mem_false; tauto.
Qed.

(* a column both tables have: the left value, or the right value where the left is null -- for matched AND unmatched rows *)
Lemma select_row_shared c1 c2 r1 r2 c : In c c1 -> In c c2 ->
  get (out_cols c1 c2) (select_row c1 c2 r1 r2) c = (if is_null (cell c1 r1 c) then cell c2 r2 c else cell c1 r1 c).
Proof. intros _ _. apply get_select_row. Qed.
Lemma select_row_left_only c1 c2 r1 r2 c : In c c1 -> ~ In c c2 ->
  get (out_cols c1 c2) (select_row c1 c2 r1 r2) c = cell c1 r1 c.
Proof. intros _ N. rewrite get_select_row. apply coalesce_absent_r, mem_false, N. Qed.
Lemma select_row_right_only c1 c2 r1 r2 c : ~ In c c1 -> In c c2 ->
  get (out_cols c1 c2) (select_row c1 c2 r1 r2) c = cell c2 r2 c.
Proof. intros N _. rewrite get_select_row. apply coalesce_absent_l, mem_false, N. Qed.

(* every row of a natural_join is select_row of a pair (r1, r2) / (r1, NULLs) / (NULLs, r2) drawn from the inputs *)
Lemma sem_join_row_origin on_a on_b jt a b r : List.length on_a = List.length on_b ->
  In r (rows (sem_join false on_a on_b jt a b)) ->
  exists o1 o2, r = select_row (cols a) (cols b) o1 o2
    /\ match o1, o2 with
       | Some r1, Some r2 => In r1 (rows a) /\ In r2 (rows b) /\ on_holds (cols a) (cols b) (combine on_a on_b) r1 r2 = true
       | Some r1, None => In r1 (rows a) /\ partners_of_left (combine on_a on_b) a b r1 = [] /\ (jt = JLeft \/ jt = JFull)
       | None, Some r2 => In r2 (rows b) /\ partners_of_right (combine on_a on_b) a b r2 = [] /\ (jt = JRight \/ jt = JFull)
       | None, None => False
       end.
Proof.
  intros L. rewrite (sem_join_is_spec _ _ _ _ _ L). cbn [sql_join_spec rows]. rewrite sql_join_rows_shape. apply In_join_rows.
Qed.

(* ---------- Pandas: merge matches a null key with a null key *)
(* no key of the left table contains a null, or none of the right table does: the two rules coincide *)
Definition no_null_keys (cs ks : list string) (t : table) : Prop :=
  forall r, In r (rows t) -> existsb is_null (key_of cs ks r) = false.

Lemma keys_match_nm_eq ka kb : existsb is_null ka = false \/ existsb is_null kb = false ->
  keys_match true ka kb = keys_match false ka kb.
Proof.
  unfold keys_match. cbn [orb]. intros [H|H].
  - rewrite H. reflexivity.
  - destruct (keys_eqv ka kb) eqn:E; [|rewrite !andb_false_r; reflexivity].
    rewrite <- (keys_eqv_null_free ka kb E), H. reflexivity.
Qed.

Lemma pandas_join_no_null_keys on_a on_b jt a b :
  no_null_keys (cols a) on_a a \/ no_null_keys (cols b) on_b b ->
  sem_join true on_a on_b jt a b = sem_join false on_a on_b jt a b.
Proof.
  intros G. rewrite !sem_join_unfold. f_equal. apply join_rows_ext_in; [|reflexivity].
  intros ra rb Ia Ib. apply keys_match_nm_eq. destruct G as [G|G]; [left; apply G, Ia|right; apply G, Ib].
Qed.

(* what _natural_join_step does: the marker column exactly when both sides have a row with a null key *)
Lemma has_null_key_row_false cs ks t : has_null_key_row cs ks t = false -> no_null_keys cs ks t.
Proof.
  unfold has_null_key_row, no_null_keys. intros H r I.
  destruct (existsb is_null (key_of cs ks r)) eqn:E; [|reflexivity].
  assert (existsb (fun r0 => existsb is_null (key_of cs ks r0)) (rows t) = true) as X by (apply existsb_exists; exists r; split; assumption).
  congruence.
Qed.

Lemma pandas_join_is_sem_join on_a on_b jt a b : pandas_join on_a on_b jt a b = sem_join false on_a on_b jt a b.
Proof.
  unfold pandas_join. destruct (has_null_key_row (cols a) on_a a) eqn:Ha; [destruct (has_null_key_row (cols b) on_b b) eqn:Hb|]; cbn [andb].
  - reflexivity.
  - apply pandas_join_no_null_keys. right. apply has_null_key_row_false, Hb.
  - apply pandas_join_no_null_keys. left. apply has_null_key_row_false, Ha.
Qed.

Local Open Scope string_scope.
Definition null_witness_a : table := mktable ["k"; "x"] [[VNull; VNum 1]].
Definition null_witness_b : table := mktable ["k"; "y"] [[VNull; VNum 2]].
(* history: the plain merge, without the marker column, pairs the two null keys *)
Lemma markerless_merge_null_keys_refuted :
  exists on_a on_b jt a b, List.length on_a = List.length on_b /\
    ~ Permutation (rows (sem_join true on_a on_b jt a b)) (sql_join_rows (jt_of jt) (combine on_a on_b) a b).
Proof.
  exists ["k"], ["k"], JInner, null_witness_a, null_witness_b. split; [reflexivity|].
  intros P. apply Permutation_length in P. vm_compute in P. discriminate.
Qed.
