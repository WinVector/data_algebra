(* Proofs/PipePrintP1.v -- C12, character level, part 1: the value of the literal written by str.__repr__ is the
   string itself (py_unquote (py_repr np s) = Some s), for every string and every set `np` of non-printable code
   points. *)
From Coq Require Import List Bool String Ascii NArith Arith Lia ZifyBool.
Import ListNotations.
From DA Require Base.PyStr.
From DA Require Import Model.PyExpr Model.ExprPrint Model.PipePrintStr.
Local Open Scope string_scope.
Local Open Scope bool_scope.
Local Open Scope list_scope.

Lemma slen_app (a b : string) : String.length (a +++ b) = String.length a + String.length b.
Proof. induction a as [|x a IH]; [reflexivity|]. cbn [String.append String.length]. rewrite IH. reflexivity. Qed.

Lemma stake_sdrop (k : nat) (s : string) : stake k s +++ sdrop k s = s.
Proof. revert s. induction k as [|k IH]; intros s; [reflexivity|]. destruct s as [|c r]; [reflexivity|].
  cbn [stake sdrop String.append]. rewrite IH. reflexivity. Qed.

Lemma is_quote_cases (q : ascii) : is_quote q = true -> q = c_sq \/ q = c_dq.
Proof. unfold is_quote. intros H. apply orb_prop in H as [H|H]; apply Ascii.eqb_eq in H; [left|right]; exact H. Qed.

Fixpoint run (q : ascii) (st : sst) (w : string) : option (string * sst) :=
  match w with
  | EmptyString => Some (EmptyString, st)
  | String c r =>
      match step q st c with
      | Cont out st' => match run q st' r with Some (v, st'') => Some (out +++ v, st'') | None => None end
      | _ => None
      end
  end.

Lemma scan_run (q : ascii) (w : string) : forall (st : sst) (out : string) (st' : sst) (t : string),
  run q st w = Some (out, st') ->
  scan_go q st (w +++ t) = match scan_go q st' t with Some (v, rest) => Some (out +++ v, rest) | None => None end.
Proof. induction w as [|c r IH]; intros st out st' t H.
  - cbn [run] in H. injection H as <- <-. cbn [String.append]. destruct (scan_go q st t) as [[v rest]|]; reflexivity.
  - cbn [run] in H. cbn [String.append scan_go]. destruct (step q st c) as [| |o1 st1]; try discriminate H.
    destruct (run q st1 r) as [[v1 st2]|] eqn:R; [|discriminate H]. injection H as <- <-.
    rewrite (IH _ _ _ t R). destruct (scan_go q st2 t) as [[v rest]|]; [|reflexivity].
    rewrite PyStr.str_append_assoc. reflexivity. Qed.

Lemma run_app (q : ascii) (a : string) : forall (st : sst) (b o1 o2 : string) (st1 st2 : sst),
  run q st a = Some (o1, st1) -> run q st1 b = Some (o2, st2) -> run q st (a +++ b) = Some (o1 +++ o2, st2).
Proof. induction a as [|c r IH]; intros st b o1 o2 st1 st2 Ha Hb.
  - cbn [run] in Ha. injection Ha as <- <-. exact Hb.
  - cbn [run] in Ha. cbn [String.append run]. destruct (step q st c) as [| |o st']; try discriminate Ha.
    destruct (run q st' r) as [[v st'']|] eqn:R; [|discriminate Ha]. injection Ha as <- <-.
    rewrite (IH _ _ _ _ _ _ R Hb). rewrite PyStr.str_append_assoc. reflexivity. Qed.

Lemma hexval_hexdigit_nat (d : nat) : d < 16 -> hexval (hexdigit (N.of_nat d)) = Some (N.of_nat d).
Proof. intros H. do 16 (destruct d as [|d]; [vm_compute; reflexivity|]). lia. Qed.

Lemma hexval_hexdigit (d : N) : (d < 16)%N -> hexval (hexdigit d) = Some d.
Proof. intros H. rewrite <- (N2Nat.id d). apply hexval_hexdigit_nat. lia. Qed.

Lemma step_hex_last (q : ascii) (acc d : N) : (d < 16)%N -> (acc * 16 + d <= max_cp)%N ->
  step q (SHex 1 acc) (hexdigit d) = Cont (utf8_enc (acc * 16 + d)) SNorm.
Proof. intros Hd Hm. cbn [step]. rewrite (hexval_hexdigit d Hd). apply N.leb_le in Hm. rewrite Hm. reflexivity. Qed.

Lemma step_hex_more (q : ascii) (k : nat) (acc d : N) : (d < 16)%N ->
  step q (SHex (S (S k)) acc) (hexdigit d) = Cont EmptyString (SHex (S k) (acc * 16 + d)).
Proof. intros Hd. cbn [step]. rewrite (hexval_hexdigit d Hd). reflexivity. Qed.

Lemma run_hex (q : ascii) (n : N) : forall (k : nat) (acc : N),
  (acc * 16 ^ N.of_nat (S k) + n mod 16 ^ N.of_nat (S k) <= max_cp)%N ->
  run q (SHex (S k) acc) (hexN (S k) n) = Some (utf8_enc (acc * 16 ^ N.of_nat (S k) + n mod 16 ^ N.of_nat (S k)), SNorm).
Proof. induction k as [|k IH]; intros acc Hm.
  - change (N.of_nat 1) with 1%N in *. change (16 ^ 1)%N with 16%N in *.
    change (hexN 1 n) with (String (hexdigit ((n / 16 ^ N.of_nat 0) mod 16)%N) EmptyString).
    change (16 ^ N.of_nat 0)%N with 1%N. rewrite N.div_1_r. cbn [run].
    rewrite step_hex_last; [|apply N.mod_lt; discriminate|exact Hm]. rewrite PyStr.str_append_nil_r. reflexivity.
  - change (hexN (S (S k)) n) with (String (hexdigit ((n / 16 ^ N.of_nat (S k)) mod 16)%N) (hexN (S k) n)).
    remember (N.of_nat (S k)) as K eqn:EK.
    assert (EK2 : N.of_nat (S (S k)) = N.succ K) by (rewrite EK; apply Nat2N.inj_succ).
    rewrite EK2 in *. clear EK2.
    assert (Hp : (16 ^ K <> 0)%N) by (apply N.pow_nonzero; discriminate).
    assert (E : ((acc * 16 + (n / 16 ^ K) mod 16) * 16 ^ K + n mod 16 ^ K
                 = acc * 16 ^ N.succ K + n mod 16 ^ N.succ K)%N).
    { rewrite N.pow_succ_r'. rewrite (N.mul_comm 16 (16 ^ K)). rewrite (N.mod_mul_r n (16 ^ K) 16 Hp); [|discriminate]. ring. }
    cbn [run]. rewrite step_hex_more; [|apply N.mod_lt; discriminate].
    rewrite (IH (acc * 16 + (n / 16 ^ K) mod 16)%N); [|rewrite E; exact Hm]. rewrite E. reflexivity. Qed.

Lemma run_escape_start (q : ascii) : is_quote q = true ->
  run q SNorm "\x" = Some (EmptyString, SHex 2 0) /\ run q SNorm "\u" = Some (EmptyString, SHex 4 0)
  /\ run q SNorm "\U" = Some (EmptyString, SHex 8 0).
Proof. intros Hq. apply is_quote_cases in Hq as [-> | ->]; vm_compute; repeat split; reflexivity. Qed.

(* an escape introducer followed by all the digits it asks for *)
Lemma run_hex_escape (q : ascii) (pre : string) (k : nat) (cp : N) :
  run q SNorm pre = Some (EmptyString, SHex (S k) 0) -> (cp < 16 ^ N.of_nat (S k))%N -> (cp <= max_cp)%N ->
  run q SNorm (pre +++ hexN (S k) cp) = Some (utf8_enc cp, SNorm).
Proof. intros Hpre Hlt Hm. pose proof (run_hex q cp k 0%N) as R.
  rewrite N.mod_small, N.mul_0_l, N.add_0_l in R by exact Hlt.
  exact (run_app q pre SNorm (hexN (S k) cp) EmptyString (utf8_enc cp) (SHex (S k) 0) SNorm Hpre (R Hm)). Qed.

Lemma esc_cp_run (q : ascii) (cp : N) : is_quote q = true -> (cp <= max_cp)%N ->
  run q SNorm (esc_cp cp) = Some (utf8_enc cp, SNorm).
Proof. intros Hq Hm. destruct (run_escape_start q Hq) as [Hx [Hu HU]]. unfold esc_cp.
  destruct (cp <? 256)%N eqn:C1; [|destruct (cp <? 65536)%N eqn:C2].
  - apply (run_hex_escape q "\x" 1 cp Hx); [|exact Hm]. change (16 ^ N.of_nat 2)%N with 256%N. lia.
  - apply (run_hex_escape q "\u" 3 cp Hu); [|exact Hm]. change (16 ^ N.of_nat 4)%N with 65536%N. lia.
  - apply (run_hex_escape q "\U" 7 cp HU); [|exact Hm]. change (16 ^ N.of_nat 8)%N with 4294967296%N. unfold max_cp in Hm. lia. Qed.

Lemma eqb_code (c x : ascii) : Ascii.eqb c x = (code c =? code x)%N.
Proof. destruct (Ascii.eqb_spec c x) as [->|Ne]; [symmetry; apply N.eqb_refl|]. symmetry. apply N.eqb_neq. intros E. apply Ne.
  rewrite <- (ascii_N_embedding c), <- (ascii_N_embedding x). unfold code in E. rewrite E. reflexivity. Qed.

Lemma step_quote (q : ascii) : step q SNorm q = Done.
Proof. cbn [step]. unfold step_norm. rewrite Ascii.eqb_refl. reflexivity. Qed.

(* a byte above 127 is none of the characters the scanner reacts to *)
Lemma step_high (q c : ascii) : is_quote q = true -> (code c <? 128)%N = false -> step q SNorm c = Cont (s1 c) SNorm.
Proof. intros Hq Hc. assert (Hne : forall x, (code x <? 128)%N = true -> Ascii.eqb c x = false) by (intros x Hx; rewrite eqb_code; lia).
  cbn [step]. unfold step_norm. rewrite (Hne q), (Hne c_nl), (Hne c_bs); [reflexivity|reflexivity|reflexivity|].
  apply is_quote_cases in Hq as [-> | ->]; reflexivity. Qed.

(* branch by branch of esc_ascii: the scanner undoes what was written *)
Lemma esc_ascii_run (q c : ascii) : is_quote q = true -> (code c <? 128)%N = true ->
  run q SNorm (esc_ascii q c) = Some (s1 c, SNorm).
Proof. intros Hq Hc. unfold esc_ascii. pose proof (is_quote_cases q Hq) as Q.
  destruct (Ascii.eqb c q || Ascii.eqb c c_bs) eqn:E1.
  { apply orb_prop in E1 as [E|E]; apply Ascii.eqb_eq in E; subst c; destruct Q as [-> | ->]; reflexivity. }
  apply orb_false_elim in E1 as [Eq Eb].
  destruct (Ascii.eqb c c_tab) eqn:E2; [apply Ascii.eqb_eq in E2; subst c; destruct Q as [-> | ->]; reflexivity|].
  destruct (Ascii.eqb c c_nl) eqn:E3; [apply Ascii.eqb_eq in E3; subst c; destruct Q as [-> | ->]; reflexivity|].
  destruct (Ascii.eqb c c_cr) eqn:E4; [apply Ascii.eqb_eq in E4; subst c; destruct Q as [-> | ->]; reflexivity|].
  destruct ((code c <? 32)%N || (code c =? 127)%N) eqn:E5.
  - destruct (run_escape_start q Hq) as [Hx _]. rewrite (run_hex_escape q "\x" 1 (code c) Hx).
    + unfold utf8_enc. rewrite Hc. unfold chr, code. rewrite ascii_N_embedding. reflexivity.
    + change (16 ^ N.of_nat 2)%N with 256%N. clear - Hc. lia.
    + unfold max_cp. clear - Hc. lia.
  - unfold s1. cbn [run step]. unfold step_norm. rewrite Eq, E3, Eb. reflexivity. Qed.

Lemma try_spec (e t : string) (cp0 : N) (k0 : nat) (cp : N) (k : nat) :
  (if String.eqb e t && (cp0 <=? 1114111)%N then Some (cp0, k0) else None) = Some (cp, k) ->
  e = t /\ (cp0 <= max_cp)%N /\ cp0 = cp /\ k0 = k.
Proof. destruct (String.eqb e t) eqn:E1; [|discriminate]. destruct (cp0 <=? 1114111)%N eqn:E2; [|discriminate].
  cbn [andb]. intros H. injection H as <- <-. apply String.eqb_eq in E1. apply N.leb_le in E2. unfold max_cp. tauto. Qed.

Lemma utf8_dec_spec (s : string) (cp : N) (k : nat) : utf8_dec s = Some (cp, k) ->
  utf8_enc cp = stake (S k) s /\ (cp <= max_cp)%N /\ S k <= String.length s.
Proof. destruct s as [|c0 r]; [discriminate|]. unfold utf8_dec. cbv beta zeta.
  destruct (code c0 <? 192)%N; [discriminate|].
  destruct (code c0 <? 224)%N; [|destruct (code c0 <? 240)%N].
  - destruct r as [|c1 r1]; [discriminate|]. intros H. apply try_spec in H as [H1 [H2 [<- <-]]].
    split; [exact H1|]. split; [exact H2|]. cbn [String.length]. lia.
  - destruct r as [|c1 [|c2 r2]]; try discriminate. intros H. apply try_spec in H as [H1 [H2 [<- <-]]].
    split; [exact H1|]. split; [exact H2|]. cbn [String.length]. lia.
  - destruct r as [|c1 [|c2 [|c3 r3]]]; try discriminate. intros H. apply try_spec in H as [H1 [H2 [<- <-]]].
    split; [exact H1|]. split; [exact H2|]. cbn [String.length]. lia. Qed.

Lemma scan_go_esc_gen (np : N -> bool) (q : ascii) (rest : string) : is_quote q = true ->
  forall (s : string) (k : nat), k <= String.length s ->
  scan_go q SNorm (esc_go np q k s +++ String q rest) = Some (sdrop k s, rest).
Proof. intros Hq. induction s as [|c r IH]; intros k Hk.
  - cbn [String.length] in Hk. assert (k = 0) as -> by lia. cbn [esc_go String.append scan_go sdrop].
    rewrite step_quote. reflexivity.
  - destruct k as [|k].
    + cbn [esc_go sdrop]. destruct (code c <? 128)%N eqn:Hc.
      * rewrite PyStr.str_append_assoc. rewrite (scan_run q _ SNorm (s1 c) SNorm _ (esc_ascii_run q c Hq Hc)).
        rewrite (IH 0); [|lia]. reflexivity.
      * assert (Plain : scan_go q SNorm (String c (esc_go np q 0 r) +++ String q rest) = Some (String c r, rest)).
        { cbn [String.append scan_go]. rewrite (step_high q c Hq Hc). rewrite (IH 0); [|lia]. reflexivity. }
        destruct (utf8_dec (String c r)) as [[cp k]|] eqn:D; [|exact Plain].
        destruct (np cp) eqn:P; [|exact Plain].
        apply utf8_dec_spec in D as [D1 [D2 D3]]. cbn [String.length] in D3.
        rewrite PyStr.str_append_assoc. rewrite (scan_run q _ SNorm (utf8_enc cp) SNorm _ (esc_cp_run q cp Hq D2)).
        rewrite (IH k); [|lia]. rewrite D1. cbn [stake String.append]. rewrite stake_sdrop. reflexivity.
    + cbn [esc_go sdrop]. apply IH. cbn [String.length] in Hk. lia. Qed.

Lemma scan_go_esc : forall (np : N -> bool) (q : ascii) (s rest : string), is_quote q = true ->
  scan_go q SNorm (esc_go np q 0 s +++ String q rest) = Some (s, rest).
Proof. intros np q s rest Hq. exact (scan_go_esc_gen np q rest Hq s 0 (Nat.le_0_l _)). Qed.

Lemma pick_quote_is_quote (s : string) : is_quote (pick_quote s) = true.
Proof. unfold pick_quote. destruct (has_char c_sq s && negb (has_char c_dq s)); reflexivity. Qed.

Theorem py_unquote_repr : forall (np : N -> bool) (s : string), py_unquote (py_repr np s) = Some s.
Proof. intros np s. unfold py_repr, py_unquote. cbv zeta. rewrite (pick_quote_is_quote s).
  unfold s1. rewrite (scan_go_esc np (pick_quote s) s EmptyString (pick_quote_is_quote s)). reflexivity. Qed.

Print Assumptions scan_go_esc.
Print Assumptions py_unquote_repr.
