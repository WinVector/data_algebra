(* C07 -- proofs about Model/Compose.v, part 2: substitutions compose (associativity), the leaves and the declared columns of
   a composed pipeline, sorting of column names. *)
From Coq Require Import List Bool String Ascii NArith Lia Permutation.
Import ListNotations.
From DA Require Import Base.PyRT Base.Val Model.Sem Proofs.SemBasicP Proofs.SemOrderP Model.Compose Proofs.ComposeP Proofs.ListP.
Local Open Scope list_scope.

(* ------------------------------------------------------------------ substitutions compose *)
Definition rmap_compose (m2 m1 : rmap) : rmap := map (fun kr => (fst kr, subst m2 (snd kr))) m1 ++ m2.

Lemma dict_get_rmap_compose m2 m1 n :
  dict_get (rmap_compose m2 m1) n = match dict_get m1 n with Some r => Some (subst m2 r) | None => dict_get m2 n end.
Proof.
  unfold rmap_compose. rewrite dict_get_app, (dict_get_map_val (subst m2)). destruct (dict_get m1 n); reflexivity.
Qed.

Lemma subst_subst m2 m1 p : subst m2 (subst m1 p) = subst (rmap_compose m2 m1) p.
Proof.
  induction p; cbn [subst]; try (rewrite IHp; reflexivity); try (rewrite IHp1, IHp2; reflexivity).
  rewrite dict_get_rmap_compose. destruct (dict_get m1 name) as [r|]; reflexivity.
Qed.

Lemma subst_ext m m' p : (forall n, In n (table_names p) -> dict_get m n = dict_get m' n) -> subst m p = subst m' p.
Proof.
  induction p; intros H; cbn [subst table_names] in *; try (rewrite (IHp H); reflexivity).
  1: { rewrite (H name); [reflexivity|left; reflexivity]. }
  all: rewrite IHp1, IHp2; [reflexivity| |]; intros n I; apply H; apply in_app_iff; [right|left]; exact I.
Qed.

(* (a >> b) >> c and a >> (b >> c) are THE SAME TREE, provided b's leaf name kb is not also the name of another table of c *)
Theorem compose_assoc_tree ka kb a b c :
  built_ok b = true -> built_ok c = true -> (ka = kb \/ ~ In ka (table_names c)) ->
  compose_at kb (compose_at ka a b) c = compose_at ka a (compose_at kb b c).
Proof.
  intros Bb Bc H. unfold compose_at.
  rewrite (replace_leaves_subst _ b Bb), (replace_leaves_subst _ c Bc), (replace_leaves_subst _ c Bc).
  rewrite replace_leaves_subst.
  2:{ apply built_ok_subst; [exact Bc|]. intros k r E. rewrite dict_get_single in E. destruct (eq_dec k kb); inversion E; subst. exact Bb. }
  rewrite subst_subst. apply subst_ext. intros n I. rewrite dict_get_rmap_compose, !dict_get_single.
  destruct (eq_dec n kb) as [->|Nb]; [reflexivity|].
  destruct (eq_dec n ka) as [->|Na]; [|reflexivity].
  exfalso. destruct H as [E|H]; [congruence|exact (H I)].
Qed.

(* ------------------------------------------------------------------ leaves of a substituted pipeline *)
Lemma map_fst_leaves p : map fst (leaves p) = table_names p.
Proof.
  induction p; cbn [leaves table_names]; try exact IHp; try reflexivity; rewrite map_app, IHp1, IHp2; reflexivity.
Qed.

Lemma leaves_subst m p :
  leaves (subst m p) = flat_map (fun t => match dict_get m (fst t) with Some r => leaves r | None => [t] end) (leaves p).
Proof.
  induction p; cbn [leaves subst]; try exact IHp.
  1: { cbn [flat_map fst]. destruct (dict_get m name) as [r|]; cbn [leaves]; rewrite app_nil_r; reflexivity. }
  all: rewrite flat_map_app, IHp1, IHp2; reflexivity.
Qed.

Lemma leaves_nonempty p : leaves p <> [].
Proof.
  induction p; cbn [leaves]; try exact IHp; try discriminate; intros E; apply app_eq_nil in E; destruct E as [E _]; exact (IHp1 E).
Qed.

Lemma leaf_declares_spec k cs p : leaf_declares k cs p = true <-> (forall c, In (k, c) (leaves p) -> c = cs).
Proof.
  induction p; cbn [leaf_declares leaves]; try exact IHp.
  1: { destruct (eq_dec name k) as [->|N].
       - rewrite eqb_true. split; [intros -> c [E|[]]; inversion E; reflexivity|intros H; apply H; left; reflexivity].
       - split; [intros _ c [E|[]]; exfalso; apply N; congruence|reflexivity]. }
  all: rewrite andb_true_iff, IHp1, IHp2; split.
  1,3: intros [Ha Hb] c I; apply in_app_iff in I; destruct I; [apply Ha|apply Hb]; assumption.
  all: intros H; split; intros c I; apply H; apply in_app_iff; [left|right]; exact I.
Qed.

Lemma tables_consistent_spec ts : tables_consistent ts = true <-> (forall n c c', In (n, c) ts -> In (n, c') ts -> c = c').
Proof.
  unfold tables_consistent. rewrite forallb_forall. split.
  - intros H n c c' I I'. specialize (H _ I). rewrite forallb_forall in H. specialize (H _ I'). cbn [fst snd] in H.
    rewrite eqb_refl in H. cbn in H. apply (proj1 (eqb_true _ _)) in H. exact H.
  - intros H [n c] I. apply forallb_forall. intros [n' c'] I'. cbn [fst snd]. destruct (eqb n n') eqn:E; [|reflexivity].
    apply (proj1 (eqb_true _ _)) in E. subst n'. cbn. apply eqb_true. eapply H; eassumption.
Qed.

(* in a consistent pipeline the dictionary lookup of a key gives the columns of every leaf with that key *)
Lemma consistent_declares p k cs : tables_consistent (leaves p) = true -> dict_get (leaves p) k = Some cs -> leaf_declares k cs p = true.
Proof.
  intros C E. apply leaf_declares_spec. intros c I. apply dict_get_In in E. rewrite tables_consistent_spec in C. eapply C; eassumption.
Qed.

Lemma mem_py_set (l : list string) x : mem x (py_set l) = mem x l.
Proof.
  destruct (mem x l) eqn:E.
  - apply mem_In. apply In_py_set. apply (proj1 (mem_In _ _)). exact E.
  - apply mem_false. intros I. apply (proj1 (In_py_set _ _)) in I. apply (proj2 (mem_In _ _)) in I. congruence.
Qed.

(* ------------------------------------------------------------------ declared columns of a composed pipeline, up to order *)

Lemma mem_Permutation (l l' : list string) x : Permutation l l' -> mem x l = mem x l'.
Proof.
  intros P. destruct (mem x l) eqn:E.
  - symmetry. apply mem_In. eapply Permutation_in; [exact P|]. apply mem_In. exact E.
  - symmetry. apply mem_false. intros I. apply Permutation_sym in P. pose proof (Permutation_in _ P I) as I2. apply (proj2 (mem_In _ _)) in I2. congruence.
Qed.

Lemma ext_cols_Permutation cs cs' ks : Permutation cs cs' -> Permutation (ext_cols cs ks) (ext_cols cs' ks).
Proof.
  unfold ext_cols. revert cs cs'. induction ks as [|k t IH]; intros cs cs' P; simpl; [exact P|].
  apply IH. unfold add_end. rewrite (mem_Permutation _ _ k P). destruct (mem k cs'); [exact P|]. apply Permutation_app_tail. exact P.
Qed.

Lemma filter_ext_mem (a a' l : list string) : Permutation a a' ->
  filter (fun c => negb (mem c a)) l = filter (fun c => negb (mem c a')) l.
Proof. intros P. apply filter_ext. intros c. rewrite (mem_Permutation _ _ c P). reflexivity. Qed.

Lemma subst_column_names_perm m p :
  (forall n cs r, In (n, cs) (leaves p) -> dict_get m n = Some r -> Permutation (column_names r) cs) ->
  Permutation (column_names (subst m p)) (column_names p).
Proof.
  induction p; intros H; cbn [leaves subst column_names] in *; try (apply IHp; exact H); try apply Permutation_refl.
  - destruct (dict_get m name) as [r|] eqn:E; [|apply Permutation_refl]. eapply H; [left; reflexivity|exact E].
  - apply ext_cols_Permutation. apply IHp. exact H.
  - apply perm_filter. apply IHp. exact H.
  - apply Permutation_map. apply IHp. exact H.
  - apply perm_filter. apply Permutation_map. apply IHp. exact H.
  - assert (Permutation (column_names (subst m p1)) (column_names p1)) as Pa.
    { apply IHp1. intros n cs r I. apply H. apply in_app_iff. left. exact I. }
    assert (Permutation (column_names (subst m p2)) (column_names p2)) as Pb.
    { apply IHp2. intros n cs r I. apply H. apply in_app_iff. right. exact I. }
    apply Permutation_app; [exact Pa|]. rewrite (filter_ext_mem _ _ _ Pa). apply perm_filter. exact Pb.
  - apply Permutation_app_tail. apply IHp1. intros n cs r I. apply H. apply in_app_iff. left. exact I.
Qed.

(* ------------------------------------------------------------------ sorting column names *)
Lemma ascii_compare_trans_le a b c : Ascii.compare a b <> Gt -> Ascii.compare b c <> Gt -> Ascii.compare a c <> Gt.
Proof.
  unfold Ascii.compare. intros H1 H2 H3. apply N.compare_gt_iff in H3.
  assert (N_of_ascii a <= N_of_ascii b)%N as L1 by (intros G; exact (H1 G)).
  assert (N_of_ascii b <= N_of_ascii c)%N as L2 by (intros G; exact (H2 G)).
  lia.
Qed.

Lemma ascii_compare_eq a b : Ascii.compare a b = Eq -> a = b.
Proof.
  unfold Ascii.compare. intros H. apply N.compare_eq in H.
  rewrite <- (ascii_N_embedding a), <- (ascii_N_embedding b), H. reflexivity.
Qed.

Lemma ascii_compare_lt_trans a b c : Ascii.compare a b = Lt -> Ascii.compare b c = Lt -> Ascii.compare a c = Lt.
Proof. unfold Ascii.compare. rewrite !N.compare_lt_iff. lia. Qed.

Section SortPerm.
  Context {A : Type} (le : A -> A -> bool).
  Hypothesis le_total : forall x y, le x y = true \/ le y x = true.
  Hypothesis le_antisym : forall x y, le x y = true -> le y x = true -> x = y.
  Hypothesis le_trans : forall x y z, le x y = true -> le y z = true -> le x z = true.

  Lemma insert_sorted_comm x y l : insert_sorted le x (insert_sorted le y l) = insert_sorted le y (insert_sorted le x l).
  Proof.
    induction l as [|a t IH]; cbn [insert_sorted].
    - destruct (le x y) eqn:Exy, (le y x) eqn:Eyx; cbn [insert_sorted]; rewrite ?Exy, ?Eyx; try reflexivity.
      + rewrite (le_antisym _ _ Exy Eyx). reflexivity.
      + destruct (le_total x y); congruence.
    - destruct (le y a) eqn:Eya, (le x a) eqn:Exa; cbn [insert_sorted].
      + destruct (le x y) eqn:Exy, (le y x) eqn:Eyx; rewrite ?Exa, ?Eya; try reflexivity.
        * rewrite (le_antisym _ _ Exy Eyx). reflexivity.
        * destruct (le_total x y); congruence.
      + rewrite Eya. destruct (le x y) eqn:Exy; [|rewrite Exa; reflexivity].
        rewrite (le_trans _ _ _ Exy Eya) in Exa. discriminate.
      + rewrite Exa. destruct (le y x) eqn:Eyx; [|rewrite Eya; reflexivity].
        rewrite (le_trans _ _ _ Eyx Exa) in Eya. discriminate.
      + rewrite Exa, Eya. rewrite IH. reflexivity.
  Qed.

  Lemma stable_sort_Permutation l l' : Permutation l l' -> stable_sort le l = stable_sort le l'.
  Proof.
    unfold stable_sort. induction 1 as [|x l l' P IH|x y l|l l' l'' P1 IH1 P2 IH2]; simpl.
    - reflexivity.
    - rewrite IH. reflexivity.
    - apply insert_sorted_comm.
    - congruence.
  Qed.

End SortPerm.

Lemma string_leb_antisym' x y : String.leb x y = true -> String.leb y x = true -> x = y.
Proof. intros H1 H2. apply String.leb_antisym; assumption. Qed.

Lemma sort_strings_Permutation l l' : Permutation l l' -> sort_strings l = sort_strings l'.
Proof. apply stable_sort_Permutation; [exact String.leb_total|exact string_leb_antisym'|exact sleb_trans]. Qed.
Lemma sort_strings_is_Permutation l : Permutation (sort_strings l) l.
Proof. apply stable_sort_perm. Qed.

(* two duplicate-free lists with the same members are permutations of each other *)
Lemma set_eqb_Permutation (l l' : list string) : set_eqb l l' = true -> NoDup l -> NoDup l' -> Permutation l l'.
Proof.
  unfold set_eqb. rewrite andb_true_iff, !subset_spec. intros [S1 S2] N1 N2.
  apply NoDup_Permutation; [exact N1|exact N2|]. intros x. split; [apply S1|apply S2].
Qed.

Lemma set_diff_empty_subset (a b : list string) : nonempty (set_diff a b) = false -> forall x, In x a -> In x b.
Proof.
  intros E x I. apply nonempty_false in E. destruct (in_dec eq_dec x b) as [Ib|Nb]; [exact Ib|].
  assert (In x (set_diff a b)) as C by (apply In_set_diff; split; assumption). rewrite E in C. destruct C.
Qed.
