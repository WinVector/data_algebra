(* C06, part 6: dropping ONE order_rows without limit from under a step (exact statements: equal column lists, rows a
   permutation; identical tables when the step is a total order_rows or a total order_rows follows), witnesses that the premise is
   needed, the real builder's forwarding as equations of the model, and a concrete chain on which every hypothesis holds. *)
From Coq Require Import List Bool QArith String Permutation.
Import ListNotations.
From DA Require Import Base.PyRT Base.Val Model.Sem Model.PermGuard Model.Extend Model.MergeGuard Model.Simplify Gen.G_MergeOps
  Proofs.SemBasicP Proofs.SemOrderP Proofs.PermP2 Proofs.PermP3 Proofs.PermP4 Proofs.ComposeP5
  Proofs.SimplifyP1 Proofs.SimplifyP2 Proofs.SimplifyP3 Proofs.SimplifyP4 Proofs.SimplifyP5.
Local Open Scope list_scope.

(* same columns, in the same order, and the same rows as a multiset *)
Definition same_bag (o1 o2 : option table) : Prop :=
  match o1, o2 with
  | Some a, Some b => cols a = cols b /\ Permutation (rows a) (rows b)
  | None, None => True
  | _, _ => False
  end.

(* ------------------------------------------------------------------ one step on two row orders of the same table *)
Lemma perm_apply iw fl e x t t' : cols t = cols t' -> Permutation (rows t) (rows t') -> step_insensitive iw fl x t ->
  same_bag (apply_sem iw fl e x t) (apply_sem iw fl e x t').
Proof.
  intros C P I. destruct x; cbn [apply_sem same_bag step_insensitive] in *.
  - destruct (n_windowed _) eqn:Wd.
    + apply wextend_perm; [exact C|exact P|]. intros S. apply I; [reflexivity|exact S].
    + apply extend_perm; assumption.
  - apply project_perm; assumption.
  - split; [exact C|apply select_rows_perm; assumption].
  - split; [reflexivity|apply select_cols_perm; assumption].
  - unfold sem_drop_cols. rewrite <- C. split; [reflexivity|apply select_cols_perm; assumption].
  - split; [cbn [cols sem_rename]; rewrite C; reflexivity|exact P].
  - unfold sem_drop_cols. cbn [cols sem_rename]. rewrite <- C. split; [reflexivity|].
    apply (select_cols_perm _ (sem_rename (map_remap m) t) (sem_rename (map_remap m) t')); [cbn [cols sem_rename]; rewrite C; reflexivity|exact P].
  - split; [exact C|]. apply order_perm; assumption.
  - destruct (sem_gen fl b e) as [tb|]; [|exact Logic.I]. split.
    + unfold sem_join. cbn [cols]. rewrite C. reflexivity.
    + apply join_perm; [exact C|reflexivity|exact P|apply Permutation_refl].
  - destruct (sem_gen fl b e) as [tb|]; [|exact Logic.I]. split.
    + unfold sem_concat. rewrite C. destruct idc; reflexivity.
    + apply concat_perm; [exact C|reflexivity|exact P|apply Permutation_refl].
Qed.

(* the step applied to s, and to s ordered: same columns, same rows as a multiset *)
Theorem order_elim_sound iw fl e x s cs rev :
  (forall u, sem_gen fl s e = Some u -> step_insensitive iw fl x u) ->
  same_bag (sem_gen fl (build_unsimplified iw s x) e) (sem_gen fl (build_unsimplified iw (OOrder s cs rev None) x) e).
Proof.
  intros I. rewrite !sem_unsimplified. cbn [sem_gen]. destruct (sem_gen fl s e) as [u|]; cbn [option_map obind same_bag]; [|exact Logic.I].
  apply perm_apply; [reflexivity|apply Permutation_sym, order_rows_is_permutation|apply I; reflexivity].
Qed.

(* ... and the builders do apply the step to s: every builder forwards to the source of a limit-less order_rows, unless it
   returns the pipeline it was called on unchanged *)
Definition returns_self (p : op) (x : step) : bool :=
  match x with
  | SExtend ops _ _ _ _ => is_nil ops
  | SSelectCols cs tup => tup && eqb cs (declared_names p)
  | SDropCols cs => is_nil cs
  | SRename m => is_nil m
  | SMapCols m => is_nil m
  | SOrder cs _ lim => is_nil cs && (match lim with None => true | Some _ => false end)
  | _ => false
  end.

Lemma build_step_skips_order iw s cs rev x :
  returns_self (OOrder s cs rev None) x = false -> build_step iw (OOrder s cs rev None) x = build_step iw s x.
Proof.
  destruct x; cbn [returns_self build_step]; intros R; try rewrite R; try reflexivity.
  cbn [build_select_cols declared_names] in *. rewrite R. destruct s; cbn [build_select_cols declared_names]; try rewrite R; try reflexivity.
Qed.

Lemma build_step_self iw p x : returns_self p x = true -> build_step iw p x = p.
Proof.
  destruct x; cbn [returns_self build_step]; intros R; try discriminate R; try rewrite R; try reflexivity.
  destruct p; cbn [build_select_cols]; rewrite R; reflexivity.
Qed.

(* an order_rows that is total on the data: the same table, row for row *)
Theorem order_elim_order_total fl e s cs rev cs2 rev2 lim :
  (forall u, sem_gen fl s e = Some u -> total_on fl (cols u) (map (fun c => (c, mem c rev2)) cs2) (rows u)) ->
  sem_gen fl (OOrder (OOrder s cs rev None) cs2 rev2 lim) e = sem_gen fl (OOrder s cs2 rev2 lim) e.
Proof.
  intros T. cbn [sem_gen]. destruct (sem_gen fl s e) as [u|]; [|reflexivity]. cbn [option_map]. f_equal. symmetry.
  apply order_rows_input_order_irrelevant; [reflexivity|apply Permutation_sym, order_rows_is_permutation|apply T; reflexivity].
Qed.

(* any step, compared after a total final order_rows: the same table, row for row *)
Theorem order_elim_then_total_order iw fl e x s cs rev cs2 rev2 lim :
  (forall u, sem_gen fl s e = Some u -> step_insensitive iw fl x u) ->
  (forall v, sem_gen fl (build_unsimplified iw s x) e = Some v -> total_on fl (cols v) (map (fun c => (c, mem c rev2)) cs2) (rows v)) ->
  sem_gen fl (OOrder (build_unsimplified iw (OOrder s cs rev None) x) cs2 rev2 lim) e
  = sem_gen fl (OOrder (build_unsimplified iw s x) cs2 rev2 lim) e.
Proof.
  intros I T. pose proof (order_elim_sound iw fl e x s cs rev I) as B. cbn [sem_gen].
  destruct (sem_gen fl (build_unsimplified iw s x) e) as [a|], (sem_gen fl (build_unsimplified iw (OOrder s cs rev None) x) e) as [b|];
    cbn [same_bag option_map] in *; try tauto. destruct B as [C P]. f_equal. symmetry.
  apply order_rows_input_order_irrelevant; [exact C|exact P|apply T; reflexivity].
Qed.

(* ------------------------------------------------------------------ the premise is needed *)
Definition q (z : Z) : val := VNum (Qred (z # 1)).
Definition w_tab : op := OTable "d" ["a"; "x"]%string.
Definition w_env : env := [("d"%string, mktable ["a"; "x"]%string [[q 3; q 10]; [q 1; q 20]])].

(* as a LIST the result of course depends on the dropped order_rows when no order follows (a row-wise step keeps the row order) *)
Lemma order_elim_list_needs_final_order :
  exists iw fl e x s cs rev,
    (forall u, sem_gen fl s e = Some u -> step_insensitive iw fl x u) /\
    sem_gen fl (build_unsimplified iw s x) e <> sem_gen fl (build_unsimplified iw (OOrder s cs rev None) x) e.
Proof.
  exists [], fl_pandas, w_env, (SSelectRows (EConst (VBool true))), w_tab, ["a"%string], [].
  split; [intros u _; exact Logic.I|]. vm_compute. intros H. discriminate H.
Qed.

(* a window function that reads the order of its partition (first) WITHOUT an order_by: the builder accepts it (`first` is not among
   fn_names_that_imply_ordered_windowed_situation), skips the order_rows, and the result differs from the step-by-step one even as a
   multiset: the value of the new column comes from the first row in PHYSICAL order *)
Definition w_first : step := SExtend [("c"%string, EOp "first" [ECol "x"%string])] false [] [] [].
Lemma order_elim_unordered_window_refuted :
  exists iw fl e x s cs rev a b,
    build_step iw (OOrder s cs rev None) x = build_unsimplified iw s x /\
    sem_gen fl (build_unsimplified iw s x) e = Some a /\ sem_gen fl (build_unsimplified iw (OOrder s cs rev None) x) e = Some b /\
    ~ Permutation (rows a) (rows b).
Proof.
  exists ["first"%string], fl_pandas, w_env, w_first, w_tab, ["a"%string], [].
  eexists. eexists. split; [reflexivity|]. split; [vm_compute; reflexivity|]. split; [vm_compute; reflexivity|].
  intros P. apply (Permutation_in [q 3; q 10; q 10]) in P; [|vm_compute; left; reflexivity].
  vm_compute in P. destruct P as [P|[P|[]]]; discriminate P.
Qed.

(* ------------------------------------------------------------------ a concrete chain on which every hypothesis holds *)
Local Open Scope string_scope.
Definition ex_iw : list string := ["cumsum"; "_row_number"; "sum"; "count"; "shift"].
Definition ex_tab : op := OTable "d" ["k"; "a"; "u"].
Definition ex_env : env := [("d", mktable ["k"; "a"; "u"] [[q 1; q 5; q 0]; [q 1; q 2; q 1]; [q 2; VNull; q 2]; [q 1; q 2; q 3]])].
(* order_rows(a) . extend(c = a.cumsum(), partition k, order u) . extend(r = _row_number(), same window) . select [k,u,c,r]
   . order_rows(c) . select [c,k,u] . extend(z = c + 1, y = k) . extend(z = 7) *)
Definition ex_steps : list step :=
  [ SOrder ["a"] [] None;
    SExtend [("c", EOp "cumsum" [ECol "a"])] false ["k"] ["u"] [];
    SExtend [("r", EOp "_row_number" [])] false ["k"] ["u"] [];
    SSelectCols ["k"; "u"; "c"; "r"] false;
    SOrder ["c"] [] None;
    SSelectCols ["c"; "k"; "u"] false;
    SExtend [("z", EOp "+" [ECol "c"; EConst (q 1)]); ("y", ECol "k")] false [] [] [];
    SExtend [("z", EConst (q 7))] false [] [] [] ].

(* what the builder returns: ONE windowed extend, ONE select_columns, ONE row-wise extend (z overwritten) on the table; no order_rows is left *)
Lemma ex_built :
  build ex_iw ex_tab ex_steps
  = OExtend (OSelectCols (OExtend ex_tab [("c", EOp "cumsum" [ECol "a"]); ("r", EOp "_row_number" [])] true (mkwin ["k"] ["u"] []))
                         ["c"; "k"; "u"])
            [("y", ECol "k"); ("z", EConst (q 7))] false (mkwin [] [] []).
Proof. vm_compute. reflexivity. Qed.

Lemma nodup_strings (l : list string) : (fix nd (l : list string) : bool := match l with [] => true | x :: t => negb (mem x t) && nd t end) l = true -> NoDup l.
Proof.
  induction l as [|x t IH]; intros H; [constructor|]. apply andb_true_iff in H. destruct H as [H1 H2].
  constructor; [apply negb_true_iff, mem_false in H1; exact H1|apply IH, H2].
Qed.

Lemma ex_steps_ok : prefix_ok ex_iw ex_tab /\ steps_ok ex_iw fl_sqlite ex_env (sem_gen fl_sqlite ex_tab ex_env) ex_steps.
Proof.
  split; [exact Logic.I|].
  repeat (split; [intros r Er; vm_compute in Er; injection Er as <-|]); try exact Logic.I.
  - split; [exact Logic.I|]. intros N. exfalso. apply N. reflexivity.
  - split.
    + split; [apply nodup_strings; reflexivity|]. intros k [<-|[]]. vm_compute. intuition discriminate.
    + cbn [step_insensitive]. intros _ _. apply window_total_b_sound. vm_compute. reflexivity.
  - split.
    + split; [apply nodup_strings; reflexivity|]. intros k [<-|[]]. vm_compute. intuition discriminate.
    + cbn [step_insensitive]. intros _ _. apply window_total_b_sound. vm_compute. reflexivity.
  - split; [|exact Logic.I]. cbn [step_valid cols]. intros c I. vm_compute in I. vm_compute. tauto.
  - split; [exact Logic.I|]. intros N. exfalso. apply N. reflexivity.
  - split; [|exact Logic.I]. cbn [step_valid cols]. intros c I. vm_compute in I. vm_compute. tauto.
  - split.
    + split; [apply nodup_strings; reflexivity|]. intros k [<-|[<-|[]]]; vm_compute; tauto.
    + cbn [step_insensitive]. intros W. vm_compute in W. discriminate W.
  - split.
    + split; [apply nodup_strings; reflexivity|]. intros k [<-|[]]. vm_compute. tauto.
    + cbn [step_insensitive]. intros W. vm_compute in W. discriminate W.
Qed.

Lemma ex_result : option_map (fun t => (cols t, List.length (rows t))) (sem_gen fl_sqlite (build ex_iw ex_tab ex_steps) ex_env)
                  = Some (["c"; "k"; "u"; "y"; "z"], 4%nat).
Proof. vm_compute. reflexivity. Qed.
