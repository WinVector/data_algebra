(* Proofs about the REGENERATED value_to_sql (Gen/G_ValueToSql.v) over the Python value model of Model/PyVal.v, against the
   literal-token lexing rules of Model/Lex.v. *)
From Coq Require Import List Bool ZArith Ascii String Lia ZifyBool.
From Coq Require Import DecimalN.
Import ListNotations.
From DA Require Import Base.PyRT Base.PyStr Model.Lex Model.PyVal Gen.G_Quote Gen.G_ValueToSql Proofs.QuoteP.
Local Open Scope string_scope.

(* ---------------------------------------------------------------- digit sequences *)

Lemma char_digit_char (d : digit) : char_digit (digit_char d) = Some d.
Proof. destruct d; reflexivity. Qed.

Definition starts_with_digit (s : string) : bool :=
  match s with String c _ => match char_digit c with Some _ => true | None => false end | EmptyString => false end.

Lemma read_digits_nodigit (rest : string) : starts_with_digit rest = false -> read_digits rest = ([], rest).
Proof.
  destruct rest as [|c r]; [reflexivity|]. cbn [starts_with_digit read_digits].
  destruct (char_digit c); [discriminate | reflexivity].
Qed.

Lemma read_digits_dstr (ds : list digit) (rest : string) :
  starts_with_digit rest = false -> read_digits (dstr ds ++ rest) = (ds, rest).
Proof.
  intros H. induction ds as [|d ds IH].
  - cbn [dstr append]. apply read_digits_nodigit, H.
  - cbn [dstr append read_digits]. rewrite char_digit_char, IH. reflexivity.
Qed.

Lemma dval_acc_lin (ds : list digit) : forall acc, dval_acc ds acc = (acc * 10 ^ Z.of_nat (List.length ds) + dval ds)%Z.
Proof.
  induction ds as [|d ds IH]; intros acc.
  - unfold dval. cbn. lia.
  - unfold dval. cbn [dval_acc List.length].
    rewrite (IH (10 * acc + digit_val d)%Z), (IH (10 * 0 + digit_val d)%Z).
    rewrite Nat2Z.inj_succ, Z.pow_succ_r by lia. ring.
Qed.

Lemma dval_acc_app (a b : list digit) : forall acc, dval_acc (a ++ b)%list acc = dval_acc b (dval_acc a acc).
Proof. induction a as [|x a IH]; intros acc; cbn [List.app dval_acc]; [reflexivity | apply IH]. Qed.

Lemma dval_app (a b : list digit) : dval (a ++ b)%list = (dval a * 10 ^ Z.of_nat (List.length b) + dval b)%Z.
Proof. unfold dval at 1. rewrite dval_acc_app, dval_acc_lin. reflexivity. Qed.

Lemma dval_repeat0 (k : nat) : dval (repeat d0 k) = 0%Z.
Proof.
  induction k as [|k IH]; [reflexivity|].
  unfold dval in *. cbn [repeat dval_acc digit_val]. exact IH.
Qed.

Lemma dval_lead0 (k : nat) (ds : list digit) : dval (repeat d0 k ++ ds)%list = dval ds.
Proof. rewrite dval_app, dval_repeat0. lia. Qed.

Lemma dval_cons0 (ds : list digit) : dval (d0 :: ds) = dval ds.
Proof. reflexivity. Qed.

(* the stdlib's decimal printing of N, read back *)
Lemma of_uint_acc_dval (u : Decimal.uint) : forall acc : positive,
  Zpos (Pos.of_uint_acc u acc) = dval_acc (digits_of_uint u) (Zpos acc).
Proof.
  induction u as [|u IH|u IH|u IH|u IH|u IH|u IH|u IH|u IH|u IH|u IH]; intros acc;
    cbn [Pos.of_uint_acc digits_of_uint dval_acc digit_val]; [reflexivity|..]; rewrite IH; f_equal;
    try reflexivity; rewrite Pos.add_comm; reflexivity.
Qed.

Lemma of_uint_dval (u : Decimal.uint) : Z.of_N (Pos.of_uint u) = dval (digits_of_uint u).
Proof.
  induction u as [|u IH|u IH|u IH|u IH|u IH|u IH|u IH|u IH|u IH|u IH];
    cbn [Pos.of_uint digits_of_uint]; [reflexivity | rewrite dval_cons0; exact IH |..];
    unfold dval; cbn [dval_acc digit_val Z.of_N]; rewrite of_uint_acc_dval; reflexivity.
Qed.

Lemma dval_digits_of_N (n : N) : dval (digits_of_N n) = Z.of_N n.
Proof.
  unfold digits_of_N. rewrite <- of_uint_dval.
  change (Pos.of_uint (N.to_uint n)) with (N.of_uint (N.to_uint n)). rewrite DecimalN.Unsigned.of_to. reflexivity.
Qed.

Lemma digits_of_uint_nonnil (u : Decimal.uint) : u <> Decimal.Nil -> digits_of_uint u <> [].
Proof. destruct u; intros H; try discriminate; congruence. Qed.

Lemma digits_of_N_nonnil (n : N) : digits_of_N n <> [].
Proof.
  unfold digits_of_N. apply digits_of_uint_nonnil.
  destruct n as [|p]; [discriminate|]. cbn [N.to_uint]. apply DecimalPos.Unsigned.to_uint_nonnil.
Qed.

(* ---------------------------------------------------------------- numeric literal tokens *)

Lemma digit_char_word (d : digit) : is_word_char (digit_char d) = true.
Proof. destruct d; reflexivity. Qed.

Lemma char_digit_inv (c : ascii) (d : digit) : char_digit c = Some d -> c = digit_char d.
Proof. destruct c as [[|] [|] [|] [|] [|] [|] [|] [|]]; try discriminate; intros [= <-]; reflexivity. Qed.

(* a digit, the dot and the exponent letters are word characters, and the first character after a token is none *)
Lemma ends_token_first (c : ascii) (r : string) : ends_token (String c r) = true ->
  char_digit c = None /\ Ascii.eqb c "." = false /\ (Ascii.eqb c "e" || Ascii.eqb c "E") = false.
Proof.
  cbn [ends_token]. intros H. apply negb_true_iff in H.
  assert (forall x, is_word_char x = true -> Ascii.eqb c x = false) as Ne.
  { intros x Hx. destruct (Ascii.eqb_spec c x) as [->|]; [congruence|reflexivity]. }
  repeat split.
  - destruct (char_digit c) as [d|] eqn:D; [|reflexivity]. apply char_digit_inv in D. subst c.
    rewrite digit_char_word in H. discriminate.
  - apply Ne. reflexivity.
  - rewrite !Ne by reflexivity. reflexivity.
Qed.

Lemma read_fraction_nodot (c : ascii) (r : string) : Ascii.eqb c "." = false -> read_fraction (String c r) = (None, String c r).
Proof. intros H. destruct c as [[|] [|] [|] [|] [|] [|] [|] [|]]; try reflexivity; discriminate H. Qed.

Lemma ends_token_reads (rest : string) : ends_token rest = true ->
  starts_with_digit rest = false /\ read_fraction rest = (None, rest) /\ read_exponent rest = (None, rest).
Proof.
  destruct rest as [|c r]; [intros; repeat split; reflexivity|].
  intros H. apply ends_token_first in H. destruct H as (Hd & Hdot & He). repeat split.
  - cbn [starts_with_digit]. rewrite Hd. reflexivity.
  - apply read_fraction_nodot, Hdot.
  - cbn [read_exponent]. rewrite He. reflexivity.
Qed.

(* the text of an unsigned numeric literal with the given parts, followed by rest *)
Definition exp_text (exs : option (bool * list digit)) (rest : string) : string :=
  match exs with None => rest | Some (sg, e) => String "e" (String (if sg then "-" else "+")%char (dstr e ++ rest)) end.
Definition frac_text (fp : option (list digit)) (rest : string) : string :=
  match fp with None => rest | Some f => String "." (dstr f ++ rest) end.
Definition num_text (ip : list digit) (fp : option (list digit)) (exs : option (bool * list digit)) (rest : string) : string :=
  dstr ip ++ frac_text fp (exp_text exs rest).
Definition exs_val (exs : option (bool * list digit)) : option Z :=
  option_map (fun se : bool * list digit => if fst se then (- dval (snd se))%Z else dval (snd se)) exs.

Lemma read_unsigned_num_text (neg : bool) (ip : list digit) (fp : option (list digit)) (exs : option (bool * list digit)) (rest : string) :
  ip <> [] -> match fp with Some f => f <> [] | None => True end ->
  match exs with Some (_, e) => e <> [] | None => True end -> ends_token rest = true ->
  read_unsigned neg (num_text ip fp exs rest) = Some (mk_numtok neg ip fp (exs_val exs), rest).
Proof.
  intros Hip Hfp Hex Hr. destruct (ends_token_reads rest Hr) as (R1 & R2 & R3).
  assert (E1 : starts_with_digit (exp_text exs rest) = false)
    by (destruct exs as [[sg e]|]; [reflexivity | exact R1]).
  assert (S1 : starts_with_digit (frac_text fp (exp_text exs rest)) = false)
    by (destruct fp as [f|]; [reflexivity | exact E1]).
  assert (S2 : read_fraction (frac_text fp (exp_text exs rest)) = (fp, exp_text exs rest)).
  { destruct fp as [f|].
    - cbn [frac_text read_fraction]. rewrite (read_digits_dstr f _ E1). destruct f; [congruence | reflexivity].
    - cbn [frac_text]. destruct exs as [[sg e]|]; [reflexivity | exact R2]. }
  assert (S3 : read_exponent (exp_text exs rest) = (exs_val exs, rest)).
  { destruct exs as [[sg e]|]; [|exact R3].
    destruct sg; cbn [exp_text read_exponent]; cbn; rewrite (read_digits_dstr e _ R1); (destruct e; [congruence | reflexivity]). }
  unfold read_unsigned, num_text. rewrite (read_digits_dstr ip _ S1).
  destruct ip as [|i0 ip']; [congruence|]. rewrite S2, S3. reflexivity.
Qed.

(* the string quote of every dialect is the single or the double quote character *)
Definition quote_ok (q : ascii) : bool := Ascii.eqb q "'" || Ascii.eqb q """".

Lemma quote_ok_not (c q : ascii) : quote_ok q = true -> (is_word_char c = true \/ c = "-"%char) -> Ascii.eqb c q = false.
Proof.
  intros H W. destruct (Ascii.eqb c q) eqn:Q; [|reflexivity].
  apply Ascii.eqb_eq in Q. subst q. unfold quote_ok in H. apply orb_true_iff in H.
  destruct H as [H|H]; apply Ascii.eqb_eq in H; subst c; (destruct W as [W|W]; [vm_compute in W|]; discriminate).
Qed.

Lemma quote_ok_not_backslash (q : ascii) : quote_ok q = true -> q <> "\"%char.
Proof. intros H E. subst q. discriminate H. Qed.

Lemma read_number_digit (d : digit) (s : string) :
  read_number (String (digit_char d) s) = read_unsigned false (String (digit_char d) s).
Proof. destruct d; reflexivity. Qed.

Definition sign_text (neg : bool) : string := if neg then "-" else "".

Lemma read_value_number (fam : family) (q : ascii) (neg : bool) (ip : list digit) (fp : option (list digit))
      (exs : option (bool * list digit)) (rest : string) :
  quote_ok q = true -> ip <> [] -> match fp with Some f => f <> [] | None => True end ->
  match exs with Some (_, e) => e <> [] | None => True end -> ends_token rest = true ->
  read_value fam q (sign_text neg ++ num_text ip fp exs rest) = Some (SNum (mk_numtok neg ip fp (exs_val exs)), rest).
Proof.
  intros Hq Hip Hfp Hex Hr. destruct neg.
  - cbn [sign_text append read_value]. rewrite (quote_ok_not "-" q Hq) by (right; reflexivity).
    cbn [Ascii.eqb Bool.eqb orb read_number]. rewrite read_unsigned_num_text by assumption. rewrite Hr. reflexivity.
  - cbn [sign_text append]. destruct ip as [|d tl]; [congruence|].
    unfold num_text. cbn [dstr append read_value].
    rewrite (quote_ok_not (digit_char d) q Hq) by (left; apply digit_char_word).
    rewrite char_digit_char, orb_true_r, read_number_digit.
    change (String (digit_char d) (dstr tl ++ frac_text fp (exp_text exs rest))) with (num_text (d :: tl) fp exs rest).
    rewrite read_unsigned_num_text by assumption. rewrite Hr. reflexivity.
Qed.

(* ---------------------------------------------------------------- what a numeric token denotes *)

(* the token t denotes (+/-) m * 10^e  (its own mantissa may carry k extra trailing zeros) *)
Definition num_denotes (t : numtok) (neg : bool) (m e : Z) : Prop :=
  nt_neg t = neg /\ exists k, (0 <= k)%Z /\ nt_mant t = (m * 10 ^ k)%Z /\ (nt_exp10 t + k = e)%Z.

Lemma int_reads (fam : family) (q : ascii) (z : Z) (rest : string) : quote_ok q = true -> ends_token rest = true ->
  exists t, read_value fam q (py_str_int z ++ rest) = Some (SNum t, rest) /\
            nt_is_integer t = true /\ nt_neg t = (z <? 0)%Z /\ nt_mant t = Z.abs z.
Proof.
  intros Hq Hr. exists (mk_numtok (z <? 0)%Z (digits_of_N (Z.to_N (Z.abs z))) None None). split.
  - replace (py_str_int z ++ rest) with (sign_text (z <? 0)%Z ++ num_text (digits_of_N (Z.to_N (Z.abs z))) None None rest)
      by (destruct z; reflexivity).
    exact (read_value_number fam q _ _ None None rest Hq (digits_of_N_nonnil _) I I Hr).
  - repeat split. unfold nt_mant. cbn [nt_ip nt_fp]. rewrite app_nil_r, dval_digits_of_N. lia.
Qed.

Lemma exp_pad_dval (ds : list digit) : dval (match ds with [_] => d0 :: ds | _ => ds end) = dval ds.
Proof. destruct ds as [|a [|b c]]; reflexivity. Qed.
Lemma exp_pad_nonnil (ds : list digit) : ds <> [] -> match ds with [_] => d0 :: ds | _ => ds end <> [].
Proof. destruct ds as [|a [|b c]]; intros H; congruence. Qed.

Lemma float_fin_reads (fam : family) (q : ascii) (neg : bool) (ds : list digit) (decpt : Z) (rest : string) :
  quote_ok q = true -> ds <> [] -> ends_token rest = true ->
  exists t, read_value fam q (float_repr_fin neg ds decpt ++ rest) = Some (SNum t, rest) /\
            num_denotes t neg (dval ds) (decpt - Z.of_nat (List.length ds)).
Proof.
  intros Hq Hds Hr. unfold float_repr_fin. rewrite str_append_assoc.
  change (if neg then "-" else "") with (sign_text neg).
  destruct ((decpt <=? -4) || (16 <? decpt))%Z eqn:Eexp.
  - (* exponent form *)
    destruct ds as [|d tl]; [congruence|].
    set (e := (decpt - 1)%Z).
    set (ed := match digits_of_N (Z.to_N (Z.abs e)) with [x] => d0 :: digits_of_N (Z.to_N (Z.abs e)) | _ => digits_of_N (Z.to_N (Z.abs e)) end).
    assert (Hed : ed <> []) by (apply exp_pad_nonnil, digits_of_N_nonnil).
    assert (Ved : dval ed = Z.abs e) by (unfold ed; rewrite exp_pad_dval, dval_digits_of_N; lia).
    assert (T : (String (digit_char d) (match tl with [] => "" | _ :: _ => String "." (dstr tl) end ++ String "e" (exp_str e))) ++ rest
                = num_text [d] (match tl with [] => None | _ :: _ => Some tl end) (Some ((e <? 0)%Z, ed)) rest).
    { unfold num_text, exp_str. fold ed. destruct tl as [|x tl']; cbn [dstr append frac_text exp_text].
      - destruct (e <? 0)%Z; reflexivity.
      - rewrite str_append_assoc. cbn [append]. destruct (e <? 0)%Z; reflexivity. }
    rewrite T.
    eexists. split.
    + apply read_value_number; try assumption; [discriminate | destruct tl; [exact I | discriminate]].
    + split; [reflexivity|]. exists 0%Z. split; [lia|].
      unfold nt_mant, nt_exp10, exs_val. cbn [nt_ip nt_fp nt_ex option_map fst snd]. rewrite Ved.
      destruct tl as [|x tl']; cbn [List.app List.length]; split; try (rewrite Z.pow_0_r; lia);
        destruct (e <? 0)%Z eqn:Es; unfold e in *; lia.
  - apply orb_false_iff in Eexp. destruct Eexp as [E1 E2].
    destruct (decpt <=? 0)%Z eqn:E0.
    + (* 0.000ddd *)
      assert (T : String "0" (String "." (dstr (repeat d0 (Z.to_nat (- decpt)) ++ ds)%list)) ++ rest
                  = num_text [d0] (Some (repeat d0 (Z.to_nat (- decpt)) ++ ds)%list) None rest) by reflexivity.
      rewrite T. eexists. split.
      * apply read_value_number; try assumption; [discriminate | | exact I].
        intros H. apply app_eq_nil in H. destruct H as [_ H]. congruence.
      * split; [reflexivity|]. exists 0%Z. split; [lia|].
        unfold nt_mant, nt_exp10, exs_val. cbn [option_map nt_ip nt_fp nt_ex]. cbn [List.app]. rewrite dval_cons0, dval_lead0.
        rewrite app_length, repeat_length. split; [rewrite Z.pow_0_r; lia | lia].
    + destruct (Z.of_nat (List.length ds) <=? decpt)%Z eqn:En.
      * (* ddd000.0 *)
        set (j := Z.to_nat (decpt - Z.of_nat (List.length ds))).
        assert (T : (dstr (ds ++ repeat d0 j)%list ++ ".0") ++ rest = num_text (ds ++ repeat d0 j)%list (Some [d0]) None rest).
        { rewrite str_append_assoc. reflexivity. }
        rewrite T. eexists. split.
        -- apply read_value_number; try assumption; [ | discriminate | exact I].
           intros H. apply app_eq_nil in H. destruct H as [H _]. congruence.
        -- split; [reflexivity|]. exists (Z.of_nat j + 1)%Z. split; [lia|].
           unfold nt_mant, nt_exp10, exs_val. cbn [option_map nt_ip nt_fp nt_ex List.length].
           rewrite dval_app, dval_app, dval_repeat0, repeat_length. cbn [List.length].
           change (dval [d0]) with 0%Z. split.
           ++ rewrite Z.pow_add_r by lia. change (Z.of_nat 1) with 1%Z. ring.
           ++ unfold j. lia.
      * (* dd.ddd *)
        set (k := Z.to_nat decpt).
        assert (T : (dstr (firstn k ds) ++ String "." (dstr (skipn k ds))) ++ rest
                    = num_text (firstn k ds) (Some (skipn k ds)) None rest).
        { rewrite str_append_assoc. reflexivity. }
        rewrite T.
        assert (Hk : (0 < k < List.length ds)%nat) by (unfold k; lia).
        eexists. split.
        -- apply read_value_number; try assumption; [ | | exact I].
           ++ intros H. apply (f_equal (@List.length digit)) in H. rewrite firstn_length in H. cbn in H. lia.
           ++ intros H. apply (f_equal (@List.length digit)) in H. rewrite skipn_length in H. cbn in H. lia.
        -- split; [reflexivity|]. exists 0%Z. split; [lia|].
           unfold nt_mant, nt_exp10, exs_val. cbn [option_map nt_ip nt_fp nt_ex]. rewrite firstn_skipn, skipn_length.
           split; [rewrite Z.pow_0_r; lia | unfold k; lia].
Qed.

(* ---------------------------------------------------------------- NULL / TRUE / FALSE *)

Fixpoint all_word (w : string) : bool := match w with EmptyString => true | String c w' => is_word_char c && all_word w' end.

Lemma read_word_app (w rest : string) : all_word w = true -> ends_token rest = true -> read_word (w ++ rest) = (w, rest).
Proof.
  intros Hw Hr. induction w as [|c w IH].
  - cbn [append]. destruct rest as [|c r]; [reflexivity|]. cbn [ends_token] in Hr. cbn [read_word].
    destruct (is_word_char c); [discriminate | reflexivity].
  - cbn [all_word] in Hw. apply andb_true_iff in Hw. destruct Hw as [Hc Hw].
    cbn [append read_word]. rewrite Hc, (IH Hw). reflexivity.
Qed.

Lemma read_value_word (fam : family) (q c : ascii) (w rest : string) :
  quote_ok q = true -> ends_token rest = true -> is_word_char c = true -> all_word w = true ->
  char_digit c = None -> Ascii.eqb c "-" = false ->
  read_value fam q (String c w ++ rest) =
    (if String.eqb (String c w) "NULL" then Some (SNull, rest)
     else if String.eqb (String c w) "TRUE" then Some (SBool true, rest)
     else if String.eqb (String c w) "FALSE" then Some (SBool false, rest) else None).
Proof.
  intros Hq Hr Hc Hw Hd Hm. cbn [append]. unfold read_value.
  rewrite (quote_ok_not c q Hq) by (left; exact Hc). rewrite Hm, Hd. cbn [orb].
  change (String c (w ++ rest)) with (String c w ++ rest).
  rewrite read_word_app by (try assumption; cbn [all_word]; rewrite Hc, Hw; reflexivity). reflexivity.
Qed.

Lemma read_value_keywords (fam : family) (q : ascii) (rest : string) : quote_ok q = true -> ends_token rest = true ->
  read_value fam q ("NULL" ++ rest) = Some (SNull, rest) /\
  read_value fam q ("TRUE" ++ rest) = Some (SBool true, rest) /\
  read_value fam q ("FALSE" ++ rest) = Some (SBool false, rest).
Proof. intros Hq Hr. repeat split; rewrite read_value_word by (try assumption; reflexivity); reflexivity. Qed.

(* ---------------------------------------------------------------- value_to_sql *)

(* the literal token sv denotes the Python value v *)
Inductive same_value : pyval -> sqlval -> Prop :=
  | SV_none : same_value PNone SNull
  | SV_nan : same_value (PFloat FNan) SNull                    (* value_to_sql writes NaN as NULL on purpose *)
  | SV_str (s : string) : same_value (PStr s) (SStr s)
  | SV_bool (b : bool) : same_value (PBool b) (SBool b)
  | SV_int (z : Z) (t : numtok) : nt_is_integer t = true -> nt_neg t = (z <? 0)%Z -> nt_mant t = Z.abs z -> same_value (PInt z) (SNum t)
  | SV_float (neg : bool) (ds : list digit) (decpt : Z) (t : numtok) :
      num_denotes t neg (dval ds) (decpt - Z.of_nat (List.length ds)) -> same_value (PFloat (FFin neg ds decpt)) (SNum t)
  | SV_value (x : pyval) (sv : sqlval) : same_value x sv -> same_value (PValue x) sv.

(* the scalar values value_to_sql is asked to write: None, str, bool, int, float (finite or NaN), expr_rep.Value of one *)
Fixpoint scalar_ok (v : pyval) : Prop :=
  match v with
  | PNone | PStr _ | PBool _ | PInt _ | PFloat FNan => True
  | PFloat (FFin _ ds _) => ds <> []
  | PValue x => scalar_ok x
  | _ => False
  end.
Fixpoint no_backslash (v : pyval) : Prop :=
  match v with PStr s => has_char (Ascii.eqb "\"%char) s = false | PValue x => no_backslash x | _ => True end.

Lemma value_to_sql_reads_back (fam : family) (q : ascii) (v : pyval) (rest : string) :
  quote_ok q = true -> scalar_ok v -> (fam = Backslash -> no_backslash v) ->
  ends_token rest = true -> starts_with_char q rest = false ->
  exists sv, read_value fam q (value_to_sql (q1 q) v ++ rest) = Some (sv, rest) /\ same_value v sv.
Proof.
  intros Hq Hv Hb Hr Hs. induction v as [ |s|b|z|f|l|l|l|x IH|o]; cbn [scalar_ok] in Hv; try contradiction.
  - exists SNull. split; [apply (read_value_keywords fam q rest Hq Hr) | constructor].
  - assert (R : read_string_lit fam q (quote_string (q1 q) s ++ rest) = Some (s, rest)).
    { destruct fam; [apply quote_string_roundtrip_std, Hs|].
      apply quote_string_roundtrip_bs_partial; [apply quote_ok_not_backslash, Hq | exact (Hb eq_refl) | exact Hs]. }
    exists (SStr s). split; [|constructor].
    cbn [value_to_sql]. rewrite quote_string_shape in *. cbn [read_value]. rewrite Ascii.eqb_refl, R. reflexivity.
  - exists (SBool b). split; [|constructor]. destruct b; apply (read_value_keywords fam q rest Hq Hr).
  - destruct (int_reads fam q z rest Hq Hr) as (t & R & H1 & H2 & H3).
    exists (SNum t). split; [exact R | constructor; assumption].
  - destruct f as [|ng|ng ds decpt]; try contradiction.
    + exists SNull. split; [apply (read_value_keywords fam q rest Hq Hr) | constructor].
    + destruct (float_fin_reads fam q ng ds decpt rest Hq Hv Hr) as (t & R & D).
      exists (SNum t). split; [exact R | constructor; exact D].
  - cbn [no_backslash] in Hb. destruct (IH Hv Hb) as (sv & R & S).
    exists sv. split; [exact R | constructor; exact S].
Qed.

(* an infinite float is written as `inf` / `-inf`, which is not a literal of any dialect *)
Lemma value_to_sql_inf_refuted :
  read_value Std "'"%char (value_to_sql "'" (PFloat (FInf false)) ++ " AS x") = None /\
  read_value Std "'"%char (value_to_sql "'" (PFloat (FInf true)) ++ " AS x") = None.
Proof. split; vm_compute; reflexivity. Qed.

(* list values (is_in lists, tuples, expr_rep.ListTerm): a parenthesised, comma-separated list whose items are all
   written by value_to_sql itself *)
Lemma value_to_sql_list_items (qs : string) (l : list pyval) :
  value_to_sql qs (PList l) = "(" ++ str_join ", " (map (value_to_sql qs) l) ++ ")" /\
  value_to_sql qs (PTuple l) = "(" ++ str_join ", " (map (value_to_sql qs) l) ++ ")" /\
  value_to_sql qs (PListTerm l) = "(" ++ str_join ", " (map (value_to_sql qs) l) ++ ")".
Proof. cbn [value_to_sql]. rewrite !str_append_assoc. repeat split; reflexivity. Qed.
