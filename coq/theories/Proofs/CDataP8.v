(* C17, part 8: with value_suffix "" compose() really builds a composite_ok map, for each shape of composite.  compose() runs the
   two maps on example_input and reads the composite's control tables back from the example and from the result.  The example
   holds one record; as row records it is ONE row whose value cells are their own names, so a specification C over the same
   records lays it out as its own control table (hrow), and the specification read back from that has the layout of C. *)
From Coq Require Import List Bool Arith String Lia Permutation.
Import ListNotations.
From DA Require Import Base.PyRT Base.Val Model.CData Proofs.CDataP1 Proofs.CDataP2 Proofs.CDataP4 Proofs.CDataP5 Proofs.CDataP6 Proofs.CDataP7 Proofs.ListP Proofs.TabP.

Lemma append_nil_r (s : string) : (s ++ "")%string = s.
Proof. induction s as [|a s IH]; simpl; [reflexivity|]. rewrite IH. reflexivity. Qed.

Lemma spec_simb_refl C : spec_simb C C = true.
Proof. unfold spec_simb. rewrite !eqb_refl. simpl. apply perm_eqb_spec. reflexivity. Qed.

Lemma spec_eqb_refl A : spec_eqb A A = true.
Proof. unfold spec_eqb. rewrite !eqb_refl. simpl. apply Bool.eqb_reflx. Qed.

Lemma set_eqb_refl (l : list string) : set_eqb l l = true.
Proof. unfold set_eqb. rewrite (proj2 (subset_spec l l)) by auto. reflexivity. Qed.

Lemma same_records_keys A B : same_records A B = true -> set_eqb (rs_keys A) (rs_keys B) = true.
Proof. unfold same_records. intros H. apply andb_true_iff in H. tauto. Qed.

Lemma filter_app_disjoint_l (ck vc : list string) : (forall c, In c vc -> ~ In c ck) ->
  filter (fun c => negb (mem c ck)) (ck ++ vc) = vc.
Proof. intros D. rewrite filter_app. rewrite filter_none.
  - simpl. apply filter_all. intros c Hc. apply negb_true_iff. apply mem_false. apply D. exact Hc.
  - intros c Hc. apply negb_false_iff. apply mem_In. exact Hc. Qed.

(* ------------------------------------------------------------------ a control table read back from an example run *)
(* the control row cr as compose() finds it in the transformed example: its key cells, then its names as strings *)
Definition hrow (C : recspec) (cr : list val) : list val := kap C cr ++ map VStr (nm C cr).

Section LayoutSpec.
  Variable C : recspec.
  Hypothesis HC : strict_spec C = true.
  Variable rk : list string.
  Hypothesis Erk : rk = rs_keys C.
  Variable rso : table.
  Let CK := rs_ctkeys C. Let VC := value_cols C. Let ctrows := rows (rs_ct C).
  Hypothesis Hcols : cols rso = CK ++ VC.
  Hypothesis Hrows : Permutation (rows rso) (map (hrow C) ctrows).
  Let F := strict_spec_facts C HC.
  Let so := mkspec rk rso CK true.

  Lemma ls_vc_not_ck c : In c VC -> ~ In c CK.
  Proof. intros Hc. apply value_cols_In in Hc. tauto. Qed.

  Lemma ls_row r : In r (rows rso) -> exists cr, In cr ctrows /\ r = hrow C cr.
  Proof. intros Hr. apply (Permutation_in _ Hrows) in Hr. apply in_map_iff in Hr. destruct Hr as [cr [E Hcr]]. exists cr. auto. Qed.

  Lemma ls_cells_ck cr : cells (cols rso) (hrow C cr) CK = kap C cr.
  Proof. rewrite Hcols. unfold hrow. rewrite cells_app_l; [|auto|unfold kap; apply cells_length].
    apply cells_self; [unfold kap; apply cells_length|apply (sf_ck_nodup C F)]. Qed.

  Lemma ls_get_vc cr c : In c VC -> get (cols rso) (hrow C cr) c = VStr (val_str (get (cols (rs_ct C)) cr c)).
  Proof. intros Hc. rewrite Hcols. unfold hrow. rewrite get_app_r; [|apply ls_vc_not_ck; exact Hc|unfold kap; apply cells_length].
    unfold nm. rewrite map_map. apply (get_map_in (fun c0 => VStr (val_str (get (cols (rs_ct C)) cr c0)))). exact Hc. Qed.

  Lemma ls_value_cols : value_cols so = VC.
  Proof. unfold value_cols, so. simpl. rewrite Hcols. apply filter_app_disjoint_l. apply ls_vc_not_ck. Qed.

  Lemma ls_nm cr : nm so (hrow C cr) = nm C cr.
  Proof. unfold nm at 1. rewrite ls_value_cols. unfold so. simpl. unfold nm. apply map_ext_in. intros c Hc.
    rewrite (ls_get_vc cr c Hc). reflexivity. Qed.

  Lemma ls_kap cr : kap so (hrow C cr) = kap C cr.
  Proof. unfold kap at 1. unfold so. simpl. apply ls_cells_ck. Qed.

  Lemma ls_layout : Permutation (ct_layout so) (ct_layout C).
  Proof. unfold ct_layout. change (rows (rs_ct so)) with (rows rso).
    etransitivity; [apply Permutation_map; exact Hrows|]. rewrite map_map. apply Permutation_refl'. apply map_ext. intros cr.
    fold (kap so (hrow C cr)). fold (nm so (hrow C cr)). rewrite ls_kap, ls_nm. reflexivity. Qed.

  Lemma ls_cnames : Permutation (cnames so) (cnames C).
  Proof. rewrite (cnames_perm so), (cnames_perm C). change (rows (rs_ct so)) with (rows rso).
    rewrite Hrows. rewrite flat_map_map. apply Permutation_refl'. apply flat_map_ext. intros cr. apply ls_nm. Qed.

  Lemma ls_names_str : forallb is_str_nonempty (raw_content rso CK) = true.
  Proof. apply forallb_forall. intros v Hv.
    unfold raw_content in Hv. apply in_flat_map in Hv. destruct Hv as [c [Hc Hv]].
    destruct (mem c CK) eqn:M; [destruct Hv|]. apply mem_false in M.
    assert (HcV : In c VC). { rewrite Hcols in Hc. apply in_app_iff in Hc. destruct Hc; [contradiction|assumption]. }
    unfold getcol in Hv. apply in_map_iff in Hv. destruct Hv as [r [<- Hr]]. destruct (ls_row r Hr) as [cr [Hcr ->]].
    pose proof (value_cell_str C cr c F Hcr HcV) as SC. rewrite (ls_get_vc cr c HcV), (str_nonempty_eta _ SC). exact SC. Qed.

  Lemma ls_facts : spec_facts so.
  Proof. unfold so. constructor; cbn [rs_ct rs_keys rs_ctkeys rs_strict].
    - rewrite Hcols. apply NoDup_app_iff; repeat split; [apply (sf_ck_nodup C F)|apply value_cols_nodup; exact F|].
      intros c Hc Hv. exact (ls_vc_not_ck c Hv Hc).
    - apply (sf_ck_ne C F).
    - intros c Hc. rewrite Hcols. apply in_app_iff. left. exact Hc.
    - (* the control table of C has a non-key column *)
      rewrite Hcols, app_length. pose proof (sf_ck_fewer C F) as L. pose proof (Permutation_length (r2b_cols_perm C F)) as P.
      unfold r2b_cols, block_columns in P. rewrite !app_length in P. fold CK VC in P, L. lia.
    - rewrite Erk. apply (sf_rk_ck C F).
    - eapply Permutation_NoDup; [apply Permutation_map; apply Permutation_sym; exact Hrows|]. rewrite map_map.
      rewrite (map_ext _ (kap C)) by (intros cr; apply ls_cells_ck). apply (sf_keys_nodup C F).
    - apply ls_names_str.
    - rewrite Erk. intros c Hc Hn. apply (Permutation_in _ ls_cnames) in Hn. exact (sf_rk_names C F c Hc Hn).
    - eapply Permutation_NoDup; [apply Permutation_sym; apply ls_cnames|apply (sf_names_nodup C F)].
    - rewrite Erk. apply (sf_rk_nodup C F).
    - rewrite Erk, Hcols. intros c Hc I. apply in_app_iff in I. destruct I as [I|I].
      + exact (sf_rk_ck C F c Hc I).
      + apply value_cols_In in I. exact (sf_rk_cc C F c Hc (proj1 I)).
    - apply (sf_ck_nodup C F).
    - intros r Hr. destruct (ls_row r Hr) as [cr [Hcr ->]]. fold so. rewrite ls_kap. apply (sf_keys_ok C F). exact Hcr.
    - intros r Hr. destruct (ls_row r Hr) as [cr [_ ->]]. rewrite Hcols. unfold hrow, kap.
      rewrite !app_length, cells_length, map_length, nm_length. reflexivity.
    - rewrite (Permutation_length Hrows), map_length. apply (sf_two_rows C F).
    - reflexivity. Qed.

  Lemma ls_sim : spec_simb C so = true.
  Proof. unfold spec_simb. rewrite ls_value_cols. unfold so at 1 2. simpl. rewrite Erk, !eqb_refl. simpl.
    apply perm_eqb_spec. apply Permutation_sym. apply ls_layout. Qed.
End LayoutSpec.

(* ------------------------------------------------------------------ DataFrame.drop of the record-key columns *)

Lemma drop_row (rk rest : list string) (a b : list val) :
  (forall c, In c rest -> ~ In c rk) -> List.length a = List.length rk -> List.length b = List.length rest ->
  map snd (filter (fun cv : string * val => negb (mem (fst cv) rk)) (combine (rk ++ rest) (a ++ b))) = b.
Proof. intros D La Lb. rewrite combine_app by (symmetry; exact La). rewrite filter_app. rewrite filter_none.
  - simpl. rewrite filter_all; [apply map_snd_combine; symmetry; exact Lb|].
    intros [c v] I. simpl. apply negb_true_iff. apply mem_false. apply D. apply in_combine_l in I. exact I.
  - intros [c v] I. simpl. apply negb_false_iff. apply mem_In. apply in_combine_l in I. exact I. Qed.

Definition rkcells (rk : list string) : list val := map (fun k => VStr (k ++ record_key_suffix)) rk.

Lemma rkcells_len rk : List.length (rkcells rk) = List.length rk.
Proof. apply map_length. Qed.

Lemma rkcells_ok rk : key_ok (rkcells rk) = true.
Proof. unfold key_ok, rkcells. apply forallb_forall. intros v Hv. apply in_map_iff in Hv. destruct Hv as [k [<- _]]. reflexivity. Qed.

Lemma rkcells_front rk rest r : NoDup rk -> cells (rk ++ rest) (rkcells rk ++ r) rk = rkcells rk.
Proof. intros N. rewrite cells_app_l by (auto using rkcells_len). apply cells_self; [apply rkcells_len|exact N]. Qed.

(* X: the example as row records conforming to B: one row, the record-key cells rkrow, every value cell its own name *)
Section ExampleOut.
  Variables B C : recspec.
  Hypothesis HB : strict_spec B = true.
  Hypothesis HC : strict_spec C = true.
  Hypothesis SR : same_records B C = true.
  Variable rk : list string.
  Hypothesis Erk : rk = rs_keys C.
  Variable X : table.
  Variables x rkrow : list val.
  Hypothesis CB : conforming_rows B X = true.
  Hypothesis EX : rows X = [x].
  Hypothesis Xrk : cells (cols X) x rk = rkrow.
  Hypothesis Xget : forall n, In n (cnames C) -> get (cols X) x n = VStr n.
  Let FC := strict_spec_facts C HC.

  (* what rowrecs_to_blocks C makes of the example row: one row per control row of C *)
  Lemma exo_direct : exists Z0, rowrecs_to_blocks C X = Ok Z0 /\ cols Z0 = r2b_cols C /\
    Permutation (rows Z0) (map (fun cr => rkrow ++ hrow C cr) (rows (rs_ct C))).
  Proof.
    pose proof (conforming_keyed_same B C X SR CB) as KC.
    eexists. split; [apply r2b_unfold; [rewrite EX; discriminate|apply is_keyed_select_ok; exact KC]|]. split; [reflexivity|].
    cbn [rows]. etransitivity; [apply sort_by_perm|]. rewrite r2b_rows_direct. unfold ct_layout. rewrite flat_map_map.
    rewrite EX. cbn [map fst snd]. rewrite flat_map_singleton. apply Permutation_refl'. apply map_ext_in. intros cr Hcr.
    rewrite <- Erk, Xrk. fold (kap C cr). fold (nm C cr). unfold hrow. f_equal. f_equal.
    unfold cells. apply map_ext_in. intros n Hn. apply Xget. eapply nm_In_cnames; eassumption. Qed.

  (* the second map applies to the B-blocks of the example; the record-key columns dropped from its result leave a control
     table that the constructor accepts, with the layout of C *)
  Lemma example_out : exists Y Z rso, rowrecs_to_blocks B X = Ok Y /\ transform (mkmap (Some B) (Some C) true) Y = Ok Z /\
    (2 <= List.length (rows Z))%nat /\ drop_cols rk Z = Some rso /\
    spec_facts (mkspec rk rso (rs_ctkeys C) true) /\ spec_simb C (mkspec rk rso (rs_ctkeys C) true) = true /\
    Permutation (cnames (mkspec rk rso (rs_ctkeys C) true)) (cnames C).
  Proof. destruct exo_direct as [Z0 [EZ0 [Ec0 P0]]].
    destruct (through_blocks_and_back B C X HB SR CB Z0 EZ0) as [Y [X2 [Z [E1 [PY [E2 [E3 [Ec Pr]]]]]]]].
    set (rest := rs_ctkeys C ++ value_cols C).
    assert (Drest : forall c, In c rest -> ~ In c rk).
    { rewrite Erk. intros c Hc Hr. unfold rest in Hc. apply in_app_iff in Hc. destruct Hc as [Hc|Hc].
      - exact (sf_rk_ck C FC c Hr Hc).
      - apply value_cols_In in Hc. exact (sf_rk_cc C FC c Hr (proj1 Hc)). }
    assert (EcZ : cols Z = rk ++ rest) by (rewrite Ec, Ec0, Erk; reflexivity).
    assert (Lrk : List.length rkrow = List.length rk) by (rewrite <- Xrk; apply cells_length).
    set (dropf := fun r : list val => map snd (filter (fun cv : string * val => negb (mem (fst cv) rk)) (combine (cols Z) r))).
    set (rso := mktable (filter (fun c => negb (mem c rk)) (cols Z)) (map dropf (rows Z))).
    assert (Hcols : cols rso = rs_ctkeys C ++ value_cols C).
    { unfold rso. cbn [cols]. rewrite EcZ. apply filter_app_disjoint_l. exact Drest. }
    assert (Hrows : Permutation (rows rso) (map (hrow C) (rows (rs_ct C)))).
    { unfold rso. cbn [rows]. etransitivity; [apply Permutation_map; etransitivity; [exact Pr|exact P0]|]. rewrite map_map.
      apply Permutation_refl'. apply map_ext. intros cr. unfold dropf. rewrite EcZ. apply drop_row; [exact Drest|exact Lrk|].
      unfold hrow, rest, kap. rewrite !app_length, cells_length, map_length, nm_length. reflexivity. }
    exists Y, Z, rso. split; [exact E1|].
    split. { eapply transform_steps; [apply (perm_subset _ _ _ PY); auto|exact E2|exact E3]. }
    split. { rewrite (Permutation_length Pr), (Permutation_length P0), map_length. apply (sf_two_rows C FC). }
    split. { unfold drop_cols. rewrite (proj2 (subset_spec rk (cols Z))); [reflexivity|]. intros c Hc. rewrite EcZ. apply in_app_iff. left. exact Hc. }
    split; [apply ls_facts; assumption|]. split; [apply ls_sim; assumption|apply ls_cnames; assumption].
  Qed.
End ExampleOut.

(* ------------------------------------------------------------------ compose on rows -> B -> C *)
Section ComposeRowsBlocks.
  Variables B C : recspec.
  Hypothesis HB : strict_spec B = true.
  Hypothesis HC : strict_spec C = true.
  Hypothesis SR : same_records B C = true.
  Hypothesis ERK : rs_keys B = rs_keys C.
  Let FB := strict_spec_facts B HB.
  Let FC := strict_spec_facts C HC.
  Let RK := rs_keys B.
  Let nms := content_keys B.
  Let rkrow : list val := rkcells RK.
  Let r0 : list val := rkrow ++ map VStr nms.
  Let inp : table := mktable (RK ++ nms) [r0].
  Let s1 := mkmap None (Some B) true.
  Let s2 := mkmap (Some B) (Some C) true.

  Lemma crb_nms_not_rk c : In c nms -> ~ In c RK.
  Proof. intros Hc Hr. unfold nms in Hc. rewrite (content_keys_cnames B FB) in Hc. exact (sf_rk_names B FB c Hr Hc). Qed.

  Lemma crb_example : example_input "" s1 = Some inp.
  Proof. unfold example_input, s1. cbn [map_record_keys rm_in rm_out].
    assert (Ef : filter (fun k => negb (mem k (rs_keys B))) (row_columns B) = nms)
      by (unfold row_columns; apply filter_app_disjoint_l; exact crb_nms_not_rk).
    rewrite Ef.
    rewrite (map_ext (fun k => VStr (k ++ "")%string) VStr) by (intros k; rewrite append_nil_r; reflexivity).
    unfold inp, r0, rkrow, RK. destruct (rs_keys B) eqn:E; reflexivity. Qed.

  Lemma crb_cells_rk : cells (cols inp) r0 RK = rkrow.
  Proof. apply rkcells_front. apply (sf_rk_nodup B FB). Qed.

  Lemma crb_get_name n : In n nms -> get (cols inp) r0 n = VStr n.
  Proof. intros Hn. unfold inp, r0. cbn [cols]. rewrite get_app_r; [|apply crb_nms_not_rk; exact Hn|apply rkcells_len].
    apply (get_map_in VStr). exact Hn. Qed.

  Lemma crb_conforming : conforming_rows B inp = true.
  Proof. unfold conforming_rows. fold RK. apply andb_true_iff. split; [|apply subset_spec; intros c Hc; exact Hc].
    apply keyed_by_facts. constructor.
    - intros c Hc. unfold inp. cbn [cols]. apply in_app_iff. left. exact Hc.
    - intros r [<-|[]]. rewrite crb_cells_rk. apply rkcells_ok.
    - cbn [rows map]. constructor; [intros []|constructor]. Qed.

  Theorem compose_rows_blocks_ok :
    exists c, compose "" s2 s1 = CMap c /\ composite_ok None (Some C) c = true.
  Proof.
    destruct (example_out B C HB HC SR RK ERK inp r0 rkrow crb_conforming eq_refl crb_cells_rk)
      as [Y [Z [rso [E1 [T2 [LZ [D2 [Fso [SIM _]]]]]]]]].
    { intros n Hn. apply crb_get_name. destruct (same_records_facts B C SR) as [_ CKe]. apply CKe.
      rewrite (content_keys_cnames C FC). exact Hn. }
    assert (T1 : transform s1 inp = Ok Y).
    { eapply transform_steps; [apply subset_spec; intros c Hc; exact Hc|reflexivity|exact E1]. }
    assert (D1 : exists rsi, drop_cols RK inp = Some rsi).
    { unfold drop_cols. rewrite (proj2 (subset_spec RK (cols inp))); [eexists; reflexivity|]. intros c Hc. apply in_app_iff. left. exact Hc. }
    destruct D1 as [rsi D1].
    set (so := mkspec RK rso (rs_ctkeys C) true) in *.
    assert (MS : mk_spec rso RK (Some (rs_ctkeys C)) true = Some so) by exact (spec_facts_mk_spec so Fso).
    exists (mkmap None (Some so) true). split.
    - unfold compose. unfold s1 at 1, s2 at 1. cbn [map_record_keys rm_in rm_out].
      rewrite set_eqb_refl. cbn [negb]. rewrite crb_example. fold s1 s2. rewrite T1. cbn [res_bind]. fold s2 in T2. rewrite T2.
      fold RK. rewrite D1, D2. unfold s1 at 1 2, s2 at 1 2 3. cbn [rm_strict rm_in rm_out andb].
      assert (L1 : Nat.ltb (List.length (rows inp)) 2 = true) by reflexivity. rewrite L1.
      rewrite (proj2 (Nat.ltb_ge _ _) LZ). fold RK. rewrite MS.
      rewrite (mk_map_rows_to_blocks so Fso). reflexivity.
    - unfold composite_ok. cbn [rm_in rm_out rm_strict]. rewrite (spec_facts_strict so Fso), SIM. reflexivity.
  Qed.
End ComposeRowsBlocks.

(* compose() IS sequential application for rows -> B -> C (value_suffix "", i.e. the code since /repo 031522a) *)
Theorem compose_sound_rows_blocks_full B C t :
  strict_spec B = true -> strict_spec C = true -> same_records B C = true -> rs_keys B = rs_keys C ->
  conforming_rows B t = true ->
  exists c y z zc, compose "" (mkmap (Some B) (Some C) true) (mkmap None (Some B) true) = CMap c /\
    transform (mkmap None (Some B) true) t = Ok y /\ transform (mkmap (Some B) (Some C) true) y = Ok z /\
    transform c t = Ok zc /\ tbl_eqv zc z.
Proof. intros HB HC SR ERK CB. destruct (compose_rows_blocks_ok B C HB HC SR ERK) as [c [E OK]].
  destruct (compose_sound_rows_blocks "" B C t c HB HC SR CB E OK) as [y [z [zc [T1 [T2 [T3 EQ]]]]]].
  exists c, y, z, zc. auto. Qed.

Lemma get_map2 {K} (f : K -> string) (g : K -> val) (l : list K) c0 :
  NoDup (map f l) -> In c0 l -> get (map f l) (map g l) (f c0) = g c0.
Proof. induction l as [|x t IH]; intros N I; [destruct I|]. simpl in N. inversion N as [|? ? Hx Nt]; subst.
  unfold get. simpl. destruct (eq_dec (f c0) (f x)) as [e|ne].
  - simpl. destruct I as [<-|I]; [reflexivity|]. exfalso. apply Hx. rewrite <- e. apply in_map. exact I.
  - destruct I as [<-|I]; [congruence|]. specialize (IH Nt I). unfold get in IH.
    destruct (index_of (f c0) (map f t)) as [j|]; simpl; exact IH. Qed.

Section ExampleBlocks.
  Variable A : recspec.
  Hypothesis HA : strict_spec A = true.
  Let FA := strict_spec_facts A HA.
  Let RK := rs_keys A. Let CK := rs_ctkeys A. Let CC := cols (rs_ct A). Let VC := value_cols A. Let ctrows := rows (rs_ct A).
  Let bc := block_columns A.
  Let rkrow : list val := rkcells RK.
  Let inp : table := mktable (RK ++ CC) (map (fun cr => rkrow ++ cr) ctrows).

  (* the example is the control table itself, behind the record-key cells; it does not depend on the output side *)
  Lemma exb_example o : example_input "" (mkmap (Some A) o true) = Some inp.
  Proof. unfold example_input. cbn [map_record_keys rm_in rm_out]. fold CC CK ctrows RK.
    assert (E : map (fun cr => map (fun c => if mem c CK then get CC cr c else VStr (val_str (get CC cr c) ++ "")) CC) ctrows = ctrows).
    { rewrite <- (map_id ctrows) at 2. apply map_ext_in. intros cr Hcr.
      transitivity (cells CC cr CC).
      - apply map_ext_in. intros c Hc. destruct (mem c CK) eqn:M; [reflexivity|]. apply mem_false in M.
        rewrite append_nil_r. apply str_nonempty_eta. apply (value_cell_str A cr c FA Hcr). apply value_cols_In. auto.
      - apply cells_self; [apply (sf_rows_len A FA); exact Hcr|apply (sf_cc_nodup A FA)]. }
    rewrite E. unfold inp, rkrow. destruct RK eqn:ER; [|reflexivity].
    cbn [map app cols rows]. rewrite map_id. destruct (rs_ct A); reflexivity. Qed.

  Lemma exb_cells_ck cr : cells (RK ++ CC) (rkrow ++ cr) CK = kap A cr.
  Proof. rewrite cells_app_r; [reflexivity| |apply rkcells_len]. intros c Hc Hr. exact (sf_rk_ck A FA c Hr Hc). Qed.

  Lemma exb_drop : drop_cols RK inp = Some (rs_ct A).
  Proof. unfold drop_cols. rewrite (proj2 (subset_spec RK (cols inp))) by (intros c Hc; apply in_app_iff; left; exact Hc).
    cbn [cols rows inp]. rewrite filter_app_disjoint_l by (intros c Hc Hr; exact (sf_rk_cc A FA c Hr Hc)).
    rewrite map_map. rewrite (map_ext_in _ (fun cr => cr)).
    - rewrite map_id. unfold CC, ctrows. destruct (rs_ct A); reflexivity.
    - intros cr Hcr. apply drop_row; [intros c Hc Hr; exact (sf_rk_cc A FA c Hr Hc)|apply rkcells_len|apply (sf_rows_len A FA); exact Hcr]. Qed.

  Lemma exb_two_rows : Nat.ltb (List.length (rows inp)) 2 = false.
  Proof. apply Nat.ltb_ge. cbn [rows inp]. rewrite map_length. apply (sf_two_rows A FA). Qed.

  Lemma exb_sub : subset (block_columns A) (cols inp) = true.
  Proof. apply subset_spec. intros c Hc. exact Hc. Qed.

  (* the example as row records: the one row blocks_to_rowrecs A makes of it *)
  Lemma exb_rows_form : exists X1, blocks_to_rowrecs A inp = Ok X1 /\ Permutation (cols X1) (row_columns A) /\
    keyed_by RK X1 = true /\
    exists x, rows X1 = [x] /\ cells (cols X1) x RK = rkrow /\ forall n, In n (cnames A) -> get (cols X1) x n = VStr n.
  Proof.
    pose proof (rkcells_len RK) as Lrk. fold rkrow in Lrk.
    assert (Nbc : NoDup bc) by (apply block_columns_nodup; exact FA).
    assert (Lrow : forall cr, In cr ctrows -> List.length (rkrow ++ cr) = List.length bc).
    { intros cr Hcr. unfold bc, block_columns. rewrite !app_length, Lrk. f_equal. apply (sf_rows_len A FA). exact Hcr. }
    destruct (b2r_char A FA unit (fun _ => rkrow) (fun _ cr => cells bc (rkrow ++ cr) VC) (fun _ cr => rkrow ++ cr) [tt] inp)
      as [G [rows' [HG [EB HP]]]].
    - cbn [flat_map]. rewrite app_nil_r. cbn [rows select_cols cols inp]. rewrite map_map. fold bc.
      apply Permutation_refl'. apply map_ext_in. intros cr Hcr. apply cells_self; [apply Lrow; exact Hcr|exact Nbc].
    - discriminate.
    - cbn [map]. constructor; [intros []|constructor].
    - intros x _. apply rkcells_ok.
    - intros x _. exact Lrk.
    - intros x cr _ Hcr. apply rkcells_front. apply (sf_rk_nodup A FA).
    - intros x cr _ Hcr. apply exb_cells_ck.
    - reflexivity.
    - cbn [map] in HP. apply Permutation_sym in HP. apply Permutation_length_1_inv in HP.
      set (V := fun cr => cells bc (rkrow ++ cr) VC) in *.
      assert (LV : forall cr, In cr G -> List.length (V cr) = List.length (nm A cr)) by (intros; unfold V; rewrite cells_length, nm_length; reflexivity).
      exists (mktable (rs_keys A ++ List.concat (map (nm A) G)) rows'). split; [exact EB|]. split; [apply (rowrec_cols_perm A FA G HG)|].
      subst rows'. split.
      + apply keyed_by_facts. constructor.
        * intros c Hc. cbn [cols]. apply in_app_iff. left. exact Hc.
        * intros r [<-|[]]. cbn [cols]. unfold RK. rewrite (rowrec_rk A FA G rkrow V Lrk). apply rkcells_ok.
        * cbn [rows map]. constructor; [intros []|constructor].
      + eexists. split; [reflexivity|]. cbn [cols]. split; [unfold RK; apply (rowrec_rk A FA G rkrow V Lrk)|].
        (* a name sits in some control row cr, in the cell of a value column c0 *)
        intros n InA. apply (Permutation_in _ (cnames_perm A)) in InA. apply in_flat_map in InA. destruct InA as [cr [Hcr Hn]].
        rewrite (rowrec_get A FA G HG rkrow V Lrk LV cr n Hcr Hn).
        unfold V, bc, block_columns. rewrite cells_app_r; [|intros c Hc Hr; apply value_cols_In in Hc; exact (sf_rk_cc A FA c Hr (proj1 Hc))|exact Lrk].
        unfold nm in Hn |- *. apply in_map_iff in Hn. destruct Hn as [c0 [<- Hc0]].
        unfold cells, VC. rewrite (get_map2 (fun c => val_str (get (cols (rs_ct A)) cr c)) (get (cols (rs_ct A)) cr) (value_cols A) c0);
          [|apply (nm_NoDup A cr FA Hcr)|exact Hc0].
        symmetry. apply str_nonempty_eta. apply value_cell_str; assumption.
  Qed.
End ExampleBlocks.

(* ------------------------------------------------------------------ compose on A -> B -> rows *)
Section ComposeBlocksRows.
  Variables A B : recspec.
  Hypothesis HA : strict_spec A = true.
  Hypothesis HB : strict_spec B = true.
  Hypothesis SR : same_records A B = true.
  Let s1 := mkmap (Some A) (Some B) true.
  Let s2 := mkmap (Some B) None true.

  Theorem compose_blocks_rows_ok : exists c, compose "" s2 s1 = CMap c /\ composite_ok (Some A) None c = true.
  Proof. pose proof (strict_spec_facts A HA) as FA. pose proof (strict_spec_facts B HB) as FB.
    destruct (exb_rows_form A HA) as [X1 [E1 [PX [KX [x [EX _]]]]]].
    pose proof (conforming_same_records A B X1 SR KX PX) as CB.
    destruct (roundtrip_rows B X1 HB CB) as [Y [z [F1 [F2 [PC PR]]]]].
    assert (T1 : transform s1 _ = Ok Y) by (eapply transform_steps; [apply (exb_sub A)|exact E1|exact F1]).
    assert (T2 : transform s2 Y = Ok z).
    { eapply transform_steps; [apply (perm_subset _ _ _ (r2b_result_cols B X1 Y FB F1)); auto|exact F2|reflexivity]. }
    (* the result has one row, and carries the record keys *)
    assert (Lz : Nat.ltb (List.length (rows z)) 2 = true).
    { apply Permutation_length in PR. simpl in PR. rewrite !map_length, EX in PR. rewrite PR. reflexivity. }
    assert (Subz : subset (rs_keys A) (cols z) = true).
    { destruct (same_records_facts A B SR) as [RKe _]. apply subset_spec. intros c Hc.
      apply (Permutation_in _ (Permutation_sym PC)). apply rk_in_rc. apply RKe. exact Hc. }
    exists (mkmap (Some A) None true). split.
    - unfold compose. unfold s1 at 1, s2 at 1. cbn [map_record_keys rm_in rm_out].
      rewrite (same_records_keys A B SR). cbn [negb]. unfold s1 at 1. rewrite (exb_example A HA). fold s1. rewrite T1. cbn [res_bind]. rewrite T2.
      rewrite (exb_drop A HA). unfold drop_cols at 1. rewrite Subz.
      unfold s1, s2. cbn [rm_strict rm_in rm_out andb]. rewrite (exb_two_rows A HA), Lz.
      rewrite (spec_facts_mk_spec A FA). rewrite (mk_map_blocks_to_rows A FA). reflexivity.
    - unfold composite_ok. cbn [rm_in rm_out rm_strict]. rewrite spec_eqb_refl. reflexivity.
  Qed.
End ComposeBlocksRows.

Theorem compose_sound_blocks_rows_full A B t :
  strict_spec A = true -> strict_spec B = true -> same_records A B = true -> complete_blocks A t = true ->
  exists c y z zc, compose "" (mkmap (Some B) None true) (mkmap (Some A) (Some B) true) = CMap c /\
    transform (mkmap (Some A) (Some B) true) t = Ok y /\ transform (mkmap (Some B) None true) y = Ok z /\
    transform c t = Ok zc /\ Permutation (cols zc) (cols z) /\ tbl_eqv z (select_cols (row_columns B) zc).
Proof. intros HA HB SR CT. destruct (compose_blocks_rows_ok A B HA HB SR) as [c [E OK]].
  destruct (compose_sound_blocks_rows "" A B t c HA HB SR CT E OK) as [y [z [zc [T1 [T2 [T3 [P EQ]]]]]]].
  exists c, y, z, zc. repeat (split; [assumption|]). assumption. Qed.

(* ------------------------------------------------------------------ compose on A -> B -> C *)
Section ComposeBlocksBlocks.
  Variables A B C : recspec.
  Hypothesis HA : strict_spec A = true.
  Hypothesis HB : strict_spec B = true.
  Hypothesis HC : strict_spec C = true.
  Hypothesis SAB : same_records A B = true.
  Hypothesis SBC : same_records B C = true.
  Hypothesis ERK : rs_keys A = rs_keys C.
  Let s1 := mkmap (Some A) (Some B) true.
  Let s2 := mkmap (Some B) (Some C) true.

  Theorem compose_blocks_blocks_ok : exists c, compose "" s2 s1 = CMap c /\ composite_ok (Some A) (Some C) c = true.
  Proof. pose proof (strict_spec_facts A HA) as FA. pose proof (strict_spec_facts C HC) as FC.
    destruct (exb_rows_form A HA) as [X1 [E1 [PX [KX [x [EX [Xrk Xget]]]]]]].
    destruct (same_records_facts A B SAB) as [_ CKab]. destruct (same_records_facts B C SBC) as [_ CKbc].
    pose proof (conforming_same_records A B X1 SAB KX PX) as CB.
    destruct (example_out B C HB HC SBC (rs_keys A) ERK X1 x _ CB EX Xrk) as [Y [Z [rso [F1 [T2 [LZ [D2 [Fso [SIM CN]]]]]]]]].
    { (* a name of C is a name of A *)
      intros n Hn. apply Xget. rewrite <- (content_keys_cnames A FA). apply CKab. apply CKbc.
      rewrite (content_keys_cnames C FC). exact Hn. }
    assert (T1 : transform s1 _ = Ok Y) by (eapply transform_steps; [apply (exb_sub A)|exact E1|exact F1]).
    set (so := mkspec (rs_keys A) rso (rs_ctkeys C) true) in *.
    assert (SRso : same_records A so = true).
    { unfold same_records, set_eqb. rewrite !andb_true_iff. repeat split; apply subset_spec; intros c Hc; try exact Hc.
      - rewrite (content_keys_cnames so Fso). apply (Permutation_in _ (Permutation_sym CN)).
        rewrite <- (content_keys_cnames C FC). apply CKbc. apply CKab. exact Hc.
      - apply CKab. apply CKbc. rewrite (content_keys_cnames C FC). apply (Permutation_in _ CN). rewrite <- (content_keys_cnames so Fso). exact Hc. }
    assert (MS : mk_spec rso (rs_keys A) (Some (rs_ctkeys C)) true = Some so) by exact (spec_facts_mk_spec so Fso).
    exists (mkmap (Some A) (Some so) true). split.
    - unfold compose. unfold s1 at 1, s2 at 1. cbn [map_record_keys rm_in rm_out].
      rewrite (same_records_keys A B SAB). cbn [negb]. unfold s1 at 1. rewrite (exb_example A HA). fold s1. rewrite T1. cbn [res_bind].
      fold s2 in T2. rewrite T2. rewrite (exb_drop A HA), D2.
      unfold s1, s2. cbn [rm_strict rm_in rm_out andb]. rewrite (exb_two_rows A HA), (proj2 (Nat.ltb_ge _ _) LZ).
      rewrite (spec_facts_mk_spec A FA), MS.
      rewrite (mk_map_blocks_to_blocks A so FA Fso SRso). reflexivity.
    - unfold composite_ok. cbn [rm_in rm_out rm_strict]. rewrite spec_eqb_refl, (spec_facts_strict so Fso), SIM. reflexivity.
  Qed.
End ComposeBlocksBlocks.

Theorem compose_sound_blocks_blocks_full A B C t :
  strict_spec A = true -> strict_spec B = true -> strict_spec C = true ->
  same_records A B = true -> same_records B C = true -> rs_keys A = rs_keys C -> complete_blocks A t = true ->
  exists c y z zc, compose "" (mkmap (Some B) (Some C) true) (mkmap (Some A) (Some B) true) = CMap c /\
    transform (mkmap (Some A) (Some B) true) t = Ok y /\ transform (mkmap (Some B) (Some C) true) y = Ok z /\
    transform c t = Ok zc /\ tbl_eqv zc z.
Proof. intros HA HB HC SAB SBC ERK CT. destruct (compose_blocks_blocks_ok A B C HA HB HC SAB SBC ERK) as [c [E OK]].
  destruct (compose_sound_blocks_blocks "" A B C t c HA HB HC SAB SBC CT E OK) as [y [z [zc [T1 [T2 [T3 EQ]]]]]].
  exists c, y, z, zc. repeat (split; [assumption|]). assumption. Qed.
