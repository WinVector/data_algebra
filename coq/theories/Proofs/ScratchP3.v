(* C15, part B: the natural join step (on_a = on_b = on).  pexec_join with scratch names outside the user's names = plain_join.
   pandas.merge gives the left frame, then the scratch key columns appended to both inputs, then the right frame's non-key
   columns under a renaming (`merged`, `merge_scratch`); the scratch columns are deleted again; the loop after the merge is
   characterised by its columns and lookups (`coalesce_spec`), which determine a frame with distinct columns (`frame_ext`). *)
From Coq Require Import List Bool String .
Import ListNotations.
From DA Require Import Base.PyRT Model.ScratchNames Model.ScratchRename Proofs.ScratchP1 Proofs.ScratchP2 Proofs.ListP Proofs.TabP.
Local Open Scope list_scope.

(* common: the columns present on both sides -- the only ones pandas.merge ever suffixes *)
Record good_join (sn : pnames) (common u : list string) : Prop := mkgj {
  gj_merge : ~ In (n_merge sn) u;
  gj_right : forall c, In c common -> ~ In (n_right sn c) u;
  gj_right_merge : forall c, In c common -> n_right sn c <> n_merge sn;
  gj_nullkey : ~ In (n_nullkey sn) u;
  gj_right_nullkey : forall c, In c common -> n_right sn c <> n_nullkey sn;
  gj_merge_nullkey : n_merge sn <> n_nullkey sn;
  gj_inj : forall a b, In a common -> In b common -> n_right sn a = n_right sn b -> a = b }.

Lemma nodupb_NoDup l : nodupb l = true <-> NoDup l.
Proof.
  induction l as [|x t IH]; simpl; [split; [constructor|reflexivity]|].
  rewrite andb_true_iff, negb_true_iff, IH, mem_false. split; [intros [H1 H2]; constructor; assumption|intros H; inversion H; tauto].
Qed.

Lemma filter_remove_elem n ns (l : list string) :
  filter (fun x => negb (mem x ns)) (remove_elem n l) = filter (fun x => negb (mem x (n :: ns))) l.
Proof.
  unfold remove_elem. induction l as [|y l IH]; simpl; [reflexivity|]. unfold eqb at 1.
  destruct (eq_dec n y) as [<-|ne]; simpl.
  - destruct (eq_dec n n); [exact IH|congruence].
  - destruct (eq_dec y n); [congruence|]. destruct (mem y ns); simpl; rewrite IH; reflexivity.
Qed.

Lemma filter_map_filter {X} (r : X -> X) (p q p' : X -> bool) l :
  (forall n, In n l -> p' n = p n && q (r n)) -> (forall n, In n l -> p' n = true -> r n = n) -> filter q (map r (filter p l)) = filter p' l.
Proof.
  induction l as [|n l IH]; intros H1 H2; [reflexivity|].
  specialize (IH (fun m Hm => H1 m (or_intror Hm)) (fun m Hm => H2 m (or_intror Hm))).
  specialize (H1 n (or_introl eq_refl)). specialize (H2 n (or_introl eq_refl)). simpl.
  destruct (p n); simpl; [|rewrite H1; exact IH].
  destruct (q (r n)); simpl in H1; rewrite H1; [|exact IH]. rewrite (H2 H1), IH. reflexivity.
Qed.

Section FrameExt.
  Context {A : Type}.
  Implicit Types F G : frame A.

  Lemma frame_ext F G : fcols F = fcols G -> NoDup (fcols F) -> (forall c, In c (fcols F) -> fget F c = fget G c) -> F = G.
  Proof.
    revert G. induction F as [|[k a] t IH]; intros [|[k' b] t'] E N H; simpl in *; try discriminate; [reflexivity|].
    inversion E; subst. inversion N as [|x l Hx N']; subst.
    assert (Ha : a = b). { specialize (H k' (or_introl eq_refl)). unfold fget in H. simpl in H. destruct (eq_dec k' k'); [inversion H; reflexivity|congruence]. }
    subst b. f_equal. apply IH; [assumption|assumption|].
    intros c Hc. specialize (H c (or_intror Hc)). unfold fget in H. simpl in H.
    destruct (eq_dec c k') as [->|n]; [contradiction|exact H].
  Qed.

  Lemma fget_map_keep (h : string * A -> A) F c : fget (map (fun na => (fst na, h na)) F) c = option_map (fun a => h (c, a)) (fget F c).
  Proof. unfold fget. induction F as [|[k a] t IH]; simpl; [reflexivity|]. destruct (eq_dec c k) as [->|n]; [reflexivity|exact IH]. Qed.

  Lemma fcols_map_keep (h : string * A -> A) F : fcols (map (fun na => (fst na, h na)) F) = fcols F.
  Proof. unfold fcols. rewrite map_map. reflexivity. Qed.

  Lemma fget_filter (p : string -> bool) F c : fget (filter (fun na => p (fst na)) F) c = if p c then fget F c else None.
  Proof.
    unfold fget. induction F as [|[k a] t IH]; simpl; [destruct (p c); reflexivity|].
    destruct (p k) eqn:Pk; simpl.
    - destruct (eq_dec c k) as [->|n]; [rewrite Pk; reflexivity|exact IH].
    - destruct (eq_dec c k) as [->|n]; [rewrite Pk in IH |- *; exact IH|exact IH].
  Qed.

  (* lookups through a renaming of the keys that is injective on the keys in play *)
  Lemma fget_rename_frame (r : string -> string) F c :
    (forall k, In k (fcols F) -> r k = r c -> k = c) -> fget (rename_frame r F) (r c) = fget F c.
  Proof.
    unfold fget, fcols, rename_frame. induction F as [|[k a] t IH]; simpl; intros H; [reflexivity|].
    destruct (eq_dec (r c) (r k)) as [e|n].
    - assert (k = c) by (apply H; [left; reflexivity|symmetry; exact e]). subst k. destruct (eq_dec c c); [reflexivity|congruence].
    - destruct (eq_dec c k) as [->|n2]; [congruence|]. apply IH. intros k0 Hk. apply H. right. exact Hk.
  Qed.

  Lemma fcols_rename_frame (r : string -> string) F : fcols (rename_frame r F) = map r (fcols F).
  Proof. unfold rename_frame, fcols. rewrite !map_map. reflexivity. Qed.

  Lemma rename_frame_ext (r r' : string -> string) F : (forall c, In c (fcols F) -> r c = r' c) -> rename_frame r F = rename_frame r' F.
  Proof. intros H. apply map_ext_in. intros na I. rewrite (H (fst na)) by (apply in_map, I). reflexivity. Qed.

  Lemma fget_map_rename_absent (r : string -> string) (h : string * A -> A) F x :
    (forall k, In k (fcols F) -> r k <> x) -> fget (map (fun na => (r (fst na), h na)) F) x = None.
  Proof.
    intros H. apply fget_None. unfold fcols. rewrite map_map. simpl. intros I. apply in_map_iff in I. destruct I as [[k a] [E I]]. simpl in E.
    apply (H k); [|exact E]. unfold fcols. apply in_map_iff. exists (k, a). split; [reflexivity|exact I].
  Qed.

  Lemma fget_Some_In F c a : fget F c = Some a -> In c (fcols F).
  Proof. apply dict_get_Some_keys. Qed.
  Lemma fget_In_Some F c : In c (fcols F) -> exists a, fget F c = Some a.
  Proof. intros I. destruct (fget F c) as [a|] eqn:E; [exists a; reflexivity|]. apply fget_None in E. contradiction. Qed.

  Lemma fcols_fdel F c : fcols (fdel F c) = remove_elem c (fcols F).
  Proof. apply dict_keys_pop. Qed.
  Lemma fget_fdel F c x : fget (fdel F c) x = if eq_dec x c then None else fget F x.
  Proof. apply dict_get_pop. Qed.

  Lemma freads_In F cs ks : freads F cs = Some ks -> forall c, In c cs -> In c (fcols F).
  Proof.
    unfold freads. revert ks. induction cs as [|c t IH]; simpl; intros ks E x Hx; [contradiction|].
    destruct (fget F c) as [a|] eqn:Ec; [|discriminate]. destruct (all_some (map (fget F) t)) as [r|] eqn:Et; [|discriminate].
    destruct Hx as [<-|Hx]; [apply (fget_Some_In F c a Ec)|apply (IH r eq_refl x Hx)].
  Qed.

  Lemma freads_app F a b :
    freads F (a ++ b) = match freads F a, freads F b with Some x, Some y => Some (x ++ y) | _, _ => None end.
  Proof.
    unfold freads. induction a as [|c t IH]; simpl; [destruct (all_some (map (fget F) b)); reflexivity|].
    destruct (fget F c); [|reflexivity]. rewrite map_app in *. rewrite IH.
    destruct (all_some (map (fget F) t)); [|reflexivity]. destruct (all_some (map (fget F) b)); reflexivity.
  Qed.

  Lemma freads_own F : NoDup (fcols F) -> freads F (fcols F) = Some (map snd F).
  Proof.
    unfold freads, fcols. induction F as [|[k a] t IH]; simpl; intros N; [reflexivity|]. inversion N as [|x l Hx N']; subst.
    unfold fget at 1. simpl. destruct (eq_dec k k); [|congruence].
    assert (E : map (fget ((k, a) :: t)) (map fst t) = map (fget t) (map fst t)).
    { apply map_ext_in. intros c Hc. unfold fget. simpl. destruct (eq_dec c k) as [->|n]; [contradiction|reflexivity]. }
    rewrite E, (IH N'). reflexivity.
  Qed.

  Lemma freads_scratch F G cs ks :
    freads F cs = Some ks -> NoDup (fcols G) -> (forall c, In c (fcols G) -> ~ In c (fcols F)) ->
    freads (F ++ G) (cs ++ fcols G) = Some (ks ++ map snd G).
  Proof.
    intros E N D. rewrite freads_app, (freads_ext (F ++ G) F cs), E, (freads_ext (F ++ G) G (fcols G)), (freads_own G N); [reflexivity| |].
    - intros c Hc. apply fget_app_r, D, Hc.
    - intros c Hc. rewrite fget_app. destruct (fget_In_Some F c (freads_In F cs ks E c Hc)) as [a ->]. reflexivity.
  Qed.

  Lemma fold_fdel_app_r ns : forall F G, (forall n, In n ns -> ~ In n (fcols G)) -> fold_left fdel ns (F ++ G) = fold_left fdel ns F ++ G.
  Proof.
    induction ns as [|n t IH]; intros F G H; simpl; [reflexivity|].
    rewrite fdel_app, (fdel_absent G n) by (apply H; left; reflexivity). apply IH. intros m Hm. apply H. right. exact Hm.
  Qed.

  Lemma erase_all S F : (forall c, In c (fcols F) -> In c S) -> erase S F = [].
  Proof.
    induction F as [|[k a] t IH]; simpl; intros H; [reflexivity|]. rewrite (proj2 (mem_In k S) (H k (or_introl eq_refl))). simpl.
    apply IH. intros c Hc. apply H. right. exact Hc.
  Qed.

  Lemma erase_scratch S names F G : fcols G = names -> (forall n, In n names -> ~ In n (fcols F)) -> erase (S ++ names) (F ++ G) = erase S F.
  Proof.
    intros E D. rewrite erase_app, (erase_all (S ++ names) G), app_nil_r by (intros c Hc; apply in_or_app; right; rewrite <- E; exact Hc).
    apply filter_ext_in. intros [k a] Hk. simpl. rewrite mem_app.
    assert (M : mem k names = false) by (apply mem_false; intros H; apply (D k H), in_map_iff; exists (k, a); split; [reflexivity|exact Hk]).
    rewrite M, orb_false_r. reflexivity.
  Qed.
End FrameExt.

Definition shared {A} (lf rg : frame A) : list string := filter (fun c => mem c (fcols rg)) (fcols lf).

Section Join.
  Context {A : Type} (P : prims A) (sn : pnames).
  Let one : A := p_const P "1".
  Let nr := n_right sn.

  (* one round of the loop after the merge, the column itself being present: its suffixed copy, if there is one, is
     folded into it and deleted *)
  Lemma coalesce_round c t res : In c (fcols res) -> nr c <> c ->
    exists res2, coalesce_common P sn (c :: t) res = coalesce_common P sn t res2
      /\ fcols res2 = remove_elem (nr c) (fcols res)
      /\ forall y, y <> nr c ->
           fget res2 y = if eq_dec y c then match fget res (nr c), fget res c with Some b, Some a => Some (p_fillna P a b) | _, o => o end
                         else fget res y.
  Proof.
    intros Hc Ncr. destruct (fget_In_Some res c Hc) as [a Ea]. cbn [coalesce_common]. fold nr. rewrite Ea.
    destruct (mem (nr c) (fcols res)) eqn:M.
    - apply mem_In in M. destruct (fget_In_Some res (nr c) M) as [b Eb]. rewrite Eb. cbn [obind].
      exists (fdel (fset res c (p_fillna P a b)) (nr c)). split; [reflexivity|]. split.
      + rewrite fcols_fdel, fcols_fset, add_end_old by exact Hc. reflexivity.
      + intros y Hy. rewrite fget_fdel. destruct (eq_dec y (nr c)); [contradiction|].
        destruct (eq_dec y c) as [->|n2]; [apply fget_fset_same|apply fget_fset_other, n2].
    - apply mem_false in M. exists res. split; [reflexivity|]. split.
      + rewrite <- fcols_fdel, fdel_absent by exact M. reflexivity.
      + intros y _. apply fget_None in M. rewrite M. destruct (eq_dec y c) as [->|]; [exact Ea|reflexivity].
  Qed.

  (* the loop, characterised by its columns and its lookups *)
  Lemma coalesce_spec cs : forall res,
    NoDup cs -> (forall c, In c cs -> In c (fcols res)) ->
    (forall a b, In a cs -> In b cs -> nr a = nr b -> a = b) -> (forall a b, In a cs -> In b cs -> nr a <> b) ->
    exists res', coalesce_common P sn cs res = Some res'
      /\ fcols res' = filter (fun x => negb (mem x (map nr cs))) (fcols res)
      /\ forall x, ~ In x (map nr cs) ->
           fget res' x = match (if mem x cs then fget res (nr x) else None), fget res x with Some b, Some a => Some (p_fillna P a b) | _, o => o end.
  Proof.
    induction cs as [|c t IH]; intros res N Hc Hinj Hsep.
    - exists res. split; [reflexivity|]. split; [symmetry; apply filter_all; reflexivity|reflexivity].
    - inversion N as [|x l Hx N']; subst.
      destruct (coalesce_round c t res (Hc c (or_introl eq_refl)) (Hsep c c (or_introl eq_refl) (or_introl eq_refl))) as [res2 [E [C2 G2]]].
      destruct (IH res2 N') as [res' [E1 [E2 E3]]].
      + intros c' H'. rewrite C2. apply In_remove_elem. split; [apply Hc; right; exact H'|].
        intros E'. apply (Hsep c c'); [left; reflexivity|right; exact H'|symmetry; exact E'].
      + intros a b Ha Hb. apply Hinj; right; assumption.
      + intros a b Ha Hb. apply Hsep; right; assumption.
      + exists res'. rewrite E. split; [exact E1|]. split; [rewrite E2, C2; apply filter_remove_elem|].
        intros x Nx. simpl in Nx. assert (Nx1 : x <> nr c) by (intros ->; apply Nx; left; reflexivity).
        rewrite (E3 x (fun H => Nx (or_intror H))), (G2 x Nx1). cbn [mem].
        destruct (eq_dec x c) as [->|n2]; [rewrite (proj2 (mem_false c t) Hx); reflexivity|].
        destruct (mem x t) eqn:Mt; [|reflexivity]. apply mem_In in Mt. rewrite G2.
        * destruct (eq_dec (nr x) c) as [e|_]; [|reflexivity]. exfalso. apply (Hsep x c); [right; exact Mt|left; reflexivity|exact e].
        * intros e. apply n2, Hinj; [right; exact Mt|left; reflexivity|exact e].
  Qed.

  Definition ren (lfc : list string) (n : string) : string := if mem n lfc then nr n else n.

  Section Merge.
    Context (lf rg : frame A) (Nl : NoDup (fcols lf)) (Nr : NoDup (fcols rg)).
    Context (Gr : forall c, In c (shared lf rg) -> ~ In (nr c) (fcols lf ++ fcols rg)).
    Context (Ginj : forall a b, In a (shared lf rg) -> In b (shared lf rg) -> nr a = nr b -> a = b).

    Lemma shared_In c : In c (fcols lf) -> In c (fcols rg) -> In c (shared lf rg).
    Proof. intros H1 H2. apply filter_In. split; [exact H1|apply mem_In, H2]. Qed.

    Lemma ren_shared c : In c (shared lf rg) -> ren (fcols lf) c = nr c.
    Proof. intros H. apply filter_In in H. unfold ren. rewrite (proj2 (mem_In c (fcols lf)) (proj1 H)). reflexivity. Qed.

    (* the renaming of the right columns never lands on a left column, and is injective on the right columns *)
    Lemma ren_out n : In n (fcols rg) -> ~ In (ren (fcols lf) n) (fcols lf).
    Proof.
      intros Hn. unfold ren. destruct (mem n (fcols lf)) eqn:M; [|apply mem_false, M].
      apply mem_In in M. intros H. apply (Gr n (shared_In n M Hn)), in_or_app. left. exact H.
    Qed.

    Lemma ren_inj a b : In a (fcols rg) -> In b (fcols rg) -> ren (fcols lf) a = ren (fcols lf) b -> a = b.
    Proof.
      intros Ha Hb. unfold ren. destruct (mem a (fcols lf)) eqn:Ma, (mem b (fcols lf)) eqn:Mb; intros E.
      - apply mem_In in Ma, Mb. apply Ginj; [apply shared_In; assumption|apply shared_In; assumption|exact E].
      - apply mem_In in Ma. exfalso. apply (Gr a (shared_In a Ma Ha)), in_or_app. right. rewrite E. exact Hb.
      - apply mem_In in Mb. exfalso. apply (Gr b (shared_In b Mb Hb)), in_or_app. right. rewrite <- E. exact Ha.
      - exact E.
    Qed.

    Lemma nr_shared_out x : In x (fcols lf ++ fcols rg) -> ~ In x (map nr (shared lf rg)).
    Proof. intros Hx H. apply in_map_iff in H. destruct H as [c [<- Hc]]. exact (Gr c Hc Hx). Qed.

    Context (how : string) (ka kb : list A) (on : list string).

    (* what pandas.merge returns, scratch key columns aside *)
    Definition right_part : frame A := rename_frame (ren (fcols lf)) (fmapc (p_merge_right P how ka kb) (erase on rg)).
    Definition merged : frame A := fmapc (p_merge_left P how ka kb) lf ++ right_part.
    (* the result of plain_join for these keys *)
    Definition joined : frame A :=
      map (fun na => (fst na,
                      match (if negb (mem (fst na) on) then fget rg (fst na) else None) with
                      | Some b => p_fillna P (p_merge_left P how ka kb (snd na)) (p_merge_right P how ka kb b)
                      | None => p_merge_left P how ka kb (snd na)
                      end)) lf
      ++ fmapc (p_merge_right P how ka kb) (erase (fcols lf) rg).

    Lemma right_cols : fcols right_part = map (ren (fcols lf)) (filter (fun c => negb (mem c on)) (fcols rg)).
    Proof. unfold right_part. rewrite fcols_rename_frame, fcols_fmapc, fcols_erase. reflexivity. Qed.

    Lemma right_NoDup : NoDup (fcols right_part).
    Proof.
      rewrite right_cols. apply NoDup_map_inj_on; [apply NoDup_filter, Nr|].
      intros a b Ha Hb. apply filter_In in Ha, Hb. apply ren_inj; tauto.
    Qed.

    Lemma right_not_left x : In x (fcols right_part) -> ~ In x (fcols lf).
    Proof. rewrite right_cols. intros H. apply in_map_iff in H. destruct H as [n [<- Hn]]. apply filter_In in Hn. apply ren_out. tauto. Qed.

    Lemma merged_cols : fcols merged = fcols lf ++ fcols right_part.
    Proof. unfold merged. rewrite fcols_app, fcols_fmapc. reflexivity. Qed.

    Lemma merged_NoDup : NoDup (fcols merged).
    Proof. rewrite merged_cols. apply NoDup_app_iff; repeat split; [exact Nl|exact right_NoDup|]. intros x Hx H. exact (right_not_left x H Hx). Qed.

    Lemma merged_left x : In x (fcols lf) -> fget merged x = option_map (p_merge_left P how ka kb) (fget lf x).
    Proof. intros H. unfold merged. rewrite fget_app, fget_fmapc. destruct (fget_In_Some lf x H) as [a ->]. reflexivity. Qed.

    Lemma merged_right x : In x (fcols rg) ->
      fget merged (ren (fcols lf) x) = option_map (p_merge_right P how ka kb) (if negb (mem x on) then fget rg x else None).
    Proof.
      intros H. unfold merged. rewrite fget_app_r by (rewrite fcols_fmapc; apply ren_out, H).
      unfold right_part. rewrite fget_rename_frame, fget_fmapc.
      - f_equal. apply (fget_filter (fun c => negb (mem c on))).
      - intros k Hk. rewrite fcols_fmapc, fcols_erase in Hk. apply filter_In in Hk. apply ren_inj; tauto.
    Qed.

    Lemma joined_cols : fcols joined = fcols lf ++ filter (fun c => negb (mem c (fcols lf))) (fcols rg).
    Proof. unfold joined. rewrite fcols_app, fcols_map_keep, fcols_fmapc, fcols_erase. reflexivity. Qed.

    Lemma coalesce_merged : (forall c, In c on -> In c (fcols lf)) -> coalesce_common P sn (shared lf rg) merged = Some joined.
    Proof.
      intros Hon. destruct (coalesce_spec (shared lf rg) merged) as [res [E1 [E2 E3]]].
      - apply NoDup_filter, Nl.
      - intros c Hc. rewrite merged_cols. apply in_or_app. left. apply filter_In in Hc. tauto.
      - exact Ginj.
      - intros a b Ha Hb E. apply (Gr a Ha). rewrite E. apply in_or_app. left. apply filter_In in Hb. tauto.
      - rewrite E1. f_equal.
        assert (C : fcols res = fcols joined).
        { rewrite E2, merged_cols, joined_cols, filter_app, right_cols. f_equal.
          - apply filter_all. intros x Hx. apply negb_true_iff, mem_false, nr_shared_out, in_or_app. left. exact Hx.
          - apply filter_map_filter; intros n Hn; unfold ren; destruct (mem n (fcols lf)) eqn:Ml; simpl; try reflexivity; try discriminate.
            + apply mem_In in Ml. rewrite (proj2 (mem_In (nr n) _) (in_map nr _ n (shared_In n Ml Hn))). symmetry. apply andb_false_r.
            + rewrite (proj2 (mem_false n on)) by (intros H; apply mem_false in Ml; apply Ml, Hon, H).
              rewrite (proj2 (mem_false n _) (nr_shared_out n (in_or_app _ _ n (or_intror Hn)))). reflexivity. }
        apply frame_ext; [exact C|rewrite E2; apply NoDup_filter, merged_NoDup|].
        intros x Hx. rewrite C, joined_cols in Hx. unfold joined. apply in_app_or in Hx. destruct Hx as [Hx|Hx].
        + (* a left column *)
          rewrite E3, (merged_left x Hx) by (apply nr_shared_out, in_or_app; left; exact Hx).
          destruct (fget_In_Some lf x Hx) as [a Ea]. rewrite fget_app, fget_map_keep, Ea. cbn [option_map fst snd].
          destruct (mem x (shared lf rg)) eqn:Mc.
          * apply mem_In in Mc. rewrite <- (ren_shared x Mc), merged_right by (apply filter_In in Mc; apply mem_In; tauto).
            destruct (if negb (mem x on) then fget rg x else None); reflexivity.
          * assert (Er : fget rg x = None) by (apply fget_None; intros H; apply mem_false in Mc; apply Mc, shared_In; assumption).
            rewrite Er. destruct (negb (mem x on)); reflexivity.
        + (* a right column that is not a left column *)
          apply filter_In in Hx. destruct Hx as [Hr Hl]. assert (Nx : ~ In x (fcols lf)) by (apply mem_false, negb_true_iff, Hl).
          rewrite E3 by (apply nr_shared_out, in_or_app; right; exact Hr).
          rewrite (proj2 (mem_false x (shared lf rg))) by (intros H; apply filter_In in H; tauto).
          pose proof (merged_right x Hr) as G. unfold ren in G. rewrite (proj2 (mem_false x (fcols lf)) Nx) in G.
          rewrite (proj2 (mem_false x on)) in G by (intros H; apply Nx, Hon, H). rewrite G.
          rewrite fget_app_r, fget_fmapc by (rewrite fcols_map_keep; exact Nx).
          unfold erase. rewrite (fget_filter (fun c => negb (mem c (fcols lf)))), Hl. reflexivity.
    Qed.

    (* a scratch key column: not a user column, not the suffixed name of a shared column *)
    Definition okname (n : string) : Prop := ~ In n (fcols lf ++ fcols rg) /\ forall c, In c (shared lf rg) -> nr c <> n.

    (* scratch key columns appended to both inputs and to the keys come out of the merge after the left columns;
       deleting them leaves the merged frame *)
    Lemma merge_scratch names (Ta Tb : frame A) :
      fcols Ta = names -> fcols Tb = names -> NoDup names -> Forall okname names ->
      exists res, pd_merge P nr how (on ++ names) ka kb (lf ++ Ta) (rg ++ Tb) = Some res /\ fold_left fdel names res = merged.
    Proof.
      intros Ea Eb NS OK. rewrite Forall_forall in OK.
      assert (Nlf : forall n, In n names -> ~ In n (fcols lf)) by (intros n Hn H; apply (proj1 (OK n Hn)), in_or_app; left; exact H).
      assert (Nrg : forall n, In n names -> ~ In n (fcols rg)) by (intros n Hn H; apply (proj1 (OK n Hn)), in_or_app; right; exact H).
      assert (Nrp : forall n, In n names -> ~ In n (fcols right_part)).
      { intros n Hn H. rewrite right_cols in H. apply in_map_iff in H. destruct H as [k [E Hk]]. apply filter_In in Hk. destruct Hk as [Hk _].
        unfold ren in E. destruct (mem k (fcols lf)) eqn:Mk; [apply mem_In in Mk; exact (proj2 (OK n Hn) k (shared_In k Mk Hk) E)|].
        subst k. exact (Nrg n Hn Hk). }
      assert (Out : pd_merge P nr how (on ++ names) ka kb (lf ++ Ta) (rg ++ Tb)
                    = let out := (fmapc (p_merge_left P how ka kb) lf ++ fmapc (p_merge_left P how ka kb) Ta) ++ right_part in
                      if nodupb (fcols out) then Some out else None).
      { unfold pd_merge. fold (erase (on ++ names) (rg ++ Tb)). rewrite (erase_scratch on names rg Tb Eb Nrg).
        rewrite map_app. cbv zeta. unfold right_part.
        rewrite <- (rename_frame_ext (fun n => if mem n (fcols (lf ++ Ta)) then nr n else n) (ren (fcols lf))).
        - unfold rename_frame, fmapc. rewrite map_map. reflexivity.
        - intros c Hc. rewrite fcols_fmapc, fcols_erase in Hc. apply filter_In in Hc. unfold ren. rewrite fcols_app, mem_app, Ea.
          rewrite (proj2 (mem_false c names)) by (intros H; apply (Nrg c H); tauto). rewrite orb_false_r. reflexivity. }
      rewrite Out. cbv zeta.
      assert (ND : nodupb (fcols ((fmapc (p_merge_left P how ka kb) lf ++ fmapc (p_merge_left P how ka kb) Ta) ++ right_part)) = true).
      { apply nodupb_NoDup. rewrite !fcols_app, !fcols_fmapc, Ea, <- app_assoc. apply NoDup_app_iff; repeat split; [exact Nl| |].
        - apply NoDup_app_iff; repeat split; [exact NS|exact right_NoDup|exact Nrp].
        - intros x Hx H. apply in_app_or in H. destruct H as [H|H]; [exact (Nlf x H Hx)|exact (right_not_left x H Hx)]. }
      rewrite ND. eexists. split; [reflexivity|].
      rewrite fold_fdel_app_r by exact Nrp. unfold merged. f_equal.
      rewrite <- Ea, <- (fcols_fmapc (p_merge_left P how ka kb) Ta). apply fold_fdel_appended; rewrite fcols_fmapc, Ea; [exact NS|].
      intros n Hn. rewrite fcols_fmapc. exact (Nlf n Hn).
    Qed.

    Lemma join_with_scratch names (Ta Tb : frame A) :
      fcols Ta = names -> fcols Tb = names -> NoDup names -> Forall okname names -> (forall c, In c on -> In c (fcols lf)) ->
      obind (pd_merge P nr how (on ++ names) ka kb (lf ++ Ta) (rg ++ Tb))
            (fun res => coalesce_common P sn (shared lf rg) (fold_left fdel names res)) = Some joined.
    Proof.
      intros Ea Eb NS OK Hon. destruct (merge_scratch names Ta Tb Ea Eb NS OK) as [res [E1 E2]]. rewrite E1. cbn [obind]. rewrite E2.
      apply coalesce_merged, Hon.
    Qed.
  End Merge.

  Theorem join_no_capture how on nullkeys lf rg u :
    NoDup (fcols lf) -> NoDup (fcols rg) -> (forall x, In x (fcols lf ++ fcols rg) -> In x u) ->
    good_join sn (filter (fun c => mem c (fcols rg)) (fcols lf)) u ->
    pexec_join P sn how on nullkeys lf rg = plain_join P how on nullkeys lf rg.
  Proof.
    intros Nl Nr U [Gm Gr Grm Gnk Grnk Gmnk Ginj]. fold (shared lf rg) in Gr, Grm, Grnk, Ginj.
    assert (Gr' : forall c, In c (shared lf rg) -> ~ In (nr c) (fcols lf ++ fcols rg)) by (intros c Hc H; exact (Gr c Hc (U _ H))).
    assert (Om : okname lf rg (n_merge sn)) by (split; [intros H; exact (Gm (U _ H))|exact Grm]).
    assert (Ok : okname lf rg (n_nullkey sn)) by (split; [intros H; exact (Gnk (U _ H))|exact Grnk]).
    assert (Mlf : ~ In (n_merge sn) (fcols lf)) by (intros H; apply (proj1 Om), in_or_app; left; exact H).
    assert (Mrg : ~ In (n_merge sn) (fcols rg)) by (intros H; apply (proj1 Om), in_or_app; right; exact H).
    assert (Klf : ~ In (n_nullkey sn) (fcols lf)) by (intros H; apply (proj1 Ok), in_or_app; left; exact H).
    assert (Krg : ~ In (n_nullkey sn) (fcols rg)) by (intros H; apply (proj1 Ok), in_or_app; right; exact H).
    assert (N1 : forall n : string, NoDup [n]) by (intros n; constructor; [intros []|constructor]).
    assert (N2 : NoDup [n_merge sn; n_nullkey sn]) by (constructor; [intros [H|[]]; exact (Gmnk (eq_sym H))|apply N1]).
    assert (R1 : forall (F : frame A) n a, ~ In n (fcols F) -> freads (F ++ [(n, a)]) [n] = Some [a]).
    { intros F n a H. apply (freads_scratch F [(n, a)] [] [] eq_refl (N1 n)). intros c [<-|[]]. exact H. }
    assert (R2 : forall (F : frame A) a b, ~ In (n_merge sn) (fcols F) -> ~ In (n_nullkey sn) (fcols F) ->
                 freads (F ++ [(n_merge sn, a); (n_nullkey sn, b)]) [n_merge sn; n_nullkey sn] = Some [a; b]).
    { intros F a b H1 H2. apply (freads_scratch F [(n_merge sn, a); (n_nullkey sn, b)] [] [] eq_refl N2). intros c [<-|[<-|[]]]; assumption. }
    assert (R3 : forall (F : frame A) cs ks b, freads F cs = Some ks -> ~ In (n_nullkey sn) (fcols F) ->
                 freads (F ++ [(n_nullkey sn, b)]) (cs ++ [n_nullkey sn]) = Some (ks ++ [b])).
    { intros F cs ks b E H. apply (freads_scratch F [(n_nullkey sn, b)] cs ks E (N1 _)). intros c [<-|[]]. exact H. }
    unfold pexec_join, plain_join. fold one. fold (shared lf rg). destruct on as [|o1 os]; cbn iota beta.
    - (* no key: a scratch key of ones *)
      rewrite !(fset_absent _ (n_merge sn)), !R1 by assumption. cbn [obind].
      destruct nullkeys; cbn iota beta.
      + rewrite !(fset_absent _ (n_nullkey sn)) by (rewrite fcols_app, in_app_iff; intros [H|[H|[]]]; [contradiction|exact (Gmnk H)]).
        rewrite <- !app_assoc. cbn [app]. rewrite !R2 by assumption. cbn [obind].
        exact (join_with_scratch lf rg Nl Nr Gr' Ginj how _ _ [] [n_merge sn; n_nullkey sn]
                 [(n_merge sn, one); (n_nullkey sn, p_nullmark_left P [one])] [(n_merge sn, one); (n_nullkey sn, p_nullmark_right P [one])] eq_refl eq_refl N2
                 (Forall_cons _ Om (Forall_cons _ Ok (Forall_nil _))) (fun c (H : In c []) => match H with end)).
      + rewrite !R1 by assumption. cbn [obind].
        exact (join_with_scratch lf rg Nl Nr Gr' Ginj how _ _ [] [n_merge sn] [(n_merge sn, one)] [(n_merge sn, one)] eq_refl eq_refl (N1 _)
                 (Forall_cons _ Om (Forall_nil _)) (fun c (H : In c []) => match H with end)).
    - (* keys *)
      destruct (freads lf (o1 :: os)) as [ka1|] eqn:Ka; cbn [obind]; [|reflexivity].
      destruct (freads rg (o1 :: os)) as [kb1|] eqn:Kb; cbn [obind]; [|reflexivity].
      pose proof (freads_In lf (o1 :: os) ka1 Ka) as Hon.
      destruct nullkeys; cbn iota beta.
      + rewrite !(fset_absent _ (n_nullkey sn)) by assumption. rewrite (R3 lf _ _ _ Ka Klf), (R3 rg _ _ _ Kb Krg). cbn [obind].
        exact (join_with_scratch lf rg Nl Nr Gr' Ginj how _ _ (o1 :: os) [n_nullkey sn]
                 [(n_nullkey sn, p_nullmark_left P ka1)] [(n_nullkey sn, p_nullmark_right P kb1)] eq_refl eq_refl (N1 _)
                 (Forall_cons _ Ok (Forall_nil _)) Hon).
      + rewrite Ka, Kb. cbn [obind fold_left].
        pose proof (join_with_scratch lf rg Nl Nr Gr' Ginj how ka1 kb1 (o1 :: os) [] [] [] eq_refl eq_refl (NoDup_nil _) (Forall_nil _) Hon) as J.
        rewrite !app_nil_r in J. exact J.
  Qed.
End Join.
