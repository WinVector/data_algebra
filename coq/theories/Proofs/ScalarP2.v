(* C05 -- the numpy / pandas primitives compute the documented value *)
From Coq Require Import List Bool Qround Qabs Qpower String Lia Lqa.
Import ListNotations.
From DA Require Import Model.Scalar Model.SqlTemplates Model.ScalarBackends Model.ScalarCatalog Model.ScalarIndex Proofs.ScalarP0 Proofs.ScalarP1 Proofs.ScalarP1d.
Local Open Scope string_scope.

Section NP.
Variable mf : string -> Q -> option Q.
Variable mf2 : string -> Q -> Q -> option Q.

Definition documented_np (m : string) (guard : list sval -> bool) : Prop :=
  forall args r, guard args = true -> spec_method mf mf2 m args = Some r ->
    exists r', np_eval mf mf2 m args = Some r' /\ sv_eqv r' r.

Ltac np2case H args := destruct args as [|x [|y [|z l]]]; [junk H | junk H | destruct x, y; solve_val H | junk H].
Ltac np1case H args := destruct args as [|x [|y l]]; [junk H | destruct x; solve_val H | junk H].

(* a binary numeric method whose primitive propagates NaN and otherwise computes the documented total function g
   (g stays a variable, so its definition is never unfolded) *)
Lemma np2_total g a b r : lift2 (fun x y => Some (of_x (g x y))) a b = Some r ->
  exists r', np2 (nanprop2 (fun x y => Some (g x y))) [a; b] = Some r' /\ sv_eqv r' r.
Proof. intros H. destruct a, b; cbn in H; try discriminate H; inversion H; subst; cbn; finish. Qed.
Lemma np_add : documented_np "+" anyargs.
Proof. intros args r _ H. change (spec_method mf mf2 "+") with spec_add in H. arity2 H args. exact (np2_total xadd a b r H). Qed.
Lemma np_mul : documented_np "*" anyargs.
Proof. intros args r _ H. change (spec_method mf mf2 "*") with spec_mul in H. arity2 H args. exact (np2_total xmul a b r H). Qed.
Lemma np_sub : documented_np "-" anyargs.
Proof. intros args r _ H. change (spec_method mf mf2 "-") with spec_sub in H.
  destruct args as [|a [|b [|c l]]]; try discriminate H.
  - destruct a; solve_val H.
  - exact (np2_total xsub a b r H). Qed.
Lemma np_div : documented_np "/" anyargs.
Proof. intros args r _ H. change (spec_method mf mf2 "/") with spec_div in H. np2case H args. Qed.
Lemma np_fdiv : documented_np "%/%" anyargs.
Proof. intros args r _ H. change (spec_method mf mf2 "%/%") with spec_div in H. np2case H args. Qed.
Lemma np_floordiv : documented_np "//" anyargs.
Proof. intros args r _ H. change (spec_method mf mf2 "//") with spec_floordiv in H. np2case H args. Qed.
Lemma np_mod m : str_in m ["%"; "mod"; "remainder"] = true -> documented_np m anyargs.
Proof. intros M args r _ H. apply str_in_In in M. simpl in M.
  assert (spec_method mf mf2 m = spec_mod) as S by (destruct M as [<-|[<-|[<-|[]]]]; reflexivity). rewrite S in H.
  assert (np_eval mf mf2 m = np2 (nanprop2 (finfin (fun p q => if Qeq_bool q 0 then Some XNaN else Some (XFin (qpymod p q)))))) as E
    by (destruct M as [<-|[<-|[<-|[]]]]; reflexivity).
  rewrite E. clear E S M. arity2 H args.
  destruct a as [ | | |p| | | ], b as [ | | |q| | | ]; cbn in H; try discriminate H; try (inversion H; subst; cbn; finish).
  destruct (Qis_int p) eqn:Ip; [|discriminate H]. destruct (Qis_int q) eqn:Iq; [|discriminate H].
  destruct (Qle_bool 0 p) eqn:Lp; [|discriminate H]. destruct (Qlt_bool 0 q) eqn:Lq; [|discriminate H].
  cbn in H. inversion H; subst; clear H. cbn.
  destruct (Qeq_bool q 0) eqn:Z0; [exfalso; q_lra|]. cbn. eexists; split; [reflexivity|].
  apply sv_eqv_num. unfold qpymod, qmodZ, qfloor. apply floor_formula_is_mod; assumption. Qed.
Lemma np_pow : documented_np "**" anyargs.
Proof. intros args r _ H. change (spec_method mf mf2 "**") with (spec_pow mf2) in H. arity2 H args.
  unfold spec_pow in H.
  destruct a as [ | | |p| | | ], b as [ | | |q| | | ]; cbn in H; try discriminate H.
  all: try solve [solve_val H].
  destruct (qpow mf2 p q) as [v|] eqn:E; [|discriminate H]. cbn in H. inversion H; subst.
  cbn. rewrite (qpow_defined _ _ _ _ E), E. cbn. finish. Qed.

(* numpy answers a comparison with a NaN operand by False, and != by True *)
Definition np_nan_result (op : cmpop) : bool := match op with CNe => true | _ => false end.
Lemma np_cmp_ops m : str_in m cmp_names = true -> documented_np m anyargs.
Proof. intros I args r _ H. destruct (cmp_names_op m I) as [op L]. rewrite (cmp_ops_spec mf mf2 m op L) in H.
  assert (np_eval mf mf2 m = np_cmp (cmp_test op) (np_nan_result op)) as E.
  { apply lookup_In in L. simpl in L. repeat (destruct L as [L|L]; [inversion L; reflexivity|]). destruct L. }
  rewrite E. arity2 H args. unfold spec_cmp in H. unfold np_cmp.
  destruct (cmp3 a b) as [c|] eqn:C; [|discriminate H]. inversion H; subst; clear H.
  assert (missing a || missing b = false) as M. { destruct a, b; cbn in C; try discriminate C; reflexivity. }
  rewrite M, andb_false_r. cbn. finish. Qed.
Lemma np_and : documented_np "and" anyargs.
Proof. intros args r _ H. change (spec_method mf mf2 "and") with spec_and in H. arity2 H args.
  destruct a as [ | |x| | | | ], b as [ | |y| | | | ]; try discriminate H. inversion H; subst. cbn. finish. Qed.
Lemma np_or : documented_np "or" anyargs.
Proof. intros args r _ H. change (spec_method mf mf2 "or") with spec_or in H. arity2 H args.
  destruct a as [ | |x| | | | ], b as [ | |y| | | | ]; try discriminate H. inversion H; subst. cbn. finish. Qed.

Lemma np_abs : documented_np "abs" anyargs.
Proof. intros args r _ H. change (spec_method mf mf2 "abs") with spec_abs in H. np1case H args. Qed.
Lemma np_sign : documented_np "sign" anyargs.
Proof. intros args r _ H. change (spec_method mf mf2 "sign") with spec_sign in H. np1case H args. Qed.
Lemma np_floor : documented_np "floor" anyargs.
Proof. intros args r _ H. change (spec_method mf mf2 "floor") with spec_floor in H. np1case H args. Qed.
Lemma np_ceil : documented_np "ceil" anyargs.
Proof. intros args r _ H. change (spec_method mf mf2 "ceil") with spec_ceil in H. np1case H args. Qed.
Lemma np_round : documented_np "round" anyargs.
Proof. intros args r _ H. change (spec_method mf mf2 "round") with spec_round in H. arity1 H args.
  destruct a as [ | | |q| | | ]; cbn in H; try discriminate H; try (inversion H; subst; cbn; finish).
  destruct (qtie q) eqn:T; [discriminate H|]. inversion H; subst; clear H. cbn.
  rewrite (round_half_even_nearest _ T). finish. Qed.
Lemma np_maximum : documented_np "maximum" anyargs.
Proof. intros args r _ H. change (spec_method mf mf2 "maximum") with spec_maximum in H. arity2 H args. exact (np2_total xmax a b r H). Qed.
Lemma np_minimum : documented_np "minimum" anyargs.
Proof. intros args r _ H. change (spec_method mf mf2 "minimum") with spec_minimum in H. arity2 H args. exact (np2_total xmin a b r H). Qed.
Lemma np2_ignore g a b r : ignore_missing2 g a b = Some r -> exists r', np2 (np_ignore g) [a; b] = Some r' /\ sv_eqv r' r.
Proof. intros H. destruct a, b; cbn in H; try discriminate H; inversion H; subst; cbn; finish. Qed.
Lemma np_fmax : documented_np "fmax" anyargs.
Proof. intros args r _ H. change (spec_method mf mf2 "fmax") with spec_fmax in H. arity2 H args. exact (np2_ignore xmax a b r H). Qed.
Lemma np_fmin : documented_np "fmin" anyargs.
Proof. intros args r _ H. change (spec_method mf mf2 "fmin") with spec_fmin in H. arity2 H args. exact (np2_ignore xmin a b r H). Qed.
Lemma np_if_else : documented_np "if_else" anyargs.
Proof. intros args r _ H. change (spec_method mf mf2 "if_else") with spec_if_else in H. arity3 H args.
  destruct a as [ | |x| | | | ]; try discriminate H; [|destruct x]; inversion H; subst; cbn; finish. Qed.
Lemma np_where : documented_np "where" anyargs.
Proof. intros args r _ H. change (spec_method mf mf2 "where") with spec_where in H. arity3 H args.
  destruct a as [ | |x| | | | ]; try discriminate H; [|destruct x]; inversion H; subst; cbn; finish. Qed.
Lemma np_coalesce : documented_np "coalesce" anyargs.
Proof. intros args r _ H. change (spec_method mf mf2 "coalesce") with spec_coalesce in H. arity2 H args.
  destruct a; cbn in H; try discriminate H; inversion H; subst; cbn; finish. Qed.
Lemma np_is_null : documented_np "is_null" anyargs.
Proof. intros args r _ H. change (spec_method mf mf2 "is_null") with spec_is_null in H. np1case H args. Qed.
Lemma np_is_nan : documented_np "is_nan" anyargs.
Proof. intros args r _ H. change (spec_method mf mf2 "is_nan") with spec_is_nan in H. np1case H args. Qed.
Lemma np_is_inf : documented_np "is_inf" anyargs.
Proof. intros args r _ H. change (spec_method mf mf2 "is_inf") with spec_is_inf in H. np1case H args. Qed.
Lemma np_is_bad : documented_np "is_bad" anyargs.
Proof. intros args r _ H. change (spec_method mf mf2 "is_bad") with spec_is_bad in H. np1case H args. Qed.
Lemma np_is_in : documented_np "is_in" anyargs.
Proof. intros args r _ H. change (spec_method mf mf2 "is_in") with spec_is_in in H.
  destruct args as [|x elems]; [discriminate H|]. cbn in H. cbn. destruct (missing x); [discriminate H|].
  destruct (mem_cmp x elems); [|discriminate H]. cbn in *. inversion H; subst. finish. Qed.
Lemma np_concat : documented_np "concat" anyargs.
Proof. intros args r _ H. change (spec_method mf mf2 "concat") with spec_concat in H. arity2 H args.
  destruct a, b; try discriminate H. inversion H; subst. cbn. finish. Qed.
Lemma np_trimstr : documented_np "trimstr" anyargs.
Proof. intros args r _ H. change (spec_method mf mf2 "trimstr") with spec_trimstr in H. arity3 H args.
  destruct b as [ | | |qa| | | ]; try (destruct a; discriminate H). destruct c as [ | | |qb| | | ]; try (destruct a; discriminate H).
  cbn in H. cbn. destruct (Qnat qa) as [i|]; [|discriminate H]. destruct (Qnat qb) as [j|]; [|discriminate H].
  destruct (i <=? j)%nat; [|discriminate H]. destruct a; try discriminate H; inversion H; subst; finish. Qed.
Lemma np_as_str : documented_np "as_str" anyargs.
Proof. intros args r _ H. change (spec_method mf mf2 "as_str") with spec_as_str in H. arity1 H args.
  destruct a; try discriminate H; inversion H; subst; cbn; finish. Qed.
Lemma np_as_int64 : documented_np "as_int64" anyargs.
Proof. intros args r _ H. change (spec_method mf mf2 "as_int64") with spec_as_int64 in H. arity1 H args.
  destruct a as [ | | |q| | | ]; try discriminate H. cbn in H. destruct (Qis_int q) eqn:I; [|discriminate H].
  inversion H; subst. cbn. eexists; split; [reflexivity|]. apply sv_eqv_num. apply qtrunc_int. exact I. Qed.
(* a binary method that is a shared symbol g on finite operands (g stays a variable) *)
Lemma np2_finite (g : Q -> Q -> option Q) a b r : lift2 (fin2 (fun p q => option_map SNum (g p q))) a b = Some r ->
  exists r', np2 (nanprop2 (finfin (fun p q => option_map XFin (g p q)))) [a; b] = Some r' /\ sv_eqv r' r.
Proof. intros H. destruct a, b; cbn in H; try discriminate H; cbn; try (inversion H; subst; finish).
  destruct (g q q0); [|discriminate H]. inversion H; subst. finish. Qed.
Lemma np_arctan2 : documented_np "arctan2" anyargs.
Proof. intros args r _ H. change (spec_method mf mf2 "arctan2") with (spec_arctan2 mf2) in H. arity2 H args.
  exact (np2_finite (mf2 "arctan2") a b r H). Qed.
Lemma np_math name : str_in name math_names = true -> documented_np name anyargs.
Proof. intros I args r _ H. apply str_in_In in I.
  assert (spec_method mf mf2 name = spec_math mf name /\ np_eval mf mf2 name = ScalarBackends.np_math mf name) as [S E].
  { simpl in I. repeat (destruct I as [<-|I]; [split; reflexivity|]). destruct I. }
  rewrite S in H. rewrite E. clear S E I. arity1 H args. unfold ScalarBackends.np_math.
  destruct a; cbn in H; try discriminate H; cbn;
    try (destruct (math_dom name q); [|discriminate H]; destruct (mf name q); [|discriminate H]);
    inversion H; subst; finish. Qed.
Lemma np_around : documented_np "around" anyargs.
Proof. intros args r _ H. change (spec_method mf mf2 "around") with spec_around in H. arity2 H args.
  destruct b as [ | | |dg| | | ]; try (destruct a; discriminate H). cbn in H. cbn.
  destruct (Qnat dg) as [n|] eqn:N; [|discriminate H]. destruct (n <=? 6)%nat; [|discriminate H].
  destruct a as [ | | |q| | | ]; cbn in H; try discriminate H; try (inversion H; subst; cbn; finish).
  destruct (qtie (q * pow10 (Z.of_nat n))) eqn:T; [discriminate H|]. inversion H; subst; clear H. cbn.
  rewrite (round_half_even_nearest _ T). finish. Qed.

(* _map_v overwrites every "bad" mapped value (missing or infinite) with the default: documented behaviour is reached when
   no dictionary value is bad *)
Lemma np_mapv_lookup x kv dflt r :
  forallb (fun v => negb (bad_py v)) kv = true -> map_lookup x kv dflt = Some r ->
  exists v, map_lookup x kv SNull = Some v /\ (if bad_py v then dflt else v) = r.
Proof. revert r. induction kv as [kv IH] using (well_founded_induction (Wf_nat.well_founded_ltof _ (@List.length sval))).
  intros r G L. destruct kv as [|k [|v t]]; cbn in L.
  - inversion L; subst. exists SNull. split; reflexivity.
  - discriminate L.
  - cbn in G. apply andb_true_iff in G. destruct G as [_ G]. apply andb_true_iff in G. destruct G as [Gv G].
    cbn [map_lookup]. destruct (cmp3 x k) as [c|]; [|discriminate L]. destruct (is_Eq c).
    + inversion L; subst. exists r. split; [reflexivity|]. apply negb_true_iff in Gv. rewrite Gv. reflexivity.
    + apply (IH t); [unfold ltof; cbn; lia | exact G | exact L]. Qed.
Lemma np_mapv : documented_np "mapv" mapv_values_good.
Proof. intros args r G H. change (spec_method mf mf2 "mapv") with spec_mapv in H.
  destruct args as [|x [|dflt kv]]; try discriminate H. cbn in H, G.
  destruct (Nat.even (List.length kv)); [|discriminate H]. cbn in H.
  change (np_eval mf mf2 "mapv" (x :: dflt :: kv)) with (np_mapv (x :: dflt :: kv)). unfold np_mapv.
  destruct (missing x).
  - inversion H; subst. cbn. finish.
  - destruct (np_mapv_lookup x kv dflt r G H) as [v [L E]]. rewrite L. subst r. destruct (bad_py v); finish. Qed.
Lemma np_mapv_infinite_value_refuted :
  exists args r r', spec_method mf mf2 "mapv" args = Some r /\ np_eval mf mf2 "mapv" args = Some r' /\ sv_eqvb r' r = false.
Proof. exists [SStr "a"; SNum 0; SStr "a"; SPInf], SPInf, (SNum 0). repeat split; reflexivity. Qed.
End NP.
