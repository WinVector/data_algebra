(* C15, part B: frame lemmas, `erase`, and the project step.
   pexec_project with scratch names outside the user's names = plain_project. *)
From Coq Require Import List Bool String Lia.
Import ListNotations.
From DA Require Import Base.PyRT Model.ScratchNames.
Local Open Scope list_scope.

Lemma obind_some {X Y} (o : option X) (f : X -> option Y) x : o = Some x -> obind o f = f x.
Proof. intros ->. reflexivity. Qed.

Lemma all_some_ext {X} (l1 l2 : list (option X)) : l1 = l2 -> all_some l1 = all_some l2.
Proof. intros ->. reflexivity. Qed.

(* ------------------------------------------------------------------ frames *)
Section FrameLemmas.
  Context {A : Type}.
  Implicit Types f : frame A.

  Lemma fget_fset_same f c a : fget (fset f c a) c = Some a.
  Proof. apply dict_get_set_same. Qed.
  Lemma fget_fset_other f c k a : k <> c -> fget (fset f c a) k = fget f k.
  Proof. apply dict_get_set_other. Qed.
  Lemma fcols_fset f c a : fcols (fset f c a) = add_end (fcols f) c.
  Proof. apply dict_keys_set. Qed.

  Lemma fget_fmapc g f c : fget (fmapc g f) c = option_map g (fget f c).
  Proof. unfold fget, fmapc. induction f as [|[k a] t IH]; simpl; [reflexivity|]. destruct (eq_dec c k); [reflexivity|exact IH]. Qed.
  Lemma fcols_fmapc g f : fcols (fmapc g f) = fcols f.
  Proof. unfold fcols, fmapc. rewrite map_map. reflexivity. Qed.

  Lemma fcols_app f g : fcols (f ++ g) = fcols f ++ fcols g.
  Proof. apply map_app. Qed.

  Lemma fget_None f c : fget f c = None <-> ~ In c (fcols f).
  Proof. apply dict_get_None. Qed.

  Lemma fset_absent f c a : ~ In c (fcols f) -> fset f c a = f ++ [(c, a)].
  Proof.
    unfold fset, fcols. induction f as [|[k b] t IH]; simpl; intros N; [reflexivity|].
    destruct (eq_dec c k) as [->|n]; [exfalso; apply N; left; reflexivity|]. rewrite IH; [reflexivity|tauto].
  Qed.

  Lemma fdel_absent f c : ~ In c (fcols f) -> fdel f c = f.
  Proof. apply dict_pop_absent. Qed.

  Lemma fdel_app f g c : fdel (f ++ g) c = fdel f c ++ fdel g c.
  Proof. unfold fdel, dict_pop. apply filter_app. Qed.

  Lemma fdel_single c a : fdel [(c, a)] c = ([] : frame A).
  Proof. unfold fdel, dict_pop. simpl. rewrite eqb_refl. reflexivity. Qed.

  Lemma fget_app f g c : fget (f ++ g) c = match fget f c with Some a => Some a | None => fget g c end.
  Proof. apply dict_get_app. Qed.

  Lemma fset_app_l f g c a : In c (fcols f) -> fset (f ++ g) c a = fset f c a ++ g.
  Proof.
    unfold fset, fcols. induction f as [|[k b] t IH]; simpl; intros I; [contradiction|].
    destruct (eq_dec c k) as [->|n]; [reflexivity|]. rewrite IH; [reflexivity|]. destruct I as [E|I]; [congruence|exact I].
  Qed.

  (* erase: the frame without the columns named in S *)
  Definition erase (S : list string) f : frame A := filter (fun na => negb (mem (fst na) S)) f.

  Lemma fget_erase S f c : ~ In c S -> fget (erase S f) c = fget f c.
  Proof.
    intros N. unfold fget, erase. induction f as [|[k a] t IH]; simpl; [reflexivity|].
    destruct (mem k S) eqn:M; simpl.
    - destruct (eq_dec c k) as [->|n]; [apply mem_In in M; contradiction|exact IH].
    - destruct (eq_dec c k); [reflexivity|exact IH].
  Qed.

  Lemma fcols_erase S f : fcols (erase S f) = filter (fun c => negb (mem c S)) (fcols f).
  Proof. unfold fcols, erase. induction f as [|[k a] t IH]; simpl; [reflexivity|]. destruct (mem k S); simpl; rewrite IH; reflexivity. Qed.

  Lemma erase_app S f g : erase S (f ++ g) = erase S f ++ erase S g.
  Proof. apply filter_app. Qed.

  Lemma erase_fset_user S f k a : ~ In k S -> erase S (fset f k a) = fset (erase S f) k a.
  Proof.
    intros N. apply mem_false in N. unfold fset, erase. induction f as [|[c b] t IH]; simpl; [rewrite N; reflexivity|].
    destruct (eq_dec k c) as [->|n]; simpl.
    - rewrite N. simpl. destruct (eq_dec c c); [reflexivity|congruence].
    - destruct (mem c S); simpl; [exact IH|]. destruct (eq_dec k c); [congruence|]. rewrite IH. reflexivity.
  Qed.

  Lemma erase_fset_scratch S f s a : In s S -> erase S (fset f s a) = erase S f.
  Proof.
    intros I. apply mem_In in I. unfold fset, erase. induction f as [|[c b] t IH]; simpl; [rewrite I; reflexivity|].
    destruct (eq_dec s c) as [->|n]; simpl; [rewrite I; reflexivity|]. rewrite IH. reflexivity.
  Qed.

  Lemma erase_fmapc S g f : erase S (fmapc g f) = fmapc g (erase S f).
  Proof. unfold erase, fmapc. induction f as [|[c b] t IH]; simpl; [reflexivity|]. destruct (mem c S); simpl; rewrite IH; reflexivity. Qed.

  Lemma erase_id S f : (forall c, In c (fcols f) -> ~ In c S) -> erase S f = f.
  Proof.
    unfold erase, fcols. induction f as [|[c b] t IH]; simpl; intros H; [reflexivity|].
    assert (M : mem c S = false) by (apply mem_false, H; left; reflexivity). rewrite M. simpl. rewrite IH; [reflexivity|]. intros x Hx. apply H. right. exact Hx.
  Qed.

  Lemma fselect_ext f g cs : (forall c, In c cs -> fget f c = fget g c) -> fselect f cs = fselect g cs.
  Proof.
    induction cs as [|c t IH]; intros H; simpl; [reflexivity|]. rewrite (H c) by (left; reflexivity).
    rewrite IH; [reflexivity|]. intros x Hx. apply H. right. exact Hx.
  Qed.

  Lemma freads_ext f g cs : (forall c, In c cs -> fget f c = fget g c) -> freads f cs = freads g cs.
  Proof. intros H. unfold freads. f_equal. apply map_ext_in. exact H. Qed.

  Lemma fselect_cols f cs r : fselect f cs = Some r -> fcols r = cs.
  Proof.
    revert r. induction cs as [|c t IH]; simpl; intros r E; [inversion E; reflexivity|].
    destruct (fget f c) as [a|]; [|discriminate]. destruct (fselect f t) as [r'|]; [|discriminate]. inversion E; subst. simpl. f_equal. apply IH. reflexivity.
  Qed.

  Lemma fselect_get f cs r c : fselect f cs = Some r -> In c cs -> fget r c = fget f c.
  Proof.
    revert r. induction cs as [|k t IH]; simpl; intros r E I; [contradiction|].
    destruct (fget f k) as [a|] eqn:Ek; [|discriminate]. destruct (fselect f t) as [r'|] eqn:Et; [|discriminate]. inversion E; subst.
    unfold fget at 1. simpl. destruct (eq_dec c k) as [->|n]; [symmetry; exact Ek|].
    destruct I as [->|I]; [congruence|]. apply (IH r' eq_refl I).
  Qed.

  Lemma fold_fset_cols (l : frame A) f : forall c, In c (fcols (fold_left (fun r ka => fset r (fst ka) (snd ka)) l f)) <-> In c (fcols f) \/ In c (fcols l).
  Proof.
    revert f. induction l as [|[k a] t IH]; intros f c; simpl; [tauto|].
    rewrite IH, fcols_fset, In_add_end. simpl. split; intros; intuition (subst; auto).
  Qed.
End FrameLemmas.

(* ------------------------------------------------------------------ the project step *)
Definition proj_user (ops : list sop) (gb : list string) : list string := gb ++ flat_map (fun o => so_key o :: arg_cols (so_arg o)) ops.

Record good_project (sn : pnames) (u : list string) : Prop := mkgp {
  gp_tt : ~ In (n_table_temp sn) u;
  gp_tmp : forall i, ~ In (n_proj_tmp sn i) u;
  gp_sep : forall i, n_proj_tmp sn i <> n_table_temp sn;
  gp_inj : forall i j, n_proj_tmp sn i = n_proj_tmp sn j -> i = j }.

Section Project.
  Context {A : Type} (P : prims A) (sn : pnames).
  Let one : A := p_const P "1".

  (* what the temp map and the frame look like while the constants are scanned *)
  Definition tinv (f0 : frame A) (temps : list (string * string)) (res : frame A) : Prop :=
    (forall v name, dict_get temps v = Some name ->
        (exists j, j < List.length temps /\ name = n_proj_tmp sn j) /\ fget res name = Some (p_const P v))
    /\ (forall c, (forall i, c <> n_proj_tmp sn i) -> fget res c = fget f0 c).

  Lemma proj_temps_inv (Hinj : forall i j, n_proj_tmp sn i = n_proj_tmp sn j -> i = j) f0 ops :
    forall temps res, tinv f0 temps res ->
    let '(temps', res') := proj_temps P sn ops temps res in
    tinv f0 temps' res'
    /\ (forall v name, dict_get temps v = Some name -> dict_get temps' v = Some name)
    /\ (forall o v, In o ops -> so_arg o = ArgVal v -> exists name, dict_get temps' v = Some name).
  Proof.
    induction ops as [|o t IH]; intros temps res I; simpl.
    - split; [exact I|split; [tauto|intros o v []]].
    - (* no column is added when the head is not a constant, or a constant seen before *)
      assert (Keep : (forall v, so_arg o = ArgVal v -> exists nm, dict_get temps v = Some nm) ->
                     let '(temps', res') := proj_temps P sn t temps res in
                     tinv f0 temps' res'
                     /\ (forall v name, dict_get temps v = Some name -> dict_get temps' v = Some name)
                     /\ (forall o0 v, In o0 (o :: t) -> so_arg o0 = ArgVal v -> exists name, dict_get temps' v = Some name)).
      { intros K. specialize (IH temps res I). destruct (proj_temps P sn t temps res) as [temps' res']. destruct IH as (I1 & I2 & I3).
        split; [exact I1|split; [exact I2|]]. intros o' v' [<-|Ho] E; [|eauto]. destruct (K v' E) as [nm G]. exists nm. apply I2, G. }
      destruct (so_arg o) as [|c|v] eqn:Ea; [apply Keep; discriminate|apply Keep; discriminate|].
      destruct (dict_has temps v) eqn:Hh.
      + apply Keep. intros v' E. inversion E; subst v'. apply dict_has_true in Hh.
        destruct (dict_get temps v) as [nm|] eqn:G; [exists nm; reflexivity|]. apply dict_get_None in G. contradiction.
      + apply dict_has_false in Hh. apply dict_get_None in Hh.
        set (name := n_proj_tmp sn (List.length temps)).
        assert (I' : tinv f0 (temps ++ [(v, name)]) (fset res name (p_const P v))).
        { destruct I as [Ia Ib]. split.
          - intros v' nm G. rewrite dict_get_app in G. destruct (dict_get temps v') as [nm'|] eqn:G'.
            + inversion G; subst. destruct (Ia v' nm G') as [[j [Lj Ej]] Fg]. split.
              * exists j. rewrite app_length. simpl. split; [lia|exact Ej].
              * rewrite fget_fset_other; [exact Fg|]. subst nm. unfold name. intros E. apply Hinj in E. lia.
            + simpl in G. destruct (eq_dec v' v) as [->|n]; [|discriminate]. inversion G; subst. split.
              * exists (List.length temps). rewrite app_length. simpl. split; [lia|reflexivity].
              * apply fget_fset_same.
          - intros c Hc. rewrite fget_fset_other; [apply Ib, Hc|]. apply Hc. }
        specialize (IH _ _ I'). destruct (proj_temps P sn t (temps ++ [(v, name)]) (fset res name (p_const P v))) as [temps' res'].
        destruct IH as (I1 & I2 & I3). split; [exact I1|split].
        -- intros v' nm G. apply I2. rewrite dict_get_app, G. reflexivity.
        -- intros o' v' [<-|Ho] E; [|eauto]. rewrite Ea in E. inversion E; subst.
           exists name. apply I2. rewrite dict_get_app, Hh. simpl. destruct (eq_dec v' v'); [reflexivity|congruence].
  Qed.

  Lemma plain_proj_cols_keys res keys ops cols r :
    plain_proj_cols P res keys ops cols = Some r -> forall c, In c (fcols r) -> In c (fcols cols) \/ In c (map so_key ops).
  Proof.
    revert cols r. induction ops as [|o t IH]; simpl; intros cols r E c Hc; [inversion E; subst; tauto|].
    destruct (match so_arg o with ArgNone => Some (p_const P "1") | ArgCol c0 => fget res c0 | ArgVal v => Some (p_const P v) end) as [v|]; [|discriminate].
    simpl in E. destruct (IH _ _ E c Hc) as [H|H]; [|tauto].
    rewrite fcols_fset in H. apply In_add_end in H. destruct H as [H| ->]; tauto.
  Qed.

  Lemma keycols_cols gb keys : fcols (keycols P gb keys) = gb.
  Proof.
    unfold keycols, fcols. assert (L : List.length gb = List.length (map (p_groupkey P keys) (seq 0 (List.length gb)))) by (rewrite map_length, seq_length; reflexivity).
    revert L. generalize (map (p_groupkey P keys) (seq 0 (List.length gb))). induction gb as [|g t IH]; intros [|x l] L; simpl in *; try discriminate; [reflexivity|].
    f_equal. apply IH. lia.
  Qed.

  Theorem project_no_capture ops gb f u :
    (forall c, In c (proj_user ops gb) -> In c u) -> good_project sn u -> pexec_project P sn ops gb f = plain_project P ops gb f.
  Proof.
    intros Sub [Gtt Gtmp Gsep Ginj]. unfold pexec_project, plain_project.
    assert (Ugb : forall c, In c gb -> In c u) by (intros c H; apply Sub, in_or_app; left; exact H).
    assert (Uop : forall o c, In o ops -> In c (so_key o :: arg_cols (so_arg o)) -> In c u).
    { intros o c Ho Hc. apply Sub, in_or_app. right. apply in_flat_map. exists o. split; assumption. }
    assert (I0 : tinv f [] f). { split; [intros v nm G; discriminate|reflexivity]. }
    pose proof (proj_temps_inv Ginj f ops [] f I0) as H. destruct (proj_temps P sn ops [] f) as [temps res1].
    destruct H as ([Ia Ib] & _ & Ic).
    fold one.
    set (res2 := fset res1 (n_table_temp sn) one).
    assert (Uget : forall c, In c u -> fget res2 c = fget f c).
    { intros c Hc. unfold res2. rewrite fget_fset_other by (intros ->; contradiction). apply Ib. intros i ->. exact (Gtmp i Hc). }
    assert (Tget : forall v nm, dict_get temps v = Some nm -> fget res2 nm = Some (p_const P v)).
    { intros v nm G. destruct (Ia v nm G) as [[j [_ ->]] Fg]. unfold res2. rewrite fget_fset_other by apply Gsep. exact Fg. }
    assert (Oget : fget res2 (n_table_temp sn) = Some one) by apply fget_fset_same.
    rewrite (freads_ext res2 f gb) by (intros c Hc; apply Uget, Ugb, Hc).
    destruct (freads f gb) as [keys|]; simpl; [|reflexivity].
    assert (Cols : forall ops' cols, (forall o, In o ops' -> In o ops) ->
                   proj_cols P sn temps res2 keys ops' cols = plain_proj_cols P f keys ops' cols).
    { induction ops' as [|o t IHo]; intros cols Sb; simpl; [reflexivity|].
      assert (Ho : In o ops) by (apply Sb; left; reflexivity). pose proof (fun cols' => IHo cols' (fun x Hx => Sb x (or_intror Hx))) as IH'.
      destruct (so_arg o) as [|c|v] eqn:Ea; simpl.
      - rewrite Oget. apply IH'.
      - rewrite Uget by (apply (Uop o c Ho); rewrite Ea; right; left; reflexivity). destruct (fget f c); [apply IH'|reflexivity].
      - destruct (Ic o v Ho Ea) as [nm G]. rewrite G. simpl. rewrite (Tget v nm G). apply IH'. }
    assert (Ngb : ~ In (n_table_temp sn) gb) by (intros H; exact (Gtt (Ugb _ H))).
    destruct ops as [|o0 ops0].
    - simpl. rewrite Oget. simpl.
      assert (E : existsb (fun g => mem g [n_table_temp sn]) gb = false).
      { apply not_true_is_false. intros E. apply existsb_exists in E. destruct E as [g [Hg Hm]]. apply mem_In in Hm. destruct Hm as [<-|[]]. exact (Ngb Hg). }
      simpl in E. rewrite E.
      assert (E2 : existsb (fun _ : string => false) gb = false) by (clear; induction gb as [|g t IHg]; [reflexivity|exact IHg]).
      rewrite E2, fcols_app, (proj2 (mem_In _ _)) by (apply in_or_app; right; left; reflexivity).
      f_equal. rewrite fdel_app, fdel_single. f_equal. apply fdel_absent. rewrite keycols_cols. exact Ngb.
    - rewrite (Cols (o0 :: ops0) []) by tauto.
      destruct (plain_proj_cols P f keys (o0 :: ops0) []) as [cols|] eqn:Ec; simpl; [|reflexivity].
      destruct (existsb (fun g => mem g (fcols cols)) gb); [reflexivity|].
      assert (M : mem (n_table_temp sn) (fcols (keycols P gb keys ++ cols)) = false); [|rewrite M; reflexivity].
      apply mem_false. rewrite fcols_app, keycols_cols. intros Hin. apply in_app_or in Hin. destruct Hin as [Hg|Hk]; [exact (Ngb Hg)|].
      destruct (plain_proj_cols_keys _ _ _ _ _ Ec _ Hk) as [[]|Hk'].
      apply in_map_iff in Hk'. destruct Hk' as [o [Eo Ho]]. apply Gtt, (Uop o _ Ho). left. exact Eo.
  Qed.
End Project.
