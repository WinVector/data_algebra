(* C17, part 7: composition.  A map whose input side is the first map's and whose output side has the layout of the second
   map's output side is equivalent to applying the two maps one after the other. *)
From Coq Require Import List Bool String Permutation.
Import ListNotations.
From DA Require Import Base.PyRT Base.Val Model.CData Proofs.CDataP1 Proofs.CDataP2 Proofs.CDataP4 Proofs.CDataP5 Proofs.CDataP6 Proofs.ListP.

Lemma r2b_total S X : keyed_facts (rs_keys S) X -> exists Z, rowrecs_to_blocks S X = Ok Z.
Proof. intros KF. destruct (rows X) eqn:E.
  - eexists. apply r2b_empty. exact E.
  - eexists. apply r2b_unfold; [rewrite E; discriminate|apply is_keyed_select_ok; exact KF]. Qed.

Lemma block_columns_nodup S : spec_facts S -> NoDup (block_columns S).
Proof. intros F. unfold block_columns. apply NoDup_app_iff; repeat split; [apply (sf_rk_nodup S F)|apply (sf_cc_nodup S F)|apply (sf_rk_cc S F)]. Qed.

Lemma tbl_perm_eqv Z' Z : cols Z' = cols Z -> Permutation (rows Z') (rows Z) -> NoDup (cols Z') ->
  (forall r, In r (rows Z') -> List.length r = List.length (cols Z')) -> tbl_eqv Z' Z.
Proof. intros Ec P N L. split; [rewrite Ec; reflexivity|]. simpl. rewrite <- Ec.
  rewrite (map_ext_in _ (fun r => r)); [rewrite map_id; exact P|]. intros r Hr. apply cells_self; [apply L; exact Hr|exact N]. Qed.

Lemma tbl_eqv_rows_perm_r t B B' : cols B' = cols B -> Permutation (rows B') (rows B) -> tbl_eqv t B -> tbl_eqv t B'.
Proof. intros Ec P [a b]. split; [rewrite Ec; exact a|]. rewrite Ec. etransitivity; [exact b|apply Permutation_sym; exact P]. Qed.

Lemma spec_simb_facts C C' : spec_simb C C' = true ->
  rs_keys C = rs_keys C' /\ rs_ctkeys C = rs_ctkeys C' /\ value_cols C = value_cols C' /\ Permutation (ct_layout C) (ct_layout C').
Proof. unfold spec_simb. rewrite !andb_true_iff, !eqb_true, perm_eqb_spec. tauto. Qed.

Lemma spec_simb_cnames C C' : spec_simb C C' = true -> Permutation (cnames C) (cnames C').
Proof. intros Sim. destruct (spec_simb_facts C C' Sim) as [_ [_ [_ PL]]].
  assert (E : forall S, flat_map (nm S) (rows (rs_ct S)) = flat_map snd (ct_layout S))
    by (intros S; unfold ct_layout; rewrite flat_map_map; reflexivity).
  rewrite (cnames_perm C), (cnames_perm C'), !E. apply Permutation_flat_map. exact PL. Qed.

(* the rows of rowrecs_to_blocks read directly off the input table *)
Lemma r2b_rows_direct S X :
  flat_map (fun cr => map (r2b_row S cr) (rows (select_cols (row_columns S) X))) (rows (rs_ct S))
  = flat_map (fun kn => map (fun r => cells (cols X) r (rs_keys S) ++ fst kn ++ cells (cols X) r (snd kn)) (rows X)) (ct_layout S).
Proof. unfold ct_layout. rewrite flat_map_map. apply flat_map_ext_in. intros cr Hcr. cbn [fst snd rows select_cols]. rewrite map_map.
  apply map_ext. intros r. unfold r2b_row.
  rewrite (cells_cells (cols X) r (row_columns S) (rs_keys S)) by (intros c Hc; apply In_rc; left; exact Hc).
  rewrite (cells_cells (cols X) r (row_columns S) (nm S cr)); [reflexivity|].
  intros n Hn. apply In_rc. right. unfold content_keys. apply In_dedup. split; [|tauto].
  fold (cnames S). eapply nm_In_cnames; eassumption. Qed.

Lemma Ok_inj {A} (a b : A) : Ok a = Ok b -> a = b.
Proof. congruence. Qed.

(* the result of rowrecs_to_blocks is well formed *)
Lemma r2b_wf S X Z : spec_facts S -> rowrecs_to_blocks S X = Ok Z ->
  NoDup (cols Z) /\ forall r, In r (rows Z) -> List.length r = List.length (cols Z).
Proof. intros F. unfold rowrecs_to_blocks. cbv zeta. destruct (rows (select_cols (row_columns S) X)) as [|a l] eqn:ED.
  - intros E. apply Ok_inj in E. subst Z. split; [apply block_columns_nodup; exact F|intros r []].
  - rewrite <- ED. destruct (is_keyed _ _) as [[|]| |]; intros E; try discriminate. apply Ok_inj in E. subst Z. cbn [rows cols]. split.
    + change (rs_keys S ++ rs_ctkeys S ++ value_cols S) with (r2b_cols S).
      eapply Permutation_NoDup; [apply Permutation_sym; apply r2b_cols_perm; exact F|apply block_columns_nodup; exact F].
    + intros r Hr. apply (Permutation_in _ (sort_by_perm _ _)) in Hr.
      apply in_flat_map in Hr. destruct Hr as [cr [_ Hr]]. apply in_map_iff in Hr. destruct Hr as [x [<- _]].
      rewrite !app_length, !cells_length, map_length. reflexivity. Qed.

Lemma r2b_sim C C' X Z : spec_facts C -> spec_facts C' -> spec_simb C C' = true -> keyed_facts (rs_keys C) X ->
  rowrecs_to_blocks C X = Ok Z -> exists Z', rowrecs_to_blocks C' X = Ok Z' /\ tbl_eqv Z' Z.
Proof. intros F F' Sim KF EZ. destruct (spec_simb_facts C C' Sim) as [Erk [Eck [Evc PL]]].
  assert (Ecols : r2b_cols C' = r2b_cols C) by (unfold r2b_cols; rewrite Erk, Eck, Evc; reflexivity).
  destruct (rows X) eqn:EX.
  - rewrite (r2b_empty C X EX) in EZ. apply Ok_inj in EZ. subst Z. eexists. split; [apply r2b_empty; exact EX|].
    split; [|constructor]. simpl. rewrite <- (r2b_cols_perm C F), <- (r2b_cols_perm C' F'), Ecols. reflexivity.
  - assert (NE : rows X <> []) by (rewrite EX; discriminate). clear EX.
    rewrite (r2b_unfold C X NE (is_keyed_select_ok C X KF)) in EZ. apply Ok_inj in EZ. subst Z.
    assert (KF' : keyed_facts (rs_keys C') X) by (rewrite <- Erk; exact KF).
    pose proof (r2b_unfold C' X NE (is_keyed_select_ok C' X KF')) as E'. destruct (r2b_wf C' X _ F' E') as [N L].
    eexists. split; [exact E'|]. apply tbl_perm_eqv; [exact Ecols| |exact N|exact L].
    cbn [rows]. etransitivity; [apply sort_by_perm|]. etransitivity; [|apply Permutation_sym; apply sort_by_perm].
    rewrite (r2b_rows_direct C X), (r2b_rows_direct C' X). rewrite <- Erk. apply Permutation_flat_map. apply Permutation_sym. exact PL. Qed.

(* ------------------------------------------------------------------ composites that return blocks *)
(* X: row records conforming to B (the rows the first map produces before it lays them out as B-blocks) *)
Lemma compose_core B C C' X : strict_spec B = true -> strict_spec C = true -> strict_spec C' = true ->
  same_records B C = true -> spec_simb C C' = true -> conforming_rows B X = true ->
  exists Y X2 Z Zc, rowrecs_to_blocks B X = Ok Y /\ Permutation (cols Y) (block_columns B) /\ blocks_to_rowrecs B Y = Ok X2 /\
    rowrecs_to_blocks C X2 = Ok Z /\ rowrecs_to_blocks C' X = Ok Zc /\ tbl_eqv Zc Z.
Proof. intros HB HC HC' SR Sim CB.
  pose proof (strict_spec_facts B HB) as FB. pose proof (strict_spec_facts C HC) as FC. pose proof (strict_spec_facts C' HC') as FC'.
  destruct (same_records_facts B C SR) as [RKe CKe].
  pose proof (conforming_keyed_same B C X SR CB) as KC.
  destruct (r2b_total C X KC) as [Z0 EZ0].
  destruct (through_blocks_and_back B C X HB SR CB Z0 EZ0) as [Y [X2 [Z2 [E1 [PY [E2 [E3 [Ec Pr]]]]]]]].
  destruct (r2b_sim C C' X Z0 FC FC' Sim KC EZ0) as [Zc [E4 EQ]].
  exists Y, X2, Z2, Zc. repeat (split; [assumption|]). apply (tbl_eqv_rows_perm_r Zc Z0 Z2); assumption. Qed.

(* blocks A -> blocks B, then blocks B -> blocks C; the composite goes from A to a layout of C *)
Theorem compose_blocks_blocks A B C C' t :
  strict_spec A = true -> strict_spec B = true -> strict_spec C = true -> strict_spec C' = true ->
  same_records A B = true -> same_records B C = true -> spec_simb C C' = true -> complete_blocks A t = true ->
  exists y z zc, transform (mkmap (Some A) (Some B) true) t = Ok y /\ transform (mkmap (Some B) (Some C) true) y = Ok z /\
    transform (mkmap (Some A) (Some C') true) t = Ok zc /\ tbl_eqv zc z.
Proof. intros HA HB HC HC' SAB SBC Sim CT.
  destruct (roundtrip_blocks A t HA CT) as [X1 [B1 [E1 [PX [KX _]]]]].
  pose proof (complete_blocks_sub A t CT) as Sub. pose proof (conforming_same_records A B X1 SAB KX PX) as CB.
  destruct (compose_core B C C' X1 HB HC HC' SBC Sim CB) as [Y [X2 [Z [Zc [F1 [PY [F2 [F3 [F4 EQ]]]]]]]]].
  exists Y, Z, Zc.
  split; [eapply transform_steps; [exact Sub|exact E1|exact F1]|].
  split; [eapply transform_steps; [apply (perm_subset _ _ _ PY); auto|exact F2|exact F3]|].
  split; [eapply transform_steps; [exact Sub|exact E1|exact F4]|exact EQ]. Qed.

(* rows -> blocks B, then blocks B -> blocks C; the composite goes from rows to a layout of C *)
Theorem compose_rows_blocks B C C' t :
  strict_spec B = true -> strict_spec C = true -> strict_spec C' = true ->
  same_records B C = true -> spec_simb C C' = true -> conforming_rows B t = true ->
  exists y z zc, transform (mkmap None (Some B) true) t = Ok y /\ transform (mkmap (Some B) (Some C) true) y = Ok z /\
    transform (mkmap None (Some C') true) t = Ok zc /\ tbl_eqv zc z.
Proof. intros HB HC HC' SBC Sim CB.
  destruct (compose_core B C C' t HB HC HC' SBC Sim CB) as [Y [X2 [Z [Zc [F1 [PY [F2 [F3 [F4 EQ]]]]]]]]].
  pose proof (conforming_sub B t CB) as SubB.
  assert (SubC : subset (row_columns C') (cols t) = true).
  { pose proof (strict_spec_facts C HC) as FC. pose proof (strict_spec_facts C' HC') as FC'.
    destruct (spec_simb_facts C C' Sim) as [Erk _]. destruct (same_records_facts B C SBC) as [RKe CKe].
    apply subset_spec. intros c Hc. apply (proj1 (subset_spec _ _) SubB). apply In_rc. apply In_rc in Hc.
    destruct Hc as [Hc|Hc]; [left; apply RKe; rewrite Erk; exact Hc|right; apply CKe].
    rewrite (content_keys_cnames C FC). rewrite (content_keys_cnames C' FC') in Hc.
    apply (Permutation_in _ (Permutation_sym (spec_simb_cnames C C' Sim))). exact Hc. }
  exists Y, Z, Zc.
  split; [eapply transform_steps; [exact SubB|reflexivity|exact F1]|].
  split; [eapply transform_steps; [apply (perm_subset _ _ _ PY); auto|exact F2|exact F3]|].
  split; [eapply transform_steps; [exact SubC|reflexivity|exact F4]|exact EQ]. Qed.

(* blocks A -> blocks B, then blocks B -> rows; the composite goes from A to rows *)
Theorem compose_blocks_rows A B t :
  strict_spec A = true -> strict_spec B = true -> same_records A B = true -> complete_blocks A t = true ->
  exists y z zc, transform (mkmap (Some A) (Some B) true) t = Ok y /\ transform (mkmap (Some B) None true) y = Ok z /\
    transform (mkmap (Some A) None true) t = Ok zc /\ Permutation (cols zc) (cols z) /\ tbl_eqv z (select_cols (row_columns B) zc).
Proof. intros HA HB SAB CT. pose proof (strict_spec_facts A HA) as FA. pose proof (strict_spec_facts B HB) as FB.
  destruct (roundtrip_blocks A t HA CT) as [X1 [B1 [E1 [PX [KX _]]]]].
  pose proof (complete_blocks_sub A t CT) as Sub. pose proof (conforming_same_records A B X1 SAB KX PX) as CB.
  destruct (roundtrip_rows B X1 HB CB) as [Y [X2 [F1 [F2 [PC PR]]]]].
  exists Y, X2, X1.
  split; [eapply transform_steps; [exact Sub|exact E1|exact F1]|].
  split; [eapply transform_steps; [apply (perm_subset _ _ _ (r2b_result_cols B X1 Y FB F1)); auto|exact F2|reflexivity]|].
  split; [eapply transform_steps; [exact Sub|exact E1|reflexivity]|].
  split; [|split; [exact PC|exact PR]].
  (* the columns: both are rearrangements of the row columns, which list the same names *)
  simpl in PC. rewrite PX, PC. apply NoDup_Permutation; [apply row_columns_nodup; exact FA|apply row_columns_nodup; exact FB|].
  intros c. apply same_records_rc. exact SAB. Qed.

(* ------------------------------------------------------------------ the same, stated for the map compose() returns *)
Lemma spec_eqb_eq a b : spec_eqb a b = true -> a = b.
Proof. unfold spec_eqb. rewrite !andb_true_iff, !eqb_true, Bool.eqb_true_iff. intros [[[[e1 e2] e3] e4] e5].
  destruct a as [ka [ca ra] cka sa], b as [kb [cb rb] ckb sb]. simpl in *. subst. reflexivity. Qed.

Lemma recmap_eta c : c = mkmap (rm_in c) (rm_out c) (rm_strict c).
Proof. destruct c; reflexivity. Qed.

Theorem compose_sound_blocks_blocks sfx A B C t c :
  strict_spec A = true -> strict_spec B = true -> strict_spec C = true ->
  same_records A B = true -> same_records B C = true -> complete_blocks A t = true ->
  compose sfx (mkmap (Some B) (Some C) true) (mkmap (Some A) (Some B) true) = CMap c ->
  composite_ok (Some A) (Some C) c = true ->
  exists y z zc, transform (mkmap (Some A) (Some B) true) t = Ok y /\ transform (mkmap (Some B) (Some C) true) y = Ok z /\
    transform c t = Ok zc /\ tbl_eqv zc z.
Proof. intros HA HB HC SAB SBC CT _ OK. unfold composite_ok in OK. rewrite !andb_true_iff in OK. destruct OK as [[O1 O2] O3].
  destruct (rm_in c) as [A'|] eqn:Ei; [|discriminate]. destruct (rm_out c) as [C'|] eqn:Eo; [|discriminate].
  apply spec_eqb_eq in O1. subst A'. apply andb_true_iff in O2. destruct O2 as [HC' Sim].
  rewrite (recmap_eta c), Ei, Eo, O3. apply (compose_blocks_blocks A B C C' t); assumption. Qed.

Theorem compose_sound_rows_blocks sfx B C t c :
  strict_spec B = true -> strict_spec C = true -> same_records B C = true -> conforming_rows B t = true ->
  compose sfx (mkmap (Some B) (Some C) true) (mkmap None (Some B) true) = CMap c ->
  composite_ok None (Some C) c = true ->
  exists y z zc, transform (mkmap None (Some B) true) t = Ok y /\ transform (mkmap (Some B) (Some C) true) y = Ok z /\
    transform c t = Ok zc /\ tbl_eqv zc z.
Proof. intros HB HC SBC CB _ OK. unfold composite_ok in OK. rewrite !andb_true_iff in OK. destruct OK as [[O1 O2] O3].
  destruct (rm_in c) as [A'|] eqn:Ei; [discriminate|]. destruct (rm_out c) as [C'|] eqn:Eo; [|discriminate].
  apply andb_true_iff in O2. destruct O2 as [HC' Sim].
  rewrite (recmap_eta c), Ei, Eo, O3. apply (compose_rows_blocks B C C' t); assumption. Qed.

Theorem compose_sound_blocks_rows sfx A B t c :
  strict_spec A = true -> strict_spec B = true -> same_records A B = true -> complete_blocks A t = true ->
  compose sfx (mkmap (Some B) None true) (mkmap (Some A) (Some B) true) = CMap c ->
  composite_ok (Some A) None c = true ->
  exists y z zc, transform (mkmap (Some A) (Some B) true) t = Ok y /\ transform (mkmap (Some B) None true) y = Ok z /\
    transform c t = Ok zc /\ Permutation (cols zc) (cols z) /\ tbl_eqv z (select_cols (row_columns B) zc).
Proof. intros HA HB SAB CT _ OK. unfold composite_ok in OK. rewrite !andb_true_iff in OK. destruct OK as [[O1 O2] O3].
  destruct (rm_in c) as [A'|] eqn:Ei; [|discriminate]. destruct (rm_out c) as [C'|] eqn:Eo; [discriminate|].
  apply spec_eqb_eq in O1. subst A'.
  rewrite (recmap_eta c), Ei, Eo, O3. apply (compose_blocks_rows A B t); assumption. Qed.
