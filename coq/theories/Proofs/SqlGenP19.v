(* SQLGEN, part 19: extend_to_near_sql returning the merged sub-query when window items are around: the un-windowed extend
   merged into a step that may carry window items, and the WINDOWED extend merged into the step below. *)
From Coq Require Import List Bool String.
Import ListNotations.
From DA Require Import Base.PyRT Base.Val Model.Sem Proofs.SemBasicP Model.ColumnsUsed Proofs.ColumnsUsedP1 Proofs.ColumnsUsedP2
  Proofs.ColumnsUsedP3 Proofs.ColumnsUsedP4 Proofs.ComposeP Model.SqlGen Model.SqlSem Proofs.SqlGenP1 Proofs.SqlGenP2 Proofs.SqlGenP3
  Proofs.SqlGenP4 Proofs.SqlGenP11 Proofs.SqlGenP12 Proofs.SqlGenP13 Proofs.SqlGenP14 Proofs.SqlGenP17 Proofs.SqlGenP18.
Local Open Scope list_scope.

Definition win_deps (origcols : list string) (subops : list (string * expr)) (w : window) : depmap :=
  map (fun k => (k, [k])) origcols
  ++ map (fun ke => (fst ke, set_union (py_set (cols_used (snd ke))) (set_union (w_part w) (w_order w)))) subops.

Lemma wextend_deps_ok (origcols : list string) (subops : list (string * expr)) w :
  NoDup origcols -> NoDup (map fst subops) -> (forall k, In k origcols -> ~ In k (map fst subops)) -> subops <> [] ->
  merge_okN (win_terms origcols subops w) (win_deps origcols subops w) /\
  map fst (win_terms origcols subops w) = map fst (win_deps origcols subops w).
Proof.
  intros No Ns Dj NE.
  apply (ext_deps_ok (fun t => is_agg_term t = false) (fun x => TmWin x (w_part w) (map (fun c => (c, mem c (w_rev w))) (w_order w))));
    try assumption; try reflexivity.
  intros k x c Hc. unfold item_cols in Hc. cbn [fst snd] in Hc. rewrite map_map in Hc. cbn [fst] in Hc. rewrite map_id in Hc.
  apply In_set_union. apply in_app_iff in Hc. destruct Hc as [Hc|Hc]; [right; apply In_set_union; left; exact Hc|].
  apply in_app_iff in Hc. destruct Hc as [Hc|Hc]; [right; apply In_set_union; right; exact Hc|left; apply In_py_set; exact Hc].
Qed.

Section MergedWin.
Variable fl : flavor.
Variable e : env.

(* the WINDOWED extend merged into the step below *)
Lemma merged_wextend_N s ops w n ts s0 ci ds u u1 S :
  let p := OExtend s ops true w in
  let su := cfs1 p u1 in
  let subops := sub_ops u1 ops in
  let origcols := filter (fun k => negb (mem k (map fst subops))) u1 in
  let tms := win_terms origcols subops w in
  let deps := win_deps origcols subops w in
  let our_nt := non_trivial_terms deps tms in
  let sub := TUnary n (Some ts) s0 ci SfxNone true (Some ds) in
  builder_ok p = true -> sem_gen fl s e = Some S -> NoDup u -> NoDup u1 -> incl u u1 -> incl u1 (column_names p) -> subops <> [] ->
  (forall c, In c (w_part w ++ w_order w ++ w_rev w) -> In c u1) -> u <> [] -> NoDup su ->
  Delivers fl e sub su S -> merge_okN ts ds ->
  contention our_nt (needs deps our_nt) (non_trivial_terms ds ts) (needs ds (non_trivial_terms ds ts)) = [] ->
  Delivers fl e (TUnary n (Some (merged_terms our_nt tms deps ts)) s0 ci SfxNone true (Some (merged_deps our_nt tms deps ds))) u (sem_wextend fl ops w S)
  /\ merge_okN (merged_terms our_nt tms deps ts) (merged_deps our_nt tms deps ds).
Proof.
  intros p su subops origcols tms deps our_nt sub BO ES _ Nu1 Iuu1 Iu1 NSub Hwin NEu Nsu D MOKs Hcont.
  destruct (bok_extend_full _ _ _ _ BO) as [BOs [Ic Nk]].
  destruct (ext_split u1 ops Nu1 Nk) as [No [Nsub [Dj _]]].
  destruct (wextend_deps_ok origcols subops w No Nsub Dj NSub) as [MOKo Ekeys].
  (* the step extend_to_near_sql would have built had it not merged *)
  pose proof (node_wextend fl e s ops w sub u u1 S (mkvn "extend" 0) (Some deps) BO ES Nu1 Iuu1 Iu1 NSub Nsu D) as DF.
  change (Delivers fl e (TUnary (mkvn "extend" 0) (norm tms) sub (mk_tci (Some su) false None) SfxNone true (Some deps)) u (sem_wextend fl ops w S)) in DF.
  rewrite (norm_nonempty tms (proj1 MOKo)) in DF.
  apply (merged_delivers_gen fl e n ts s0 ci ds su S (mkvn "extend" 0) tms deps (Some deps) u (sem_wextend fl ops w S) D MOKs Nsu MOKo Ekeys DF); [|exact NEu| |exact Hcont].
  - intros k Ik. exact (wextend_loc s ops w u1 BO Iu1 k (Iuu1 k Ik)).
  - unfold sem_wextend. cbn [rows]. rewrite !map_length, tag_from_length. reflexivity.
Qed.

(* the un-windowed extend merged into a step that may carry window items *)
Lemma merged_extend_N s ops n ts s0 ci ds u S :
  let p := OExtend s ops false no_window in
  let su := cfs1 p u in
  let subops := sub_ops u ops in
  let origcols := filter (fun k => negb (mem k (map fst subops))) u in
  let tms : terms := pass_terms origcols ++ map (fun ke => (fst ke, TmExpr (snd ke))) subops in
  let deps : depmap := map (fun k => (k, [k])) origcols ++ map (fun ke => (fst ke, set_union (py_set (cols_used (snd ke))) [])) subops in
  let our_nt := non_trivial_terms deps tms in
  let sub := TUnary n (Some ts) s0 ci SfxNone true (Some ds) in
  builder_ok p = true -> sem_gen fl s e = Some S -> NoDup u -> incl u (column_names p) -> subops <> [] -> u <> [] ->
  Delivers fl e sub su S -> merge_okN ts ds ->
  contention our_nt (needs deps our_nt) (non_trivial_terms ds ts) (needs ds (non_trivial_terms ds ts)) = [] ->
  Delivers fl e (TUnary n (Some (merged_terms our_nt tms deps ts)) s0 ci SfxNone true (Some (merged_deps our_nt tms deps ds))) u (sem_extend fl ops S)
  /\ merge_okN (merged_terms our_nt tms deps ts) (merged_deps our_nt tms deps ds).
Proof.
  intros p su subops origcols tms deps our_nt sub BO ES Nu Iu NSub _.
  exact (merged_extend_P fl e (fun t => is_agg_term t = false) s ops n ts s0 ci ds u S eq_refl (fun x => eq_refl) (fun t H => H) BO ES Nu Iu NSub).
Qed.

End MergedWin.
