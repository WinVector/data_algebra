(* C27, part 3: what each window function computes at position j of an ordered partition (for all lists, all positions):
   running sums / maxima / minima / products, row numbers and counts, shift, rank, first / last, ffill / bfill, and the
   group aggregates broadcast to every row. *)
From Coq Require Import List Bool QArith String Lia Permutation.
Import ListNotations.
From DA Require Import Base.PyRT Base.Val Model.Sem Model.WindowSpec Proofs.SemOrderP Proofs.ListP Proofs.TabP.
Local Open Scope string_scope.
Local Open Scope list_scope.

Definition is_num (v : val) : bool := match num_of v with Some _ => true | None => false end.

(* ---------- running folds *)
Lemma nums_cons_some v t x : num_of v = Some x -> nums (v :: t) = x :: nums t.
Proof. intros E. unfold nums. simpl. rewrite E. reflexivity. Qed.
Lemma nums_cons_none v t : num_of v = None -> nums (v :: t) = nums t.
Proof. intros E. unfold nums. simpl. rewrite E. reflexivity. Qed.

Lemma qfold1_snoc f pre x :
  qfold1 f (pre ++ [x]) = Some (match qfold1 f pre with None => x | Some y => f y x end).
Proof. destruct pre as [|p ps]; simpl; [reflexivity|]. rewrite fold_left_app. reflexivity. Qed.

Lemma running_nth carry f vs : forall pre j, (j < List.length vs)%nat ->
  nth j (running carry f (qfold1 f pre) vs) VNull =
    if carry || is_num (nth j vs VNull) then opt_num (qfold1 f (pre ++ nums (firstn (S j) vs))) else VNull.
Proof.
  induction vs as [|v t IH]; intros pre j L; [simpl in L; lia|].
  cbn [running]. destruct (num_of v) as [x|] eqn:Ev.
  - destruct j as [|j].
    + cbn [nth firstn]. unfold is_num. rewrite Ev, orb_true_r, (nums_cons_some v [] x Ev). cbn [nums flat_map].
      rewrite qfold1_snoc. reflexivity.
    + cbn [nth]. simpl in L.
      assert (Some (match qfold1 f pre with None => x | Some y => f y x end) = qfold1 f (pre ++ [x])) as E by (symmetry; apply qfold1_snoc).
      rewrite E, (IH (pre ++ [x]) j) by lia.
      change (firstn (S (S j)) (v :: t)) with (v :: firstn (S j) t). rewrite (nums_cons_some v _ x Ev), <- app_assoc. reflexivity.
  - destruct j as [|j].
    + cbn [nth firstn]. unfold is_num. rewrite Ev, orb_false_r, (nums_cons_none v [] Ev). cbn [nums flat_map]. rewrite app_nil_r.
      destruct carry; reflexivity.
    + cbn [nth]. simpl in L. rewrite (IH pre j) by lia.
      change (firstn (S (S j)) (v :: t)) with (v :: firstn (S j) t). rewrite (nums_cons_none v _ Ev). reflexivity.
Qed.

(* cumsum / cummax / cummin / cumprod at position j: the fold of the NON-NULL values among the first j+1; at a null-valued row
   Pandas writes null and SQL (carry) writes the same running value *)
Theorem running_value (fl : flavor) (op : string) (f : Q -> Q -> Q) (carry : bool) (extra vs : list val) (j : nat) :
  (op, f, carry) = ("cumsum", Qplus, f_running_carry fl) \/ (op, f, carry) = ("cummax", qmax, f_running_carry fl)
  \/ (op, f, carry) = ("cummin", qmin, f_running_carry fl) \/ (op, f, carry) = ("cumprod", Qmult, false) ->
  (j < List.length vs)%nat ->
  nth j (win_fn fl op extra vs) VNull =
    if carry || is_num (nth j vs VNull) then opt_num (qfold1 f (nums (firstn (S j) vs))) else VNull.
Proof.
  intros H L. destruct H as [H|[H|[H|H]]]; injection H as -> -> ->; apply (running_nth _ _ vs [] j L).
Qed.

(* the running sum really is the sum *)
Lemma fold_plus_Qeq t : forall a b, a == b -> fold_left Qplus t a == fold_left Qplus t b.
Proof. induction t as [|x t IH]; intros a b E; simpl; [exact E|]. apply IH. rewrite E. reflexivity. Qed.

Lemma qfold1_plus_sum l : l <> [] -> opt_num (qfold1 Qplus l) = qn (qsum l).
Proof.
  destruct l as [|x t]; [congruence|]. intros _. simpl. unfold qn, qsum. simpl. f_equal. apply Qred_complete.
  apply fold_plus_Qeq. rewrite Qplus_0_l. reflexivity.
Qed.

Theorem cumsum_is_prefix_sum (fl : flavor) (extra vs : list val) (j : nat) :
  (j < List.length vs)%nat -> is_num (nth j vs VNull) = true ->
  nth j (win_fn fl "cumsum" extra vs) VNull = qn (qsum (nums (firstn (S j) vs))).
Proof.
  intros L N. rewrite (running_value fl "cumsum" Qplus (f_running_carry fl) extra vs j (or_introl eq_refl) L), N, orb_true_r.
  apply qfold1_plus_sum.
  (* the j-th value is a number, so the prefix holds at least one *)
  clear - L N. revert j L N. induction vs as [|v t IH]; intros j L N; [simpl in L; lia|].
  destruct j as [|j]; simpl in N.
  - unfold is_num in N. destruct (num_of v) as [x|] eqn:E; [|discriminate]. cbn [firstn]. rewrite (nums_cons_some v [] x E). discriminate.
  - change (firstn (S (S j)) (v :: t)) with (v :: firstn (S j) t). simpl in L.
    destruct (num_of v) as [x|] eqn:E; [rewrite (nums_cons_some v _ x E); discriminate|]. rewrite (nums_cons_none v _ E). apply IH; [lia|exact N].
Qed.

(* ---------- row numbers and counts *)
Lemma number_from_nth vs : forall s j, (j < List.length vs)%nat -> nth j (number_from s vs) VNull = qn (inject_Z (Z.of_nat (s + j))).
Proof.
  induction vs as [|v t IH]; intros s j L; [simpl in L; lia|]. destruct j as [|j]; simpl.
  - rewrite Nat.add_0_r. reflexivity.
  - simpl in L. rewrite IH by lia. do 3 f_equal. lia.
Qed.

Theorem row_number_value (fl : flavor) (op : string) (extra vs : list val) (j : nat) :
  In op ["_row_number"; "row_number"; "_count"] -> (j < List.length vs)%nat ->
  nth j (win_fn fl op extra vs) VNull = qn (inject_Z (Z.of_nat (j + 1))).
Proof.
  intros H L. simpl in H. destruct H as [<-|[<-|[<-|[]]]]; unfold win_fn; rewrite number_from_nth by exact L; do 3 f_equal; lia.
Qed.

Theorem cumcount_value (fl : flavor) (extra vs : list val) (j : nat) :
  (j < List.length vs)%nat -> nth j (win_fn fl "cumcount" extra vs) VNull = qn (inject_Z (Z.of_nat j)).
Proof. intros L. unfold win_fn. rewrite number_from_nth by exact L. reflexivity. Qed.

(* ---------- shift *)
Lemma nth_removelast {A} (l : list A) m d : (S m < List.length l)%nat -> nth m (removelast l) d = nth m l d.
Proof.
  revert m. induction l as [|a t IH]; intros m L; [simpl in L; lia|]. destruct t as [|b u]; [simpl in L; lia|].
  destruct m as [|m]; [reflexivity|]. change (removelast (a :: b :: u)) with (a :: removelast (b :: u)). cbn [nth]. apply IH. simpl in *. lia.
Qed.

Lemma shift_right_nth n : forall vs j, (j < List.length vs)%nat ->
  nth j (shift_right n vs) VNull = if Nat.ltb j n then VNull else nth (j - n) vs VNull.
Proof.
  induction n as [|n IH]; intros vs j L.
  - simpl. rewrite Nat.sub_0_r. reflexivity.
  - cbn [shift_right]. destruct j as [|j]; [reflexivity|]. cbn [nth].
    assert (j < List.length (removelast vs))%nat as L'.
    { destruct vs as [|a t]; [simpl in L; lia|]. rewrite removelast_firstn_len, firstn_length. simpl in *. lia. }
    rewrite (IH _ j L'). change (Nat.ltb (S j) (S n)) with (Nat.ltb j n). destruct (Nat.ltb j n) eqn:E; [reflexivity|].
    apply Nat.ltb_ge in E. change (S j - S n)%nat with (j - n)%nat. apply nth_removelast. lia.
Qed.

Lemma nth_skipn_add {A} n : forall (l : list A) j d, nth j (skipn n l) d = nth (n + j) l d.
Proof. induction n as [|n IH]; intros l j d; [reflexivity|]. destruct l as [|a t]; [destruct j; reflexivity|]. simpl. apply IH. Qed.

Lemma shift_left_nth n vs j : nth j (shift_left n vs) VNull = nth (j + n) vs VNull.
Proof.
  unfold shift_left. destruct (Nat.lt_ge_cases (j + n) (List.length vs)) as [L|L].
  - rewrite app_nth1 by (rewrite skipn_length; lia). rewrite nth_skipn_add. f_equal. lia.
  - rewrite (nth_overflow vs) by exact L.
    destruct (Nat.lt_ge_cases j (List.length (skipn n vs))) as [L2|L2]; [rewrite skipn_length in L2; lia|].
    rewrite app_nth2 by exact L2. destruct (Nat.lt_ge_cases (j - List.length (skipn n vs)) (Nat.min n (List.length vs))) as [L3|L3].
    + apply nth_repeat.
    + apply nth_overflow. rewrite repeat_length. exact L3.
Qed.

(* shift(n): the value n rows EARLIER in the declared order (null when there is none); shift(-n): n rows LATER *)
Theorem shift_value (fl : flavor) (vs : list val) (j : nat) (q : Q) :
  (j < List.length vs)%nat ->
  nth j (win_fn fl "shift" [VNum q] vs) VNull =
    (if Z.leb 0 (Qnum q)
     then (if Nat.ltb j (Z.to_nat (Qnum q)) then VNull else nth (j - Z.to_nat (Qnum q)) vs VNull)
     else nth (j + Z.to_nat (Z.opp (Qnum q))) vs VNull)
  /\ nth j (win_fn fl "shift" [] vs) VNull = (if Nat.ltb j 1 then VNull else nth (j - 1) vs VNull).
Proof.
  intros L. unfold win_fn. split.
  - destruct (Z.leb 0 (Qnum q)); [apply shift_right_nth; exact L|apply shift_left_nth].
  - apply shift_right_nth. exact L.
Qed.

(* ---------- rank: depends on the values of the partition only, not on their order *)
Theorem rank_value (fl : flavor) (extra vs : list val) (j : nat) :
  (j < List.length vs)%nat -> nth j (win_fn fl "rank" extra vs) VNull = rank_val vs (nth j vs VNull).
Proof.
  intros L. unfold win_fn. rewrite (nth_indep _ VNull (rank_val vs VNull)) by (rewrite map_length; exact L).
  apply (map_nth (rank_val vs)).
Qed.

Theorem rank_order_independent (vs vs' : list val) (v : val) : Permutation vs vs' -> rank_val vs v = rank_val vs' v.
Proof.
  intros P. unfold rank_val. destruct (num_of v) as [x|]; [|reflexivity].
  rewrite (Permutation_length (perm_filter (fun y => Qle_bool y x && negb (Qeq_bool y x)) _ _ (nums_perm _ _ P))).
  rewrite (Permutation_length (perm_filter (fun y => Qeq_bool y x) _ _ (nums_perm _ _ P))). reflexivity.
Qed.

(* a value that occurs once gets 1 + the number of smaller values *)
Theorem rank_of_untied_value (vs : list val) (v : val) (x : Q) :
  num_of v = Some x -> List.length (filter (fun y => Qeq_bool y x) (nums vs)) = 1%nat ->
  rank_val vs v = qn (inject_Z (Z.of_nat (List.length (filter (fun y => Qle_bool y x && negb (Qeq_bool y x)) (nums vs)) + 1))).
Proof.
  intros E U. unfold rank_val. rewrite E, U. unfold qn. f_equal. apply Qred_complete.
  rewrite Nat2Z.inj_add, inject_Z_plus. simpl. field.
Qed.

(* ---------- first / last / ffill / bfill *)
Lemma first_nonnull_cons v t : first_nonnull (v :: t) = if is_null v then first_nonnull t else v.
Proof. unfold first_nonnull. simpl. destruct (is_null v); reflexivity. Qed.

Lemma first_nonnull_app l m : first_nonnull (l ++ m) = if forallb is_null l then first_nonnull m else first_nonnull l.
Proof.
  induction l as [|v t IH]; [reflexivity|]. rewrite <- app_comm_cons, !first_nonnull_cons. simpl.
  destruct (is_null v); [exact IH|reflexivity].
Qed.

Lemma nth_broadcast (a : val) vs : forall j, (j < List.length vs)%nat -> nth j (map (fun _ : val => a) vs) VNull = a.
Proof. induction vs as [|v t IH]; intros [|j] L; simpl in *; try lia; [reflexivity|]. apply IH. lia. Qed.

(* first: the first non-null value in the declared order, at every row; last: the last one *)
Theorem first_last_value (fl : flavor) (extra vs : list val) (j : nat) :
  (j < List.length vs)%nat ->
  nth j (win_fn fl "first" extra vs) VNull = first_nonnull vs /\ nth j (win_fn fl "last" extra vs) VNull = first_nonnull (rev vs).
Proof.
  intros L. unfold win_fn. split; apply nth_broadcast; exact L.
Qed.

Theorem first_nonnull_spec (l1 l2 : list val) (v : val) :
  forallb is_null l1 = true -> is_null v = false -> first_nonnull (l1 ++ v :: l2) = v.
Proof. intros A N. rewrite first_nonnull_app, A, first_nonnull_cons, N. reflexivity. Qed.

Theorem last_nonnull_spec (l1 l2 : list val) (v : val) :
  forallb is_null l2 = true -> is_null v = false -> first_nonnull (rev (l1 ++ v :: l2)) = v.
Proof.
  intros A N. rewrite rev_app_distr. cbn [rev]. rewrite <- app_assoc. cbn [app].
  assert (forallb is_null (rev l2) = true) as A'.
  { apply forallb_forall. intros x I. apply in_rev in I. rewrite forallb_forall in A. apply A. exact I. }
  rewrite first_nonnull_app, A', first_nonnull_cons, N. reflexivity.
Qed.

Theorem all_null_first_is_null (vs : list val) : forallb is_null vs = true -> first_nonnull vs = VNull.
Proof. intros A. rewrite <- (app_nil_r vs), first_nonnull_app, A. reflexivity. Qed.

Lemma ffill_from_nth vs : forall acc j, (j < List.length vs)%nat ->
  nth j (ffill_from acc vs) VNull = first_nonnull (rev (firstn (S j) vs) ++ [acc]).
Proof.
  induction vs as [|v t IH]; intros acc j L; [simpl in L; lia|]. destruct j as [|j].
  - simpl. rewrite !first_nonnull_cons. destruct (is_null v); [|reflexivity]. destruct acc; reflexivity.
  - cbn [ffill_from nth]. simpl in L. rewrite IH by lia.
    change (firstn (S (S j)) (v :: t)) with (v :: firstn (S j) t). cbn [rev]. rewrite <- app_assoc. cbn [app].
    rewrite !first_nonnull_app.
    destruct (forallb is_null (rev (firstn (S j) t))); [|reflexivity].
    destruct (is_null v) eqn:Nv; rewrite !first_nonnull_cons, ?Nv; reflexivity.
Qed.

(* ffill: the closest non-null value at or before the row; bfill: the closest at or after it *)
Theorem ffill_value (fl : flavor) (extra vs : list val) (j : nat) :
  (j < List.length vs)%nat -> nth j (win_fn fl "ffill" extra vs) VNull = first_nonnull (rev (firstn (S j) vs)).
Proof.
  intros L. unfold win_fn. rewrite ffill_from_nth by exact L. rewrite first_nonnull_app.
  destruct (forallb is_null (rev (firstn (S j) vs))) eqn:A; [|reflexivity]. symmetry. apply all_null_first_is_null. exact A.
Qed.

Lemma bfill_list_nth vs : forall j, nth j (bfill_list vs) VNull = first_nonnull (skipn j vs).
Proof.
  induction vs as [|v t IH]; intros j; [destruct j; reflexivity|]. destruct j as [|j].
  - cbn [bfill_list nth skipn]. rewrite first_nonnull_cons. destruct (is_null v); [|reflexivity].
    pose proof (IH 0%nat) as H0. cbn [skipn] in H0. rewrite <- H0. destruct (bfill_list t); reflexivity.
  - cbn [bfill_list nth skipn]. apply IH.
Qed.

Theorem bfill_value (fl : flavor) (extra vs : list val) (j : nat) :
  nth j (win_fn fl "bfill" extra vs) VNull = first_nonnull (skipn j vs).
Proof. unfold win_fn. apply bfill_list_nth. Qed.

(* ---------- group aggregates: ONE value, computed from all the values of the partition, written at every row *)
Theorem group_aggregate_broadcast (fl : flavor) (op : string) (extra vs : list val) (j : nat) :
  In op ["sum"; "mean"; "min"; "max"; "count"; "size"; "_size"] -> (j < List.length vs)%nat ->
  nth j (win_fn fl op extra vs) VNull = agg_fn fl op vs.
Proof.
  intros H L. simpl in H. repeat (destruct H as [<-|H]; [unfold win_fn; apply nth_broadcast; exact L|]). destruct H.
Qed.

Theorem median_nunique_var_broadcast (fl : flavor) (extra vs : list val) (j : nat) :
  (j < List.length vs)%nat ->
  nth j (win_fn fl "median" extra vs) VNull = median_val vs
  /\ nth j (win_fn fl "nunique" extra vs) VNull = nunique_val vs
  /\ nth j (win_fn fl "var" extra vs) VNull = var_val vs.
Proof. intros L. unfold win_fn. repeat split; apply nth_broadcast; exact L. Qed.

(* an aggregate does not depend on the order of the partition's values (count / size / sum / mean shown; min / max alike) *)
Theorem count_size_order_independent (fl : flavor) (op : string) (vs vs' : list val) :
  In op ["count"; "size"; "_size"] -> Permutation vs vs' -> agg_fn fl op vs = agg_fn fl op vs'.
Proof.
  intros H P. simpl in H.
  assert (List.length vs = List.length vs') as EL by (apply Permutation_length; exact P).
  assert (List.length (filter (fun v => negb (is_null v)) vs) = List.length (filter (fun v => negb (is_null v)) vs')) as EF
    by (apply Permutation_length, perm_filter; exact P).
  destruct H as [<-|[<-|[<-|[]]]]; unfold agg_fn;
    (destruct vs as [|a t]; destruct vs' as [|b u]; try (simpl in EL; discriminate); [reflexivity|]); rewrite ?EF, ?EL; reflexivity.
Qed.
