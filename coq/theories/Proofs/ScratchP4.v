(* C15, part B: the names in the source (`hard`) are harmless for user names outside `reserved`; names chosen away from
   the user's names (`fresh`) are harmless always; per class of hard-coded name a witness where a user column of that name
   changes the step; name resolution in WITH queries. *)
From Coq Require Import List Bool Arith String Lia Decimal DecimalString DecimalNat.
Import ListNotations.
From DA Require Import Base.PyRT Base.PyStr Model.ScratchNames Model.ScratchCases Proofs.ScratchP1 Proofs.ScratchP2 Proofs.ScratchP3.
Local Open Scope list_scope.

Lemma str_length_app (a b : string) : String.length (a ++ b) = String.length a + String.length b.
Proof. induction a as [|c a IH]; simpl; [reflexivity|]. rewrite IH. reflexivity. Qed.

Lemma str_app_inv_head (p a b : string) : (p ++ a)%string = (p ++ b)%string -> a = b.
Proof. induction p as [|c p IH]; simpl; intros E; [exact E|]. inversion E. apply IH. assumption. Qed.

Lemma str_app_inv_tail (s a b : string) : (a ++ s)%string = (b ++ s)%string -> a = b.
Proof.
  revert b. induction a as [|c a IH]; intros [|d b] E; simpl in E.
  - reflexivity.
  - exfalso. apply (f_equal String.length) in E. simpl in E. rewrite str_length_app in E. lia.
  - exfalso. apply (f_equal String.length) in E. simpl in E. rewrite str_length_app in E. lia.
  - inversion E. f_equal. apply IH. assumption.
Qed.

Lemma strip_prefix_app (p d : string) : strip_prefix p (p ++ d) = Some d.
Proof. induction p as [|c p IH]; simpl; [destruct d; reflexivity|]. destruct (Ascii.eqb c c) eqn:E; [exact IH|]. rewrite Ascii.eqb_refl in E. discriminate. Qed.

Lemma ends_with_refl (s : string) : ends_with s s = true.
Proof. destruct s as [|a s]; [reflexivity|]. cbn [ends_with]. rewrite String.eqb_refl. reflexivity. Qed.

Lemma ends_with_app (s c : string) : ends_with s (c ++ s) = true.
Proof. induction c as [|x c IH]; [apply ends_with_refl|]. cbn [append ends_with]. rewrite IH. apply orb_true_r. Qed.

Lemma all_digits_uint d : all_digits (NilEmpty.string_of_uint d) = true.
Proof. induction d; simpl; try reflexivity; exact IHd. Qed.

Lemma dec_inj i j : dec i = dec j -> i = j.
Proof.
  unfold dec. intros E. apply (f_equal NilEmpty.uint_of_string) in E. rewrite !NilEmpty.usu in E. inversion E as [E'].
  apply (f_equal Nat.of_uint) in E'. rewrite !Unsigned.of_to in E'. exact E'.
Qed.

Lemma max_len_ge u x : In x u -> String.length x <= max_len u.
Proof. induction u as [|y t IH]; simpl; [tauto|]. intros [<-|H]; [lia|]. specialize (IH H). lia. Qed.

Lemma pad_length n : String.length (pad n) = n.
Proof. induction n as [|n IH]; simpl; [reflexivity|]. rewrite IH. reflexivity. Qed.

Lemma padded_fresh u s : ~ In (pad (S (max_len u)) ++ s)%string u.
Proof. intros H. apply max_len_ge in H. rewrite str_length_app, pad_length in H. lia. Qed.

(* ------------------------------------------------------------------ reserved *)
Local Open Scope string_scope.
Lemma reserved_exact_tt : is_reserved SColumn "_data_table_temp_col" = true. Proof. vm_compute. reflexivity. Qed.
Lemma reserved_exact_tg : is_reserved SColumn "_data_algebra_temp_g" = true. Proof. vm_compute. reflexivity. Qed.
Lemma reserved_exact_oi : is_reserved SColumn "_data_algebra_orig_index" = true. Proof. vm_compute. reflexivity. Qed.
Lemma reserved_exact_merge : is_reserved SColumn "data_algebra_temp_merge_col" = true. Proof. vm_compute. reflexivity. Qed.
Lemma reserved_exact_nullkey : is_reserved SColumn "data_algebra_temp_null_key_col" = true. Proof. vm_compute. reflexivity. Qed.

Lemma is_reserved_entry k sp e n : nth_error reserved k = Some e -> rspace_eqb (r_space e) sp = true -> rmatch e n = true -> is_reserved sp n = true.
Proof. intros I S M. unfold is_reserved. apply existsb_exists. exists e. split; [exact (nth_error_In _ _ I)|]. rewrite S, M. reflexivity. Qed.

Lemma reserved_prefix_num k sp e i :
  nth_error reserved k = Some e -> rspace_eqb (r_space e) sp = true -> r_kind e = KPrefixNum -> is_reserved sp (r_text e ++ dec i) = true.
Proof. intros I S K. apply (is_reserved_entry k sp e _ I S). unfold rmatch. rewrite K, strip_prefix_app. apply all_digits_uint. Qed.

Lemma reserved_suffix k sp e c :
  nth_error reserved k = Some e -> rspace_eqb (r_space e) sp = true -> r_kind e = KSuffix -> is_reserved sp (c ++ r_text e) = true.
Proof. intros I S K. apply (is_reserved_entry k sp e _ I S). unfold rmatch. rewrite K. apply ends_with_app. Qed.

Lemma reserved_proj_tmp i : is_reserved SColumn ("data_algebra_project_temp_col_" ++ dec i) = true.
Proof. exact (reserved_prefix_num 1 SColumn _ i eq_refl eq_refl eq_refl). Qed.
Lemma reserved_ext_tmp i : is_reserved SColumn ("data_algebra_extend_temp_col_" ++ dec i) = true.
Proof. exact (reserved_prefix_num 2 SColumn _ i eq_refl eq_refl eq_refl). Qed.
Lemma reserved_right c : is_reserved SColumn (c ++ "_tmp_right_col") = true.
Proof. exact (reserved_suffix 7 SColumn _ c eq_refl eq_refl eq_refl). Qed.

Definition outside_reserved (u : list string) : Prop := forall c, In c u -> is_reserved SColumn c = false.

Lemma outside_not_in u n : outside_reserved u -> is_reserved SColumn n = true -> ~ In n u.
Proof. intros O R H. rewrite (O n H) in R. discriminate. Qed.

Lemma right_not_merge c : c ++ "_tmp_right_col" <> "data_algebra_temp_merge_col".
Proof.
  intros E. assert (H : ends_with "_tmp_right_col" (c ++ "_tmp_right_col") = true) by apply ends_with_app.
  rewrite E in H. vm_compute in H. discriminate.
Qed.

Lemma right_not_nullkey c : c ++ "_tmp_right_col" <> "data_algebra_temp_null_key_col".
Proof.
  intros E. assert (H : ends_with "_tmp_right_col" (c ++ "_tmp_right_col") = true) by apply ends_with_app.
  rewrite E in H. vm_compute in H. discriminate.
Qed.

Theorem hard_good_project u : outside_reserved u -> good_project hard u.
Proof.
  intros O. constructor; cbn [hard n_table_temp n_proj_tmp].
  - apply (outside_not_in u _ O reserved_exact_tt).
  - intros i. apply (outside_not_in u _ O (reserved_proj_tmp i)).
  - intros i E. simpl in E. discriminate.
  - intros i j E. apply str_app_inv_head in E. apply dec_inj, E.
Qed.

Theorem hard_good_wextend u : outside_reserved u -> good_wextend hard u.
Proof.
  intros O. constructor; cbn [hard n_orig_index n_temp_g n_ext_tmp].
  - apply (outside_not_in u _ O reserved_exact_oi).
  - apply (outside_not_in u _ O reserved_exact_tg).
  - intros i. apply (outside_not_in u _ O (reserved_ext_tmp i)).
  - discriminate.
  - intros i E. simpl in E. discriminate.
  - intros i E. simpl in E. discriminate.
  - intros i j E. apply str_app_inv_head in E. apply dec_inj, E.
Qed.

Theorem hard_good_join common u : outside_reserved u -> good_join hard common u.
Proof.
  intros O. constructor; cbn [hard n_merge n_nullkey n_right].
  - apply (outside_not_in u _ O reserved_exact_merge).
  - intros c _. apply (outside_not_in u _ O (reserved_right c)).
  - intros c _. apply right_not_merge.
  - apply (outside_not_in u _ O reserved_exact_nullkey).
  - intros c _. apply right_not_nullkey.
  - discriminate.
  - intros a b _ _ E. apply str_app_inv_tail in E. exact E.
Qed.

Theorem fresh_good_project u : good_project (fresh u) u.
Proof.
  constructor; cbn [fresh n_table_temp n_proj_tmp].
  - apply padded_fresh.
  - intros i. apply padded_fresh.
  - intros i E. apply str_app_inv_head in E. simpl in E. discriminate.
  - intros i j E. apply str_app_inv_head, str_app_inv_head in E. apply dec_inj, E.
Qed.

Theorem fresh_good_wextend u : good_wextend (fresh u) u.
Proof.
  constructor; cbn [fresh n_orig_index n_temp_g n_ext_tmp].
  - apply padded_fresh.
  - apply padded_fresh.
  - intros i. apply padded_fresh.
  - intros E. apply str_app_inv_head in E. discriminate.
  - intros i E. apply str_app_inv_head in E. simpl in E. discriminate.
  - intros i E. apply str_app_inv_head in E. simpl in E. discriminate.
  - intros i j E. apply str_app_inv_head, str_app_inv_head in E. apply dec_inj, E.
Qed.

Theorem fresh_good_join common u : good_join (fresh u) common u.
Proof.
  constructor; cbn [fresh n_merge n_nullkey n_right].
  - apply padded_fresh.
  - intros c _. apply padded_fresh.
  - intros c _ E. apply str_app_inv_head in E. exact (right_not_merge c E).
  - apply padded_fresh.
  - intros c _ E. apply str_app_inv_head in E. exact (right_not_nullkey c E).
  - intros E. apply str_app_inv_head in E. discriminate.
  - intros a b _ _ E. apply str_app_inv_head, str_app_inv_tail in E. exact E.
Qed.
Local Close Scope string_scope.

(* ------------------------------------------------------------------ the three steps under one statement *)
Definition user_names {A} (s : pstep) (f g : frame A) : list string := fcols f ++ fcols g ++ step_names s.

Record good_names {A} (sn : pnames) (s : pstep) (f g : frame A) : Prop := mkgn {
  gn_project : good_project sn (user_names s f g);
  gn_wextend : good_wextend sn (user_names s f g);
  gn_join : good_join sn (step_common s f g) (user_names s f g) }.

Section AllSteps.
  Context {A : Type} (P : prims A).

  Theorem step_no_capture sn s (f g : frame A) :
    NoDup (fcols f) -> NoDup (fcols g) -> good_names sn s f g -> pexec P sn s f g = plain P s f g.
  Proof.
    intros Nf Ng [Gp Gw Gj]. unfold user_names in Gp, Gw, Gj. destruct s as [ops gb|ops part order rev|how on nk]; simpl.
    - apply (project_no_capture P sn ops gb f) with (2 := Gp). intros c Hc. do 2 (apply in_or_app; right). exact Hc.
    - apply (wextend_no_capture P sn ops part order rev f) with (2 := Gw). intros c Hc. rewrite !in_app_iff in *. tauto.
    - apply (join_no_capture P sn how on nk f g) with (4 := Gj); [exact Nf|exact Ng|]. intros c Hc. rewrite !in_app_iff in *. tauto.
  Qed.

  Theorem hard_no_capture_outside_reserved s (f g : frame A) :
    NoDup (fcols f) -> NoDup (fcols g) -> outside_reserved (user_names s f g) -> pexec P hard s f g = plain P s f g.
  Proof.
    intros Nf Ng O. apply step_no_capture; [exact Nf|exact Ng|]. constructor; [apply hard_good_project|apply hard_good_wextend|apply hard_good_join]; exact O.
  Qed.

  Theorem fresh_never_captures s (f g : frame A) :
    NoDup (fcols f) -> NoDup (fcols g) -> pexec P (fresh (user_names s f g)) s f g = plain P s f g.
  Proof.
    intros Nf Ng. apply step_no_capture; [exact Nf|exact Ng|]. constructor; [apply fresh_good_project|apply fresh_good_wextend|apply fresh_good_join].
  Qed.
End AllSteps.

(* ------------------------------------------------------------------ witnesses: a user column named like a scratch column *)
Lemma eqb_false_neq {X} `{EqDec X} (x y : X) : eqb x y = false -> x <> y.
Proof. intros E ->. rewrite eqb_refl in E. discriminate. Qed.

Local Open Scope string_scope.
Definition wit (s : pstep) (l r : list string) : Prop :=
  pexec sym hard s (sframe "<L:" l) (sframe "<R:" r) <> plain sym s (sframe "<L:" l) (sframe "<R:" r).

Theorem project_ones_capture_refuted :       (* the group column is called _data_table_temp_col: every row falls into one group *)
  wit (PProject [mksop "s" "sum" (ArgCol "x") []] ["_data_table_temp_col"]) ["_data_table_temp_col"; "x"] [].
Proof. apply eqb_false_neq. vm_compute. reflexivity. Qed.

Theorem project_ones_output_dropped_refuted : (* the OUTPUT column is called _data_table_temp_col: it is dropped from the result *)
  wit (PProject [mksop "_data_table_temp_col" "sum" (ArgCol "x") []] ["g"]) ["g"; "x"] [].
Proof. apply eqb_false_neq. vm_compute. reflexivity. Qed.

Theorem project_const_capture_refuted :      (* the group column is called data_algebra_project_temp_col_0 and a constant is aggregated *)
  wit (PProject [mksop "c" "sum" (ArgVal "2") []] ["data_algebra_project_temp_col_0"]) ["data_algebra_project_temp_col_0"; "x"] [].
Proof. apply eqb_false_neq. vm_compute. reflexivity. Qed.

Theorem extend_standin_capture_refuted :     (* the window function's argument column is called _data_algebra_temp_g: ones are summed *)
  wit (PWExtend [mksop "s" "sum" (ArgCol "_data_algebra_temp_g") []] ["g"] [] []) ["g"; "_data_algebra_temp_g"] [].
Proof. apply eqb_false_neq. vm_compute. reflexivity. Qed.

Theorem extend_orig_index_capture_refuted :  (* the argument column is called _data_algebra_orig_index: the row index is accumulated *)
  wit (PWExtend [mksop "c" "cumsum" (ArgCol "_data_algebra_orig_index") []] ["g"] ["y"] []) ["g"; "_data_algebra_orig_index"; "y"] [].
Proof. apply eqb_false_neq. vm_compute. reflexivity. Qed.

Theorem extend_const_capture_refuted :       (* an unrelated column is called data_algebra_extend_temp_col_0: it is overwritten, then DELETED *)
  wit (PWExtend [mksop "c" "cumsum" (ArgVal "2") []] ["g"] ["y"] []) ["g"; "y"; "data_algebra_extend_temp_col_0"] [].
Proof. apply eqb_false_neq. vm_compute. reflexivity. Qed.

Theorem join_merge_key_capture_refuted :     (* a keyless join; a left column is called data_algebra_temp_merge_col: overwritten, then deleted *)
  wit (PJoin "CROSS" [] false) ["g"; "data_algebra_temp_merge_col"] ["q"].
Proof. apply eqb_false_neq. vm_compute. reflexivity. Qed.

Theorem join_suffix_capture_refuted :        (* x is shared and not a key; a left column is called x_tmp_right_col: the merge raises *)
  wit (PJoin "LEFT" ["k"] false) ["k"; "x"; "x_tmp_right_col"] ["k"; "x"] /\ pexec sym hard (PJoin "LEFT" ["k"] false) (sframe "<L:" ["k"; "x"; "x_tmp_right_col"]) (sframe "<R:" ["k"; "x"]) = None.
Proof. split; [apply eqb_false_neq; vm_compute; reflexivity|vm_compute; reflexivity]. Qed.

(* the same frames with ordinary names satisfy the guard of hard_no_capture_outside_reserved (non-vacuity) *)
Example outside_reserved_example : outside_reserved (user_names (PProject [mksop "s" "sum" (ArgCol "x") []] ["g"]) (sframe "<L:" ["g"; "x"]) (sframe "<R:" [])).
Proof. intros c H. simpl in H. repeat (destruct H as [<-|H]; [vm_compute; reflexivity|]). contradiction. Qed.
Local Close Scope string_scope.

(* ------------------------------------------------------------------ SQL: names in a WITH query *)
Theorem with_no_capture q :
  wq_wellformed q = true -> (forall n, In n (wq_tables q) -> ~ In n (w_ctes q)) -> captured_refs q = [].
Proof.
  intros W D. unfold captured_refs. unfold wq_wellformed in W. rewrite forallb_forall in W.
  assert (H : forall r, In r (w_refs q) -> negb (target_eqb (resolve (w_ctes q) r) (intended r)) = false).
  { intros r Hr. apply negb_false_iff. destruct r as [n|n]; unfold resolve; simpl.
    - assert (M : mem n (w_ctes q) = false). { apply mem_false, D. unfold wq_tables. apply in_flat_map. exists (RTable n). split; [exact Hr|left; reflexivity]. }
      rewrite M. simpl. apply String.eqb_refl.
    - rewrite (W _ Hr). simpl. apply String.eqb_refl. }
  clear W D. induction (w_refs q) as [|r t IH]; simpl; [reflexivity|]. rewrite (H r (or_introl eq_refl)). apply IH. intros r' Hr'. apply H. right. exact Hr'.
Qed.

Local Open Scope string_scope.
Theorem with_view_name_capture_refuted :      (* a user table called extend_0 read by a query whose first view is extend_0 *)
  exists q, wq_wellformed q = true /\ In "extend_0" (wq_tables q) /\ is_reserved STable "extend_0" = true /\ captured_refs q <> [].
Proof. exists (mkwq ["extend_0"] [RTable "extend_0"; RView "extend_0"]). repeat split; try (vm_compute; reflexivity); [simpl; tauto|vm_compute; discriminate]. Qed.

(* every generated view or alias name has a reserved form; a table name outside `reserved` is none of them *)
Theorem outside_reserved_tables_not_captured q :
  wq_wellformed q = true -> (forall v, In v (w_ctes q) -> is_reserved STable v = true) ->
  (forall n, In n (wq_tables q) -> is_reserved STable n = false) -> captured_refs q = [].
Proof. intros W V T. apply with_no_capture; [exact W|]. intros n Hn Hc. specialize (T n Hn). rewrite (V n Hc) in T. discriminate. Qed.
Local Close Scope string_scope.

(* ------------------------------------------------------------------ SQL: the view numbering of to_sql (161d83f) *)
Lemma to_uint_nonnil n : Nat.to_uint n <> Nil.
Proof.
  destruct n as [|n]; [vm_compute; discriminate|]. intros E. apply (f_equal Nat.of_uint) in E. rewrite Unsigned.of_to in E. simpl in E. discriminate.
Qed.

Lemma parse_nat_dec i : parse_nat (dec i) = Some i.
Proof.
  unfold parse_nat, dec. rewrite all_digits_uint, NilEmpty.usu. simpl. rewrite Unsigned.of_to.
  destruct (NilEmpty.string_of_uint (Nat.to_uint i)) eqn:E; [|reflexivity].
  exfalso. apply (to_uint_nonnil i). destruct (Nat.to_uint i); simpl in E; try discriminate. reflexivity.
Qed.

Lemma fold_max_ge l x : In x l -> x <= fold_right Nat.max 0 l.
Proof. induction l as [|y t IH]; simpl; [tauto|]. intros [->|H]; [lia|]. specialize (IH H). lia. Qed.

(* no view the generator can produce for these tables is one of the tables *)
Theorem generated_view_is_no_table tables p i t :
  In p view_kinds -> In t tables -> first_view_id tables <= i -> t <> (p ++ dec i)%string.
Proof.
  intros Hp Ht Hi E. subst t.
  assert (H : In (S i) (flat_map (fun t => map S (view_numbers t)) tables)).
  { apply in_flat_map. exists (p ++ dec i)%string. split; [exact Ht|]. apply in_map. unfold view_numbers. apply in_flat_map. exists p. split; [exact Hp|].
    rewrite strip_prefix_app, parse_nat_dec. left. reflexivity. }
  apply fold_max_ge in H. unfold first_view_id in Hi. lia.
Qed.

Lemma generated_view_name_spec tables v : generated_view_name tables v = true -> exists p i, In p view_kinds /\ first_view_id tables <= i /\ forall t, In t tables -> t <> v.
Proof.
  unfold generated_view_name. intros H. apply existsb_exists in H. destruct H as [p [Hp H]].
  destruct (strip_prefix p v) as [d|] eqn:Es; [|discriminate]. destruct (parse_nat d) as [n|] eqn:Ep; [|discriminate]. apply Nat.leb_le in H.
  exists p, n. split; [exact Hp|]. split; [exact H|]. intros t Ht E. subst t.
  assert (Hin : In (S n) (flat_map (fun t => map S (view_numbers t)) tables)).
  { apply in_flat_map. exists v. split; [exact Ht|]. apply in_map. unfold view_numbers. apply in_flat_map. exists p. split; [exact Hp|]. rewrite Es, Ep. left. reflexivity. }
  apply fold_max_ge in Hin. unfold first_view_id in H. lia.
Qed.

(* a WITH query whose views carry names the generator produces for its tables resolves every name as meant: no guard on
   how the user's tables are called *)
Theorem with_query_numbered_no_capture q :
  wq_wellformed q = true -> forallb (generated_view_name (wq_tables q)) (w_ctes q) = true -> captured_refs q = [].
Proof.
  intros W G. apply with_no_capture; [exact W|]. intros n Hn Hc. rewrite forallb_forall in G.
  destruct (generated_view_name_spec _ _ (G n Hc)) as [p [i [_ [_ D]]]]. exact (D n Hn eq_refl).
Qed.
