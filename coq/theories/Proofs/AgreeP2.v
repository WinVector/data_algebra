(* C01 / C02, part 2: one step.  If Model/SemStrict.v lists no cause for a step on its materialised input, the step
   produces the same table under every flavour. *)
From Coq Require Import List Bool String .
Import ListNotations.
From DA Require Import Base.PyRT Base.Val Model.Sem Model.SemStrict Proofs.SemBasicP Proofs.SemOrderP Proofs.AgreeP1 Proofs.ListP.
Local Open Scope string_scope.
Local Open Scope list_scope.

Lemma existsb_false_in {A} (f : A -> bool) l : existsb f l = false -> forall x, In x l -> f x = false.
Proof.
  intros E x I. destruct (f x) eqn:F; [|reflexivity].
  assert (existsb f l = true) as T by (apply existsb_exists; exists x; split; assumption). congruence.
Qed.
Lemma existsb_map {A B} (g : A -> B) (f : B -> bool) l : existsb f (map g l) = existsb (fun x => f (g x)) l.
Proof. induction l as [|x t IH]; simpl; [reflexivity|]. rewrite IH. reflexivity. Qed.

(* ---------- row-wise extend *)
Lemma extend_agree fl0 ops t : extend_causes fl0 ops t = [] -> forall fl, sem_extend fl ops t = sem_extend fl0 ops t.
Proof.
  intros H fl. unfold sem_extend. f_equal. apply map_ext_in. intros r I.
  unfold extend_row. f_equal. apply fold_left_ext_in. intros [row ccs] ke Ike.
  rewrite (expr_stable fl0 (cols t) r (snd ke)); [reflexivity|].
  unfold extend_causes in H. apply (flat_map_nil_inv _ _ (flat_map_nil_inv _ _ H r I) ke Ike).
Qed.

(* ---------- select_rows *)
Lemma select_agree fl0 x t : select_causes fl0 x t = [] -> forall fl, sem_select_rows fl x t = sem_select_rows fl0 x t.
Proof.
  intros H fl. unfold sem_select_rows. f_equal. apply filter_ext_in. intros r I.
  apply truth_stable. apply (flat_map_nil_inv _ _ H r I).
Qed.

(* ---------- project *)
Lemma arg_value_stable fl0 cs arg r : arg_causes fl0 cs arg r = [] -> forall fl, arg_value fl cs arg r = arg_value fl0 cs arg r.
Proof. destruct arg as [a|]; simpl; intros H fl; [apply expr_stable; exact H|reflexivity]. Qed.

Lemma agg_value_agree fl0 cs grp x : agg_value_causes fl0 cs grp x = [] -> forall fl, agg_value fl cs grp x = agg_value fl0 cs grp x.
Proof.
  unfold agg_value, agg_value_causes. destruct (agg_parts x) as [[op arg]|]; [|reflexivity].
  intros H fl. apply app_eq_nil in H. destruct H as [H1 H2].
  change (agg_fn fl op (map (arg_value fl cs arg) grp) = agg_fn fl0 op (map (arg_value fl0 cs arg) grp)).
  rewrite (map_ext_in (arg_value fl cs arg) (arg_value fl0 cs arg) grp).
  - apply agg_stable. exact H2.
  - intros r I. apply arg_value_stable. apply (flat_map_nil_inv _ _ H1 r I).
Qed.

Lemma project_agree fl0 ops gb t : project_causes fl0 ops gb t = [] -> forall fl, sem_project fl ops gb t = sem_project fl0 ops gb t.
Proof.
  intros H fl. unfold sem_project. f_equal. apply map_ext_in. intros k Ik. f_equal.
  apply map_ext_in. intros ke Ike. apply agg_value_agree.
  unfold project_causes in H. apply (flat_map_nil_inv _ _ (flat_map_nil_inv _ _ H k Ik) ke Ike).
Qed.

(* ---------- sorting: keys without nulls are ordered alike by every flavour *)

Lemma row_le_nonnull fl fl' cs rev ks r1 r2 : null_key cs ks r1 = false -> null_key cs ks r2 = false ->
  row_le fl cs (map (fun c => (c, mem c rev)) ks) r1 r2 = row_le fl' cs (map (fun c => (c, mem c rev)) ks) r1 r2.
Proof.
  unfold null_key. induction ks as [|c t IH]; simpl; intros N1 N2; [reflexivity|].
  apply orb_false_iff in N1, N2. destruct N1 as [A1 B1], N2 as [A2 B2].
  rewrite (IH B1 B2). rewrite (v_le_dir_nonnull _ (nulls_first fl' (mem c rev)) _ _ _ A1 A2). reflexivity.
Qed.

Lemma order_agree cs rev lim t : order_causes cs lim t = [] -> forall fl fl', sem_order fl cs rev lim t = sem_order fl' cs rev lim t.
Proof.
  intros H fl fl'. unfold order_causes in H. apply app_eq_nil in H. destruct H as [H _]. apply if_nil in H.
  unfold sem_order. f_equal.
  rewrite (stable_sort_ext_in (row_le fl (cols t) (map (fun c => (c, mem c rev)) cs)) (row_le fl' (cols t) (map (fun c => (c, mem c rev)) cs))).
  - reflexivity.
  - intros x y Ix Iy. apply row_le_nonnull; eapply existsb_false_in; eassumption.
Qed.

(* ---------- windowed extend *)
Lemma window_sorted_agree fl fl' w t part :
  existsb (null_key (cols t) (w_order w)) (rows t) = false ->
  (forall ir, In ir part -> In (snd ir) (rows t)) ->
  stable_sort (fun a b : nat * list val => row_le fl (cols t) (map (fun c => (c, mem c (w_rev w))) (w_order w)) (snd a) (snd b)) part
  = stable_sort (fun a b => row_le fl' (cols t) (map (fun c => (c, mem c (w_rev w))) (w_order w)) (snd a) (snd b)) part.
Proof.
  intros N P. apply stable_sort_ext_in. intros x y Ix Iy.
  apply row_le_nonnull; eapply existsb_false_in; try exact N; apply P; assumption.
Qed.

Lemma window_agree fl0 w t x : window_causes fl0 w t x = [] -> forall fl, window_column fl w t x = window_column fl0 w t x.
Proof.
  intros H fl. unfold window_causes in H. apply app_eq_nil in H. destruct H as [Hs H]. apply if_nil in Hs.
  unfold window_column. apply flat_map_ext_in. intros k Ik.
  set (part := filter (fun ir : nat * list val => keys_eqv k (key_of (cols t) (w_part w) (snd ir))) (tag_from 0 (rows t))) in *.
  assert (forall ir, In ir part -> In (snd ir) (rows t)) as P.
  { intros ir I. apply filter_In in I. destruct I as [I _]. eapply tag_from_In. exact I. }
  rewrite (window_sorted_agree fl fl0 w t part Hs P).
  set (sorted := stable_sort _ part) in *.
  assert (forall ir, In ir sorted -> In (snd ir) (rows t)) as Q.
  { intros ir I. apply P. eapply stable_sort_In. exact I. }
  destruct (win_parts x) as [[[op arg] extra]|]; [|reflexivity].
  apply app_eq_nil in H. destruct H as [Ha Hg].
  pose proof (flat_map_nil_inv _ _ Hg k Ik) as Hk. cbv zeta in Hk. fold part in Hk.
  apply app_eq_nil in Hk. destruct Hk as [Hw _].
  f_equal.
  change (win_fn fl op extra (map (fun ir => arg_value fl (cols t) arg (snd ir)) sorted)
          = win_fn fl0 op extra (map (fun ir => arg_value fl0 (cols t) arg (snd ir)) sorted)).
  rewrite (map_ext_in (fun ir => arg_value fl (cols t) arg (snd ir)) (fun ir => arg_value fl0 (cols t) arg (snd ir)) sorted).
  - apply win_stable. exact Hw.
  - intros ir I. apply arg_value_stable. apply (flat_map_nil_inv _ _ Ha (snd ir)). apply Q. exact I.
Qed.

Lemma wextend_agree fl0 ops w t : wextend_causes fl0 ops w t = [] -> forall fl, sem_wextend fl ops w t = sem_wextend fl0 ops w t.
Proof.
  intros H fl. unfold sem_wextend.
  rewrite (map_ext_in (fun ke => (fst ke, window_column fl w t (snd ke))) (fun ke => (fst ke, window_column fl0 w t (snd ke))) ops).
  - reflexivity.
  - intros ke I. f_equal. apply window_agree. apply (flat_map_nil_inv _ _ H ke I).
Qed.

(* ---------- joins *)
Lemma key_null cs ks r : existsb is_null (key_of cs ks r) = null_key cs ks r.
Proof. unfold key_of, null_key. apply existsb_map. Qed.

Lemma keys_match_agree nm nm' ka kb : existsb is_null ka && existsb is_null kb = false -> keys_match nm ka kb = keys_match nm' ka kb.
Proof.
  unfold keys_match. intros H. destruct (keys_eqv ka kb) eqn:E; [|rewrite !andb_false_r; reflexivity].
  rewrite <- (keys_eqv_null_same _ _ E), andb_diag in H. rewrite H. simpl. rewrite !orb_true_r. reflexivity.
Qed.

Lemma join_agree on_a on_b jt a b : join_causes on_a on_b jt a b = [] -> forall nm nm', sem_join nm on_a on_b jt a b = sem_join nm' on_a on_b jt a b.
Proof.
  intros H nm nm'. unfold join_causes in H. apply if_nil in H.
  assert (forall ra rb, In ra (rows a) -> In rb (rows b) ->
            keys_match nm (key_of (cols a) on_a ra) (key_of (cols b) on_b rb) = keys_match nm' (key_of (cols a) on_a ra) (key_of (cols b) on_b rb)) as K.
  { intros ra rb Ia Ib. apply keys_match_agree. rewrite !key_null.
    apply andb_false_iff in H. destruct H as [H|H].
    - rewrite (existsb_false_in _ _ H ra Ia). reflexivity.
    - rewrite (existsb_false_in _ _ H rb Ib). apply andb_false_r. }
  unfold sem_join. f_equal. f_equal; [|f_equal].
  - apply flat_map_ext_in. intros ra Ia. apply flat_map_ext_in. intros rb Ib. rewrite (K ra rb Ia Ib). reflexivity.
  - destruct jt; try reflexivity; apply flat_map_ext_in; intros ra Ia;
      rewrite (existsb_ext_in _ (fun rb => keys_match nm' (key_of (cols a) on_a ra) (key_of (cols b) on_b rb)) (rows b));
      try reflexivity; intros rb Ib; apply K; assumption.
  - destruct jt; try reflexivity; apply flat_map_ext_in; intros rb Ib;
      rewrite (existsb_ext_in _ (fun ra => keys_match nm' (key_of (cols a) on_a ra) (key_of (cols b) on_b rb)) (rows a));
      try reflexivity; intros ra Ia; apply K; assumption.
Qed.
