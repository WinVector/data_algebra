(* Proofs/ExprParseP9.v -- C13, part 2 (end): bracket matching, group contents, and
   lark_of (unparse d) = Some (strip d) for every well-formed AST. *)
From Coq Require Import List Bool String Arith Lia.
Import ListNotations.
From DA Require Import Model.PyExpr Model.ExprParse Model.ExprAst Proofs.ExprParseP1 Proofs.ExprParseP5 Proofs.ExprParseP6 Proofs.ListP.
Local Open Scope string_scope.
Local Open Scope bool_scope.
Local Open Scope list_scope.

(* ------------------------------------------------------------------ splitting at punctuation *)
Definition not_sym (s : string) (e : elem) : bool := match e with ETok t => negb (sym_is t s) | _ => true end.

Lemma split_sym_app s a b : forallb (not_sym s) a = true ->
  split_sym s (a ++ b) = (let '(x, r) := split_sym s b in (a ++ x, r)).
Proof. induction a as [|e a IH]; intros H.
  - simpl. destruct (split_sym s b); reflexivity.
  - simpl in H. apply andb_prop in H as [He Ha]. rewrite <- app_comm_cons. cbn [split_sym]. rewrite (IH Ha).
    destruct (split_sym s b) as [x r]. destruct e as [t|k items tr]; [|reflexivity].
    simpl in He. destruct (sym_is t s); [discriminate He|reflexivity]. Qed.

Lemma split_sym_none s a : forallb (not_sym s) a = true -> split_sym s a = (a, []).
Proof. intros H. rewrite <- (app_nil_r a) at 1. rewrite (split_sym_app s a [] H). simpl. rewrite app_nil_r. reflexivity. Qed.

Lemma split_sym_hit s r : split_sym s (ETok (TSym s) :: r) = (let '(x, rest) := split_sym s r in ([], x :: rest)).
Proof. cbn [split_sym]. destruct (split_sym s r). unfold sym_is. rewrite String.eqb_refl. reflexivity. Qed.

Lemma no_punct_comma es : forallb no_punct es = true -> forallb (not_sym ",") es = true.
Proof. intros H. rewrite forallb_forall in *. intros e He. specialize (H e He). destruct e as [t|]; [|reflexivity].
  simpl in *. destruct (sym_is t ","); [discriminate H|reflexivity]. Qed.
Lemma no_punct_colon es : forallb no_punct es = true -> forallb (not_sym ":") es = true.
Proof. intros H. rewrite forallb_forall in *. intros e He. specialize (H e He). destruct e as [t|]; [|reflexivity].
  simpl in *. destruct (sym_is t ":"); [rewrite orb_true_r in H; discriminate H|reflexivity]. Qed.

(* ------------------------------------------------------------------ comma separated contents *)
Fixpoint ecommas (parts : list (list elem)) (trailing : bool) : list elem :=
  match parts with
  | [] => []
  | [p] => p ++ (if trailing then [ETok (TSym ",")] else [])
  | p :: more => p ++ ETok (TSym ",") :: ecommas more trailing
  end.

Lemma split_ecommas : forall more p tr,
  Forall (fun q => forallb (not_sym ",") q = true) (p :: more) ->
  split_sym "," (ecommas (p :: more) tr) = (p, more ++ (if tr then [[]] else [])).
Proof. induction more as [|q more IH]; intros p tr H; inversion H as [|? ? Hp Hm]; subst.
  - cbn [ecommas]. rewrite (split_sym_app _ _ _ Hp). destruct tr; simpl; rewrite app_nil_r; reflexivity.
  - change (ecommas (p :: q :: more) tr) with (p ++ ETok (TSym ",") :: ecommas (q :: more) tr).
    rewrite (split_sym_app _ _ _ Hp), split_sym_hit, (IH q tr Hm). rewrite app_nil_r. reflexivity. Qed.

Lemma strip_trailing_plain : forall ps, Forall (fun q : list elem => q <> []) ps -> strip_trailing ps = (ps, false).
Proof. induction ps as [|p ps IH]; intros H; [reflexivity|]. inversion H as [|? ? Hp Hps]; subst.
  destruct ps as [|q ps]; [reflexivity|]. inversion Hps as [|? ? Hq _]; subst.
  destruct q as [|e q]; [congruence|].
  change (strip_trailing (p :: (e :: q) :: ps)) with (let '(x, t) := strip_trailing ((e :: q) :: ps) in (p :: x, t)).
  rewrite (IH Hps). reflexivity. Qed.

Lemma strip_trailing_comma : forall ps, ps <> [] -> Forall (fun q : list elem => q <> []) ps ->
  strip_trailing (ps ++ [[]]) = (ps, true).
Proof. induction ps as [|p ps IH]; intros Hne H; [congruence|]. inversion H as [|? ? Hp Hps]; subst.
  destruct ps as [|q ps]; [reflexivity|]. inversion Hps as [|? ? Hq _]; subst.
  destruct q as [|e q]; [congruence|].
  change (strip_trailing ((p :: (e :: q) :: ps) ++ [[]]))
    with (let '(x, t) := strip_trailing (((e :: q) :: ps) ++ [[]]) in (p :: x, t)).
  rewrite (IH ltac:(discriminate) Hps). reflexivity. Qed.

Lemma mapM_Forall2 {A B} (f : A -> option B) l r : Forall2 (fun x y => f x = Some y) l r -> mapM f l = Some r.
Proof. induction 1 as [|x y l r Hxy _ IH]; simpl; [reflexivity|]. rewrite Hxy, IH. reflexivity. Qed.

Lemma parse_content_pieces pieces gs tr :
  Forall2 (fun p g => p <> [] /\ forallb (not_sym ",") p = true /\ parse_piece p = Some g) pieces gs ->
  (tr = true -> pieces <> []) ->
  parse_content (ecommas pieces tr) = Some (gs, tr).
Proof. intros H Htr. destruct pieces as [|p more].
  - inversion H; subst. destruct tr; [exfalso; apply (Htr eq_refl); reflexivity|reflexivity].
  - assert (Hne : Forall (fun q : list elem => q <> []) (p :: more)).
    { clear Htr. induction H as [|? ? ? ? [Hx _] _ IH]; constructor; assumption. }
    assert (Hc : Forall (fun q => forallb (not_sym ",") q = true) (p :: more)).
    { clear Htr Hne. induction H as [|? ? ? ? [_ [Hx _]] _ IH]; constructor; assumption. }
    assert (Hp : mapM parse_piece (p :: more) = Some gs).
    { apply mapM_Forall2. clear Htr Hne Hc. induction H as [|? ? ? ? [_ [_ Hx]] _ IH]; constructor; assumption. }
    unfold parse_content.
    assert (Hes : exists e es, ecommas (p :: more) tr = e :: es).
    { inversion Hne as [|? ? Hp0 _]; subst. destruct p as [|e p]; [congruence|].
      destruct more; cbn [ecommas]; rewrite <- app_comm_cons; eauto. }
    destruct Hes as [e [es Hes]]. rewrite Hes. rewrite <- Hes. rewrite (split_ecommas more p tr Hc).
    destruct tr.
    + rewrite app_comm_cons, (strip_trailing_comma (p :: more) ltac:(discriminate) Hne), Hp. reflexivity.
    + rewrite app_nil_r, (strip_trailing_plain _ Hne), Hp. reflexivity. Qed.

(* one item that is a test / a key: value pair *)
Lemma piece_test x : good x ->
  flat x <> [] /\ forallb (not_sym ",") (flat x) = true /\ parse_piece (flat x) = Some (GTest (strip x)).
Proof. intros G. split; [exact (good_nonempty x G)|split; [exact (no_punct_comma _ (g_punct x G))|]].
  unfold parse_piece. rewrite (split_sym_none ":" _ (no_punct_colon _ (g_punct x G))).
  pose proof (g_parse x G 0 (Nat.le_0_l _)) as P. cbn [plvl] in P. unfold p_test. rewrite P. reflexivity. Qed.

Lemma piece_kv k v : good k -> good v ->
  flat k ++ ETok (TSym ":") :: flat v <> [] /\ forallb (not_sym ",") (flat k ++ ETok (TSym ":") :: flat v) = true
  /\ parse_piece (flat k ++ ETok (TSym ":") :: flat v) = Some (GKV (strip k) (strip v)).
Proof. intros Gk Gv. split; [|split].
  - pose proof (good_nonempty k Gk). destruct (flat k); [congruence|discriminate].
  - rewrite forallb_app. cbn [forallb]. rewrite (no_punct_comma _ (g_punct k Gk)), (no_punct_comma _ (g_punct v Gv)). reflexivity.
  - unfold parse_piece. rewrite (split_sym_app ":" _ _ (no_punct_colon _ (g_punct k Gk))), split_sym_hit.
    rewrite (split_sym_none ":" _ (no_punct_colon _ (g_punct v Gv))). rewrite app_nil_r.
    pose proof (g_parse k Gk 0 (Nat.le_0_l _)) as Pk. pose proof (g_parse v Gv 0 (Nat.le_0_l _)) as Pv.
    cbn [plvl] in Pk, Pv. unfold p_test. rewrite Pk, Pv. reflexivity. Qed.

(* ------------------------------------------------------------------ bracket matching *)
Definition plain_tok (t : tok) : Prop := open_of t = None /\ close_of t = None.

Lemma scan_tok t ts cur st : plain_tok t -> scan (t :: ts) cur st = scan ts (ETok t :: cur) st.
Proof. intros [Ho Hc]. cbn [scan]. rewrite Ho, Hc. reflexivity. Qed.

Lemma plain_nonsym t : match t with TSym _ => False | _ => True end -> plain_tok t.
Proof. destruct t; intros H; try destruct H; split; reflexivity. Qed.

Lemma plain_binop L s : is_binop_at L s = true -> plain_tok (TSym s).
Proof. intros H. apply is_binop_at_lvl in H. unfold plain_tok, open_of, close_of, sym_is.
  destruct (s ==s "(") eqn:E1; [apply String.eqb_eq in E1; subst; discriminate H|].
  destruct (s ==s "[") eqn:E2; [apply String.eqb_eq in E2; subst; discriminate H|].
  destruct (s ==s "{") eqn:E3; [apply String.eqb_eq in E3; subst; discriminate H|].
  destruct (s ==s ")") eqn:E4; [apply String.eqb_eq in E4; subst; discriminate H|].
  destruct (s ==s "]") eqn:E5; [apply String.eqb_eq in E5; subst; discriminate H|].
  destruct (s ==s "}") eqn:E6; [apply String.eqb_eq in E6; subst; discriminate H|].
  split; reflexivity. Qed.

Lemma plain_uop s : is_uop s = true -> plain_tok (TSym s).
Proof. intros H. destruct (uop_cases _ H) as [ -> | [ -> | -> ] ]; split; reflexivity. Qed.

Lemma scan_open k ts cur st : scan (open_tok k :: ts) cur st = scan ts [] ((k, cur) :: st).
Proof. destruct k; reflexivity. Qed.

Lemma scan_close k ts cur parent st items tr : parse_content (rev cur) = Some (items, tr) ->
  scan (close_tok k :: ts) cur ((k, parent) :: st) = scan ts (EGrp k items tr :: parent) st.
Proof. intros H. destruct k; cbn [scan close_tok open_of close_of sym_is]; simpl; rewrite H; reflexivity. Qed.

(* the tokens `us` are read, at one nesting depth, as the elements `es` *)
Definition lexes (us : list tok) (es : list elem) : Prop :=
  forall ts cur st, scan (us ++ ts) cur st = scan ts (rev es ++ cur) st.

Definition scans (d : dtree) : Prop := lexes (unparse d) (flat d).

Lemma lexes_nil : lexes [] [].
Proof. intros ts cur st. reflexivity. Qed.

Lemma lexes_app us1 es1 us2 es2 : lexes us1 es1 -> lexes us2 es2 -> lexes (us1 ++ us2) (es1 ++ es2).
Proof. intros H1 H2 ts cur st. rewrite <- app_assoc, H1, H2, rev_app_distr, <- app_assoc. reflexivity. Qed.

Lemma lexes_cons t us es : plain_tok t -> lexes us es -> lexes (t :: us) (ETok t :: es).
Proof. intros Ht H ts cur st. rewrite <- app_comm_cons, (scan_tok _ _ _ _ Ht), H. cbn [rev]. rewrite <- app_assoc. reflexivity. Qed.

Lemma plain_comma : plain_tok (TSym ",").
Proof. split; reflexivity. Qed.

Lemma lexes_commas : forall us fs tr, Forall2 lexes us fs -> lexes (commas us tr) (ecommas fs tr).
Proof. induction us as [|u us IH]; intros fs tr H; inversion H as [|? f ? fs' Hu Hr]; subst; [apply lexes_nil|].
  destruct us as [|u2 us].
  - inversion Hr; subst. cbn [commas ecommas]. apply lexes_app; [exact Hu|].
    destruct tr; [exact (lexes_cons _ _ _ plain_comma lexes_nil)|apply lexes_nil].
  - inversion Hr as [|? f2 ? fs2 _ _]; subst.
    change (commas (u :: u2 :: us) tr) with (u ++ TSym "," :: commas (u2 :: us) tr).
    change (ecommas (f :: f2 :: fs2) tr) with (f ++ ETok (TSym ",") :: ecommas (f2 :: fs2) tr).
    exact (lexes_app _ _ _ _ Hu (lexes_cons _ _ _ plain_comma (IH _ tr Hr))). Qed.

Lemma lexes_chain_rest (rest : list (string * dtree)) L :
  (forall p, In p rest -> is_binop_at L (fst p) = true /\ scans (snd p)) ->
  lexes (flat_map (fun p => TSym (fst p) :: unparse (snd p)) rest) (flat_map (fun p => ETok (TSym (fst p)) :: flat (snd p)) rest).
Proof. induction rest as [|p rest IH]; intros H; [apply lexes_nil|]. destruct (H p (or_introl eq_refl)) as [Ho Hs].
  cbn [flat_map]. apply lexes_app; [exact (lexes_cons _ _ _ (plain_binop _ _ Ho) Hs)|].
  apply IH. intros q Hq. apply H. right. exact Hq. Qed.

(* a bracketed group: its items are read one by one, the closing bracket parses what was read *)
Lemma lexes_group k us fs gs tr : Forall2 lexes us fs -> parse_content (ecommas fs tr) = Some (gs, tr) ->
  lexes (open_tok k :: commas us tr ++ [close_tok k]) [EGrp k gs tr].
Proof. intros H Hp ts cur st. rewrite <- app_comm_cons, <- app_assoc, scan_open, (lexes_commas us fs tr H), app_nil_r.
  apply scan_close. rewrite rev_involutive. exact Hp. Qed.

Lemma lexes_tests k (items : list dtree) tr :
  (forall x, In x items -> wfn x = true /\ scans x) -> (tr = true -> items <> []) ->
  lexes (open_tok k :: commas (map unparse items) tr ++ [close_tok k]) [EGrp k (map (fun a => GTest (strip a)) items) tr].
Proof. intros H Htr. apply (lexes_group k _ (map flat items)).
  - apply Forall2_map_same. intros x Hx. exact (proj2 (H x Hx)).
  - apply parse_content_pieces.
    + apply Forall2_map_same. intros x Hx. destruct (H x Hx) as [W _]. exact (piece_test x (wf_good x W)).
    + intros T E. apply (Htr T). destruct items; [reflexivity|discriminate E]. Qed.

Lemma wf_scans : forall d, wfn d = true -> scans d.
Proof. induction d as [d IH] using dtree_size_ind. intros W. unfold scans.
  destruct d as [x|s|t|t|k|L d0 rest|x|op x|b e|f args tr|o nm|k items tr|items tr]; cbn [unparse flat].
  - (* parentheses *)
    simpl in W. pose proof (lexes_tests BParen [x] false) as G. cbn [map commas] in G. rewrite app_nil_r in G.
    apply G; [|discriminate]. intros y [<-|[]]. split; [exact W|exact (IH x ltac:(simpl; lia) W)].
  - exact (lexes_cons _ _ _ (plain_nonsym (TName s) I) lexes_nil).
  - apply lexes_cons; [|apply lexes_nil]. destruct t; simpl in W; try discriminate W; apply plain_nonsym; exact I.
  - apply lexes_cons; [|apply lexes_nil]. destruct t; simpl in W; try discriminate W; apply plain_nonsym; exact I.
  - apply lexes_cons; [|apply lexes_nil]. cbn [wfn] in W. apply mem_str_In in W. simpl in W.
    destruct W as [<-|[<-|[<-|[]]]]; split; reflexivity.
  - (* binary level *)
    destruct (wfn_chain L d0 rest W) as [_ [_ [_ [W0 Hr]]]].
    apply lexes_app; [exact (IH d0 ltac:(simpl; lia) W0)|]. apply (lexes_chain_rest rest L).
    intros p Hp. destruct (Hr p Hp) as [Ho [_ Hw]]. split; [exact Ho|exact (IH _ (dsize_chain L d0 rest p Hp) Hw)].
  - simpl in W. apply andb_prop in W as [_ Wx].
    apply lexes_cons; [split; reflexivity|exact (IH x ltac:(simpl; lia) Wx)].
  - simpl in W. apply andb_prop in W as [W Wx]. apply andb_prop in W as [Hu _].
    apply lexes_cons; [exact (plain_uop _ Hu)|exact (IH x ltac:(simpl; lia) Wx)].
  - destruct (wfn_power b e W) as [_ [Wb [_ We]]].
    apply lexes_app; [exact (IH b ltac:(simpl; lia) Wb)|].
    apply lexes_cons; [split; reflexivity|exact (IH e ltac:(simpl; lia) We)].
  - (* call *)
    destruct (wfn_call f args tr W) as [_ [Wf [Hargs Htr]]].
    apply lexes_app; [exact (IH f ltac:(simpl; lia) Wf)|]. apply (lexes_tests BParen args tr); [|exact Htr].
    intros x Hx. split; [exact (Hargs x Hx)|exact (IH x (dsize_call f args tr x Hx) (Hargs x Hx))].
  - simpl in W. apply andb_prop in W as [_ Wo].
    apply lexes_app; [exact (IH o ltac:(simpl; lia) Wo)|].
    apply lexes_cons; [split; reflexivity|]. exact (lexes_cons _ _ _ (plain_nonsym (TName nm) I) lexes_nil).
  - (* tuple / list / set *)
    pose proof W as W'. simpl in W'. apply andb_prop in W' as [Hitems Hshape]. rewrite forallb_forall in Hitems.
    apply lexes_tests.
    + intros x Hx. split; [exact (Hitems x Hx)|exact (IH x (dsize_coll k items tr x Hx) (Hitems x Hx))].
    + intros T E. subst. destruct k; simpl in Hshape; discriminate Hshape.
  - (* dict *)
    pose proof W as W'. simpl in W'. apply andb_prop in W' as [Hitems Htr]. rewrite forallb_forall in Hitems.
    apply (lexes_group BBrace _ (map (fun kv => flat (fst kv) ++ ETok (TSym ":") :: flat (snd kv)) items)).
    + apply Forall2_map_same. intros kv Hkv. specialize (Hitems kv Hkv). apply andb_prop in Hitems as [Wk Wv].
      destruct (dsize_dict items tr kv Hkv) as [Sk Sv].
      apply lexes_app; [exact (IH _ Sk Wk)|]. apply lexes_cons; [split; reflexivity|exact (IH _ Sv Wv)].
    + apply parse_content_pieces.
      * apply Forall2_map_same. intros kv Hkv. specialize (Hitems kv Hkv). apply andb_prop in Hitems as [Wk Wv].
        exact (piece_kv _ _ (wf_good _ Wk) (wf_good _ Wv)).
      * intros T E. subst tr. destruct items; [simpl in Htr; discriminate Htr|discriminate E]. Qed.

Theorem lark_of_unparse d : wfn d = true -> lark_of (unparse d) = Some (strip d).
Proof. intros W. unfold lark_of. rewrite <- (app_nil_r (unparse d)).
  rewrite (wf_scans d W). cbn [scan]. rewrite app_nil_r, rev_involutive.
  exact (g_parse d (wf_good d W) 0 (Nat.le_0_l _)). Qed.
