(* C10, part 4: the per-node pruning lemma at pipeline level (`node_step`), and: a DAG-wide report that is closed
   under the per-node requests (`covers`) makes the pipeline blind to everything outside the report -- for the
   pipeline itself and for its narrowed rebuild. *)
From Coq Require Import List Bool String .
Import ListNotations.
From DA Require Import Base.PyRT Base.Val Model.Sem Proofs.SemBasicP Model.ColumnsUsed
  Proofs.ColumnsUsedP1 Proofs.ColumnsUsedP2 Proofs.ColumnsUsedP3 Proofs.ListP Proofs.TabP.
Local Open Scope list_scope.

(* ------------------------------------------------------------------ what the builders' checks give *)
(* H : c1 && ... && cn = true  becomes  H : c1 = true  and one hypothesis for each of the other conjuncts *)
Ltac andb_hyps H := repeat (apply andb_prop in H; destruct H as [H ?]).

Lemma bok_extend s ops wd w : builder_ok (OExtend s ops wd w) = true ->
  builder_ok s = true /\ (forall k, In k (map fst ops) -> ~ In k (w_part w ++ w_order w ++ w_rev w)).
Proof. cbn [builder_ok]. intros H. andb_hyps H. split; [exact H|]. apply disjointb_spec. assumption. Qed.
Lemma bok_project s ops gb : builder_ok (OProject s ops gb) = true -> builder_ok s = true /\ NoDup (gb ++ map fst ops).
Proof. cbn [builder_ok]. intros H. andb_hyps H. split; [exact H|]. apply nodupb_NoDup. assumption. Qed.
Lemma bok_select_rows s e : builder_ok (OSelectRows s e) = true -> builder_ok s = true.
Proof. cbn [builder_ok]. intros H. andb_hyps H. exact H. Qed.
Lemma bok_select_cols s cs : builder_ok (OSelectCols s cs) = true -> builder_ok s = true /\ NoDup cs.
Proof. cbn [builder_ok]. intros H. andb_hyps H. split; [exact H|]. apply nodupb_NoDup. assumption. Qed.
Lemma bok_drop s ds : builder_ok (ODropCols s ds) = true -> builder_ok s = true.
Proof. cbn [builder_ok]. intros H. andb_hyps H. exact H. Qed.
Lemma bok_rename s m : builder_ok (ORename s m) = true -> builder_ok s = true /\ rename_ok m (column_names s).
Proof. cbn [builder_ok]. intros H. andb_hyps H. split; [exact H|]. apply rename_okb_ok. assumption. Qed.
Lemma bok_map_cols s m dels : builder_ok (OMapCols s m dels) = true -> builder_ok s = true /\ rename_ok m (column_names s).
Proof. cbn [builder_ok]. intros H. andb_hyps H. split; [exact H|]. apply rename_okb_ok. assumption. Qed.
Lemma bok_order s cs rev lim : builder_ok (OOrder s cs rev lim) = true -> builder_ok s = true.
Proof. cbn [builder_ok]. intros H. andb_hyps H. exact H. Qed.
Lemma bok_join a b on_a on_b jt : builder_ok (OJoin a b on_a on_b jt) = true -> builder_ok a = true /\ builder_ok b = true.
Proof. cbn [builder_ok]. intros H. andb_hyps H. split; assumption. Qed.
Lemma bok_concat a b idc an bn : builder_ok (OConcat a b idc an bn) = true ->
  builder_ok a = true /\ builder_ok b = true /\ match idc with Some c => ~ In c (column_names a) | None => True end.
Proof. cbn [builder_ok]. intros H. andb_hyps H. split; [exact H|]. split; [assumption|].
  destruct idc as [c|]; [|exact I]. apply mem_false. apply negb_true_iff. assumption. Qed.

Lemma bok_sources n : builder_ok n = true -> Forall (fun s => builder_ok s = true) (sources n).
Proof. destruct n; cbn [builder_ok sources]; intros OK; andb_hyps OK; repeat constructor; assumption. Qed.

Lemma builder_ok_nodup p : builder_ok p = true -> NoDup (column_names p).
Proof.
  induction p; intros OK; cbn [column_names].
  - cbn [builder_ok] in OK. apply andb_true_iff in OK. apply nodupb_NoDup. tauto.
  - apply bok_extend in OK. unfold ext_cols. apply NoDup_fold_add_end. apply IHp. tauto.
  - apply bok_project in OK. tauto.
  - apply bok_select_rows in OK. auto.
  - apply bok_select_cols in OK. tauto.
  - apply bok_drop in OK. apply NoDup_filter. auto.
  - apply bok_rename in OK. destruct OK as [_ [_ [_ [_ N]]]]. exact N.
  - apply bok_map_cols in OK. destruct OK as [_ [_ [_ [_ N]]]]. apply NoDup_filter. exact N.
  - apply bok_order in OK. auto.
  - apply bok_join in OK. apply NoDup_join_cols; [apply IHp1|apply IHp2]; tauto.
  - apply bok_concat in OK. destruct OK as [Oa [Ob Oc]]. destruct idcol as [c|].
    + apply NoDup_snoc; [apply IHp1; exact Oa|exact Oc].
    + rewrite app_nil_r. apply IHp1. exact Oa.
Qed.

(* ------------------------------------------------------------------ one node *)
Definition out_agree (u : list string) (o o' : option table) : Prop :=
  match o, o' with Some T, Some T' => agree u T T' | None, None => True | _, _ => False end.

Lemma out_agree_mono u u' o o' : incl u u' -> out_agree u' o o' -> out_agree u o o'.
Proof. intros I. destruct o, o'; simpl; try tauto. apply agree_mono, I. Qed.

(* the node n with its sources replaced *)
Definition with_sources (n : op) (l : list op) : op :=
  match n, l with
  | OExtend _ ops wd w, [s] => OExtend s ops wd w
  | OProject _ ops gb, [s] => OProject s ops gb
  | OSelectRows _ e, [s] => OSelectRows s e
  | OSelectCols _ cs, [s] => OSelectCols s cs
  | ODropCols _ ds, [s] => ODropCols s ds
  | ORename _ m, [s] => ORename s m
  | OMapCols _ m dels, [s] => OMapCols s m dels
  | OOrder _ cs rev lim, [s] => OOrder s cs rev lim
  | OJoin _ _ on_a on_b jt, [a; b] => OJoin a b on_a on_b jt
  | OConcat _ _ idc an bn, [a; b] => OConcat a b idc an bn
  | _, _ => n
  end.

Lemma in_sub_ops u ops (ke : string * expr) : In ke ops -> In (fst ke) u -> In ke (sub_ops u ops).
Proof. intros I H. unfold sub_ops. apply filter_In. split; [exact I|apply mem_In, H]. Qed.

Lemma extend_request s ops wd w u' :
  (forall k, In k (map fst ops) -> ~ In k (w_part w ++ w_order w ++ w_rev w)) ->
  wextend_needs ops w u' (cfs1 (OExtend s ops wd w) u') (column_names s).
Proof.
  intros D c Hc. unfold cfs1. cbn [cols_from_sources nth].
  destruct (sub_ops u' ops) as [|k0 rest] eqn:SO; cbn [nth].
  - destruct (last_for c ops); intros; assumption.
  - rewrite <- SO. clear k0 rest SO. set (take := set_diff _ _ ++ _).
    assert (forall x, In x take -> In x (column_names s) -> In x (filter (fun v => mem v take) (column_names s))) as FI.
    { intros x I1 I2. apply filter_In. split; [exact I2|apply mem_In, I1]. }
    (* what is asked or belongs to the window, and is not assigned, survives the set difference *)
    assert (forall x, In x (u' ++ w_part w ++ w_order w ++ w_rev w) -> ~ In x (map fst ops) -> In x take) as KEEP.
    { intros x I1 N. apply in_app_iff. left. apply In_set_diff. split; [exact I1|]. intros J. apply N.
      apply in_map_iff in J. destruct J as [k2 [E2 I2]]. apply filter_In in I2. apply in_map_iff. exists k2. tauto. }
    destruct (last_for c ops) as [ke|] eqn:L.
    + destruct (last_for_In _ _ _ L) as [Ike Ek]. intros x Hx Hcs. apply FI; [|exact Hcs].
      rewrite app_assoc in Hx. apply in_app_iff in Hx. destruct Hx as [Hx|Hx].
      * assert (In x (w_part w ++ w_order w ++ w_rev w)) as Hw by (rewrite app_assoc; apply in_app_iff; left; exact Hx).
        apply KEEP; [apply in_app_iff; right; exact Hw|]. intros J. exact (D x J Hw).
      * apply in_app_iff. right. eapply cols_used_in_ops; [|exact Hx]. apply in_sub_ops; [exact Ike|rewrite Ek; exact Hc].
    + intros Hcs. apply FI; [|exact Hcs]. apply KEEP; [apply in_app_iff; left; exact Hc|exact (last_for_None _ _ L)].
Qed.

Lemma wneeds_needs ops w u us cs : wextend_needs ops w u us cs -> extend_needs ops u us cs.
Proof.
  intros N c Hc. specialize (N c Hc). destruct (last_for c ops); [|exact N].
  intros x Hx. apply N. apply in_app_iff. right. apply in_app_iff. right. exact Hx.
Qed.

(* THE PRUNING LEMMA.  A node n (accepted by the builder) asked for the columns u' of its own; its sources may be
   replaced by other pipelines and run on other inputs: as long as source i and its replacement agree on
   cols_from_sources n u' [i], the node and the rebuilt node agree on u'. *)
Theorem node_step fl e e' n srcs' u' :
  builder_ok n = true -> incl u' (column_names n) ->
  match sources n, srcs' with
  | [s], [s'] => out_agree (cfs1 n u') (sem_gen fl s e) (sem_gen fl s' e')
  | [a; b], [a'; b'] => out_agree (cfs1 n u') (sem_gen fl a e) (sem_gen fl a' e') /\
                        out_agree (cfs2 n u') (sem_gen fl b e) (sem_gen fl b' e')
  | _, _ => False
  end ->
  out_agree u' (sem_gen fl n e) (sem_gen fl (with_sources n srcs') e').
Proof.
  intros OK I2 H. destruct n as [name tcols|p ops windowed w|p ops gb|p ex|p cs|p ds|p m|p m dels|p cs rev lim|p1 p2 on_a on_b jt|p1 p2 idc an bn];
    cbn [sources] in H; destruct srcs' as [|s' [|b' [|]]]; try contradiction; cbn [with_sources sem_gen].
  (* a node whose source has no result has none either; otherwise the sources' results are S, S' (A, A' and B, B') *)
  1-8: destruct (sem_gen fl p e) as [S|] eqn:ES, (sem_gen fl s' e') as [S'|] eqn:ES'; cbn [out_agree] in H; try contradiction; [|exact I].
  1-8: cbn [option_map out_agree]; pose proof (sem_cols _ _ _ _ ES) as CS.
  9-10: destruct H as [Ha Hb].
  9-10: destruct (sem_gen fl p1 e) as [A|] eqn:EA, (sem_gen fl s' e') as [A'|] eqn:EA'; cbn [out_agree] in Ha; try contradiction.
  9-12: destruct (sem_gen fl p2 e) as [B|] eqn:EB, (sem_gen fl b' e') as [B'|] eqn:EB'; cbn [out_agree] in Hb; try contradiction; try exact I.
  9-10: cbn [out_agree]; pose proof (sem_cols _ _ _ _ EA) as CA; pose proof (sem_cols _ _ _ _ EB) as CB.
  2-10: unfold cfs1, cfs2 in *; cbn [cols_from_sources nth] in *.
  - (* extend *)
    apply bok_extend in OK. destruct OK as [OK D].
    pose proof (sem_rows_width _ _ _ _ ES) as WS. pose proof (sem_rows_width _ _ _ _ ES') as WS'.
    pose proof (extend_request p ops windowed w u' D) as N. rewrite <- CS in N.
    destruct windowed; [eapply agree_wextend|eapply agree_extend]; try eassumption. apply (wneeds_needs _ _ _ _ _ N).
  - (* project *)
    eapply agree_project; [exact H| |].
    + intros x Hx _. apply in_app_iff. left. exact Hx.
    + intros ke x Ik Hk Hx _. apply in_app_iff. right. eapply cols_used_in_ops; [|exact Hx]. apply in_sub_ops; assumption.
  - (* select_rows *)
    eapply agree_select_rows; [exact H| |].
    + intros x Hx _. apply In_set_union. right. exact Hx.
    + intros c Hc Hcs. apply In_set_union. left. apply In_set_inter. rewrite <- CS. tauto.
  - (* select_columns *)
    eapply agree_select_cols; [exact H|]. intros c Hc Hcs _. apply In_set_inter. tauto.
  - (* drop_columns *)
    eapply agree_drop_cols; [exact H|]. intros c Hc N _. apply filter_In. split; [exact Hc|]. apply negb_true_iff, mem_false, N.
  - (* rename_columns *)
    apply bok_rename in OK. destruct OK as [OK RO]. cbn [column_names] in I2. rewrite <- CS in RO, I2.
    eapply agree_rename; [exact RO|exact I2|exact H|]. intros c Hc. apply in_map. exact Hc.
  - (* map_columns *)
    apply bok_map_cols in OK. destruct OK as [OK RO]. cbn [column_names] in I2. rewrite <- CS in RO, I2.
    eapply agree_map_cols; [exact RO|exact I2|exact H|].
    intros c Hc. apply in_app_iff. left. destruct RO as [N1 _]. rewrite <- (old_of_dict_of_list m c N1). apply in_map. exact Hc.
  - (* order_rows *)
    eapply agree_order; [exact H| |].
    + intros x Hx _. apply in_app_iff. right. exact Hx.
    + intros c Hc Hcs. cbn [column_names]. apply in_app_iff. left. apply In_set_inter. rewrite <- CS. tauto.
  - (* natural_join *)
    eapply agree_join; [exact Ha|exact Hb| |].
    + intros x Hx Hcs. apply In_set_inter. rewrite <- CA. tauto.
    + intros x Hx Hcs. apply In_set_inter. rewrite <- CB. tauto.
  - (* concat_rows *)
    eapply agree_concat; [exact (sem_rows_width _ _ _ _ EA)|exact (sem_rows_width _ _ _ _ EA')|exact Ha|exact Hb| |].
    + intros c Hc Hcs. apply In_set_inter. rewrite <- CA. tauto.
    + intros c Hc _ Hcs. apply In_set_inter. rewrite <- CB. tauto.
Qed.

(* ------------------------------------------------------------------ reports closed under the per-node requests *)
(* inputs that agree on the columns U: as many rows, in the same order, the same cells in those columns *)
Definition input_agree (U : list string) (t t' : table) : Prop := Forall2 (rowrel U (cols t) (cols t')) (rows t) (rows t').

Section Covers.
  Variable F : string -> list string.        (* table key -> reported columns *)

  (* every node is asked for a set u' of its own columns that contains what its consumer asked (u), and each source is
     covered for what the node asks of it given u'; a table description is asked only for reported columns *)
  Fixpoint covers (p : op) (u : list string) : Prop :=
    match p with
    | OTable n cs => incl u cs /\ incl u (F n)
    | OExtend s _ _ _ | OProject s _ _ | OSelectRows s _ | OSelectCols s _ | ODropCols s _ | ORename s _
    | OMapCols s _ _ | OOrder s _ _ _ =>
        exists u', incl u u' /\ incl u' (column_names p) /\ covers s (cfs1 p u')
    | OJoin a b _ _ _ | OConcat a b _ _ _ =>
        exists u', incl u u' /\ incl u' (column_names p) /\ covers a (cfs1 p u') /\ covers b (cfs2 p u')
    end.

  Definition env_agree (e e' : env) : Prop :=
    forall n, match dict_get e n, dict_get e' n with
              | Some t, Some t' => input_agree (F n) t t'
              | None, None => True
              | _, _ => False
              end.

  Variable keep : string -> string -> bool.
  Hypothesis keep_reported : forall n c, In c (F n) -> keep n c = true.

  Theorem covers_agree fl e e' : env_agree e e' ->
    forall p u, builder_ok p = true -> covers p u -> out_agree u (sem_gen fl p e) (sem_gen fl (narrow keep p) e').
  Proof.
    intros EA. induction p; intros u OK CV; cbn [covers] in CV.
    1: { cbn [sem_gen narrow]. destruct CV as [I1 I2]. specialize (EA name).
         destruct (dict_get e name) as [t|], (dict_get e' name) as [t'|]; try contradiction; [|exact I].
         cbn [out_agree]. apply (agree_table u (F name)); try assumption. intros c Hc. apply keep_reported, I2, Hc. }
    (* an inner node: node_step for the request u', with the narrowed sources in place of the sources *)
    1-8: destruct CV as [u' [I1 [I2 CV]]].
    9-10: destruct CV as [u' [I1 [I2 [CVa CVb]]]].
    all: apply (out_agree_mono u u' _ _ I1); pose proof (bok_sources _ OK) as OS; cbn [sources] in OS.
    1-8: apply (node_step fl e e' _ [narrow keep p] u' OK I2); cbn [sources]; inversion OS; apply IHp; assumption.
    all: apply (node_step fl e e' _ [narrow keep p1; narrow keep p2] u' OK I2); cbn [sources].
    all: inversion OS as [|? ? Oa OS2]; inversion OS2 as [|? ? Ob _]; split; [apply IHp1|apply IHp2]; assumption.
  Qed.
End Covers.
