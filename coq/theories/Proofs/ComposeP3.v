(* C07 -- proofs about Model/Compose.v, part 3: DataOpArrow composition (dom / cod / transform) and associativity of
   ViewRepresentation.act_on including its checks. *)
From Coq Require Import List Bool String Permutation.
Import ListNotations.
From DA Require Import Base.PyRT Base.Val Model.Sem Proofs.SemBasicP Model.Compose Proofs.ComposeP Proofs.ComposeP2 Proofs.ListP.
Local Open Scope list_scope.

Lemma get_tables_inv p ts : get_tables p = Some ts -> ts = leaves p /\ tables_consistent (leaves p) = true.
Proof. unfold get_tables. destruct (tables_consistent (leaves p)); intros E; inversion E. split; reflexivity. Qed.

Lemma data_op_arrow_inv p f a : data_op_arrow p f = Some a ->
  tables_consistent (leaves p) = true /\ a_pipeline a = p /\ dict_get (leaves p) (a_free a) = Some (a_incoming a)
  /\ a_outgoing a = sort_strings (column_names p)
  /\ (forall k, f = Some k -> a_free a = k)
  /\ (f = None -> table_keys (leaves p) = [a_free a]).
Proof.
  unfold data_op_arrow. destruct (get_tables p) as [ts|] eqn:G; [|discriminate].
  apply get_tables_inv in G. destruct G as [-> C].
  destruct f as [k|].
  - destruct (mem k (table_keys (leaves p))); [|discriminate].
    destruct (dict_get (leaves p) k) as [cs|] eqn:D; [|discriminate]. intros E. inversion E; subst. cbn.
    repeat split; try assumption; try reflexivity; [intros k0 E0; inversion E0; reflexivity|discriminate].
  - destruct (table_keys (leaves p)) as [|k [|k2 t]] eqn:K; try discriminate.
    destruct (dict_get (leaves p) k) as [cs|] eqn:D; [|discriminate]. intros E. inversion E; subst. cbn.
    repeat split; try assumption; try reflexivity. discriminate.
Qed.

Lemma set_eqb_of_diffs (a b : list string) :
  nonempty (set_diff a b) = false -> nonempty (set_diff b a) = false -> set_eqb a b = true.
Proof.
  intros H1 H2. unfold set_eqb. apply andb_true_iff. split; apply subset_spec; apply set_diff_empty_subset; assumption.
Qed.

Lemma set_eqb_ext (l l' x x' : list string) :
  (forall y, In y l <-> In y l') -> (forall y, In y x <-> In y x') -> set_eqb l x = set_eqb l' x'.
Proof.
  intros Hl Hx. apply eq_iff_eq_true. unfold set_eqb. rewrite !andb_true_iff, !subset_spec.
  split; intros [S1 S2]; split; intros y I; first [apply Hx, S1, Hl, I | apply Hl, S2, Hx, I].
Qed.
Lemma Permutation_same_members (l l' : list string) : Permutation l l' -> forall y, In y l <-> In y l'.
Proof. intros P y. split; apply Permutation_in; [exact P|apply Permutation_sym, P]. Qed.
Lemma set_eqb_Permutation_l (l l' x : list string) : Permutation l l' -> set_eqb l x = set_eqb l' x.
Proof. intros P. apply set_eqb_ext; [apply Permutation_same_members, P|tauto]. Qed.
Lemma set_eqb_Permutation_r (l l' x : list string) : Permutation l l' -> set_eqb x l = set_eqb x l'.
Proof. intros P. apply set_eqb_ext; [tauto|apply Permutation_same_members, P]. Qed.
Lemma set_eqb_refl (l : list string) : set_eqb l l = true.
Proof. unfold set_eqb. apply andb_true_iff. split; apply subset_spec; auto. Qed.

(* ------------------------------------------------------------------ composing at the leaf k of a consistent pipeline *)
(* declared columns of the composed pipeline are those of the outer pipeline, up to order, under the SET boundary check *)
Lemma compose_column_names_perm k a b csb :
  built_ok b = true -> tables_consistent (leaves b) = true -> dict_get (leaves b) k = Some csb ->
  set_eqb (column_names a) csb = true -> NoDup (column_names a) -> NoDup csb ->
  Permutation (column_names (replace_leaves [(k, a)] b)) (column_names b).
Proof.
  intros B C D S Na Nb. rewrite replace_leaves_subst by exact B. apply subst_column_names_perm.
  intros n cs r I E. rewrite dict_get_single in E. destruct (eq_dec n k) as [->|]; [|discriminate]. inversion E; subst r.
  assert (cs = csb) as ->. { apply dict_get_In in D. rewrite tables_consistent_spec in C. eapply C; eassumption. }
  apply set_eqb_Permutation; assumption.
Qed.

Lemma In_leaves_compose k a b csb n cs :
  dict_get (leaves b) k = Some csb -> In (n, cs) (leaves a) -> In (n, cs) (leaves (subst [(k, a)] b)).
Proof.
  intros D I. rewrite leaves_subst. apply in_flat_map. exists (k, csb). split; [apply dict_get_In; exact D|].
  cbn [fst]. rewrite dict_get_single. destruct (eq_dec k k); [exact I|congruence].
Qed.

(* ------------------------------------------------------------------ dom and cod of a composed arrow *)
Theorem arrow_dom_cod pa fa a pb fb b c :
  data_op_arrow pa fa = Some a -> data_op_arrow pb fb = Some b ->
  built_ok pb = true -> nodupb (column_names pa) = true -> nodupb (a_incoming b) = true ->
  arrow_rshift a b = Some c ->
  dom c = dom a /\ cod c = cod b.
Proof.
  intros Da Db B Na Nb R.
  apply data_op_arrow_inv in Da. destruct Da as (Ca & Pa & Ia & Oa & _ & _).
  apply data_op_arrow_inv in Db. destruct Db as (Cb & Pb & Ib & Ob & _ & _).
  unfold arrow_rshift, arrow_act_on in R.
  destruct (nonempty (set_diff (a_incoming b) (a_outgoing a))) eqn:M1; [discriminate|].
  destruct (nonempty (set_diff (a_outgoing a) (a_incoming b))) eqn:M2; [discriminate|].
  rewrite Pa, Pb in R.
  destruct (get_tables (replace_leaves [(a_free b, pa)] pb)) as [ts|] eqn:G; [|discriminate].
  apply get_tables_inv in G. destruct G as [_ Cn].
  apply data_op_arrow_inv in R. destruct R as (_ & Pc & Ic & Oc & Fc & _).
  specialize (Fc _ eq_refl). rewrite Fc in Ic.
  apply nodupb_NoDup in Na. apply nodupb_NoDup in Nb.
  assert (set_eqb (column_names pa) (a_incoming b) = true) as S.
  { rewrite (set_eqb_Permutation_l _ _ _ (Permutation_sym (sort_strings_is_Permutation (column_names pa)))).
    rewrite <- Oa. apply set_eqb_of_diffs; assumption. }
  unfold dom, cod. split.
  - rewrite replace_leaves_subst in Ic, Cn by exact B.
    apply dict_get_In in Ic. pose proof (dict_get_In _ _ _ Ia) as Ia'.
    pose proof (In_leaves_compose _ _ _ _ _ _ Ib Ia') as I2.
    rewrite tables_consistent_spec in Cn. eapply Cn; eassumption.
  - rewrite Oc, Ob. apply sort_strings_Permutation. eapply compose_column_names_perm; eassumption.
Qed.

(* ------------------------------------------------------------------ transforming a table with a composed arrow *)
Lemma sem_unbound fl p (e : env) : (forall n, In n (table_names p) -> dict_get e n = None) -> sem_gen fl p e = None.
Proof.
  induction p; intros H; cbn [sem_gen table_names] in *; try (rewrite (IHp H); reflexivity).
  1: { rewrite (H name); [reflexivity|left; reflexivity]. }
  all: rewrite IHp1; [reflexivity|]; intros n I; apply H; apply in_app_iff; left; exact I.
Qed.

Lemma table_keys_single_only p k : table_keys (leaves p) = [k] -> only_table k p.
Proof.
  intros K n I. rewrite <- map_fst_leaves in I. apply In_py_set in I. unfold table_keys in K. rewrite K in I.
  destruct I as [E|[]]. symmetry. exact E.
Qed.

Theorem arrow_transform_sequential fl pa fa a pb b c t :
  data_op_arrow pa fa = Some a -> data_op_arrow pb None = Some b ->
  built_ok pb = true -> nodupb (column_names pa) = true ->
  column_names pa = a_incoming b ->
  arrow_rshift a b = Some c ->
  arrow_transform fl c t = obind (arrow_transform fl a t) (arrow_transform fl b).
Proof.
  intros Da Db B Na E R.
  assert (dom c = dom a) as Dc. { eapply arrow_dom_cod; try eassumption. rewrite <- E. exact Na. }
  pose proof (data_op_arrow_inv _ _ _ Da) as (Ca & Pa & Ia & Oa & _ & _).
  pose proof (data_op_arrow_inv _ _ _ Db) as (Cb & Pb & Ib & Ob & _ & Kb). specialize (Kb eq_refl).
  apply table_keys_single_only in Kb.
  unfold arrow_rshift, arrow_act_on in R.
  destruct (nonempty (set_diff (a_incoming b) (a_outgoing a))); [discriminate|].
  destruct (nonempty (set_diff (a_outgoing a) (a_incoming b))); [discriminate|].
  destruct (get_tables (replace_leaves [(a_free b, a_pipeline a)] (a_pipeline b))) as [ts|]; [|discriminate].
  apply data_op_arrow_inv in R. destruct R as (_ & Pc & _ & _ & Fc & _). specialize (Fc _ eq_refl).
  unfold arrow_transform, dom in *. rewrite Dc, Pc, Fc, Pa, Pb.
  destruct (set_eqb (cols t) (a_incoming a)); [|reflexivity]. cbn [obind].
  change (replace_leaves [(a_free b, pa)] pb) with (compose_at (a_free b) pa pb).
  rewrite compose_is_sequential; [|exact B| |exact Na].
  2:{ rewrite E. apply consistent_declares; assumption. }
  destruct (sem_gen fl pa [(a_free a, t)]) as [ta|] eqn:S; cbn [obind env_set].
  - rewrite (sem_cols _ _ _ _ S), E, set_eqb_refl. apply sem_env_ext. intros n I. rewrite (Kb n I). simpl.
    destruct (eq_dec (a_free b) (a_free b)); [reflexivity|congruence].
  - apply sem_unbound. intros n I. rewrite (Kb n I), dict_get_pop. destruct (eq_dec (a_free b) (a_free b)); [reflexivity|congruence].
Qed.

(* ------------------------------------------------------------------ ViewRepresentation.act_on on single-table pipelines *)
Lemma py_set_all_k (l : list string) k : l <> [] -> (forall x, In x l -> x = k) -> py_set l = [k].
Proof.
  intros N H. destruct l as [|x t]; [congruence|]. assert (x = k) as -> by (apply H; left; reflexivity).
  unfold py_set. simpl. change (add_end [] k) with [k].
  assert (forall x, In x t -> x = k) as Ht by (intros y I; apply H; right; exact I). clear H N.
  induction t as [|y u IH]; simpl; [reflexivity|].
  assert (y = k) as -> by (apply Ht; left; reflexivity).
  unfold add_end at 2. simpl. destruct (eq_dec k k); [|congruence]. apply IH. intros z I. apply Ht. right. exact I.
Qed.

Lemma only_table_keys k p : only_table k p -> table_keys (leaves p) = [k].
Proof.
  intros O. unfold table_keys. apply py_set_all_k.
  - intros E. apply map_eq_nil in E. exact (leaves_nonempty p E).
  - intros x I. rewrite map_fst_leaves in I. apply O. exact I.
Qed.

Lemma only_table_dict_get k p : only_table k p -> exists cs, dict_get (leaves p) k = Some cs.
Proof.
  intros O. destruct (dict_get (leaves p) k) as [cs|] eqn:E; [eexists; reflexivity|].
  exfalso. apply dict_get_None in E. unfold dict_keys in E. rewrite map_fst_leaves in E.
  destruct (leaves p) as [|[n c] t] eqn:L; [exact (leaves_nonempty p L)|].
  assert (In n (table_names p)) as I by (rewrite <- map_fst_leaves, L; left; reflexivity).
  apply E. rewrite <- (O n I). exact I.
Qed.

Lemma act_on_single k self b : only_table k self ->
  act_on self b =
    if tables_consistent (leaves self)
    then match dict_get (leaves self) k with
         | Some old => if set_eqb (column_names b) old then Some (replace_leaves [(k, b)] self) else None
         | None => None
         end
    else None.
Proof.
  intros O. unfold act_on, get_tables. destruct (tables_consistent (leaves self)); [|reflexivity].
  rewrite (only_table_keys _ _ O). reflexivity.
Qed.

(* the pipeline b >> c (c's single table replaced by b) has b's tables *)

Lemma leaves_compose_single k b c : only_table k c -> leaves (subst [(k, b)] c) = flat_map (fun _ => leaves b) (leaves c).
Proof.
  intros O. rewrite leaves_subst. apply flat_map_ext_in. intros [n cs] I. cbn [fst].
  assert (n = k) as ->. { apply O. rewrite <- map_fst_leaves. apply in_map_iff. exists (n, cs). split; [reflexivity|exact I]. }
  rewrite dict_get_single. destruct (eq_dec k k); [reflexivity|congruence].
Qed.

Lemma In_flat_map_const {A B} (L : list B) (X : list A) y : In y (flat_map (fun _ => L) X) <-> X <> [] /\ In y L.
Proof.
  rewrite in_flat_map. split.
  - intros [x [Ix Iy]]. split; [intros E; rewrite E in Ix; destruct Ix|exact Iy].
  - intros [N Iy]. destruct X as [|x t]; [congruence|]. exists x. split; [left; reflexivity|exact Iy].
Qed.

Lemma consistent_copies {A} (X : list A) L : X <> [] -> tables_consistent (flat_map (fun _ => L) X) = tables_consistent L.
Proof.
  intros N. apply eq_iff_eq_true. rewrite !tables_consistent_spec. split; intros H n c c' I I'.
  - eapply H; apply In_flat_map_const; split; eassumption.
  - apply In_flat_map_const in I, I'. eapply H; [apply I|apply I'].
Qed.

Lemma dict_get_copies {A} (X : list A) (L : list (string * list string)) k v :
  X <> [] -> dict_get L k = Some v -> dict_get (flat_map (fun _ => L) X) k = Some v.
Proof. intros N D. destruct X as [|x t]; [congruence|]. simpl. rewrite dict_get_app, D. reflexivity. Qed.

Definition leaves_nodup (p : op) : bool := forallb (fun t => nodupb (snd t)) (leaves p).

(* (a >> b) >> c  =  a >> (b >> c)  for ViewRepresentation.act_on on single-table pipelines: the same checks pass or
   fail on both sides, and when they pass the two results are the same tree *)
Theorem rshift_assoc a b c kb kc :
  only_table kb b -> only_table kc c -> built_ok b = true -> built_ok c = true ->
  nodupb (column_names a) = true -> leaves_nodup b = true ->
  obind (rshift a b) (fun ab => rshift ab c) = obind (rshift b c) (fun bc => rshift a bc).
Proof.
  intros Ob Oc Bb Bc Na Nb. unfold rshift.
  destruct (only_table_dict_get _ _ Ob) as [csb Db]. destruct (only_table_dict_get _ _ Oc) as [csc Dc].
  pose proof (replace_leaves_subst [(kc, b)] c Bc) as Ebc.
  assert (leaves (replace_leaves [(kc, b)] c) = flat_map (fun _ => leaves b) (leaves c)) as Lbc.
  { rewrite Ebc. apply leaves_compose_single. exact Oc. }
  assert (only_table kb (replace_leaves [(kc, b)] c)) as Obc.
  { intros n I. rewrite <- map_fst_leaves, Lbc in I. apply in_map_iff in I. destruct I as [[n' cs] [E I]]. cbn in E. subst n'.
    apply In_flat_map_const in I. destruct I as [_ I]. apply Ob. rewrite <- map_fst_leaves. apply in_map_iff. exists (n, cs). split; [reflexivity|exact I]. }
  pose proof (leaves_nonempty c) as Nc.
  rewrite (act_on_single kb b a Ob), (act_on_single kc c b Oc), Db, Dc.
  destruct (tables_consistent (leaves b)) eqn:Cb.
  - destruct (set_eqb (column_names a) csb) eqn:T1; cbn [obind].
    + rewrite (act_on_single kc c _ Oc), Dc.
      destruct (tables_consistent (leaves c)) eqn:Cc; [|reflexivity].
      assert (Permutation (column_names (replace_leaves [(kb, a)] b)) (column_names b)) as P.
      { eapply compose_column_names_perm; try eassumption; [apply nodupb_NoDup; exact Na|].
        unfold leaves_nodup in Nb. rewrite forallb_forall in Nb. apply nodupb_NoDup. apply (Nb (kb, csb)). apply dict_get_In. exact Db. }
      rewrite (set_eqb_Permutation_l _ _ _ P).
      destruct (set_eqb (column_names b) csc) eqn:T3; cbn [obind]; [|reflexivity].
      rewrite (act_on_single kb _ a Obc), Lbc, (consistent_copies _ _ Nc), Cb, (dict_get_copies _ _ _ _ Nc Db), T1.
      f_equal. apply (compose_assoc_tree kb kc a b c Bb Bc).
      destruct (eq_dec kb kc) as [E|N]; [left; exact E|right]. intros I. apply N. apply Oc. exact I.
    + destruct (tables_consistent (leaves c)); [|reflexivity].
      destruct (set_eqb (column_names b) csc); cbn [obind]; [|reflexivity].
      rewrite (act_on_single kb _ a Obc), Lbc, (consistent_copies _ _ Nc), Cb, (dict_get_copies _ _ _ _ Nc Db), T1. reflexivity.
  - cbn [obind]. destruct (tables_consistent (leaves c)); [|reflexivity].
    destruct (set_eqb (column_names b) csc); cbn [obind]; [|reflexivity].
    rewrite (act_on_single kb _ a Obc), Lbc, (consistent_copies _ _ Nc), Cb. reflexivity.
Qed.
