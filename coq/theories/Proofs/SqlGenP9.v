(* SQLGEN, part 9: the names of the generated views (all node kinds, all dialects): every step takes its number from the
   counter, which only grows, so the names of one generated tree are pairwise distinct. *)
From Coq Require Import List Bool String Lia.
Import ListNotations.
From DA Require Import Base.PyRT Base.Val Model.Sem Model.ColumnsUsed Model.SqlGen.
Local Open Scope string_scope.
Local Open Scope list_scope.

Definition names_ok (n n' : nat) (q : tnear) : Prop :=
  n <= n' /\ (forall v, In v (view_names q) -> n <= vn_id v < n') /\ NoDup (view_names q).

Lemma names_restrict q K q' : restrict_terms q K = Some q' -> view_names q' = view_names q.
Proof.
  destruct q as [nm ts|nm l s ci sfx mg dp|nm l s1 c1 j s2 c2 on]; simpl; destruct (subset K _); try discriminate; intros [= <-]; reflexivity.
Qed.
Lemma names_empty q : view_names (empty_terms q) = view_names q.
Proof. destruct q; reflexivity. Qed.
Lemma names_narrow q K q' : narrow_or_first q K = Some q' -> view_names q' = view_names q.
Proof. unfold narrow_or_first. destruct K; [destruct (tkeys q)|]; apply names_restrict. Qed.
Lemma names_merge sub tms deps m : try_sql_merge sub tms deps = Some (Ok m) -> view_names m = view_names sub.
Proof.
  destruct sub as [nm ts|nm l s ci sfx mg dp|nm l s1 c1 j s2 c2 on]; simpl; try discriminate.
  destruct sfx; try discriminate. destruct mg; try discriminate. destruct dp as [ds|]; try discriminate. destruct l as [ts|]; try discriminate.
  destruct (contention _ _ _ _); try discriminate. intros [= <-]. reflexivity.
Qed.

Lemma names_ok_eq n n' q q' : view_names q' = view_names q -> names_ok n n' q -> names_ok n n' q'.
Proof. intros E [A [B C]]. unfold names_ok. rewrite E. tauto. Qed.

Lemma names_fresh n n1 sub k tms ci sfx mg dp :
  names_ok n n1 sub -> names_ok n (S n1) (TUnary (mkvn k n1) tms sub ci sfx mg dp).
Proof.
  intros [A [B C]]. split; [lia|]. split.
  - intros v [<-|I]; [simpl; lia|]. specialize (B v I). lia.
  - simpl. constructor; [|exact C]. intros I. specialize (B _ I). simpl in B. lia.
Qed.

Lemma NoDup_app_vn (l1 l2 : list vname) : NoDup l1 -> NoDup l2 -> (forall x, In x l1 -> ~ In x l2) -> NoDup (l1 ++ l2).
Proof.
  induction l1 as [|a t IH]; intros N1 N2 D; simpl; [exact N2|]. inversion N1 as [|? ? Na Nt]; subst. constructor.
  - intros I. apply in_app_iff in I. destruct I as [I|I]; [exact (Na I)|]. exact (D a (or_introl eq_refl) I).
  - apply IH; [exact Nt|exact N2|]. intros x Hx. apply D. right. exact Hx.
Qed.

Lemma names_two n n1 n2 ql qr : names_ok n n1 ql -> names_ok n1 n2 qr ->
  n <= n2 /\ (forall v, In v (view_names ql ++ view_names qr) -> n <= vn_id v < n2) /\ NoDup (view_names ql ++ view_names qr).
Proof.
  intros [A1 [B1 C1]] [A2 [B2 C2]]. split; [lia|]. split.
  - intros v I. apply in_app_iff in I. destruct I as [I|I]; [specialize (B1 v I)|specialize (B2 v I)]; lia.
  - apply NoDup_app_vn; try assumption. intros x I1 I2. specialize (B1 x I1). specialize (B2 x I2). lia.
Qed.

Lemma names_concat n n1 n2 ql qr k tms c1 c2 j on :
  tc_pub c1 = None -> tc_pub c2 = None -> names_ok n n1 ql -> names_ok n1 n2 qr ->
  names_ok n (S n2) (TBinary (mkvn k n2) tms ql c1 j qr c2 on).
Proof.
  intros P1 P2 H1 H2. destruct (names_two n n1 n2 ql qr H1 H2) as [A [B C]]. split; [lia|]. simpl. rewrite P1, P2. simpl. split.
  - intros v [<-|I]; [simpl; lia|]. specialize (B v I). lia.
  - constructor; [|exact C]. intros I. specialize (B _ I). simpl in B. lia.
Qed.

Lemma names_join n n2 n3 ql qr tms cl cr j on :
  names_ok (S n) n2 ql -> names_ok n2 n3 qr ->
  names_ok n n3 (TBinary (mkvn "natural_join" n) tms ql (mk_tci cl false (Some (mkvn "join_source_left" n))) j
                         qr (mk_tci cr false (Some (mkvn "join_source_right" n))) on).
Proof.
  intros H1 H2. destruct (names_two (S n) n2 n3 ql qr H1 H2) as [A [B C]]. split; [lia|]. simpl. split.
  - intros v [<-|[<-|[<-|I]]]; try (simpl; lia). specialize (B v I). lia.
  - assert (forall k, ~ In (mkvn k n) (view_names ql ++ view_names qr)) as NI by (intros k I; specialize (B _ I); simpl in B; lia).
    constructor; [intros [X|[X|I]]; try discriminate; exact (NI _ I)|].
    constructor; [intros [X|I]; try discriminate; exact (NI _ I)|].
    constructor; [apply NI|exact C].
Qed.

Definition src_ok (src : option (list string) -> gen) : Prop :=
  forall u m q m', src u m = Ok (q, m') -> names_ok m m' q.

Lemma gen_extend_names d src p s ops wd w usg n q n' :
  src_ok src -> gen_extend d src p s ops wd w usg n = Ok (q, n') -> names_ok n n' q.
Proof.
  intros HS H. unfold gen_extend in H. destruct (sub_ops _ ops) as [|so0 sor]; [exact (HS _ _ _ _ H)|].
  destruct (is_nil _); [discriminate|]. destruct (negb (subset _ _)); [discriminate|]. unfold bind in H.
  destruct (src _ n) as [[sub n1]| |] eqn:ES; try discriminate. pose proof (HS _ _ _ _ ES) as Hsub.
  destruct (d_allow_extend_merges d).
  - destruct (try_sql_merge sub _ _) as [[m| |]|] eqn:EM; try discriminate.
    + injection H as <- <-. eapply names_ok_eq; [exact (names_merge _ _ _ _ EM)|exact Hsub].
    + injection H as <- <-. apply names_fresh, Hsub.
  - injection H as <- <-. apply names_fresh, Hsub.
Qed.

Lemma gen_join_names d srca srcb p a b on_a on_b jt lf usg n q n' :
  src_ok srca -> src_ok srcb -> gen_join d srca srcb p a b on_a on_b jt lf usg n = Ok (q, n') -> names_ok n n' q.
Proof.
  intros HA HB H. unfold gen_join in H. destruct (negb (subset _ _)); [discriminate|]. unfold bind in H.
  destruct (srca _ (S n)) as [[ql n2]| |] eqn:EA; try discriminate. destruct (srcb _ n2) as [[qr n3]| |] eqn:EB; try discriminate.
  injection H as <- <-. apply (names_join n n2 n3 ql qr); [exact (HA _ _ _ _ EA)|exact (HB _ _ _ _ EB)].
Qed.

Theorem view_names_ok : forall fuel d p usg n q n', to_near_f fuel d p usg n = Ok (q, n') -> names_ok n n' q.
Proof.
  induction fuel as [|fuel IH]; intros d p usg n q n' H; [discriminate|].
  assert (forall x, src_ok (to_near_f fuel d x)) as HS by (intros x u m q0 m' E; exact (IH _ _ _ _ _ _ E)).
  destruct p as [name cs|s ops wd w|s ops gb|s x|s cs|s ds|s m|s m dels|s cs rev lim|a b on_a on_b jt|a b idc an bn]; cbn [to_near_f] in H.
  - destruct (negb (subset _ cs)); [discriminate|]. destruct (_ && _); injection H as <- <-.
    + split; [lia|]. split; [intros v [<-|[]]; simpl; lia|]. simpl. constructor; [intros []|constructor].
    + split; [lia|]. split; [intros v []|constructor].
  - eapply gen_extend_names; [apply HS|exact H].
  - unfold bind in H. destruct (to_near_f fuel d s _ n) as [[sub n1]| |] eqn:ES; try discriminate. injection H as <- <-.
    apply names_fresh, (IH _ _ _ _ _ _ ES).
  - unfold bind in H. destruct (to_near_f fuel d s _ n) as [[sub n1]| |] eqn:ES; try discriminate. injection H as <- <-.
    apply names_fresh, (IH _ _ _ _ _ _ ES).
  - unfold bind in H. destruct (to_near_f fuel d s _ n) as [[sub n1]| |] eqn:ES; try discriminate. pose proof (IH _ _ _ _ _ _ ES) as Hs.
    destruct (terms_is_none sub).
    + injection H as <- <-. eapply names_ok_eq; [apply names_empty|exact Hs].
    + destruct (narrow_or_first sub _) as [q0|] eqn:EN; [|discriminate]. injection H as <- <-. eapply names_ok_eq; [exact (names_narrow _ _ _ EN)|exact Hs].
  - unfold bind in H. destruct (to_near_f fuel d s _ n) as [[sub n1]| |] eqn:ES; try discriminate. pose proof (IH _ _ _ _ _ _ ES) as Hs.
    destruct (terms_is_none sub).
    + destruct (filter _ _); [|discriminate]. injection H as <- <-. eapply names_ok_eq; [apply names_empty|exact Hs].
    + destruct (narrow_or_first sub _) as [q0|] eqn:EN; [|discriminate]. injection H as <- <-. eapply names_ok_eq; [exact (names_narrow _ _ _ EN)|exact Hs].
  - unfold bind in H. destruct (to_near_f fuel d s _ n) as [[sub n1]| |] eqn:ES; try discriminate. injection H as <- <-.
    apply names_fresh, (IH _ _ _ _ _ _ ES).
  - unfold bind in H. destruct (to_near_f fuel d s _ n) as [[sub n1]| |] eqn:ES; try discriminate. injection H as <- <-.
    apply names_fresh, (IH _ _ _ _ _ _ ES).
  - unfold bind in H. destruct (to_near_f fuel d s _ n) as [[sub n1]| |] eqn:ES; try discriminate. injection H as <- <-.
    apply names_fresh, (IH _ _ _ _ _ _ ES).
  - destruct jt.
    + eapply gen_join_names; [apply HS|apply HS|exact H].
    + eapply gen_join_names; [apply HS|apply HS|exact H].
    + destruct (d_rewrite_right d); (eapply gen_join_names; [apply HS|apply HS|exact H]).
    + destruct (d_rewrite_full d).
      * destruct (is_nil on_a); [discriminate|]. destruct (negb (eqb on_a on_b)); [discriminate|]. exact (IH _ _ _ _ _ _ H).
      * eapply gen_join_names; [apply HS|apply HS|exact H].
  - destruct (negb (subset _ _)); [discriminate|]. destruct (negb (set_eqb _ _)); [discriminate|]. unfold bind in H.
    destruct (to_near_f fuel d _ _ n) as [[ql n1]| |] eqn:EL; try discriminate.
    destruct (to_near_f fuel d _ _ n1) as [[qr n2]| |] eqn:ER; try discriminate. injection H as <- <-.
    apply (names_concat n n1 n2 ql qr); [reflexivity|reflexivity|exact (IH _ _ _ _ _ _ EL)|exact (IH _ _ _ _ _ _ ER)].
Qed.

Lemma view_names_distinct d p usg ids q ids' : to_near d p usg ids = Ok (q, ids') ->
  NoDup (view_names q) /\ (forall v, In v (view_names q) -> ids <= vn_id v < ids') /\ ids <= ids'.
Proof. intros H. destruct (view_names_ok _ _ _ _ _ _ _ H) as [A [B C]]. tauto. Qed.
