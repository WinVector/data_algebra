(* WITH form WITH the common-table-expression cache (use_cte_elim): to_with_form starts from the empty cache, which keeps the
   promise CI of WithFormP1.v as soon as the keys are sound for the query (`cache_sound`). *)
From Coq Require Import List Bool String .
Import ListNotations.
From DA Require Import Base.PyRT Model.NearSql Model.WithForm Proofs.WithFormP1.

Lemma desc_keys_table fl q : is_table q = true -> desc_keys fl q = [].
Proof. intros H. unfold desc_keys. rewrite conts_table by exact H. reflexivity. Qed.

(* CTE elimination denotes the same table, whenever the cache keys are sound for the query *)
Theorem cte_elim_preserves (T : Type) (E : engine T) (fl : flags) (q : nearsql) (r : env T) :
  hygienic q = true -> cache_sound E fl q ->
  nsem_with E r (fst (to_with_form fl (Some []) q)) = nsem E r q None.
Proof.
  intros H HS. destruct (hygienic_spec q H) as (N & D & TO). unfold to_with_form.
  destruct (twf fl (Some []) q) as [[sq last] oc] eqn:Et. simpl.
  assert (CI T E fl q (Some []) r) as HCI.
  { split; [intros _; exact HS|intros k v G; discriminate G|intros k c k' Hk; exfalso; apply Hk; reflexivity]. }
  destruct (twf_spec T E fl q D q (sub_of_refl q) N TO (Some []) r sq last oc HCI) as (_ & _ & _ & Sem).
  - intros n (k & ko & G). discriminate G.
  - exact Et.
  - unfold nsem_with. simpl. apply Sem.
Qed.
