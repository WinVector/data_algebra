(* Proofs/ExprParseP2.v -- C13, part 1 (continued): the walker at each kind of node (walk_node on a concrete kind), and what
   the methods it reaches build. *)
From Coq Require Import List Bool String Arith Lia.
Import ListNotations.
From DA Require Import Model.PyExpr Model.ExprParse Model.ExprSem Proofs.ExprParseP1.
Local Open Scope string_scope.
Local Open Scope bool_scope.
Local Open Scope list_scope.

(* ------------------------------------------------------------------ walk_node at each kind of node *)
Definition kopsel (ops : list (option string)) : option string :=
  match all_some ops with
  | Some names => match all_same names with Some o => if mem_str o ["+"; "*"] then Some o else None | None => None end
  | None => None
  end.

Lemma wn_var c d cs rs g a : In d ["number"; "string"; "var"] -> walk_node c d cs rs g a = nth 0 rs Err.
Proof. simpl. intros [<-|[<-|[<-|[]]]]; reflexivity. Qed.

Lemma wn_bool c (is_or : bool) cs rs g a : walk_node c (if is_or then "or_test" else "and_test") cs rs g a =
  if Nat.ltb (List.length cs) 2 then Err
  else match all_ok rs with Ok args => mk_expr c (if is_or then "or" else "and") args true false | Err => Err end.
Proof. destruct is_or; reflexivity. Qed.

Lemma wn_not c cs rs g a : walk_node c "not" cs rs g a =
  match rs with [Ok lft] => call_method c "__eq__" lft [EVal (PBool false)] | _ => Err end.
Proof. reflexivity. Qed.

Lemma wn_comparison c cs rs g a : walk_node c "comparison" cs rs g a =
  if Nat.ltb (List.length cs) 3 || Nat.even (List.length cs) then Err
  else if Nat.ltb 3 (List.length cs) then Err
  else chain_fold c (nth 0 rs Err) (map tok_text (odds cs)) (match evens rs with [] => [] | _ :: t => t end).
Proof. unfold walk_node. cbn -[Nat.ltb Nat.even all_some all_same all_ok chain_fold odds evens nth].
  destruct (Nat.ltb (List.length cs) 3 || Nat.even (List.length cs)); [reflexivity|].
  destruct (Nat.ltb 3 (List.length cs)); [reflexivity|].
  destruct (all_some (map tok_text (odds cs))) as [names|]; [|reflexivity]. destruct (all_same names); reflexivity. Qed.

Lemma wn_arith c d cs rs g a : In d ["arith_expr"; "term"] -> walk_node c d cs rs g a =
  if Nat.ltb (List.length cs) 3 || Nat.even (List.length cs) then Err
  else match kopsel (map tok_text (odds cs)) with
       | Some o => match all_ok (evens rs) with Ok args => mk_expr c o args true false | Err => Err end
       | None => chain_fold c (nth 0 rs Err) (map tok_text (odds cs)) (match evens rs with [] => [] | _ :: t => t end)
       end.
Proof. simpl. intros [<-|[<-|[]]]; unfold walk_node, kopsel; cbn -[Nat.ltb Nat.even all_some all_same all_ok chain_fold odds evens nth mem_str];
  (destruct (Nat.ltb (List.length cs) 3 || Nat.even (List.length cs)); reflexivity). Qed.

Lemma wn_factor c cs rs g a : walk_node c "factor" cs rs g a =
  match cs, rs with
  | [o; _], [_; r] =>
      match tok_text o, r with
      | Some op, Ok rgt => call_method c (remap factor_remap op) rgt []
      | _, _ => Err
      end
  | _, _ => Err
  end.
Proof. reflexivity. Qed.

Lemma wn_power c cs rs g a : walk_node c "power" cs rs g a =
  if Nat.ltb (List.length cs) 2 then Err
  else match all_ok rs with Ok (x :: more) => pow_fold c (Ok x) more | _ => Err end.
Proof. reflexivity. Qed.

Definition call_args (rest : list ltree) (ars : option (list (res expr))) : res (list expr) :=
  match rest with
  | [] => Ok []
  | LNone :: _ => Ok []
  | LNode _ _ :: _ => match ars with Some l => all_ok l | None => Err end
  | LTok _ :: _ => Err
  end.

Lemma wn_funccall c cs rs g a : walk_node c "funccall" cs rs g a =
  if Nat.ltb 2 (List.length cs) then Err
  else match cs with
       | [] => Err
       | carrier :: rest =>
           match carrier with
           | LNode cd ccs =>
               if cd ==s "getattr" then
                 match ccs, g with
                 | o :: nm :: _, Some (ro :: _) =>
                     match ro, tok_text nm, call_args rest a with
                     | Ok self, Some m, Ok al => if is_dunder m then Err else call_method c m self al
                     | _, _, _ => Err
                     end
                 | _, _ => Err
                 end
               else if negb (cd ==s "var") then Err
               else match ccs with
                    | h :: _ => match tok_text h, call_args rest a with Some f, Ok al => mk_expr c f al false false | _, _ => Err end
                    | [] => Err
                    end
           | LTok t => match tok_text (LTok t), call_args rest a with Some f, Ok al => mk_expr c f al false false | _, _ => Err end
           | LNone => Err
           end
       end.
Proof. unfold walk_node, call_args. cbn -[Nat.ltb all_ok].
  destruct (Nat.ltb 2 (List.length cs)); [reflexivity|]. destruct cs as [|carrier rest]; [reflexivity|].
  destruct carrier as [t|cd ccs|]; try reflexivity; destruct rest as [|[t'|ad acs|] rest']; try reflexivity;
    destruct (cd ==s "getattr"); try reflexivity; destruct (negb (cd ==s "var")); reflexivity. Qed.

Lemma kopsel_spec ops o : kopsel ops = Some o -> Forall (fun x => x = Some o) ops /\ mem_str o ["+"; "*"] = true.
Proof. unfold kopsel. destruct (all_some ops) as [names|] eqn:A; [|discriminate].
  destruct (all_same names) as [o'|] eqn:S; [|discriminate]. destruct (mem_str o' ["+"; "*"]) eqn:M; [|discriminate].
  intros H; inversion H; subst o'. split; [|exact M]. apply all_some_inv in A. subst ops.
  unfold all_same in S. destruct names as [|x t]; [discriminate S|].
  destruct (forallb (String.eqb x) t) eqn:F; [|discriminate S]. inversion S; subst x.
  constructor; [reflexivity|]. rewrite forallb_forall in F. apply Forall_forall. intros y Hy.
  apply in_map_iff in Hy as [z [<- Hz]]. apply F in Hz. apply String.eqb_eq in Hz. subst. reflexivity. Qed.

Lemma length_3_inv {A} (l : list A) : Nat.ltb (List.length l) 3 = false ->
  exists a b l', l = a :: b :: l' /\ l' <> [].
Proof. intros H. apply Nat.ltb_ge in H. destruct l as [|a [|b [|x l']]]; simpl in H; try lia.
  exists a, b, (x :: l'). split; [reflexivity|discriminate]. Qed.

Lemma plain_call c m s al e :
  plain_method m (List.length al) = true -> call_method c m s al = Ok e -> exists i me, e = EOp m i me None (s :: al).
Proof. unfold plain_method, call_method. destruct (negb (is_term s)); [discriminate 2|].
  destruct (find_method m method_table) as [[op|op i me chk|op|op i me| | | | | | | | |op dflt must]|]; try discriminate 1.
  - destruct al as [|? ?]; [|discriminate 1]. intros E H. apply String.eqb_eq in E. subst op.
    apply uop_expr_Ok in H. eauto.
  - destruct al as [|x [|? ?]]; try discriminate 1. intros E H. apply String.eqb_eq in E. subst op.
    apply op_expr_Ok in H. eauto.
  - destruct al as [|x [|y [|? ?]]]; try discriminate 1. intros E H. apply String.eqb_eq in E. subst op.
    apply triop_expr_Ok in H. eauto. Qed.

Lemma call_neg c rgt e : call_method c "__neg__" rgt [] = Ok e ->
  (exists x x', rgt = EVal x /\ py_neg x = Some x' /\ e = EVal x') \/
  ((forall x, rgt <> EVal x) /\ e = EOp "-" true false None [rgt]).
Proof. unfold call_method. destruct (negb (is_term rgt)); [discriminate|].
  change (find_method "__neg__" method_table) with (Some MNeg). cbv iota beta.
  destruct rgt as [n|x|l|d|op i m p args];
    try (intros H; right; split; [discriminate|exact (uop_expr_Ok _ _ _ _ _ H)]).
  destruct (py_neg x) as [x'|] eqn:N; [|discriminate]. intros H. inversion H. left. eauto. Qed.

Lemma call_pos c rgt e : call_method c "__pos__" rgt [] = Ok e -> e = rgt.
Proof. unfold call_method. destruct (negb (is_term rgt)); [discriminate|].
  change (find_method "__pos__" method_table) with (Some MPos). cbv iota beta. intros H; inversion H; reflexivity. Qed.

Lemma neg_num_py_neg v w : neg_num v = Some w -> py_neg v = Some w.
Proof. destruct v; simpl; intros H; try discriminate H; exact H. Qed.

Lemma no_chain_child d cs x : no_chain (LNode d cs) = true -> In x cs -> no_chain x = true.
Proof. simpl. intros H Hx. apply andb_prop in H as [_ H]. rewrite forallb_forall in H. apply H, Hx. Qed.
