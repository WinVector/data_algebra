(* C17, part 5: blocks -> rows -> blocks. *)
From Coq Require Import List Bool String Permutation.
Import ListNotations.
From DA Require Import Base.PyRT Base.Val Model.CData Proofs.CDataP1 Proofs.CDataP2 Proofs.CDataP4 Proofs.ListP.

Lemma nm_in_rc S cr n : spec_facts S -> In cr (rows (rs_ct S)) -> In n (nm S cr) -> In n (row_columns S).
Proof. intros F Hcr Hn. apply In_rc. right. rewrite (content_keys_cnames S F). eapply nm_In_cnames; eassumption. Qed.

(* complete blocks are the blocks of a list of records: the distinct record-key tuples, each with one row (brow p cr) for every
   control row *)
Lemma complete_blocks_repr S T : strict_spec S = true -> complete_blocks S T = true -> rows T <> [] ->
  exists (recs : list (list val)) (brow : list val -> list val -> list val),
    Permutation (rows (select_cols (block_columns S) T)) (flat_map (fun p => map (brow p) (rows (rs_ct S))) recs) /\
    recs <> [] /\ NoDup recs /\ (forall p, In p recs -> key_ok p = true) /\
    (forall p, In p recs -> List.length p = List.length (rs_keys S)) /\
    (forall p cr, In p recs -> In cr (rows (rs_ct S)) -> cells (block_columns S) (brow p cr) (rs_keys S) = p) /\
    (forall p cr, In p recs -> In cr (rows (rs_ct S)) -> cells (block_columns S) (brow p cr) (rs_ctkeys S) = kap S cr).
Proof. intros HS HC NE. pose proof (strict_spec_facts S HS) as F.
  unfold complete_blocks in HC. apply andb_true_iff in HC. destruct HC as [HC C4].
  apply andb_true_iff in HC. destruct HC as [HC C3]. apply andb_true_iff in HC. destruct HC as [HC _].
  pose proof (proj1 (keyed_by_facts _ _) HC) as KF. clear HC. rewrite forallb_forall in C3, C4.
  set (RK := rs_keys S) in *. set (CK := rs_ctkeys S) in *. set (bc := block_columns S) in *. set (ctrows := rows (rs_ct S)) in *.
  (* the selected rows d have distinct keys; their key tuples are those of T *)
  set (d := rows (select_cols bc T)). set (key := fun x => cells bc x (RK ++ CK)).
  assert (Ekey : map key d = map (fun r => cells (cols T) r (RK ++ CK)) (rows T)).
  { unfold d. simpl. rewrite map_map. apply map_ext. intros r. apply cells_cells. intros c Hc.
    apply in_app_iff in Hc. destruct Hc as [Hc|Hc]; [apply (rk_in_bc S)|apply (ck_in_bc S F)]; exact Hc. }
  assert (Nkey : NoDup (map key d)) by (rewrite Ekey; apply (kf_nodup _ _ KF)).
  (* the records: the distinct record-key tuples.  The key tuples of d are exactly ks: every record with every control key *)
  set (recs := dedup [] (map (fun r => cells (cols T) r RK) (rows T))).
  set (ks := flat_map (fun p => map (fun cr => p ++ kap S cr) ctrows) recs).
  assert (recs_In : forall p, In p recs <-> exists r, In r (rows T) /\ cells (cols T) r RK = p).
  { intros p. unfold recs. rewrite In_dedup, in_map_iff. simpl. split; [intros [[r [E Hr]] _]; exists r; auto|intros [r [Hr E]]; split; [exists r; auto|tauto]]. }
  assert (recs_len : forall p, In p recs -> List.length p = List.length RK).
  { intros p Hp. apply recs_In in Hp. destruct Hp as [r [_ <-]]. apply cells_length. }
  assert (ks_In : forall k, In k ks <-> In k (map key d)).
  { intros k. rewrite Ekey. unfold ks. rewrite in_flat_map. split.
    - intros [p [Hp M]]. apply in_map_iff in M. destruct M as [cr [<- Hcr]]. apply recs_In in Hp. destruct Hp as [r [Hr <-]].
      specialize (C4 r Hr). rewrite forallb_forall in C4. apply mem_In. apply C4. rewrite ct_keys_of_kap. apply in_map. exact Hcr.
    - intros M. apply in_map_iff in M. destruct M as [r [<- Hr]]. rewrite cells_app.
      specialize (C3 r Hr). apply mem_In in C3. rewrite ct_keys_of_kap in C3. apply in_map_iff in C3. destruct C3 as [cr [Ecr Hcr]].
      exists (cells (cols T) r RK). split; [apply recs_In; exists r; auto|]. rewrite <- Ecr.
      apply (in_map (fun cr0 => cells (cols T) r RK ++ kap S cr0)). exact Hcr. }
  (* brow p cr: the row of record p for the control row cr, found by its key *)
  set (brow := fun (p cr : list val) => lookup key d [] (p ++ kap S cr)).
  assert (Bkey : forall p cr, In p recs -> In cr ctrows ->
            cells bc (brow p cr) RK = p /\ cells bc (brow p cr) CK = kap S cr).
  { intros p cr Hp Hcr. apply app_inv_length; [rewrite cells_length; symmetry; apply recs_len; exact Hp|]. rewrite <- cells_app.
    assert (I : In (p ++ kap S cr) (map key d)).
    { apply ks_In. apply in_flat_map. exists p. split; [exact Hp|]. apply (in_map (fun cr0 => p ++ kap S cr0)). exact Hcr. }
    apply in_map_iff in I. destruct I as [x [E Hx]]. unfold brow. rewrite <- E. rewrite (lookup_key key d [] x Nkey Hx). reflexivity. }
  exists recs, brow. split; [|split; [|split; [apply NoDup_dedup|split; [|split; [exact recs_len|split]]]]].
  - replace (flat_map (fun p => map (brow p) ctrows) recs) with (map (lookup key d []) ks).
    + apply lookup_perm; [exact Nkey| |exact ks_In].
      apply (NoDup_product (fun p => p) (kap S) recs ctrows (List.length RK)); [rewrite map_id; apply NoDup_dedup|apply (sf_keys_nodup S F)|exact recs_len].
    + unfold ks. rewrite map_flat_map. apply flat_map_ext. intros p. rewrite map_map. reflexivity.
  - destruct (rows T) as [|r1 rs1] eqn:ET; [congruence|]. intros E.
    assert (I : In (cells (cols T) r1 RK) recs) by (apply recs_In; exists r1; split; [left|]; reflexivity).
    rewrite E in I. destruct I.
  - intros p Hp. apply recs_In in Hp. destruct Hp as [r [Hr <-]].
    pose proof (kf_ok _ _ KF r Hr) as K0. rewrite cells_app, key_ok_app in K0. apply andb_true_iff in K0. tauto.
  - intros p cr Hp Hcr. apply Bkey; assumption.
  - intros p cr Hp Hcr. apply Bkey; assumption.
Qed.

Theorem roundtrip_blocks S T : strict_spec S = true -> complete_blocks S T = true ->
  exists X B, blocks_to_rowrecs S T = Ok X /\ Permutation (cols X) (row_columns S) /\ keyed_by (rs_keys S) X = true /\
              rowrecs_to_blocks S X = Ok B /\ tbl_eqv B (select_cols (block_columns S) T).
Proof. intros HS HC. pose proof (strict_spec_facts S HS) as F.
  set (rc := row_columns S). set (RK := rs_keys S). set (bc := block_columns S).
  destruct (rows T) as [|r0 rs0] eqn:ET.
  - exists (mktable rc []), (mktable bc []). split; [apply b2r_empty; exact ET|]. split; [reflexivity|].
    split; [apply keyed_by_facts; constructor; simpl; [apply rk_in_rc|intros r []|constructor]|].
    split; [apply r2b_empty; reflexivity|].
    split; [reflexivity|]. simpl. rewrite ET. constructor.
  - assert (NE : rows T <> []) by (rewrite ET; discriminate). clear ET r0 rs0.
    destruct (complete_blocks_repr S T HS HC NE) as [recs [brow [Hperm [RNE [NR [Kok [Len [Brk Bck]]]]]]]].
    set (V := fun p cr => cells bc (brow p cr) (value_cols S)).
    assert (NRm : NoDup (map (fun p : list val => p) recs)) by (rewrite map_id; exact NR).
    destruct (b2r_char S F (list val) (fun p => p) V brow recs T Hperm RNE NRm Kok Len Brk Bck) as [G [rows' [HG [EB HP]]]];
      [reflexivity|].
    set (X := mktable (RK ++ List.concat (map (nm S) G)) rows').
    set (xrow := fun p => p ++ List.concat (map (V p) G)).
    assert (LV : forall p cr, In cr G -> List.length (V p cr) = List.length (nm S cr)).
    { intros p cr _. unfold V. rewrite cells_length, nm_length. reflexivity. }
    assert (xrow_rk : forall p, In p recs -> cells (cols X) (xrow p) RK = p).
    { intros p Hp. apply (rowrec_rk S F G p (V p)). apply Len. exact Hp. }
    assert (xrow_nm : forall p cr, In p recs -> In cr (rows (rs_ct S)) -> cells (cols X) (xrow p) (nm S cr) = V p cr).
    { intros p cr Hp Hcr. apply (rowrec_names S F G HG p (V p)); [apply Len; exact Hp|apply LV|exact Hcr]. }
    assert (KX : keyed_by RK X = true) by (apply (rowform_keyed S F G V recs rows' NR Kok Len HP)).
    assert (NEX : rows X <> []).
    { simpl. intros E. rewrite E in HP. apply Permutation_nil in HP. destruct recs; [congruence|discriminate]. }
    exists X. eexists. split; [exact EB|]. split; [apply (rowrec_cols_perm S F G HG)|]. split; [exact KX|].
    split; [apply (r2b_unfold S X NEX); apply is_keyed_select_ok; apply keyed_by_facts; exact KX|].
    split; [apply r2b_cols_perm; exact F|].
    simpl rows. simpl cols. fold bc.
    etransitivity; [apply Permutation_map; apply sort_by_perm|].
    (* the selected rows of X, as images of the records *)
    set (selX := fun r => cells (cols X) r rc).
    assert (PX : Permutation (map selX rows') (map (fun p => selX (xrow p)) recs)).
    { rewrite <- (map_map xrow selX). apply Permutation_map. exact HP. }
    etransitivity.
    { apply Permutation_map. apply perm_flat_map_ext. intros cr _. apply Permutation_map. exact PX. }
    etransitivity; [apply map_flat_map_transpose|].
    rewrite flat_map_map.
    etransitivity; [|apply Permutation_sym; exact Hperm].
    apply Permutation_refl'. apply flat_map_ext_in. intros p Hp. apply map_ext_in. intros cr Hcr.
    (* the block row rebuilt from the record p and the control row cr is brow p cr *)
    unfold r2b_row. fold rc. fold RK. unfold selX.
    rewrite (cells_cells (cols X) (xrow p) rc RK) by apply rk_in_rc. rewrite (xrow_rk p Hp).
    rewrite (cells_cells (cols X) (xrow p) rc (nm S cr)) by (intros n Hn; eapply nm_in_rc; eassumption).
    rewrite (xrow_nm p cr Hp Hcr).
    assert (Eb : p ++ kap S cr ++ V p cr = cells bc (brow p cr) (r2b_cols S)).
    { unfold r2b_cols, V, bc, RK. rewrite !cells_app, (Brk p cr Hp Hcr), (Bck p cr Hp Hcr). reflexivity. }
    rewrite Eb. rewrite cells_cells by (intros c Hc; apply r2b_cols_of_bc; assumption).
    apply (select_cols_self bc T). apply (Permutation_in _ (Permutation_sym Hperm)).
    apply in_flat_map. exists p. split; [exact Hp|]. apply in_map. exact Hcr.
Qed.
