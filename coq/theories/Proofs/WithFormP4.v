(* Inlining the common table expressions of the WITH form again gives a query that denotes what the original query
   denotes (for every compositional engine): the WITH form is the nested form with sub-queries given names. *)
From Coq Require Import List Bool String .
Import ListNotations.
From DA Require Import Base.PyRT Model.NearSql Model.WithForm Proofs.WithFormP1 Proofs.ListP.

Definition sub1 (m : list (string * nearsql)) (s : nearsql) : nearsql :=
  match s with NCte c _ => match dict_get m c with Some d => d | None => s end | _ => subst m s end.
Definition defs (m : list (string * nearsql)) (sq : wseq) : list (string * nearsql) :=
  fold_left (fun m nc => (fst nc, subst m (fst (snd nc))) :: m) sq m.

Lemma inline_defs_defs sq : inline_defs sq = defs [] sq.
Proof. reflexivity. Qed.
Lemma is_table_subst m q : is_table (subst m q) = is_table q.
Proof. destruct q; reflexivity. Qed.
Lemma defs_app m a b : defs m (a ++ b) = defs (defs m a) b.
Proof. unfold defs. apply fold_left_app. Qed.
Lemma defs_dom sq : forall m, map fst (defs m sq) = rev (map fst sq) ++ map fst m.
Proof. induction sq as [|[n c] t IH]; intros m; [reflexivity|]. simpl. rewrite IH. simpl. rewrite <- app_assoc. reflexivity. Qed.
Lemma defs_other sq : forall m n, ~ In n (map fst sq) -> dict_get (defs m sq) n = dict_get m n.
Proof. induction sq as [|[k c] t IH]; intros m n H; [reflexivity|]. simpl in *. rewrite IH by tauto. simpl.
  destruct (eq_dec n k) as [->|_]; [tauto|reflexivity]. Qed.

Definition fresh (m : list (string * nearsql)) (q : nearsql) : Prop :=
  forall n, In n (map fst m) -> ~ In n (step_names q) /\ ~ In n (ref_names q).

Section P.
Variable T : Type.
Variable E : engine T.
Variable fl : flags.
Notation nsem := (nsem E).
Notation csem := (csem E).

Definition inl_spec (q : nearsql) : Prop :=
  forall sq last oc, twf fl None q = (sq, last, oc) -> forall m0, fresh m0 q ->
    forall r cols, nsem r (subst (defs m0 sq) last) cols = nsem r q cols.

Lemma opnd_none s ci :
  NoDup (step_names s) -> (forall n, In n (step_names s) -> ~ In n (ref_names s)) -> terms_ok s = true ->
  forall st sq oc, opnd fl None s ci = (st, sq, oc) ->
  oc = None /\ snd st = ci /\ NoDup (map fst sq) /\ incl (map fst sq) (step_names s) /\
  (is_table s = false -> exists sq0 last key, twf fl None s = (sq0, last, None) /\ qname last = qname s /\
     st = (NCte (qname s) key, ci) /\ sq = sq0 ++ [(qname s, (last, mk_ci (ccols ci) (cforce ci) None))]).
Proof.
  intros N D TO st sq oc H. unfold opnd in H. destruct (is_table s) eqn:It.
  - injection H as <- <- <-. repeat split; [constructor|intros n []|discriminate].
  - destruct (twf fl None s) as [[sq0 last] oc0] eqn:Et.
    destruct (twf_none_spec T E fl s N D TO _ _ _ Et) as (-> & N0 & I0 & Qn & Itl & _).
    rewrite It in Itl. rewrite step_names_head in N |- * by exact It. apply NoDup_cons_iff in N. destruct N as [Hx _].
    rewrite stub_step_miss in H by (try reflexivity; try assumption; rewrite Qn; intros J; apply Hx, I0, J).
    injection H as <- <- <-. rewrite Qn, map_app. repeat split.
    + apply NoDup_snoc; [exact N0|intros J; apply Hx, I0, J].
    + apply incl_app; [apply incl_tl, I0|intros x [<-|[]]; left; reflexivity].
    + intros _. exists sq0, last, (ckey fl (s, ci)). repeat split. exact Qn.
Qed.

Lemma inline_operand s ci :
  NoDup (step_names s) -> (forall n, In n (step_names s) -> ~ In n (ref_names s)) -> terms_ok s = true -> inl_spec s ->
  forall st sq oc, opnd fl None s ci = (st, sq, oc) ->
  forall m0, fresh m0 s ->
  forall m', (forall n, In n (step_names s) \/ In n (ref_names s) -> dict_get m' n = dict_get (defs m0 sq) n) ->
  forall r, csem r (sub1 m' (fst st), snd st) = csem r (s, ci).
Proof.
  intros N D TO I st sq oc H m0 F m' A r. destruct (opnd_none s ci N D TO _ _ _ H) as (_ & _ & _ & _ & Sh).
  destruct (is_table s) eqn:It.
  - unfold opnd in H. rewrite It in H. injection H as <- <- <-. cbn [fst snd].
    destruct s; try discriminate It; cbn [sub1 subst]; [reflexivity|].
    rewrite A by (right; left; reflexivity). cbn [defs fold_left].
    assert (dict_get m0 name = None) as ->; [|reflexivity].
    apply dict_get_None. intros J. destruct (F name J) as [_ K]. apply K. left; reflexivity.
  - destruct (Sh eq_refl) as (sq0 & last & key & Et & Qn & -> & ->). cbn [fst snd sub1].
    rewrite A by (left; rewrite step_names_head by exact It; left; reflexivity).
    rewrite defs_app. cbn [defs fold_left fst snd dict_get].
    destruct (eq_dec (qname s) (qname s)) as [_|Ne]; [|congruence].
    destruct (twf_none_spec T E fl s N D TO _ _ _ Et) as (_ & _ & _ & _ & Itl & _).
    rewrite csem_nontable by (rewrite is_table_subst, Itl; exact It).
    rewrite (csem_nontable _ E r s ci It). apply (I _ _ _ Et m0 F).
Qed.

Lemma fresh_sub m q s : fresh m q -> incl (step_names s) (step_names q) -> incl (ref_names s) (ref_names q) -> fresh m s.
Proof. intros F Is Ir n J. destruct (F n J) as [A B]. split; intros K; [apply A, Is, K|apply B, Ir, K]. Qed.

Lemma inline_node q :
  NoDup (step_names q) -> (forall n, In n (step_names q) -> ~ In n (ref_names q)) -> terms_ok q = true -> inl_spec q.
Proof.
  induction q as [n t|n k|n t s IH ci sfx an mg dp k|n t s1 IH1 c1 j s2 IH2 c2 sfx an k|n p sfx an a k|n p s IH ci sfx an a k];
  intros N D TO sq last oc H m0 F r cols.
  - injection H as <- <- <-. reflexivity.
  - injection H as <- <- <-. reflexivity.
  - (* unary *)
    simpl in N, D, TO. apply andb_true_iff in TO. destruct TO as [Tt Ts]. apply NoDup_cons_iff in N. destruct N as [_ Ns].
    assert (forall m, In m (step_names s) -> ~ In m (ref_names s)) as Ds by (intros m J; apply D; right; exact J).
    assert (fresh m0 s) as Fs by (apply (fresh_sub m0 _ s F); [intros m J; right; exact J|apply incl_refl]).
    destruct (twf_unary fl n t s ci sfx an mg dp k Tt) as (mg' & dp' & Tw). rewrite Tw in H.
    destruct (opnd fl None s ci) as [[st sq0] oc0] eqn:Es. injection H as <- <- <-.
    change (subst (defs m0 sq0) (NUnary n t (fst st) (snd st) sfx an mg' dp' k))
      with (NUnary n t (sub1 (defs m0 sq0) (fst st)) (snd st) sfx an mg' dp' k).
    rewrite !nsem_unary. f_equal.
    apply (inline_operand s ci Ns Ds Ts (IH Ns Ds Ts) st sq0 oc0 Es m0 Fs). intros; reflexivity.
  - (* binary *)
    simpl in N, D, TO. apply andb_true_iff in TO. destruct TO as [TO Ts2]. apply andb_true_iff in TO. destruct TO as [Tt Ts1].
    apply NoDup_cons_iff in N. destruct N as [_ Ns]. apply NoDup_app_iff in Ns. destruct Ns as (N1 & N2 & D12).
    assert (forall m, In m (step_names s1) -> ~ In m (ref_names s1)) as D1.
    { intros m I J. apply (D m); [right; apply in_app_iff; tauto|apply in_app_iff; tauto]. }
    assert (forall m, In m (step_names s2) -> ~ In m (ref_names s2)) as D2.
    { intros m I J. apply (D m); [right; apply in_app_iff; tauto|apply in_app_iff; tauto]. }
    assert (fresh m0 s1) as F1.
    { apply (fresh_sub m0 _ s1 F); [intros m J; right; apply in_app_iff; tauto|intros m J; apply in_app_iff; tauto]. }
    assert (fresh m0 s2) as F2.
    { apply (fresh_sub m0 _ s2 F); [intros m J; right; apply in_app_iff; tauto|intros m J; apply in_app_iff; tauto]. }
    rewrite (twf_binary _ _ _ _ _ _ _ _ _ _ _ _ Tt) in H.
    destruct (opnd fl None s1 c1) as [[st1 sq1] oc1] eqn:E1.
    destruct (opnd_none s1 c1 N1 D1 Ts1 _ _ _ E1) as (-> & Ec1 & Nq1 & Iq1 & _).
    destruct (opnd fl None s2 c2) as [[st2 sq2] oc2] eqn:E2.
    destruct (opnd_none s2 c2 N2 D2 Ts2 _ _ _ E2) as (-> & Ec2 & Nq2 & Iq2 & _).
    injection H as <- <- <-.
    rewrite merge_seq_id; [|exact Nq2|intros m I2 I1; exact (D12 m (Iq1 m I1) (Iq2 m I2))]. rewrite defs_app.
    set (mA := defs m0 sq1). set (mB := defs mA sq2).
    change (subst mB (NBinary n t (fst st1) (snd st1) j (fst st2) (snd st2) sfx an k))
      with (NBinary n t (sub1 mB (fst st1)) (snd st1) j (sub1 mB (fst st2)) (snd st2) sfx an k).
    rewrite !nsem_binary. rewrite Ec1, Ec2. f_equal.
    + (* the definitions of the second sequence are not what the first stub names *)
      rewrite <- Ec1 at 1. apply (inline_operand s1 c1 N1 D1 Ts1 (IH1 N1 D1 Ts1) st1 sq1 None E1 m0 F1).
      intros m Hm. unfold mB. apply defs_other. intros J. apply Iq2 in J. destruct Hm as [K|K].
      * exact (D12 m K J).
      * apply (D m); [right; apply in_app_iff; right; exact J|apply in_app_iff; left; exact K].
    + (* the definitions of the first sequence are fresh for the second operand *)
      rewrite <- Ec2 at 1. apply (inline_operand s2 c2 N2 D2 Ts2 (IH2 N2 D2 Ts2) st2 sq2 None E2 mA); [|intros; reflexivity].
      intros m J. unfold mA in J. rewrite defs_dom, in_app_iff, <- in_rev in J. destruct J as [J|J]; [|exact (F2 m J)].
      apply Iq1 in J. split; intros K.
      * exact (D12 m J K).
      * apply (D m); [right; apply in_app_iff; left; exact J|apply in_app_iff; right; exact K].
  - injection H as <- <- <-. reflexivity.
  - (* raw query over a sub-query *)
    simpl in N, D, TO. apply NoDup_cons_iff in N. destruct N as [_ Ns].
    assert (forall m, In m (step_names s) -> ~ In m (ref_names s)) as Ds by (intros m J; apply D; right; exact J).
    assert (fresh m0 s) as Fs by (apply (fresh_sub m0 _ s F); [intros m J; right; exact J|apply incl_refl]).
    rewrite twf_raw1 in H. destruct (opnd fl None s ci) as [[st sq0] oc0] eqn:Es. injection H as <- <- <-.
    change (subst (defs m0 sq0) (NRaw1 n p (fst st) (snd st) sfx an a k))
      with (NRaw1 n p (sub1 (defs m0 sq0) (fst st)) (snd st) sfx an a k).
    rewrite !nsem_raw1. f_equal.
    apply (inline_operand s ci Ns Ds TO (IH Ns Ds TO) st sq0 oc0 Es m0 Fs). intros; reflexivity.
Qed.

(* use_with on / off: the WITH form with its common table expressions inlined again denotes the original query *)
Theorem with_form_inlined_preserves q r :
  hygienic q = true -> nsem r (inline_ctes (fst (to_with_form fl None q))) None = nsem r q None.
Proof.
  intros H. destruct (hygienic_spec q H) as (N & D & TO). unfold to_with_form, inline_ctes.
  destruct (twf fl None q) as [[sq last] oc] eqn:Et. cbn [fst w_prev w_last]. rewrite inline_defs_defs.
  apply (inline_node q N D TO _ _ _ Et []). intros n [].
Qed.
End P.
