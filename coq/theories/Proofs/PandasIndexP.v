(* C18, Pandas labels: every step of the executor model Model/PandasIndex.v returns a frame labelled 0..n-1, whatever labels the
   caller's frames carry (induction over the pipeline); hence the result does not depend on the caller's labels, and -- because
   the only place where labels decide data, the aligned column assignment of extend, always meets equal labels -- the data of the
   result is the reference semantics. *)
From Coq Require Import List Bool QArith String Lia .
Import ListNotations.
From DA Require Import Base.PyRT Base.Val Model.Sem Model.PandasIndex Proofs.SemBasicP Proofs.SemOrderP Proofs.PermP3 Proofs.ListP Proofs.TabP.
Local Open Scope string_scope.
Local Open Scope list_scope.

Definition has_default (f : iframe) : Prop := ix f = default_ix (nrows f).

Lemma default_ix_length n : List.length (default_ix n) = n.
Proof. unfold default_ix. rewrite map_length, seq_length. reflexivity. Qed.

Lemma reset_default f : has_default (reset_index_drop f).
Proof. reflexivity. Qed.

Lemma positional_rows fl ops (wd : bool) w t : List.length (rows ((if wd then sem_wextend fl ops w else sem_extend fl ops) t)) = List.length (rows t).
Proof. destruct wd; [apply wextend_row_count|apply extend_row_count]. Qed.

Lemma ltb1_zero n : Nat.ltb n 1 = true -> n = 0%nat.
Proof. intros H. apply Nat.ltb_lt in H. lia. Qed.

Lemma concat_row_count idc an bn a b : List.length (rows (sem_concat idc an bn a b)) = (List.length (rows a) + List.length (rows b))%nat.
Proof. unfold sem_concat. destruct idc; cbn [rows]; rewrite app_length, !map_length; reflexivity. Qed.

Lemma join_empty nm on_a on_b jt a b : rows a = [] -> rows b = [] -> rows (sem_join nm on_a on_b jt a b) = [].
Proof. intros Ea Eb. unfold sem_join. cbn [rows]. rewrite Ea, Eb. destruct jt; reflexivity. Qed.

(* ---------- every step returns range labels *)
Lemma px_extend_default fl ops wd w res f : has_default res -> px_extend fl ops wd w res = Some f -> has_default f.
Proof.
  unfold px_extend, has_default, nrows. intros D H.
  destruct (Nat.eqb (List.length (rows (tb res))) 0) eqn:E0.
  - apply Nat.eqb_eq in E0. injection H as <-. cbn [ix tb]. rewrite positional_rows, E0. reflexivity.
  - destruct (eq_dec (ix res) _) as [_|N]; [injection H as <-; cbn [ix tb with_data]; rewrite positional_rows; exact D|].
    destruct (Nat.ltb _ _); [discriminate|]. injection H as <-. cbn [ix tb with_data assign_by_label rows].
    rewrite map_length, combine_length, D, default_ix_length, Nat.min_id. reflexivity.
Qed.

Lemma px_order_default fl cs rev lim res : has_default res -> has_default (px_order fl cs rev lim res).
Proof.
  intros D. unfold px_order. cbv zeta.
  set (res1 := if Nat.ltb 1 (nrows res) then _ else res).
  assert (has_default res1) as D1 by (unfold res1; destruct (Nat.ltb 1 (nrows res)); [apply reset_default|exact D]).
  destruct lim as [n|]; [|exact D1]. destruct (Nat.ltb n (nrows res1)); [apply reset_default|exact D1].
Qed.

Lemma px_join_default nm on_a on_b jt l r : has_default (px_join nm on_a on_b jt l r).
Proof.
  unfold px_join. cbv zeta. destruct (Nat.eqb (nrows l) 0 && Nat.eqb (nrows r) 0) eqn:E; [|apply reset_default].
  apply andb_true_iff in E. destruct E as [El Er]. apply Nat.eqb_eq in El, Er. unfold nrows in El, Er.
  unfold has_default, nrows. cbn [ix tb]. rewrite (join_empty _ _ _ _ _ _ (proj1 (length_zero_iff_nil _) El) (proj1 (length_zero_iff_nil _) Er)). reflexivity.
Qed.

Lemma px_concat_default idc an bn l r : has_default l -> has_default r -> has_default (px_concat idc an bn l r).
Proof.
  intros Dl Dr. unfold px_concat. cbv zeta.
  destruct (Nat.ltb (nrows l) 1) eqn:E1.
  - apply ltb1_zero in E1. unfold has_default, with_data, nrows in *. cbn [ix tb]. rewrite concat_row_count, E1. exact Dr.
  - destruct (Nat.ltb (nrows r) 1) eqn:E2; [|apply reset_default].
    apply ltb1_zero in E2. unfold has_default, with_data, nrows in *. cbn [ix tb]. rewrite concat_row_count, E2, Nat.add_0_r. exact Dl.
Qed.

Lemma strip_get e n : dict_get (strip e) n = option_map tb (dict_get e n).
Proof. induction e as [|[k f] t IH]; simpl; [reflexivity|]. destruct (eq_dec n k); [reflexivity|exact IH]. Qed.

Lemma px_order_data fl cs rev lim res : has_default res -> tb (px_order fl cs rev lim res) = sem_order fl cs rev lim (tb res).
Proof.
  intros D. unfold px_order, sem_order. cbv zeta.
  set (keys := map (fun c => (c, mem c rev)) cs).
  set (res1 := if Nat.ltb 1 (nrows res) then _ else res).
  assert (tb res1 = mktable (cols (tb res)) (stable_sort (row_le fl (cols (tb res)) keys) (rows (tb res)))) as E1.
  { unfold res1. destruct (Nat.ltb 1 (nrows res)) eqn:L.
    - unfold reset_index_drop, sort_values. cbn [tb]. f_equal.
      rewrite (stable_sort_map_snd (row_le fl (cols (tb res)) keys)). rewrite map_snd_combine; [reflexivity|].
      rewrite D. apply default_ix_length.
    - apply Nat.ltb_ge in L. rewrite stable_sort_short by exact L. symmetry. apply table_eta. }
  destruct lim as [n|]; [|exact E1].
  destruct (Nat.ltb n (nrows res1)) eqn:L.
  - unfold reset_index_drop, iloc_firstn. cbn [tb]. rewrite E1. reflexivity.
  - apply Nat.ltb_ge in L. unfold nrows in L. rewrite E1 in *. cbn [rows cols] in *. rewrite firstn_all2 by exact L. reflexivity.
Qed.

(* Every node has range labels and the data of the reference semantics.  One induction gives both, because the extend step is
   positional only on range labels.  The executor model fails exactly where the reference semantics is undefined (a table that
   is not supplied). *)
Definition node_ok (o : option iframe) (s : option table) : Prop :=
  match o with Some f => has_default f /\ s = Some (tb f) | None => s = None end.

Lemma node_ok_map (F : iframe -> iframe) (G : table -> table) o s :
  node_ok o s -> (forall f, has_default f -> has_default (F f) /\ tb (F f) = G (tb f)) -> node_ok (option_map F o) (option_map G s).
Proof.
  destruct o as [f|]; cbn [node_ok option_map].
  - intros [D ->] H. destruct (H f D) as [D' T]. cbn [option_map]. split; [exact D'|rewrite T; reflexivity].
  - intros -> _. reflexivity.
Qed.

Lemma node_ok_map2 (F : iframe -> iframe -> iframe) (G : table -> table -> table) oa ob sa sb :
  node_ok oa sa -> node_ok ob sb -> (forall l r, has_default l -> has_default r -> has_default (F l r) /\ tb (F l r) = G (tb l) (tb r)) ->
  node_ok (match oa, ob with Some l, Some r => Some (F l r) | _, _ => None end) (match sa, sb with Some ta, Some tb => Some (G ta tb) | _, _ => None end).
Proof.
  destruct oa as [l|]; cbn [node_ok]; [intros [Dl ->]|intros ->; reflexivity].
  destruct ob as [r|]; cbn [node_ok]; [intros [Dr ->]|intros ->; reflexivity].
  intros H. destruct (H l r Dl Dr) as [D T]. split; [exact D|rewrite T; reflexivity].
Qed.

Lemma px_extend_data fl ops wd w res : has_default res ->
  exists f, px_extend fl ops wd w res = Some f /\ tb f = (if wd then sem_wextend fl ops w else sem_extend fl ops) (tb res).
Proof.
  intros D. unfold px_extend. destruct (Nat.eqb (nrows res) 0); [eexists; split; reflexivity|].
  destruct (eq_dec (ix res) _) as [_|N]; [eexists; split; reflexivity|].
  exfalso. apply N. destruct wd; [exact D|]. destruct (all_constant ops); [exact D|reflexivity].
Qed.

Theorem px_node fl p : forall e, node_ok (px fl p e) (sem_gen fl p (strip e)).
Proof.
  induction p as [n cs|s IH ops wd w|s IH ops gb|s IH x|s IH cs|s IH cs|s IH m|s IH m dels|s IH cs rev lim|a IHa b IHb on_a on_b jt|a IHa b IHb idc an bn];
    intros e; cbn [px sem_gen].
  - rewrite strip_get. destruct (dict_get e n) as [df|]; cbn [option_map node_ok]; [split; [apply reset_default|reflexivity]|reflexivity].
  - specialize (IH e). destruct (px fl s e) as [res|]; cbn [node_ok] in *; [|rewrite IH; reflexivity].
    destruct IH as [D ->]. destruct (px_extend_data fl ops wd w res D) as [f [H T]]. rewrite H. cbn [option_map].
    split; [exact (px_extend_default fl ops wd w res f D H)|rewrite T; reflexivity].
  - apply node_ok_map; [apply IH|]. intros f _. split; [apply reset_default|reflexivity].
  - apply node_ok_map; [apply IH|]. intros f D. unfold px_select_rows. destruct (Nat.ltb (nrows f) 1) eqn:L; [|split; [apply reset_default|reflexivity]].
    split; [exact D|]. apply ltb1_zero in L. unfold nrows in L. apply length_zero_iff_nil in L. unfold sem_select_rows.
    destruct (tb f) as [c r]. cbn [rows cols] in *. subst r. reflexivity.
  - apply node_ok_map; [apply IH|]. intros f D. split; [|reflexivity].
    unfold has_default, loc_cols, nrows, sem_select_cols in *. cbn [ix tb rows]. rewrite map_length. exact D.
  - apply node_ok_map; [apply IH|]. intros f D. split; [|reflexivity].
    unfold has_default, with_data, nrows, sem_drop_cols, sem_select_cols in *. cbn [ix tb rows]. rewrite map_length. exact D.
  - apply node_ok_map; [apply IH|]. intros f D. split; [exact D|reflexivity].
  - apply node_ok_map; [apply IH|]. intros f D. split; [|reflexivity].
    unfold has_default, with_data, nrows, sem_drop_cols, sem_select_cols, sem_rename in *. cbn [ix tb rows]. rewrite map_length. exact D.
  - apply node_ok_map; [apply IH|]. intros f D. split; [apply px_order_default, D|apply px_order_data, D].
  - apply node_ok_map2; [apply IHa|apply IHb|]. intros l r _ _. split; [apply px_join_default|].
    unfold px_join. cbv zeta. destruct (_ && _); reflexivity.
  - apply node_ok_map2; [apply IHa|apply IHb|]. intros l r Dl Dr. split; [apply px_concat_default; assumption|].
    unfold px_concat. cbv zeta. destruct (Nat.ltb (nrows l) 1); [reflexivity|]. destruct (Nat.ltb (nrows r) 1); reflexivity.
Qed.

Theorem px_default_index fl p : forall e f, px fl p e = Some f -> has_default f.
Proof. intros e f H. pose proof (px_node fl p e) as N. rewrite H in N. apply N. Qed.

(* ... and so does every intermediate node *)
Theorem px_trace_default fl p : forall e, Forall (fun o => forall l, o = Some l -> exists n, l = default_ix n) (px_trace fl p e).
Proof.
  assert (forall q e l, option_map ix (px fl q e) = Some l -> exists n, l = default_ix n) as Here.
  { intros q e l H. destruct (px fl q e) as [f|] eqn:E; [|discriminate]. inversion H. exists (nrows f). apply (px_default_index fl q e f E). }
  induction p; intros ev; cbn [px_trace]; repeat (apply Forall_app; split); try apply IHp; try apply IHp1; try apply IHp2;
    (constructor; [apply Here|constructor]).
Qed.

(* ---------- the result does not depend on the labels of the caller's frames *)
Definition same_data (e e' : ienv) : Prop := forall n, option_map tb (dict_get e n) = option_map tb (dict_get e' n).

Theorem px_index_free fl p : forall e e', same_data e e' -> px fl p e = px fl p e'.
Proof.
  induction p; intros ev ev' S; cbn [px]; try (rewrite (IHp ev ev' S); reflexivity); try (rewrite (IHp1 ev ev' S), (IHp2 ev ev' S); reflexivity).
  specialize (S name). destruct (dict_get ev name) as [df|]; destruct (dict_get ev' name) as [df'|]; try discriminate; [|reflexivity].
  cbn [option_map] in *. inversion S as [E]. unfold px_table, reset_index_drop, loc_cols, nrows. cbn [tb]. rewrite E. reflexivity.
Qed.

Theorem px_data fl p : forall e f, px fl p e = Some f -> sem_gen fl p (strip e) = Some (tb f).
Proof. intros e f H. pose proof (px_node fl p e) as N. rewrite H in N. apply N. Qed.

(* the executor model is defined exactly when the reference semantics is (every table supplied) *)
Lemma px_defined fl p : forall e t, sem_gen fl p (strip e) = Some t -> exists f, px fl p e = Some f.
Proof.
  intros e t H. pose proof (px_node fl p e) as N. destruct (px fl p e) as [f|]; [exists f; reflexivity|].
  cbn [node_ok] in N. rewrite N in H. discriminate.
Qed.

(* ---------- why the reset in _table_step matters: a frame that reached a windowed extend with the caller's labels *)
Definition leak_frame : iframe :=
  mkif [[AInt 1]; [AInt 0]] (mktable ["k"; "a"] [[VNum (Qred (1 # 1)); VNum (Qred (1 # 1))]; [VNum (Qred (2 # 1)); VNum (Qred (5 # 1))]]).
Definition leak_ops : list (string * expr) := [("c", EOp "cumsum" [ECol "a"])].
Definition leak_win : window := mkwin [] ["k"] [].
Lemma labels_leak_without_reset :
  exists f, px_extend fl_pandas leak_ops true leak_win leak_frame = Some f /\ tb f <> sem_wextend fl_pandas leak_ops leak_win (tb leak_frame).
Proof. eexists. split; [vm_compute; reflexivity|]. vm_compute. intros H. discriminate H. Qed.
