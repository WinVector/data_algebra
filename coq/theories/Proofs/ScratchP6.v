(* C15, part B: the names the executor chooses since fix c06ea4b (`code_names`) are never among the names in use, are
   pairwise different, and so satisfy the guards of the no-capture theorems: for every step that refers to existing
   columns the Pandas step equals the plain step -- no guard on how the user's columns are called. *)
From Coq Require Import List Bool Arith String Ascii Lia.
Import ListNotations.
From DA Require Import Base.PyRT Base.PyStr Model.Rename Model.ScratchNames Model.ScratchRename Proofs.ListP.
From DA Require Import Proofs.RenameP1 Proofs.ScratchP1 Proofs.ScratchP2 Proofs.ScratchP3 Proofs.ScratchP4 Proofs.ScratchP5.
Local Open Scope list_scope.

(* ------------------------------------------------------------------ strings: padding, stripping, reversal *)
Lemma pad_shift k s : (pad k ++ String "_" s)%string = String "_" (pad k ++ s).
Proof. induction k as [|k IH]; simpl; [reflexivity|]. rewrite IH. reflexivity. Qed.

Lemma pad_snoc k : (pad k ++ "_")%string = pad (S k).
Proof. induction k as [|k IH]; simpl; [reflexivity|]. rewrite IH. reflexivity. Qed.

Fixpoint lstrip_us (s : string) : string :=
  match s with
  | String c t => if Ascii.eqb c "_" then lstrip_us t else s
  | EmptyString => EmptyString
  end.
Lemma lstrip_pad k s : lstrip_us (pad k ++ s) = lstrip_us s.
Proof. induction k as [|k IH]; simpl; [reflexivity|exact IH]. Qed.

Fixpoint srev (s : string) : string := match s with EmptyString => EmptyString | String c t => (srev t ++ String c EmptyString)%string end.
Lemma srev_app a b : srev (a ++ b) = (srev b ++ srev a)%string.
Proof.
  induction a as [|c a IH]; simpl; [rewrite str_append_nil_r; reflexivity|]. rewrite IH, str_append_assoc. reflexivity.
Qed.
Lemma srev_pad k : srev (pad k) = pad k.
Proof. induction k as [|k IH]; simpl; [reflexivity|]. rewrite IH. apply pad_snoc. Qed.

(* the number of leading underscores is determined when a different character follows *)
Lemma pad_count_unique a b c d s t : c <> "_"%char -> d <> "_"%char -> (pad a ++ String c s)%string = (pad b ++ String d t)%string -> a = b.
Proof.
  revert b. induction a as [|a IH]; intros [|b] Hc Hd E; simpl in E.
  - reflexivity.
  - inversion E. congruence.
  - inversion E. congruence.
  - inversion E. f_equal. apply (IH b Hc Hd). assumption.
Qed.

(* ------------------------------------------------------------------ _unused_column_name *)
Lemma unused_name_spec fuel : forall base taken,
  exists k, k <= fuel /\ unused_name fuel base taken = (pad k ++ base)%string
            /\ (forall j, j < k -> In (pad j ++ base)%string taken) /\ (k < fuel -> ~ In (pad k ++ base)%string taken).
Proof.
  induction fuel as [|f IH]; intros base taken; simpl.
  - exists 0. repeat split; try lia.
  - destruct (mem base taken) eqn:M.
    + destruct (IH (String "_" base) taken) as [k [Hk [E [Hall Hfree]]]]. exists (S k). split; [lia|]. split; [|split].
      * rewrite E, pad_shift. reflexivity.
      * intros [|j] Hj; [apply mem_In, M|]. specialize (Hall j ltac:(lia)). rewrite pad_shift in Hall. exact Hall.
      * intros Hlt. specialize (Hfree ltac:(lia)). rewrite pad_shift in Hfree. exact Hfree.
    + exists 0. split; [lia|]. split; [reflexivity|]. split; [intros j Hj; lia|]. intros _. apply mem_false, M.
Qed.

Lemma padded_distinct base i j : (pad i ++ base)%string = (pad j ++ base)%string -> i = j.
Proof. intros E. apply (f_equal String.length) in E. rewrite !str_length_app, !pad_length in E. lia. Qed.

Theorem unused_not_in base taken : ~ In (unused base taken) taken.
Proof.
  unfold unused. destruct (unused_name_spec (List.length taken) base taken) as [k [Hk [E [Hall Hfree]]]]. rewrite E.
  destruct (Nat.eq_dec k (List.length taken)) as [->|Hne]; [|apply Hfree; lia].
  intros Hin.
  assert (Incl : incl (map (fun j => (pad j ++ base)%string) (seq 0 (S (List.length taken)))) taken).
  { intros x Hx. apply in_map_iff in Hx. destruct Hx as [j [<- Hj]]. apply in_seq in Hj.
    destruct (Nat.eq_dec j (List.length taken)) as [->|Hn]; [exact Hin|apply Hall; lia]. }
  assert (ND : NoDup (map (fun j => (pad j ++ base)%string) (seq 0 (S (List.length taken))))).
  { apply NoDup_map_inj_on; [apply seq_NoDup|]. intros a b _ _. apply padded_distinct. }
  pose proof (NoDup_incl_length ND Incl) as L. rewrite map_length, seq_length in L. lia.
Qed.

Lemma unused_shape base taken : exists k, unused base taken = (pad k ++ base)%string.
Proof. unfold unused. destruct (unused_name_spec (List.length taken) base taken) as [k [_ [E _]]]. exists k. exact E. Qed.

(* two chosen names with bases that differ after their leading underscores are different *)
Lemma unused_sep b1 b2 t1 t2 : lstrip_us b1 <> lstrip_us b2 -> unused b1 t1 <> unused b2 t2.
Proof.
  intros N E. destruct (unused_shape b1 t1) as [k1 E1], (unused_shape b2 t2) as [k2 E2]. rewrite E1, E2 in E.
  apply N. rewrite <- (lstrip_pad k1 b1), <- (lstrip_pad k2 b2), E. reflexivity.
Qed.
Lemma unused_same_strip b1 b2 t1 t2 : unused b1 t1 = unused b2 t2 -> lstrip_us b1 = lstrip_us b2.
Proof.
  intros E. destruct (unused_shape b1 t1) as [k1 E1], (unused_shape b2 t2) as [k2 E2]. rewrite E1, E2 in E.
  rewrite <- (lstrip_pad k1 b1), <- (lstrip_pad k2 b2), E. reflexivity.
Qed.

(* ------------------------------------------------------------------ the join suffix loop *)
Definition bad_suffix (common taken : list string) (sfx : string) : bool := existsb (fun c => mem (c ++ sfx)%string taken) common.

Lemma unused_suffix_spec fuel : forall sfx common taken,
  exists k, k <= fuel /\ unused_suffix fuel sfx common taken = (sfx ++ pad k)%string
            /\ (forall j, j < k -> bad_suffix common taken (sfx ++ pad j) = true)
            /\ (k < fuel -> bad_suffix common taken (sfx ++ pad k) = false).
Proof.
  induction fuel as [|f IH]; intros sfx common taken; simpl.
  - exists 0. simpl. rewrite str_append_nil_r. split; [lia|]. split; [reflexivity|]. split; intros; lia.
  - fold (bad_suffix common taken sfx). destruct (bad_suffix common taken sfx) eqn:B.
    + destruct (IH (sfx ++ "_")%string common taken) as [k [Hk [E [Hall Hfree]]]]. exists (S k).
      assert (Sh : forall j, ((sfx ++ "_") ++ pad j)%string = (sfx ++ pad (S j))%string) by (intros j; rewrite str_append_assoc; reflexivity).
      split; [lia|]. split; [|split].
      * rewrite E. apply Sh.
      * intros [|j] Hj; [simpl; rewrite str_append_nil_r; exact B|]. rewrite <- Sh. apply Hall. lia.
      * intros Hlt. rewrite <- Sh. apply Hfree. lia.
    + exists 0. simpl. rewrite str_append_nil_r. split; [lia|]. split; [reflexivity|]. split; [intros j Hj; lia|]. intros _. exact B.
Qed.

(* the loop ends on a usable suffix, for every suffix whose copies with different numbers of trailing underscores differ *)
Section SuffixLoop.
  Context (sfx : string) (Htrail : forall c c' j j', (c ++ sfx ++ pad j = c' ++ sfx ++ pad j')%string -> j = j').

  Theorem unused_suffix_ok common taken : bad_suffix common taken (unused_suffix (List.length taken) sfx common taken) = false.
  Proof.
    destruct (unused_suffix_spec (List.length taken) sfx common taken) as [k [Hk [E [Hall Hfree]]]]. rewrite E.
    destruct (Nat.eq_dec k (List.length taken)) as [->|Hne]; [|apply Hfree; lia].
    destruct (bad_suffix common taken (sfx ++ pad (List.length taken))) eqn:B; [|reflexivity]. exfalso.
    (* every j <= |taken| contributes an element of taken with exactly j trailing underscores: one too many *)
    assert (W : forall m, m <= S (List.length taken) ->
              exists L, List.length L = m /\ NoDup L /\ incl L taken /\ forall x, In x L -> exists j c, j < m /\ x = (c ++ sfx ++ pad j)%string).
    { induction m as [|m IHm]; intros Hm.
      - exists []. repeat split; [constructor|intros x []|intros x []].
      - destruct (IHm ltac:(lia)) as [L [HL [ND [Inc Sh]]]].
        assert (Bm : bad_suffix common taken (sfx ++ pad m) = true).
        { destruct (Nat.eq_dec m (List.length taken)) as [->|Hn]; [exact B|apply Hall; lia]. }
        unfold bad_suffix in Bm. apply existsb_exists in Bm. destruct Bm as [c [_ Hc]]. apply mem_In in Hc.
        exists ((c ++ sfx ++ pad m)%string :: L). repeat split.
        + simpl. rewrite HL. reflexivity.
        + constructor; [|exact ND]. intros Hin. destruct (Sh _ Hin) as [j [c' [Hj Ex]]]. apply Htrail in Ex. lia.
        + intros x [<-|Hx]; [exact Hc|apply Inc, Hx].
        + intros x [<-|Hx]; [exists m, c; split; [lia|reflexivity]|]. destruct (Sh x Hx) as [j [c' [Hj Ex]]]. exists j, c'. split; [lia|exact Ex]. }
    destruct (W (S (List.length taken)) (le_n _)) as [L [HL [ND [Inc _]]]].
    pose proof (NoDup_incl_length ND Inc) as Len. lia.
  Qed.
End SuffixLoop.

Local Open Scope string_scope.
Lemma trailing_count c c' j j' : c ++ "_tmp_right_col" ++ pad j = c' ++ "_tmp_right_col" ++ pad j' -> j = j'.
Proof.
  intros E. apply (f_equal srev) in E. rewrite !srev_app, !srev_pad in E. simpl in E.
  rewrite !str_append_assoc in E. simpl in E.
  eapply (pad_count_unique j j' "l" "l"); [discriminate|discriminate|exact E].
Qed.

Lemma suffix_shape common taken : exists k, unused_suffix (List.length taken) "_tmp_right_col" common taken = "_tmp_right_col" ++ pad k.
Proof. destruct (unused_suffix_spec (List.length taken) "_tmp_right_col" common taken) as [k [_ [E _]]]. exists k. exact E. Qed.

Lemma suffixed_not_merge c k m : c ++ "_tmp_right_col" ++ pad k <> pad m ++ "data_algebra_temp_merge_col".
Proof.
  intros E. apply (f_equal srev) in E. rewrite !srev_app, !srev_pad in E. simpl in E. rewrite !str_append_assoc in E. simpl in E.
  destruct k as [|k]; simpl in E; [|discriminate]. discriminate.
Qed.

Lemma suffixed_not_nullkey c k m : c ++ "_tmp_right_col" ++ pad k <> pad m ++ "data_algebra_temp_null_key_col".
Proof.
  intros E. apply (f_equal srev) in E. rewrite !srev_app, !srev_pad in E. simpl in E. rewrite !str_append_assoc in E. simpl in E.
  destruct k as [|k]; simpl in E; [|discriminate]. discriminate.
Qed.

(* ------------------------------------------------------------------ the chosen names are good *)
Section Good.
  Context (in_use common : list string).

  Theorem code_good_project : good_project (code_names in_use common) in_use.
  Proof.
    constructor; cbn [code_names n_table_temp n_proj_tmp].
    - apply unused_not_in.
    - intros i. apply unused_not_in.
    - intros i. apply unused_sep. simpl. discriminate.
    - intros i j E. apply unused_same_strip in E. simpl in E. apply (str_app_inv_head "data_algebra_project_temp_col_") in E. apply dec_inj, E.
  Qed.

  Theorem code_good_wextend : good_wextend (code_names in_use common) in_use.
  Proof.
    constructor; cbn [code_names n_orig_index n_temp_g n_ext_tmp].
    - apply unused_not_in.
    - apply unused_not_in.
    - intros i. apply unused_not_in.
    - apply unused_sep. simpl. discriminate.
    - intros i. apply unused_sep. simpl. discriminate.
    - intros i. apply unused_sep. simpl. discriminate.
    - intros i j E. apply unused_same_strip in E. simpl in E. apply (str_app_inv_head "data_algebra_extend_temp_col_") in E. apply dec_inj, E.
  Qed.

  Theorem code_good_join : good_join (code_names in_use common) common in_use.
  Proof.
    constructor; cbn [code_names n_merge n_nullkey n_right].
    - apply unused_not_in.
    - intros c Hc H. pose proof (unused_suffix_ok "_tmp_right_col" trailing_count common in_use) as B. unfold bad_suffix in B.
      assert (X : existsb (fun c0 => mem (c0 ++ unused_suffix (List.length in_use) "_tmp_right_col" common in_use) in_use) common = true).
      { apply existsb_exists. exists c. split; [exact Hc|apply mem_In, H]. }
      rewrite X in B. discriminate.
    - intros c _. destruct (suffix_shape common in_use) as [k ->]. destruct (unused_shape "data_algebra_temp_merge_col" in_use) as [m ->]. apply suffixed_not_merge.
    - apply unused_not_in.
    - intros c _. destruct (suffix_shape common in_use) as [k ->]. destruct (unused_shape "data_algebra_temp_null_key_col" in_use) as [m ->]. apply suffixed_not_nullkey.
    - apply unused_sep. simpl. discriminate.
    - intros a b _ _ E. apply str_app_inv_tail in E. exact E.
  Qed.
End Good.
Local Close Scope string_scope.

(* ------------------------------------------------------------------ the Pandas steps as they are *)
(* the names a step writes down are in use: its columns read exist (cs), its columns written are the keys of its operations *)
Lemma user_in_use pre ops cs c :
  (forall x, In x (pre ++ flat_map (fun o => arg_cols (so_arg o)) ops) -> In x cs) ->
  In c (pre ++ flat_map (fun o => so_key o :: arg_cols (so_arg o)) ops) -> In c (cs ++ map so_key ops).
Proof.
  intros W Hc. apply in_or_app. apply in_app_or in Hc. destruct Hc as [Hc|Hc]; [left; apply W, in_or_app; left; exact Hc|].
  apply in_flat_map in Hc. destruct Hc as [o [Ho [<-|Hc]]]; [right; apply in_map, Ho|].
  left. apply W, in_or_app. right. apply in_flat_map. exists o. split; assumption.
Qed.

Section Code.
  Context {A : Type} (P : prims A).

  Theorem pandas_steps_never_capture s (f g : frame A) :
    NoDup (fcols f) -> NoDup (fcols g) -> step_refers_to_frame s f g -> pexec_code P s f g = plain P s f g.
  Proof.
    intros Nf Ng W. unfold pexec_code. destruct s as [ops gb|ops part order rev|how on nk]; simpl in *.
    - apply (project_no_capture P _ ops gb f) with (2 := code_good_project _ _). intros c. apply user_in_use, W.
    - apply (wextend_no_capture P _ ops part order rev f) with (2 := code_good_wextend _ _). intros c Hc.
      apply in_app_or in Hc. destruct Hc as [Hc|Hc]; [apply in_or_app; left; exact Hc|].
      revert Hc. unfold wext_user. rewrite !app_assoc in *. apply user_in_use, W.
    - apply (join_no_capture P _ how on nk f g) with (4 := code_good_join _ _); [exact Nf|exact Ng|]. intros x Hx. exact Hx.
  Qed.
End Code.

(* ------------------------------------------------------------------ the property for the Pandas steps as they are *)
Section CodeEquivariant.
  Context {A : Type} (P : prims A) (rho : string -> string) (Hinj : injective rho).

  (* the columns a step refers to, as one list; renaming the step renames the list *)
  Definition step_refs (s : pstep) : list string :=
    match s with
    | PProject ops gb => gb ++ flat_map (fun o => arg_cols (so_arg o)) ops
    | PWExtend ops part order rev => part ++ order ++ rev ++ flat_map (fun o => arg_cols (so_arg o)) ops
    | PJoin _ on _ => on
    end.

  Lemma refers_iff s (f g : frame A) : step_refers_to_frame s f g <-> forall c, In c (step_refs s) -> In c (fcols f).
  Proof. destruct s; reflexivity. Qed.

  Lemma ops_args_rename ops :
    flat_map (fun o => arg_cols (so_arg o)) (map (rename_sop rho) ops) = map rho (flat_map (fun o => arg_cols (so_arg o)) ops).
  Proof. induction ops as [|o t IH]; simpl; [reflexivity|]. rewrite map_app, IH. destruct (so_arg o); reflexivity. Qed.

  Lemma step_refs_rename s : step_refs (rename_step rho s) = map rho (step_refs s).
  Proof. destruct s; simpl; rewrite ?map_app, ?ops_args_rename; reflexivity. Qed.

  Lemma refers_rename s (f g : frame A) :
    step_refers_to_frame s f g -> step_refers_to_frame (rename_step rho s) (rename_frame rho f) (rename_frame rho g).
  Proof.
    intros W. apply refers_iff. rewrite step_refs_rename, fcols_rename_frame. intros c Hc.
    apply in_map_iff in Hc. destruct Hc as [c0 [<- H0]]. apply in_map, (proj1 (refers_iff s f g) W), H0.
  Qed.

  (* renaming the user's columns -- to ANY names, the executor's base names included -- renames the step's result *)
  Theorem pandas_steps_rename_equivariant s (f g : frame A) :
    NoDup (fcols f) -> NoDup (fcols g) -> step_refers_to_frame s f g ->
    pexec_code P (rename_step rho s) (rename_frame rho f) (rename_frame rho g) = option_map (rename_frame rho) (pexec_code P s f g).
  Proof.
    intros Nf Ng W.
    rewrite (pandas_steps_never_capture P (rename_step rho s) (rename_frame rho f) (rename_frame rho g)
               (rf_nodup rho Hinj f Nf) (rf_nodup rho Hinj g Ng) (refers_rename s f g W)).
    rewrite (pandas_steps_never_capture P s f g Nf Ng W). apply (plain_equivariant P rho Hinj).
  Qed.
End CodeEquivariant.
