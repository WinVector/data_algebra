(* Proofs/ExprParseP19.v -- C13, part 3 (end): chains, calls and displays as the walker sees them on the tree of a
   source AST; `built d` (what the walker builds from d is printable) for every source AST; the round-trip theorems. *)
From Coq Require Import List Bool String Arith Lia.
Import ListNotations.
From DA Require Import Model.PyExpr Model.ExprPrint Model.ExprParse Model.ExprAst Model.ExprRoundtrip
  Proofs.ExprParseP1 Proofs.ExprParseP2 Proofs.ExprParseP6 Proofs.ExprParseP9 Proofs.ExprParseP10 Proofs.ExprParseP12
  Proofs.ExprParseP14 Proofs.ExprParseP15.
Local Open Scope string_scope.
Local Open Scope bool_scope.
Local Open Scope list_scope.

Lemma wn_bitwise c d cs rs g a : In d ["expr"; "xor_expr"; "and_expr"] -> walk_node c d cs rs g a = Err.
Proof. simpl. intros [<-|[<-|[<-|[]]]]; unfold walk_node; cbn -[Nat.ltb]; destruct (Nat.ltb (List.length cs) 2); reflexivity. Qed.
Lemma wn_shift c cs rs g a : walk_node c "shift_expr" cs rs g a = Err.
Proof. reflexivity. Qed.
Lemma wn_getattr c cs rs g a : walk_node c "getattr" cs rs g a = Err.
Proof. reflexivity. Qed.
Lemma wn_coll c d cs rs g a : In d ["list"; "tuple"; "set"] -> walk_node c d cs rs g a = walk_node c "list" cs rs g a.
Proof. simpl. intros [<-|[<-|[<-|[]]]]; reflexivity. Qed.

(* ------------------------------------------------------------------ children of a binary level with its operators *)
Definition inter2 (l : list (string * ltree)) : list ltree := flat_map (fun p => [LTok (TSym (fst p)); snd p]) l.

Lemma evens_inter2 t0 l : evens (t0 :: inter2 l) = t0 :: map snd l.
Proof. revert t0. induction l as [|p l IH]; intros t0; [reflexivity|].
  change (inter2 (p :: l)) with (LTok (TSym (fst p)) :: snd p :: inter2 l). rewrite evens_cons2, IH. reflexivity. Qed.
Lemma odds_inter2 t0 l : odds (t0 :: inter2 l) = map (fun p => LTok (TSym (fst p))) l.
Proof. revert t0. induction l as [|p l IH]; intros t0; [reflexivity|].
  change (inter2 (p :: l)) with (LTok (TSym (fst p)) :: snd p :: inter2 l). rewrite odds_cons2, IH. reflexivity. Qed.

(* ------------------------------------------------------------------ parentheses leave no node *)
Fixpoint unpar (d : dtree) : dtree := match d with DPar x => unpar x | _ => d end.
Lemma strip_unpar d : strip (unpar d) = strip d.
Proof. induction d; try reflexivity. simpl. assumption. Qed.
Lemma wfn_unpar d : wfn d = true -> wfn (unpar d) = true.
Proof. induction d; intros H; try exact H. simpl in *. auto. Qed.
Lemma src_ok_unpar d : src_ok d = true -> src_ok (unpar d) = true.
Proof. induction d; intros H; try exact H. simpl in *. auto. Qed.
Lemma dsize_unpar d : dsize (unpar d) <= dsize d.
Proof. induction d; simpl; lia. Qed.
Lemma level_name_cases L : In (level_name L) ["or_test"; "and_test"; "comparison"; "expr"; "xor_expr"; "and_expr"; "shift_expr"; "arith_expr"; "term"].
Proof. destruct L as [|[|[|[|[|[|[|[|[|L]]]]]]]]]; simpl; tauto. Qed.

(* the root of the tree of a well-formed AST: its kind *)
Definition root_kind (t : ltree) : string := match t with LNode d _ => d | _ => "" end.
(* only a name or an attribute reference, parentheses aside, gives a var or a getattr node *)
Lemma strip_is_node d : wfn d = true ->
  exists k cs, strip d = LNode k cs /\ mem_str k ["tuplelist_comp"; "set_comp"] = false
    /\ ((k ==s "var") = true -> exists s, unpar d = DName s) /\ ((k ==s "getattr") = true -> exists o n, unpar d = DAttr o n).
Proof. induction d as [x IH|s|t|t|k|L d0 IH0 rest|x IH|op x IH|b IHb e IHe|f IHf args tr|o IH nm|k items tr|items tr]; intros W;
    [simpl in *; exact (IH W)| | | | | | | | | | | |]; cbn [strip unpar].
  - eexists; eexists; repeat split; try discriminate. intros _. eexists; reflexivity.
  - eexists; eexists; repeat split; discriminate.
  - eexists; eexists; repeat split; discriminate.
  - destruct (k ==s "None"); [|destruct (k ==s "True")]; eexists; eexists; repeat split; discriminate.
  - destruct (wfn_chain L d0 rest W) as [_ [Hne _]].
    unfold mk_chain. destruct rest as [|p rest]; [congruence|]. cbn [map].
    pose proof (level_name_cases L) as H. simpl in H.
    destruct H as [<-|[<-|[<-|[<-|[<-|[<-|[<-|[<-|[<-|[]]]]]]]]]]; eexists; eexists; repeat split; discriminate.
  - eexists; eexists; repeat split; discriminate.
  - eexists; eexists; repeat split; discriminate.
  - eexists; eexists; repeat split; discriminate.
  - eexists; eexists; repeat split; discriminate.
  - eexists; eexists; repeat split; try discriminate. intros _. eexists; eexists; reflexivity.
  - destruct k, items as [|x [|y items]]; try destruct tr; eexists; eexists; repeat split; discriminate.
  - destruct items; eexists; eexists; repeat split; discriminate. Qed.

Section Main.
Variables (c : cfg) (dd : list string).
Notation PR := (printable c dd).
Notation W := (walk c dd).

(* ---- a chain  acc op1 b1 op2 b2 ...  over operator tokens of level 3, 8 or 9 *)
Lemma chain_pr L : In L [3; 8; 9] -> forall (rest : list (string * ltree)) acc e,
  (forall p, In p rest -> is_binop_at L (fst p) = true) ->
  chain_fold c (Ok acc) (map (fun p => Some (fst p)) rest) (map (fun p => W (snd p)) rest) = Ok e ->
  PR acc = true -> (forall p x, In p rest -> W (snd p) = Ok x -> PR x = true) -> PR e = true.
Proof. intros HL. induction rest as [|[o t] rest IH]; intros acc e Hops Hc Pa Pr.
  - simpl in Hc. inversion Hc; subst. exact Pa.
  - cbn [map chain_fold fst snd] in Hc. destruct (W t) as [b|] eqn:Wt; [|discriminate Hc].
    destruct (call_method c (remap op_remap o) acc [b]) as [e1|] eqn:Cm; [|exfalso; eapply chain_fold_Err; exact Hc].
    apply (IH e1 e (fun p Hp => Hops p (or_intror Hp)) Hc).
    + apply (step_printable c dd L o acc b e1 (Hops (o, t) (or_introl eq_refl)) HL Cm Pa). apply (Pr (o, t) b (or_introl eq_refl) Wt).
    + intros p x Hp Hx. exact (Pr p x (or_intror Hp) Hx). Qed.

Lemma unwrap_vals vs vals : all_some (map (fun e0 => match e0 with EVal v => Some v | _ => None end) vs) = Some vals ->
  vs = map EVal vals.
Proof. revert vals. induction vs as [|x vs IH]; intros vals H.
  - simpl in H. inversion H. reflexivity.
  - cbn [map all_some] in H. destruct x as [|v| | |]; try discriminate H.
    destruct (all_some (map (fun e0 => match e0 with EVal v => Some v | _ => None end) vs)) as [r|] eqn:E; [|discriminate H].
    inversion H; subst. cbn [map]. rewrite (IH r eq_refl). reflexivity. Qed.

Lemma all_ok_In {A} (l : list (res A)) r x : all_ok l = Ok r -> In x r -> In (Ok x) l.
Proof. revert r. induction l as [|[y|] l IH]; intros r H Hx; simpl in H; try discriminate H.
  - inversion H; subst. destruct Hx.
  - destruct (all_ok l) as [r'|] eqn:E; [|discriminate H]. inversion H; subst. destruct Hx as [->|Hx]; [left; reflexivity|right; exact (IH r' eq_refl Hx)]. Qed.

(* a list / tuple / set node whose walked items are printable builds a printable ListTerm *)
Lemma coll_printable d cs rs g a e l : In d ["list"; "tuple"; "set"] ->
  coll_items cs rs g = Some l -> (forall x, In (Ok x) l -> PR x = true) ->
  walk_node c d cs rs g a = Ok e -> PR e = true.
Proof. intros Hd Hl Hp. rewrite (wn_coll c d _ _ _ _ Hd), wn_list, Hl.
  destruct (all_ok l) as [vs|] eqn:A; [|discriminate].
  destruct (all_some (map (fun e0 => match e0 with EVal v => Some v | _ => None end) vs)) as [vals|] eqn:U; [|discriminate].
  destruct (existsb (fun v => pval_eqb v PNone) vals) eqn:En; [discriminate|].
  destruct (negb (compatible_types (map type_of vals))) eqn:Ec; [discriminate|]. apply negb_false_iff in Ec.
  intros H. inversion H; subst. cbn [printable]. rewrite En, Ec. cbn [negb]. rewrite !andb_true_r.
  apply negb_true_iff. destruct (existsb is_inf vals) eqn:Ei; [|reflexivity]. exfalso.
  apply existsb_exists in Ei as [v [Hv Hi]]. apply unwrap_vals in U. subst vs.
  assert (Hin : In (Ok (EVal v)) l) by (apply (all_ok_In l (map EVal vals)); [exact A|apply in_map; exact Hv]).
  specialize (Hp _ Hin). cbn [printable] in Hp. rewrite Hi in Hp. discriminate Hp. Qed.

(* what dict_combine keeps true of the dictionary it builds: distinct keys, no None key, no inf *)
Definition noinf (d : list (pval * pval)) : bool := negb (existsb (fun kv => is_inf (fst kv) || is_inf (snd kv)) d).

Lemma noinf_cons kv d : noinf (kv :: d) = negb (is_inf (fst kv) || is_inf (snd kv)) && noinf d.
Proof. unfold noinf. cbn [existsb]. rewrite negb_orb. reflexivity. Qed.

Definition dict_ok (d : list (pval * pval)) : Prop :=
  distinct_keys d = true /\ existsb (fun kv => pval_eqb (fst kv) PNone) d = false /\ noinf d = true.

Lemma pdict_set_no_key d k v k' : existsb (fun kv => py_eq (fst kv) k') d = false -> py_eq k k' = false ->
  existsb (fun kv => py_eq (fst kv) k') (pdict_set d k v) = false.
Proof. induction d as [|[k2 v2] d IH]; cbn [pdict_set existsb fst]; intros H Hk; [rewrite Hk; reflexivity|].
  apply orb_false_elim in H as [H1 H2]. destruct (py_eq k k2); cbn [existsb fst]; rewrite H1; [exact H2|exact (IH H2 Hk)]. Qed.

Lemma pdict_set_ok d k v : pval_eqb k PNone = false -> is_inf k = false -> is_inf v = false ->
  dict_ok d -> dict_ok (pdict_set d k v) /\ pdict_set d k v <> [].
Proof. intros Hn Hk Hv H. split; [|destruct d as [|[k' v'] d]; cbn [pdict_set]; [|destruct (py_eq k k')]; discriminate].
  revert H. induction d as [|[k' v'] d IH]; intros [Hd [Hnone Hinf]]; cbn [pdict_set].
  - unfold dict_ok. rewrite noinf_cons. cbn [distinct_keys existsb fst snd]. rewrite Hn, Hk, Hv. auto.
  - cbn [distinct_keys existsb fst] in Hd, Hnone. apply andb_prop in Hd as [Hd1 Hd2]. apply orb_false_elim in Hnone as [Hn1 Hn2].
    rewrite noinf_cons in Hinf. apply andb_prop in Hinf as [Hi1 Hi2]. cbn [fst snd] in Hi1.
    destruct (py_eq k k') eqn:E; unfold dict_ok; rewrite noinf_cons; cbn [distinct_keys existsb fst snd].
    + apply negb_true_iff, orb_false_elim in Hi1 as [Hi1 _]. rewrite Hd1, Hd2, Hn1, Hn2, Hi1, Hv, Hi2. auto.
    + destruct (IH (conj Hd2 (conj Hn2 Hi2))) as [Hd' [Hn' Hi']]. apply negb_true_iff in Hd1.
      rewrite (pdict_set_no_key d k v k' Hd1 E), Hd', Hn1, Hn', Hi1, Hi'. auto. Qed.

Lemma dict_combine_ok : forall ds acc comb, dict_combine acc ds = Some comb -> dict_ok acc ->
  (forall kvs, In (EDict kvs) ds -> noinf kvs = true) ->
  dict_ok comb /\ (acc <> [] \/ (exists kvs, In (EDict kvs) ds /\ kvs <> []) -> comb <> []).
Proof. induction ds as [|d ds IH]; intros acc comb H Ha Hd.
  - simpl in H. inversion H; subst. split; [exact Ha|]. intros [Hne|[kvs [[] _]]]. exact Hne.
  - destruct d as [| | |kvs|]; try discriminate H. cbn [dict_combine] in H.
    destruct (existsb (fun kv => pval_eqb (fst kv) PNone) kvs) eqn:En; [discriminate H|].
    assert (Hf : forall kvs acc, existsb (fun kv => pval_eqb (fst kv) PNone) kvs = false -> noinf kvs = true -> dict_ok acc ->
                 dict_ok (fold_left (fun a kv => pdict_set a (fst kv) (snd kv)) kvs acc)
                 /\ (acc <> [] \/ kvs <> [] -> fold_left (fun a kv => pdict_set a (fst kv) (snd kv)) kvs acc <> [])).
    { clear. induction kvs as [|[k v] kvs IHk]; intros acc En Hi Ha; [split; [exact Ha|cbn [fold_left]; intros [Hne|Hne]; congruence]|].
      cbn [existsb fst] in En. apply orb_false_elim in En as [E1 E2]. rewrite noinf_cons in Hi. apply andb_prop in Hi as [H1 H2].
      cbn [fst snd] in H1. apply negb_true_iff, orb_false_elim in H1 as [Hik Hiv]. cbn [fold_left fst snd].
      destruct (pdict_set_ok acc k v E1 Hik Hiv Ha) as [Ha' Hne']. destruct (IHk _ E2 H2 Ha') as [A B].
      split; [exact A|intros _; apply B; left; exact Hne']. }
    destruct (Hf kvs acc En (Hd kvs (or_introl eq_refl)) Ha) as [A B].
    destruct (IH _ _ H A (fun k Hk => Hd k (or_intror Hk))) as [C D]. split; [exact C|].
    intros [Hne|[kvs0 [[E|Hin] Hne]]]; apply D.
    + left. apply B. left. exact Hne.
    + inversion E; subst kvs0. left. apply B. right. exact Hne.
    + right. exists kvs0. split; assumption. Qed.

Lemma dict_printable cs rs g a e : walk_node c "dict" cs rs g a = Ok e ->
  (forall l, g = Some l -> forall x, In (Ok x) l -> exists k v, x = EDict [(k, v)] /\ is_inf k = false /\ is_inf v = false) ->
  (forall l, g = Some l -> l <> []) ->
  PR e = true.
Proof. rewrite wn_dict. destruct cs as [|x [|y cs]]; try discriminate. destruct g as [l|]; [|discriminate].
  destruct (all_ok l) as [ds|] eqn:A; [|discriminate].
  destruct (dict_combine [] ds) as [comb|] eqn:D; [|discriminate].
  destruct (negb (compatible_types (map (fun kv => type_of (fst kv)) comb))) eqn:Ek; [discriminate|].
  destruct (negb (compatible_types (map (fun kv => type_of (snd kv)) comb))) eqn:Ev; [discriminate|].
  apply negb_false_iff in Ek. apply negb_false_iff in Ev.
  intros H Hsingle Hne. inversion H; subst.
  assert (Hds : forall kvs, In (EDict kvs) ds -> noinf kvs = true /\ kvs <> []).
  { intros kvs Hk. destruct (Hsingle l eq_refl (EDict kvs) (all_ok_In l ds _ A Hk)) as [k [v [E [Hik Hiv]]]]. inversion E; subst.
    rewrite noinf_cons. cbn [fst snd]. rewrite Hik, Hiv. split; [reflexivity|discriminate]. }
  destruct (dict_combine_ok ds [] comb D (conj eq_refl (conj eq_refl eq_refl)) (fun kvs Hk => proj1 (Hds kvs Hk)))
    as [[Hd [Hnone Hinf]] Hc].
  (* the first walked child is a one-entry dict *)
  assert (Hcomb : comb <> []).
  { apply Hc. right. destruct l as [|r l]; [exfalso; apply (Hne _ eq_refl); reflexivity|]. cbn [all_ok] in A.
    destruct r as [x0|]; [|discriminate A]. destruct (all_ok l) as [ds'|]; [|discriminate A]. inversion A; subst.
    destruct (Hsingle _ eq_refl x0 (or_introl eq_refl)) as [k [v [-> _]]].
    exists [(k, v)]. split; [left; reflexivity|discriminate]. }
  cbn [printable]. unfold noinf in Hinf. rewrite Hinf, Hnone, Hd, Ek, Ev. destruct comb; [congruence|reflexivity]. Qed.

Definition built (d : dtree) : Prop := forall e, W (strip d) = Ok e -> PR e = true.

Lemma args_pr (children : list dtree) : forall args,
  all_ok (map W (map strip children)) = Ok args ->
  (forall ch, In ch children -> built ch) -> forallb PR args = true.
Proof. induction children as [|ch children IH]; intros args H Hb.
  - simpl in H. inversion H. reflexivity.
  - cbn [map all_ok] in H. destruct (W (strip ch)) as [x|] eqn:Wx; [|discriminate H].
    destruct (all_ok (map W (map strip children))) as [xs|] eqn:A; [|discriminate H]. inversion H; subst.
    cbn [forallb].
    rewrite (Hb ch (or_introl eq_refl) x Wx), (IH xs eq_refl (fun y Hy => Hb y (or_intror Hy))). reflexivity. Qed.

Lemma all_ok_length {A} (l : list (res A)) r : all_ok l = Ok r -> List.length r = List.length l.
Proof. revert r. induction l as [|[x|] l IH]; intros r H; simpl in H; try discriminate H.
  - inversion H. reflexivity.
  - destruct (all_ok l) eqn:E; [|discriminate H]. inversion H; subst. simpl. rewrite (IH _ eq_refl). reflexivity. Qed.

Lemma flat_map_snd (l : list (string * ltree)) : flat_map (fun p : string * ltree => [snd p]) l = map snd l.
Proof. induction l as [|p l IH]; [reflexivity|]. simpl. rewrite IH. reflexivity. Qed.

Lemma kops_of_plus_times o : mem_str o ["+"; "*"] = true -> mem_str o kops = true.
Proof. intros H. apply mem_str_In in H. simpl in H. destruct H as [<-|[<-|[]]]; reflexivity. Qed.

(* an n-ary node built by mk_expr from the walked children of an AST node *)
Lemma kary_pr (children : list dtree) op e : 2 <= List.length children -> (forall ch, In ch children -> built ch) ->
  mem_str op kops = true ->
  match all_ok (map W (map strip children)) with Ok args => mk_expr c op args true false | Err => Err end = Ok e ->
  PR e = true.
Proof. intros Hl Hb Hk H. destruct (all_ok (map W (map strip children))) as [args|] eqn:A; [|discriminate H].
  apply mk_expr_inv in H as [-> [Hkn _]]. cbn [printable]. rewrite (args_pr children args A Hb), Hkn. cbn [andb negb].
  pose proof (all_ok_length _ _ A) as Hlen. rewrite !map_length in Hlen.
  destruct args as [|a [|b more]]; simpl in Hlen; try lia. rewrite Hk. reflexivity. Qed.

(* ---- binary levels *)
Lemma built_chain L d0 rest : wfn (DChain L d0 rest) = true -> built d0 -> (forall p, In p rest -> built (snd p)) ->
  built (DChain L d0 rest).
Proof. intros Wf B0 Br e Hw. destruct (wfn_chain L d0 rest Wf) as [Hcl [Hne [_ [_ Hr]]]].
  set (kids := d0 :: map snd rest).
  assert (Bk : forall ch, In ch kids -> built ch).
  { intros ch [<-|Hch]; [exact B0|]. apply in_map_iff in Hch as [q [<- Hq]]. exact (Br q Hq). }
  assert (Lk : 2 <= List.length kids). { unfold kids. destruct rest; [congruence|simpl; lia]. }
  set (rest' := map (fun p : string * dtree => (fst p, strip (snd p))) rest).
  assert (Hne' : rest' <> []). { unfold rest'. destruct rest; [congruence|discriminate]. }
  assert (Hsnd : W (strip d0) :: map W (map snd rest') = map W (map strip kids)).
  { unfold rest', kids. cbn [map]. rewrite !map_map. reflexivity. }
  cbn [strip] in Hw. fold rest' in Hw. unfold mk_chain in Hw.
  destruct rest' as [|p0 rest0] eqn:Er; [congruence|]. rewrite <- Er in *. clear Er p0 rest0.
  (* the n-ary and / or nodes *)
  assert (Hbool : forall is_or : bool, level_name L = (if is_or then "or_test" else "and_test") -> level_keeps L = false -> PR e = true).
  { intros is_or Hn Hk. rewrite Hn, Hk, flat_map_snd in Hw. rewrite walk_node_eq, wn_bool in Hw.
    destruct (Nat.ltb _ 2); [discriminate Hw|]. cbn [map] in Hw. rewrite Hsnd in Hw.
    apply (kary_pr kids _ e Lk Bk) in Hw; [exact Hw|destruct is_or; reflexivity]. }
  (* comparison, arith_expr, term: all + or all *, else left to right through the operators' methods *)
  pose (cs := strip d0 :: inter2 rest').
  assert (Hops : In L [3; 8; 9] -> forall o : option string, (forall op, o = Some op -> mem_str op ["+"; "*"] = true) ->
            (if Nat.ltb (List.length cs) 3 || Nat.even (List.length cs) then Err
             else match o with
                  | Some op => match all_ok (evens (map W cs)) with Ok args => mk_expr c op args true false | Err => Err end
                  | None => chain_fold c (nth 0 (map W cs) Err) (map tok_text (odds cs)) (match evens (map W cs) with [] => [] | _ :: t => t end)
                  end) = Ok e -> PR e = true).
  { intros HL o Ho H. unfold cs in H. destruct (Nat.ltb _ 3 || Nat.even _); [discriminate H|].
    rewrite odds_inter2, evens_map, evens_inter2, !map_map in H. cbn [map nth tok_text] in H. destruct o as [op|].
    - rewrite Hsnd in H. exact (kary_pr kids op e Lk Bk (kops_of_plus_times op (Ho op eq_refl)) H).
    - rewrite map_map in H. destruct (W (strip d0)) as [a0|] eqn:W0.
      2:{ destruct rest' as [|p r]; [congruence|]. simpl in H. discriminate H. }
      apply (chain_pr L HL rest' a0 e); [|exact H|exact (B0 a0 W0)|].
      + intros p Hp. unfold rest' in Hp. apply in_map_iff in Hp as [q [<- Hq]]. exact (proj1 (Hr q Hq)).
      + intros p x Hp. unfold rest' in Hp. apply in_map_iff in Hp as [q [<- Hq]]. exact (Br q Hq x). }
  destruct L as [|[|[|[|[|[|[|[|[|[|L]]]]]]]]]]; simpl in Hcl; try discriminate Hcl; cbn [level_name level_keeps] in Hw.
  - exact (Hbool true eq_refl eq_refl).
  - exact (Hbool false eq_refl eq_refl).
  - (* comparison: chains are rejected, one operator is left *)
    rewrite walk_node_eq, wn_comparison in Hw.
    destruct (Nat.ltb 3 _); [destruct (Nat.ltb _ 3 || Nat.even _); discriminate Hw|].
    apply (Hops (or_introl eq_refl) None); [discriminate|exact Hw].
  - rewrite flat_map_snd in Hw. rewrite walk_node_eq, wn_bitwise in Hw; [discriminate Hw|simpl; tauto].
  - rewrite flat_map_snd in Hw. rewrite walk_node_eq, wn_bitwise in Hw; [discriminate Hw|simpl; tauto].
  - rewrite flat_map_snd in Hw. rewrite walk_node_eq, wn_bitwise in Hw; [discriminate Hw|simpl; tauto].
  - rewrite walk_node_eq, wn_shift in Hw. discriminate Hw.
  - rewrite walk_node_eq, (wn_arith c "arith_expr") in Hw by (simpl; tauto).
    exact (Hops ltac:(simpl; tauto) _ (fun op K => proj2 (kopsel_spec _ _ K)) Hw).
  - rewrite walk_node_eq, (wn_arith c "term") in Hw by (simpl; tauto).
    exact (Hops ltac:(simpl; tauto) _ (fun op K => proj2 (kopsel_spec _ _ K)) Hw). Qed.

Lemma built_name s : src_ok (DName s) = true -> built (DName s).
Proof. intros Hs e Hw. cbn [strip] in Hw. rewrite walk_node_eq, (wn_var c "var") in Hw; [|simpl; tauto].
  cbn [map nth walk] in Hw. destruct (mem_str s dd) eqn:M; [|discriminate Hw]. inversion Hw; subst.
  cbn [printable]. rewrite M. exact Hs. Qed.

Lemma built_num t : wfn (DNum t) = true -> built (DNum t).
Proof. intros Wf e Hw. cbn [strip] in Hw. rewrite walk_number in Hw.
  destruct t as [s|n|[m|]|s|s|b ty]; simpl in Wf; try discriminate Wf; cbn [walk] in Hw; try discriminate Hw;
    inversion Hw; subst; reflexivity. Qed.

Lemma built_str t : wfn (DStr t) = true -> built (DStr t).
Proof. intros Wf e Hw. cbn [strip] in Hw. rewrite walk_node_eq, (wn_var c "string") in Hw; [|simpl; tauto].
  cbn [map nth] in Hw.
  destruct t as [s|n|m|s|s|b ty]; simpl in Wf; try discriminate Wf; cbn [walk] in Hw; try discriminate Hw;
    inversion Hw; subst; reflexivity. Qed.

Lemma built_const k : wfn (DConst k) = true -> built (DConst k).
Proof. intros Wf e Hw. cbn [wfn] in Wf. apply mem_str_In in Wf. simpl in Wf.
  destruct Wf as [<-|[<-|[<-|[]]]]; cbn in Hw; inversion Hw; subst; reflexivity. Qed.

(* ---- not / unary / power *)
Lemma built_not x : built x -> built (DNot x).
Proof. intros Bx e Hw. cbn [strip] in Hw. rewrite walk_node_eq, wn_not in Hw. cbn [map] in Hw.
  destruct (W (strip x)) as [lft|] eqn:Wx; [|discriminate Hw].
  exact (not_printable c dd lft e Hw (Bx lft Wx)). Qed.

Lemma built_factor op x : wfn (DFactor op x) = true -> built x -> built (DFactor op x).
Proof. intros Wf Bx e Hw. simpl in Wf. apply andb_prop in Wf as [Wf _]. apply andb_prop in Wf as [Hu _].
  cbn [strip] in Hw. rewrite walk_node_eq, wn_factor in Hw. cbn [map tok_text] in Hw.
  destruct (W (strip x)) as [rgt|] eqn:Wx; [|discriminate Hw].
  destruct (uop_cases _ Hu) as [ -> | [ -> | -> ] ].
  - change (remap factor_remap "+") with "__pos__" in Hw. exact (pos_printable c dd rgt e Hw (Bx rgt Wx)).
  - change (remap factor_remap "-") with "__neg__" in Hw. exact (neg_printable c dd rgt e Hw (Bx rgt Wx)).
  - change (remap factor_remap "~") with "~" in Hw. unfold call_method in Hw.
    destruct (is_term rgt); [|discriminate Hw]. cbn [negb] in Hw.
    change (find_method "~" method_table) with (@None mspec) in Hw. discriminate Hw. Qed.

Lemma built_power b e0 : built b -> built e0 -> built (DPower b e0).
Proof. intros Bb Be e Hw. cbn [strip] in Hw. rewrite walk_node_eq, wn_power in Hw.
  cbn [List.length Nat.ltb Nat.leb map all_ok] in Hw.
  destruct (W (strip b)) as [a|] eqn:Wa; [|discriminate Hw]. destruct (W (strip e0)) as [b'|] eqn:Wb; [|discriminate Hw].
  cbn [pow_fold] in Hw. destruct (call_method c "__pow__" a [b']) as [e1|] eqn:Cm; [|discriminate Hw]. inversion Hw; subst e1.
  exact (pow_printable c dd a b' e Cm (Bb a Wa) (Be b' Wb)). Qed.

Lemma call_args_inv (args : list dtree) al :
  call_args [args_node args] (match args_node args with LNode _ acs => Some (map W acs) | _ => None end) = Ok al ->
  all_ok (map W (map strip args)) = Ok al.
Proof. destruct args as [|x args]; [intros H; exact H|]. cbn [args_node call_args]. intros H; exact H. Qed.

Lemma strip_call f args tr : strip (DCall f args tr) = LNode "funccall" [strip f; args_node args].
Proof. destruct args; reflexivity. Qed.

(* f(args) *)
Lemma built_call_name s args tr f : strip f = LNode "var" [LTok (TName s)] -> negb (is_sym_text s) = true ->
  (forall x, In x args -> built x) -> built (DCall f args tr).
Proof. intros Ef Hs Ba e Hw. rewrite strip_call, Ef in Hw. rewrite walk_node_eq, wn_funccall in Hw.
  cbn [List.length Nat.ltb Nat.leb map tok_text] in Hw. change ("var" ==s "getattr") with false in Hw.
  change (negb ("var" ==s "var")) with false in Hw. cbv iota in Hw.
  match type of Hw with match ?A with Ok _ => _ | Err => _ end = _ => destruct A as [al|] eqn:CA; [|discriminate Hw] end.
  apply call_args_inv in CA. apply mk_expr_inv in Hw as [-> [Hk _]].
  cbn [printable]. rewrite (args_pr args al CA Ba), Hk, Hs. reflexivity. Qed.

(* o.n(args) *)
Lemma built_call_method o n args tr f : strip f = LNode "getattr" [strip o; LTok (TName n)] ->
  built o -> (forall x, In x args -> built x) -> built (DCall f args tr).
Proof. intros Ef Bo Ba e Hw. rewrite strip_call, Ef in Hw. rewrite walk_node_eq, wn_funccall in Hw.
  cbn [List.length Nat.ltb Nat.leb map tok_text] in Hw. change ("getattr" ==s "getattr") with true in Hw. cbv iota in Hw.
  destruct (W (strip o)) as [self|] eqn:Wo; [|discriminate Hw].
  match type of Hw with match ?A with Ok _ => _ | Err => _ end = _ => destruct A as [al|] eqn:CA; [|discriminate Hw] end.
  apply call_args_inv in CA. destruct (is_dunder n) eqn:Hd; [discriminate Hw|].
  exact (method_call_printable c dd n self al e Hd Hw (Bo self Wo) (args_pr args al CA Ba)). Qed.

(* anything else cannot be called *)
Lemma built_call_other f args tr k cs : strip f = LNode k cs -> (k ==s "getattr") = false -> (k ==s "var") = false ->
  built (DCall f args tr).
Proof. intros Ef Hg Hv e Hw. rewrite strip_call, Ef in Hw. rewrite walk_node_eq, wn_funccall in Hw.
  cbn [List.length Nat.ltb Nat.leb] in Hw. rewrite Hg, Hv in Hw. discriminate Hw. Qed.

Lemma coll_items_strip k items tr : wfn (DColl k items tr) = true ->
  exists d c0, strip (DColl k items tr) = LNode d [c0] /\ In d ["list"; "tuple"; "set"] /\
    coll_items [c0] [W c0] (match c0 with LNode _ gcs => Some (map W gcs) | _ => None end) = Some (map W (map strip items)).
Proof. intros Wf. simpl in Wf. apply andb_prop in Wf as [Hit Hshape]. rewrite forallb_forall in Hit.
  destruct k, items as [|x [|y items]]; cbn [strip]; try (destruct tr; try discriminate Hshape);
    try (eexists; eexists; split; [reflexivity|split; [simpl; tauto|reflexivity]]).
  (* [x] : the lone item itself *)
  destruct (strip_is_node x (Hit x (or_introl eq_refl))) as [kx [csx [Ex [Hk _]]]].
  eexists; eexists; split; [reflexivity|split; [simpl; tauto|]]. cbn [map]. rewrite Ex. cbn [coll_items]. rewrite Hk. reflexivity. Qed.

Lemma built_coll k items tr : wfn (DColl k items tr) = true -> (forall x, In x items -> built x) -> built (DColl k items tr).
Proof. intros Wf Bi e Hw. destruct (coll_items_strip k items tr Wf) as [d [c0 [E [Hd Hl]]]]. rewrite E in Hw.
  rewrite walk_node_eq in Hw. cbn [map] in Hw.
  apply (coll_printable d [c0] [W c0] _ None e _ Hd Hl); [|exact Hw].
  intros x Hx. apply in_map_iff in Hx as [t [Ht Hin]]. apply in_map_iff in Hin as [it [<- Hit]]. exact (Bi it Hit x Ht). Qed.

Lemma built_dict items tr : (forall kv, In kv items -> built (fst kv) /\ built (snd kv)) -> built (DDict items tr).
Proof. intros Bi e Hw. destruct items as [|kv items].
  - cbn in Hw. discriminate Hw.
  - remember (kv :: items) as l.
    assert (E : strip (DDict l tr) = LNode "dict" [LNode "dict_comp" (map (fun kv => LNode "key_value" [strip (fst kv); strip (snd kv)]) l)]).
    { subst l. reflexivity. }
    rewrite E in Hw. rewrite walk_node_eq in Hw. apply (dict_printable _ _ _ _ e Hw).
    + intros l0 Hl0 x Hr. inversion Hl0; subst l0. clear Hl0. apply in_map_iff in Hr as [t [Hx Ht]].
      apply in_map_iff in Ht as [kv0 [<- Hkv]]. rewrite walk_node_eq, wn_key_value in Hx. cbn [map] in Hx.
      destruct (Bi kv0 Hkv) as [Bk Bv].
      destruct (W (strip (fst kv0))) as [[| k | | |]|] eqn:Wk; try discriminate Hx.
      destruct (W (strip (snd kv0))) as [[| v | | |]|] eqn:Wv; try discriminate Hx. inversion Hx.
      pose proof (Bk _ Wk) as Pk. pose proof (Bv _ Wv) as Pv. cbn [printable] in Pk, Pv.
      apply negb_true_iff in Pk. apply negb_true_iff in Pv. eauto.
    + intros l0 Hl0. inversion Hl0; subst l0. subst l. discriminate. Qed.

(* ---- every source AST *)
Theorem built_all : forall d, wfn d = true -> src_ok d = true -> built d.
Proof. induction d as [d IH] using dtree_size_ind. intros Wf Hsrc.
  destruct d as [x|s|t|t|k|L d0 rest|x|op x|b e0|f args tr|o nm|k items tr|items tr].
  - exact (IH x ltac:(simpl; lia) Wf Hsrc).
  - apply built_name. exact Hsrc.
  - apply built_num. exact Wf.
  - apply built_str. exact Wf.
  - apply built_const. exact Wf.
  - destruct (wfn_chain L d0 rest Wf) as [_ [_ [_ [W0 Hr]]]].
    cbn [src_ok] in Hsrc. apply andb_prop in Hsrc as [S0 Sr]. rewrite forallb_forall in Sr.
    apply built_chain; [exact Wf|exact (IH d0 ltac:(simpl; lia) W0 S0)|].
    intros p Hp. exact (IH _ (dsize_chain L d0 rest p Hp) (proj2 (proj2 (Hr p Hp))) (Sr p Hp)).
  - simpl in Wf, Hsrc. apply andb_prop in Wf as [_ Wx]. apply built_not. exact (IH x ltac:(simpl; lia) Wx Hsrc).
  - pose proof Wf as Wf'. simpl in Wf', Hsrc. apply andb_prop in Wf' as [_ Wx].
    apply built_factor; [exact Wf|exact (IH x ltac:(simpl; lia) Wx Hsrc)].
  - destruct (wfn_power b e0 Wf) as [_ [Wb [_ We]]]. simpl in Hsrc. apply andb_prop in Hsrc as [Sb Se].
    apply built_power; [exact (IH b ltac:(simpl; lia) Wb Sb)|exact (IH e0 ltac:(simpl; lia) We Se)].
  - (* call: what is called, parentheses aside *)
    cbn [src_ok] in Hsrc. apply andb_prop in Hsrc as [Sf Sargs]. rewrite forallb_forall in Sargs.
    destruct (wfn_call f args tr Wf) as [_ [Wff [Wargs _]]].
    assert (Ba : forall x, In x args -> built x).
    { intros x Hx. exact (IH x (dsize_call f args tr x Hx) (Wargs x Hx) (Sargs x Hx)). }
    pose proof (wfn_unpar f Wff) as Wu. pose proof (src_ok_unpar f Sf) as Su. pose proof (dsize_unpar f) as Du.
    destruct (strip_is_node f Wff) as [k [cs [E [_ [Hv Hg]]]]].
    destruct (k ==s "getattr") eqn:Eg; [|destruct (k ==s "var") eqn:Ev].
    + destruct (Hg eq_refl) as [o [n Uf]]. rewrite Uf in Wu, Su, Du. simpl in Wu, Su, Du.
      apply andb_prop in Wu as [_ Wo]. apply andb_prop in Su as [_ So].
      apply (built_call_method o n args tr f); [rewrite <- (strip_unpar f), Uf; reflexivity| |exact Ba].
      exact (IH o ltac:(simpl; lia) Wo So).
    + destruct (Hv eq_refl) as [s Uf]. rewrite Uf in Su.
      apply (built_call_name s args tr f); [rewrite <- (strip_unpar f), Uf; reflexivity|exact Su|exact Ba].
    + exact (built_call_other f args tr k cs E Eg Ev).
  - intros e Hw. cbn [strip] in Hw. rewrite walk_node_eq, wn_getattr in Hw. discriminate Hw.
  - pose proof Wf as Wf'. simpl in Wf'. apply andb_prop in Wf' as [Wi _]. rewrite forallb_forall in Wi.
    cbn [src_ok] in Hsrc. rewrite forallb_forall in Hsrc.
    apply built_coll; [exact Wf|]. intros x Hx. exact (IH x (dsize_coll k items tr x Hx) (Wi x Hx) (Hsrc x Hx)).
  - simpl in Wf. apply andb_prop in Wf as [Wi _]. rewrite forallb_forall in Wi.
    cbn [src_ok] in Hsrc. rewrite forallb_forall in Hsrc.
    apply built_dict. intros kv Hkv. specialize (Wi kv Hkv). specialize (Hsrc kv Hkv).
    apply andb_prop in Wi as [Wk Wv]. apply andb_prop in Hsrc as [Sk Sv]. destruct (dsize_dict items tr kv Hkv) as [X1 X2].
    split; [exact (IH _ X1 Wk Sk)|exact (IH _ X2 Wv Sv)]. Qed.

Theorem built_printable d e : wfn d = true -> src_ok d = true ->
  walk c dd (strip d) = Ok e -> printable c dd e = true.
Proof. intros Wf Hs. exact (built_all d Wf Hs e). Qed.

(* parse the text of an AST, print the result, parse again: the same expression object *)
Theorem roundtrip_of_source d e : wfn d = true -> src_ok d = true ->
  parse c dd (unparse d) = Ok e -> parse c dd (to_python e) = Ok e.
Proof. intros Wf Hs Hp. unfold parse in Hp. rewrite (lark_of_unparse d Wf) in Hp. unfold parse_tree in Hp.
  destruct (walk c dd (strip d)) as [e'|] eqn:Hw; [|discriminate Hp]. destruct (is_term e') eqn:Ht; [|discriminate Hp].
  inversion Hp; subst e'. apply printable_roundtrip; [exact (built_printable d e Wf Hs Hw)|exact Ht]. Qed.

End Main.
