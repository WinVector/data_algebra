(* C15, part A: lemmas.  An injective renaming of column names commutes with every building block of Model/Sem.v.
   Injectivity is on ALL strings, so no NoDup / well-formedness hypothesis on tables or pipelines is needed. *)
From Coq Require Import List Bool String .
Import ListNotations.
From DA Require Import Base.PyRT Base.Val Model.Sem Model.Rename Proofs.TabP.
Local Open Scope list_scope.

Lemma insert_sorted_ext {A} (le1 le2 : A -> A -> bool) (H : forall a b, le1 a b = le2 a b) x l :
  insert_sorted le1 x l = insert_sorted le2 x l.
Proof. induction l as [|y t IH]; simpl; [reflexivity|]. rewrite H, IH. reflexivity. Qed.

Lemma stable_sort_ext {A} (le1 le2 : A -> A -> bool) (H : forall a b, le1 a b = le2 a b) l :
  stable_sort le1 l = stable_sort le2 l.
Proof. unfold stable_sort. induction l as [|y t IH]; simpl; [reflexivity|]. rewrite IH. apply insert_sorted_ext, H. Qed.

Lemma existsb_ext' {A} (f g : A -> bool) (H : forall a, f a = g a) l : existsb f l = existsb g l.
Proof. induction l as [|y t IH]; simpl; [reflexivity|]. rewrite H, IH. reflexivity. Qed.

Lemma unmatched_ext {R X} (test test' : R -> R -> bool) (mk mk' : R -> X) rs others :
  (forall r o, test r o = test' r o) -> (forall r, mk r = mk' r) ->
  flat_map (fun r => if existsb (test r) others then [] else [mk r]) rs = flat_map (fun r => if existsb (test' r) others then [] else [mk' r]) rs.
Proof. intros Ht Hm. apply flat_map_ext. intros r. rewrite (existsb_ext' _ _ (Ht r)), Hm. reflexivity. Qed.

Lemma filter_map_comm {A B} (g : A -> B) (P : A -> bool) (Q : B -> bool) (H : forall a, Q (g a) = P a) l :
  filter Q (map g l) = map g (filter P l).
Proof. induction l as [|y t IH]; simpl; [reflexivity|]. rewrite H. destruct (P y); simpl; rewrite IH; reflexivity. Qed.

Section Inj.
  Context (rho : string -> string) (Hinj : injective rho).

  Lemma dec_inj {T} a b (x y : T) : (if eq_dec (rho a) (rho b) then x else y) = (if eq_dec a b then x else y).
  Proof.
    destruct (eq_dec (rho a) (rho b)) as [e|n], (eq_dec a b) as [e'|n']; try reflexivity.
    - exfalso. apply n'. apply Hinj. exact e.
    - exfalso. apply n. rewrite e'. reflexivity.
  Qed.

  Lemma eqb_inj a b : String.eqb (rho a) (rho b) = String.eqb a b.
  Proof.
    destruct (String.eqb a b) eqn:E.
    - apply String.eqb_eq in E. subst. apply String.eqb_refl.
    - apply String.eqb_neq in E. apply String.eqb_neq. intros H. apply E, Hinj, H.
  Qed.

  Lemma index_of_inj c cs : index_of (rho c) (map rho cs) = index_of c cs.
  Proof. induction cs as [|x t IH]; simpl; [reflexivity|]. rewrite dec_inj, IH. reflexivity. Qed.

  Lemma get_inj cs row c : get (map rho cs) row (rho c) = get cs row c.
  Proof. unfold get. rewrite index_of_inj. reflexivity. Qed.

  Lemma mem_inj c cs : mem (rho c) (map rho cs) = mem c cs.
  Proof. induction cs as [|x t IH]; simpl; [reflexivity|]. rewrite dec_inj, IH. reflexivity. Qed.

  Lemma add_end_inj l x : add_end (map rho l) (rho x) = map rho (add_end l x).
  Proof. unfold add_end. rewrite mem_inj. destruct (mem x l); [reflexivity|]. rewrite map_app. reflexivity. Qed.

  Lemma ext_cols_inj cs ks : ext_cols (map rho cs) (map rho ks) = map rho (ext_cols cs ks).
  Proof. unfold ext_cols. revert cs. induction ks as [|k t IH]; intros cs; simpl; [reflexivity|]. rewrite add_end_inj. apply IH. Qed.

  Lemma set_cell_inj cs row c v : set_cell (map rho cs) row (rho c) v = set_cell cs row c v.
  Proof. unfold set_cell. rewrite index_of_inj. reflexivity. Qed.

  Lemma key_of_inj cs ks row : key_of (map rho cs) (map rho ks) row = key_of cs ks row.
  Proof. unfold key_of. rewrite map_map. apply map_ext. intros c. apply get_inj. Qed.

  Lemma filter_not_mem_inj ds cs :
    filter (fun c => negb (mem c (map rho ds))) (map rho cs) = map rho (filter (fun c => negb (mem c ds)) cs).
  Proof. apply filter_map_comm. intros c. rewrite mem_inj. reflexivity. Qed.

  Lemma eval_expr_inj fl cs row e : eval_expr fl (map rho cs) row (rename_expr rho e) = eval_expr fl cs row e.
  Proof.
    induction e as [c|v|op args IH] using expr_ind2; simpl; [apply get_inj|reflexivity|].
    f_equal. induction IH as [|a t Ha Ht IHt]; simpl; [reflexivity|]. rewrite Ha, IHt. reflexivity.
  Qed.

  Lemma rename_args_map args :
    (fix go (l : list expr) : list expr := match l with [] => [] | a :: t => rename_expr rho a :: go t end) args = map (rename_expr rho) args.
  Proof. induction args as [|a t IH]; simpl; [reflexivity|]. rewrite IH. reflexivity. Qed.

  Lemma consts_of_renamed rest :
    flat_map (fun x => match x with EConst v => [v] | _ => [] end) (map (rename_expr rho) rest)
    = flat_map (fun x => match x with EConst v => [v] | _ => [] end) rest.
  Proof. induction rest as [|a t IH]; simpl; [reflexivity|]. rewrite IH. destruct a; reflexivity. Qed.

  Lemma win_parts_inj e :
    win_parts (rename_expr rho e) =
    match win_parts e with Some (op, arg, extra) => Some (op, option_map (rename_expr rho) arg, extra) | None => None end.
  Proof.
    destruct e as [c|v|op args]; try reflexivity. simpl. rewrite rename_args_map.
    destruct args as [|a rest]; simpl; [reflexivity|]. rewrite consts_of_renamed. reflexivity.
  Qed.

  Lemma agg_parts_inj e :
    agg_parts (rename_expr rho e) =
    match agg_parts e with Some (op, arg) => Some (op, option_map (rename_expr rho) arg) | None => None end.
  Proof.
    destruct e as [c|v|op args]; try reflexivity. simpl. rewrite rename_args_map.
    destruct args as [|a [|b rest]]; reflexivity.
  Qed.

  Lemma agg_value_inj fl cs grp e : agg_value fl (map rho cs) grp (rename_expr rho e) = agg_value fl cs grp e.
  Proof.
    unfold agg_value. rewrite agg_parts_inj. destruct (agg_parts e) as [[op [a|]]|]; simpl; try reflexivity.
    f_equal. apply map_ext. intros row. apply eval_expr_inj.
  Qed.

  Lemma row_le_inj fl cs keys r1 r2 :
    row_le fl (map rho cs) (map (fun cd => (rho (fst cd), snd cd)) keys) r1 r2 = row_le fl cs keys r1 r2.
  Proof. induction keys as [|[c d] t IH]; simpl; [reflexivity|]. rewrite !get_inj, IH. reflexivity. Qed.

  Lemma order_keys_inj cs rev :
    map (fun c => (c, mem c (map rho rev))) (map rho cs) = map (fun cd => (rho (fst cd), snd cd)) (map (fun c => (c, mem c rev)) cs).
  Proof. rewrite !map_map. apply map_ext. intros c. simpl. rewrite mem_inj. reflexivity. Qed.

  Lemma cells_fold_inj {X Y} (F : string * X -> val) (G : string * Y -> val) (g : X -> Y)
        (HG : forall kc, G (rho (fst kc), g (snd kc)) = F kc) l row ccs :
    fold_left (fun (acc : list val * list string) (kc : string * Y) =>
                 let '(rw, cc) := acc in (set_cell cc rw (fst kc) (G kc), add_end cc (fst kc)))
              (map (fun kc => (rho (fst kc), g (snd kc))) l) (row, map rho ccs)
    = (fst (fold_left (fun (acc : list val * list string) (kc : string * X) =>
                         let '(rw, cc) := acc in (set_cell cc rw (fst kc) (F kc), add_end cc (fst kc))) l (row, ccs)),
       map rho (snd (fold_left (fun (acc : list val * list string) (kc : string * X) =>
                                  let '(rw, cc) := acc in (set_cell cc rw (fst kc) (F kc), add_end cc (fst kc))) l (row, ccs)))).
  Proof.
    revert row ccs. induction l as [|kc t IH]; intros row ccs; simpl; [reflexivity|].
    rewrite HG, set_cell_inj, add_end_inj. apply IH.
  Qed.

  Lemma rename_tab_mk c rws : rename_tab rho (mktable c rws) = mktable (map rho c) rws.
  Proof. reflexivity. Qed.
  Lemma cols_rename_tab t : cols (rename_tab rho t) = map rho (cols t).
  Proof. reflexivity. Qed.
  Lemma rows_rename_tab t : rows (rename_tab rho t) = rows t.
  Proof. reflexivity. Qed.

  Lemma map_fst_rename_ops ops : map fst (rename_ops rho ops) = map rho (map fst ops).
  Proof. unfold rename_ops. rewrite !map_map. reflexivity. Qed.

  Lemma extend_row_inj fl cs ops row : extend_row fl (map rho cs) (rename_ops rho ops) row = extend_row fl cs ops row.
  Proof.
    unfold extend_row, rename_ops.
    rewrite (cells_fold_inj (fun ke => eval_expr fl cs row (snd ke)) (fun ke => eval_expr fl (map rho cs) row (snd ke)) (rename_expr rho)).
    - reflexivity.
    - intros kc. simpl. apply eval_expr_inj.
  Qed.

  Lemma sem_extend_inj fl ops t : sem_extend fl (rename_ops rho ops) (rename_tab rho t) = rename_tab rho (sem_extend fl ops t).
  Proof.
    unfold sem_extend, rename_tab. cbn [cols rows]. rewrite map_fst_rename_ops, ext_cols_inj. f_equal.
    apply map_ext. intros row. apply extend_row_inj.
  Qed.

  Lemma window_column_inj fl w t e :
    window_column fl (rename_window rho w) (rename_tab rho t) (rename_expr rho e) = window_column fl w t e.
  Proof.
    unfold window_column. cbv zeta. cbn [cols rows rename_tab rename_window w_part w_order w_rev].
    rewrite (map_ext (fun row => key_of (map rho (cols t)) (map rho (w_part w)) row) (fun row => key_of (cols t) (w_part w) row))
      by (intros row; apply key_of_inj).
    apply flat_map_ext. intros k.
    rewrite (filter_ext (fun ir => keys_eqv k (key_of (map rho (cols t)) (map rho (w_part w)) (snd ir)))
                         (fun ir => keys_eqv k (key_of (cols t) (w_part w) (snd ir))))
      by (intros ir; rewrite key_of_inj; reflexivity).
    rewrite order_keys_inj.
    rewrite (stable_sort_ext
               (fun a b : nat * list val => row_le fl (map rho (cols t)) (map (fun cd => (rho (fst cd), snd cd)) (map (fun c => (c, mem c (w_rev w))) (w_order w))) (snd a) (snd b))
               (fun a b : nat * list val => row_le fl (cols t) (map (fun c => (c, mem c (w_rev w))) (w_order w)) (snd a) (snd b)))
      by (intros a b; apply row_le_inj).
    rewrite win_parts_inj. destruct (win_parts e) as [[[op [a|]] extra]|]; simpl; try reflexivity.
    f_equal. f_equal. apply map_ext. intros ir. apply eval_expr_inj.
  Qed.

  Lemma sem_wextend_inj fl ops w t :
    sem_wextend fl (rename_ops rho ops) (rename_window rho w) (rename_tab rho t) = rename_tab rho (sem_wextend fl ops w t).
  Proof.
    unfold sem_wextend. cbv zeta. rewrite rename_tab_mk.
    rewrite map_fst_rename_ops, cols_rename_tab, rows_rename_tab, ext_cols_inj. f_equal.
    apply map_ext. intros ir.
    assert (E : map (fun ke : string * expr => (fst ke, window_column fl (rename_window rho w) (rename_tab rho t) (snd ke))) (rename_ops rho ops)
                = map (fun kc : string * list (nat * val) => (rho (fst kc), snd kc))
                      (map (fun ke : string * expr => (fst ke, window_column fl w t (snd ke))) ops)).
    { unfold rename_ops. rewrite !map_map. apply map_ext. intros ke. simpl. rewrite window_column_inj. reflexivity. }
    rewrite E.
    rewrite (cells_fold_inj (fun kc : string * list (nat * val) => lookup_pos (snd kc) (fst ir))
                            (fun kc : string * list (nat * val) => lookup_pos (snd kc) (fst ir)) (fun x => x)).
    - reflexivity.
    - intros kc. reflexivity.
  Qed.

  Lemma sem_project_inj fl ops gb t :
    sem_project fl (rename_ops rho ops) (map rho gb) (rename_tab rho t) = rename_tab rho (sem_project fl ops gb t).
  Proof.
    unfold sem_project. cbv zeta. rewrite rename_tab_mk.
    rewrite !cols_rename_tab, !rows_rename_tab.
    rewrite map_fst_rename_ops, <- map_app. f_equal.
    assert (G : match map rho gb with [] => [[]] | _ :: _ => distinct_keys (map (key_of (map rho (cols t)) (map rho gb)) (rows t)) end
              = match gb with [] => [[]] | _ :: _ => distinct_keys (map (key_of (cols t) gb) (rows t)) end).
    { destruct gb as [|g gb']; [reflexivity|]. cbn [map]. f_equal. apply map_ext. intros row. apply (key_of_inj (cols t) (g :: gb') row). }
    rewrite G. apply map_ext. intros k. f_equal.
    unfold rename_ops. rewrite map_map. apply map_ext. intros ke. cbn [snd].
    rewrite agg_value_inj. f_equal. apply filter_ext. intros row. rewrite key_of_inj. reflexivity.
  Qed.

  Lemma sem_select_rows_inj fl x t :
    sem_select_rows fl (rename_expr rho x) (rename_tab rho t) = rename_tab rho (sem_select_rows fl x t).
  Proof.
    unfold sem_select_rows, rename_tab. cbn [cols rows]. f_equal. apply filter_ext. intros row. rewrite eval_expr_inj. reflexivity.
  Qed.

  Lemma sem_select_cols_inj cs t : sem_select_cols (map rho cs) (rename_tab rho t) = rename_tab rho (sem_select_cols cs t).
  Proof.
    unfold sem_select_cols, rename_tab. cbn [cols rows]. f_equal. apply map_ext. intros row. apply key_of_inj.
  Qed.

  Lemma sem_drop_cols_inj ds t : sem_drop_cols (map rho ds) (rename_tab rho t) = rename_tab rho (sem_drop_cols ds t).
  Proof.
    unfold sem_drop_cols. rewrite cols_rename_tab.
    rewrite filter_not_mem_inj. apply sem_select_cols_inj.
  Qed.

  Lemma rename_col_inj m c : rename_col (rename_pairs rho m) (rho c) = rho (rename_col m c).
  Proof.
    unfold rename_col, rename_pairs. induction m as [|[n o] t IH]; simpl; [reflexivity|].
    rewrite eqb_inj. destruct (String.eqb o c); [reflexivity|exact IH].
  Qed.

  Lemma sem_rename_inj m t : sem_rename (rename_pairs rho m) (rename_tab rho t) = rename_tab rho (sem_rename m t).
  Proof.
    unfold sem_rename, rename_tab. cbn [cols rows]. f_equal. rewrite !map_map. apply map_ext. intros c. apply rename_col_inj.
  Qed.

  Lemma sem_order_inj fl cs rev lim t :
    sem_order fl (map rho cs) (map rho rev) lim (rename_tab rho t) = rename_tab rho (sem_order fl cs rev lim t).
  Proof.
    unfold sem_order. cbv zeta. rewrite rename_tab_mk.
    rewrite !cols_rename_tab, !rows_rename_tab.
    rewrite order_keys_inj.
    rewrite (stable_sort_ext (row_le fl (map rho (cols t)) (map (fun cd => (rho (fst cd), snd cd)) (map (fun c => (c, mem c rev)) cs)))
                             (row_le fl (cols t) (map (fun c => (c, mem c rev)) cs)))
      by (intros a b; apply row_le_inj).
    reflexivity.
  Qed.

  Lemma sem_join_inj nm on_a on_b jt a b :
    sem_join nm (map rho on_a) (map rho on_b) jt (rename_tab rho a) (rename_tab rho b) = rename_tab rho (sem_join nm on_a on_b jt a b).
  Proof.
    unfold sem_join. cbv beta zeta. rewrite rename_tab_mk.
    rewrite !cols_rename_tab, !rows_rename_tab.
    rewrite filter_not_mem_inj, <- map_app.
    set (out := cols a ++ filter (fun c => negb (mem c (cols a))) (cols b)).
    assert (MK : forall ra rb : option (list val),
               map (fun c => let va := match ra with Some r => if mem c (map rho (cols a)) then get (map rho (cols a)) r c else VNull | None => VNull end in
                             let vb := match rb with Some r => if mem c (map rho (cols b)) then get (map rho (cols b)) r c else VNull | None => VNull end in
                             if is_null va then vb else va) (map rho out)
               = map (fun c => let va := match ra with Some r => if mem c (cols a) then get (cols a) r c else VNull | None => VNull end in
                               let vb := match rb with Some r => if mem c (cols b) then get (cols b) r c else VNull | None => VNull end in
                               if is_null va then vb else va) out).
    { intros ra rb. rewrite map_map. apply map_ext. intros c. cbv zeta. rewrite !mem_inj.
      destruct ra as [r1|], rb as [r2|]; rewrite ?get_inj; reflexivity. }
    cbv zeta in MK.
    f_equal. f_equal; [|f_equal].
    - apply flat_map_ext. intros ra. apply flat_map_ext. intros rb. pose proof (MK (Some ra) (Some rb)) as E. cbv beta iota in E. rewrite !key_of_inj, E. reflexivity.
    - destruct jt; try reflexivity; (apply unmatched_ext; intros; [rewrite !key_of_inj; reflexivity|exact (MK (Some r) None)]).
    - destruct jt; try reflexivity; (apply unmatched_ext; intros; [rewrite !key_of_inj; reflexivity|exact (MK None (Some r))]).
  Qed.

  Lemma sem_concat_inj idc an bn a b :
    sem_concat (option_map rho idc) an bn (rename_tab rho a) (rename_tab rho b) = rename_tab rho (sem_concat idc an bn a b).
  Proof.
    unfold sem_concat. cbv zeta.
    rewrite !cols_rename_tab, !rows_rename_tab.
    rewrite (map_ext (fun r => map (get (map rho (cols b)) r) (map rho (cols a))) (fun r => map (get (cols b) r) (cols a)))
      by (intros row; apply key_of_inj).
    destruct idc as [c|]; unfold rename_tab; cbn [option_map cols rows]; [rewrite map_app|]; reflexivity.
  Qed.
End Inj.
