(* PEXEC, part 2: the steps without scratch columns refine the reference semantics:
   _table_step, _select_rows_step, _select_columns_step, _drop_columns_step, _rename_columns_step, _map_columns_step,
   _order_rows_step (for every sorting routine), _concat_rows_step. *)
From Coq Require Import List Bool Arith String Lia Permutation Sorted.
Import ListNotations.
From DA Require Import Base.PyRT Base.Val Model.Sem Model.PdPrim Model.PandasExec
  Proofs.SemBasicP Proofs.SemOrderP Proofs.ComposeP5 Proofs.PandasExecP1 Proofs.ListP Proofs.TabP.
Local Open Scope string_scope.
Local Open Scope list_scope.

Lemma Forall2_map_l {A B} (R : B -> A -> Prop) (f : A -> B) l : (forall x, In x l -> R (f x) x) -> Forall2 R (map f l) l.
Proof. intros H. rewrite <- (map_id l) at 2. apply Forall2_map_same, H. Qed.
Lemma Forall2_map_r {A B} (R : A -> B -> Prop) (f : A -> B) l : (forall x, In x l -> R x (f x)) -> Forall2 R l (map f l).
Proof. intros H. rewrite <- (map_id l) at 1. apply Forall2_map_same, H. Qed.

Lemma ltb1_nil {A} (l : list A) : Nat.ltb (List.length l) 1 = true -> l = [].
Proof. intros H. apply Nat.ltb_lt in H. apply length_zero_iff_nil. lia. Qed.

(* ------------------------------------------------------------------ _table_step *)
Lemma px_table_exact cs df u : px_table cs df = Some u -> u = sem_select_cols cs df.
Proof.
  unfold px_table. destruct (subset cs (cols df)) eqn:E; simpl; [|discriminate].
  unfold pd_select. rewrite E. simpl. intros H. inversion H. reflexivity.
Qed.
Lemma px_table_width cs df u : px_table cs df = Some u -> width_ok u.
Proof. intros H. rewrite (px_table_exact _ _ _ H). apply width_select_cols. Qed.

(* ------------------------------------------------------------------ _select_rows_step *)
Lemma filter_combine_map {A B} (f : A -> B) (p : B -> bool) (l : list A) :
  map fst (filter (fun rm => p (snd rm)) (combine l (map f l))) = filter (fun r => p (f r)) l.
Proof. induction l as [|a t IH]; simpl; [reflexivity|]. destruct (p (f a)); simpl; rewrite IH; reflexivity. Qed.

Lemma px_select_rows_exact x t u : px_select_rows x t = Some u -> u = sem_select_rows fl_pandas x t.
Proof.
  unfold px_select_rows, nrows. destruct (Nat.ltb (List.length (rows t)) 1) eqn:E.
  - intros H. inversion H; subst. unfold sem_select_rows. rewrite (ltb1_nil _ E). simpl.
    rewrite <- (ltb1_nil _ E). symmetry. apply table_eta.
  - unfold act_on. destruct (cols_used x); [discriminate|].
    unfold pd_mask_rows, nrows. rewrite map_length, Nat.eqb_refl. simpl. intros H. inversion H; subst.
    unfold clean_copy, pd_reset_index, sem_select_rows. f_equal.
    apply (filter_combine_map (fun r => eval_expr fl_pandas (cols t) r x) truth).
Qed.

(* ------------------------------------------------------------------ column steps *)
Lemma px_select_cols_exact cs t u : px_select_cols cs t = Some u -> u = sem_select_cols cs t.
Proof. intros H. apply pd_select_inv in H. tauto. Qed.

Lemma subset_filter (f : string -> bool) (l : list string) : subset (filter f l) l = true.
Proof. apply subset_spec. intros x I. apply filter_In in I. tauto. Qed.
Lemma px_drop_cols_exact ds t u : px_drop_cols ds t = Some u -> u = sem_drop_cols ds t.
Proof. unfold px_drop_cols, pd_select. rewrite subset_filter. intros H. inversion H. reflexivity. Qed.

Lemma rename_lookup m c :
  match dict_get (old_to_new m) c with Some n => n | None => c end = rename_col m c.
Proof.
  unfold rename_col, old_to_new. induction m as [|[n o] t IH]; simpl; [reflexivity|].
  destruct (eq_dec c o) as [->|ne].
  - rewrite String.eqb_refl. reflexivity.
  - destruct (String.eqb o c) eqn:E; [apply String.eqb_eq in E; congruence|]. exact IH.
Qed.
Lemma pd_rename_sem m t : pd_rename (old_to_new m) t = sem_rename m t.
Proof. unfold pd_rename, sem_rename. f_equal. apply map_ext. intros c. apply rename_lookup. Qed.
Lemma px_rename_exact m t u : px_rename m t = Some u -> u = sem_rename m t.
Proof. unfold px_rename. intros H. inversion H. apply pd_rename_sem. Qed.

(* reading all columns of a table gives the same cells (no NoDup needed at the level of named cells) *)
Lemma select_all_eqv t : tab_eqv (sem_select_cols (cols t) t) t.
Proof.
  split; cbn [cols rows sem_select_cols]; [apply same_set_refl|].
  apply Forall2_map_l. intros r _ c. rewrite get_map_cols.
  destruct (mem c (cols t)) eqn:M; [reflexivity|]. symmetry. apply get_absent. apply mem_false, M.
Qed.
Lemma filter_true {A} (l : list A) : filter (fun _ => true) l = l.
Proof. induction l; simpl; congruence. Qed.

Lemma drop_none t : sem_drop_cols [] t = sem_select_cols (cols t) t.
Proof. unfold sem_drop_cols. cbn [mem negb]. rewrite filter_true. reflexivity. Qed.
Lemma px_map_cols_eqv m dels t u : px_map_cols m dels t = Some u -> tab_eqv u (sem_drop_cols dels (sem_rename m t)).
Proof.
  unfold px_map_cols. rewrite pd_rename_sem. generalize (sem_rename m t) as t'. intros t'. destruct dels as [|d ds].
  - cbn [List.length Nat.ltb Nat.leb]. intros H. inversion H; subst. rewrite drop_none. apply tab_eqv_sym, select_all_eqv.
  - cbn [List.length Nat.ltb Nat.leb]. unfold pd_select. rewrite subset_filter. intros H. inversion H; subst. apply tab_eqv_refl.
Qed.
Lemma px_map_cols_exact m dels t u : NoDup (cols (sem_rename m t)) -> width_ok t -> px_map_cols m dels t = Some u -> u = sem_drop_cols dels (sem_rename m t).
Proof.
  intros N W. unfold px_map_cols. rewrite pd_rename_sem. pose proof (width_rename m t W) as W'. revert N W'.
  generalize (sem_rename m t) as t'. intros t' N W'. destruct dels as [|d ds].
  - cbn [List.length Nat.ltb Nat.leb]. intros H. inversion H; subst. rewrite drop_none. symmetry. apply select_self; assumption.
  - cbn [List.length Nat.ltb Nat.leb]. unfold pd_select. rewrite subset_filter. intros H. inversion H; subst. reflexivity.
Qed.

(* ------------------------------------------------------------------ _order_rows_step *)
Lemma sort_keys_back cs rev : pd_sort_keys (map (fun c => (c, negb (mem c rev))) cs) = map (fun c => (c, mem c rev)) cs.
Proof. unfold pd_sort_keys. rewrite map_map. apply map_ext. intros c. cbn [fst snd]. rewrite negb_involutive. reflexivity. Qed.

Lemma sorted_short {A} (R : A -> A -> Prop) (l : list A) : (List.length l <= 1)%nat -> StronglySorted R l.
Proof. destruct l as [|a [|b t]]; simpl; intros L; [constructor|repeat constructor|lia]. Qed.

Section Order.
  Variable srt : sorter.
  Hypothesis srt_ok : sorter_ok srt.

  (* the frame after the sorting part of _order_rows_step: a sorted permutation of the input *)
  Lemma px_order_shape cs rev lim t u : px_order srt cs rev lim t = Some u ->
    exists rs, Permutation rs (rows t) /\
               StronglySorted (fun a b => row_le fl_pandas (cols t) (map (fun c => (c, mem c rev)) cs) a b = true) rs /\
               u = mktable (cols t) (match lim with Some n => firstn n rs | None => rs end).
  Proof.
    unfold px_order. set (keys := map (fun c => (c, mem c rev)) cs).
    assert (forall res1, (if Nat.ltb 1 (nrows t)
                          then option_map clean_copy (pd_sort_values_with srt (map (fun c => (c, negb (mem c rev))) cs) t)
                          else Some t) = Some res1 ->
            cols res1 = cols t /\ Permutation (rows res1) (rows t) /\
            StronglySorted (fun a b => row_le fl_pandas (cols t) keys a b = true) (rows res1)) as S1.
    { intros res1. destruct (Nat.ltb 1 (nrows t)) eqn:E.
      - unfold pd_sort_values_with. destruct (subset _ _); simpl; [|discriminate]. intros H. inversion H; subst. cbn [cols rows].
        rewrite sort_keys_back. fold keys. split; [reflexivity|].
        apply srt_ok; [intros; apply row_le_total|intros; eapply row_le_trans; eassumption].
      - intros H. inversion H; subst. split; [reflexivity|]. split; [apply Permutation_refl|].
        apply sorted_short. apply Nat.ltb_ge in E. exact E. }
    destruct (if Nat.ltb 1 (nrows t) then _ else _) as [res1|]; simpl; [|discriminate].
    destruct (S1 res1 eq_refl) as [C [P S]]. intros H. exists (rows res1). split; [exact P|]. split; [exact S|].
    destruct lim as [n|].
    - unfold nrows in H. destruct (Nat.ltb n (List.length (rows res1))) eqn:E; inversion H; subst.
      + unfold clean_copy, pd_reset_index, pd_head. rewrite C. reflexivity.
      + rewrite firstn_all2 by (apply Nat.ltb_ge in E; exact E). rewrite <- C. symmetry. apply table_eta.
    - inversion H; subst. rewrite <- C. symmetry. apply table_eta.
  Qed.

  (* order_rows: same columns and a permutation of the reference rows; the SAME list as soon as the order is total on the data
     (which C18 asks of every order_rows carrying a limit) *)
  Lemma px_order_refines cs rev lim t u :
    (lim <> None -> total_on fl_pandas (cols t) (map (fun c => (c, mem c rev)) cs) (rows t)) ->
    px_order srt cs rev lim t = Some u ->
    cols u = cols (sem_order fl_pandas cs rev lim t) /\ Permutation (rows u) (rows (sem_order fl_pandas cs rev lim t)).
  Proof.
    intros G H. destruct (px_order_shape _ _ _ _ _ H) as [rs [P [S ->]]]. cbn [cols rows sem_order]. split; [reflexivity|].
    set (keys := map (fun c => (c, mem c rev)) cs) in *.
    destruct lim as [n|].
    - assert (rs = stable_sort (row_le fl_pandas (cols t) keys) (rows t)) as ->; [|apply Permutation_refl].
      apply (sorted_perm_unique (row_le fl_pandas (cols t) keys)).
      + exact S.
      + apply stable_sort_sorted; [intros; apply row_le_total|intros; eapply row_le_trans; eassumption].
      + eapply perm_trans; [exact P|]. apply Permutation_sym, stable_sort_perm.
      + intros a b Ia Ib. apply G; [discriminate| |]; eapply Permutation_in; eassumption.
    - eapply perm_trans; [exact P|]. apply Permutation_sym, stable_sort_perm.
  Qed.
End Order.

(* with the stable sort the step IS sem_order (no premise) *)
Lemma px_order_exact cs rev lim t u : subset cs (cols t) = true -> px_order stable_sorter cs rev lim t = Some u -> u = sem_order fl_pandas cs rev lim t.
Proof.
  intros Sb. unfold px_order, pd_sort_values_with, stable_sorter. rewrite map_map. cbn [fst].
  replace (subset (map (fun x : string => x) cs) (cols t)) with true by (rewrite map_id; symmetry; exact Sb).
  rewrite sort_keys_back. unfold sem_order, nrows. set (keys := map (fun c => (c, mem c rev)) cs).
  assert ((if Nat.ltb 1 (List.length (rows t))
           then option_map clean_copy (Some (mktable (cols t) (stable_sort (row_le fl_pandas (cols t) keys) (rows t))))
           else Some t) = Some (mktable (cols t) (stable_sort (row_le fl_pandas (cols t) keys) (rows t)))) as ->.
  { destruct (Nat.ltb 1 (List.length (rows t))) eqn:E; [reflexivity|].
    rewrite stable_sort_short by (apply Nat.ltb_ge in E; exact E). rewrite table_eta. reflexivity. }
  simpl. cbn [rows cols]. destruct lim as [n|]; intros H.
  - destruct (Nat.ltb n _) eqn:E; inversion H; subst; [reflexivity|].
    rewrite firstn_all2 by (apply Nat.ltb_ge in E; exact E). reflexivity.
  - inversion H. reflexivity.
Qed.

Lemma px_order_width srt cs rev lim t u : sorter_ok srt -> width_ok t -> px_order srt cs rev lim t = Some u -> width_ok u.
Proof.
  intros So W H. destruct (px_order_shape srt So _ _ _ _ _ H) as [rs [P [_ ->]]]. unfold width_ok in *. cbn [cols rows].
  assert (Forall (fun r => List.length r = List.length (cols t)) rs) as F.
  { apply Forall_forall. intros r I. rewrite Forall_forall in W. apply W. eapply Permutation_in; eassumption. }
  destruct lim; [apply Forall_firstn|]; exact F.
Qed.

(* ------------------------------------------------------------------ _concat_rows_step *)

(* without id column *)
Lemma px_concat_none_eqv an bn l r u :
  same_set (cols l) (cols r) -> px_concat None an bn l r = Some u -> tab_eqv u (sem_concat None an bn l r).
Proof.
  intros S. unfold px_concat. cbn [obind fst snd]. unfold nrows, sem_concat.
  destruct (Nat.ltb (List.length (rows l)) 1) eqn:El.
  - intros H. inversion H; subst. rewrite (ltb1_nil _ El). cbn [app]. split; cbn [cols rows]; [apply same_set_sym, S|].
    apply Forall2_map_r. intros rb _ c. rewrite get_map_cols.
    destruct (mem c (cols l)) eqn:M; [reflexivity|]. apply get_absent. intros I. apply S in I. apply mem_In in I. congruence.
  - destruct (Nat.ltb (List.length (rows r)) 1) eqn:Er.
    + intros H. inversion H; subst. rewrite (ltb1_nil _ Er). cbn [map]. rewrite app_nil_r, table_eta. apply tab_eqv_refl.
    + intros H. inversion H; subst. unfold clean_copy, pd_reset_index, pd_concat_rows.
      rewrite (filter_none (fun c => negb (mem c (cols l))) (cols r)).
      2:{ intros x I. apply S in I. apply mem_In in I. rewrite I. reflexivity. }
      rewrite app_nil_r. split; cbn [cols rows]; [apply same_set_refl|].
      apply Forall2_app.
      * apply Forall2_map_l. intros ra _ c. rewrite get_map_cols.
        destruct (mem c (cols l)) eqn:M; [reflexivity|]. symmetry. apply get_absent, mem_false, M.
      * apply Forall2_map_same. intros rb _ c. rewrite !get_map_cols.
        destruct (mem c (cols l)) eqn:M; [|reflexivity]. apply mem_In, S, mem_In in M. rewrite M. reflexivity.
Qed.

(* with an id column: both frames first receive the constant column (an empty frame an empty column), then as above *)
Lemma px_concat_some_unfold c an bn l r :
  px_concat (Some c) an bn l r = px_concat None an bn (pd_set_scalar c (VStr an) l) (pd_set_scalar c (VStr bn) r).
Proof.
  assert (forall v t, (if Nat.ltb 0 (nrows t) then Some (pd_set_scalar c v t) else pd_set_col c [] t) = Some (pd_set_scalar c v t)) as E.
  { intros v t. unfold nrows. destruct (rows t) as [|r0 rs] eqn:Er; [|reflexivity].
    cbn [List.length Nat.ltb Nat.leb]. unfold pd_set_col, pd_set_scalar, nrows. rewrite Er. reflexivity. }
  unfold px_concat at 1. rewrite !E. cbn [obind fst snd]. reflexivity.
Qed.

Lemma sem_concat_id_as_columns c an bn l r :
  ~ In c (cols l) -> ~ In c (cols r) -> width_ok r ->
  sem_concat None an bn (pd_set_scalar c (VStr an) l) (pd_set_scalar c (VStr bn) r) = sem_concat (Some c) an bn l r.
Proof.
  intros Nl Nr Wr. unfold sem_concat, pd_set_scalar. cbn [cols rows]. rewrite (add_end_new _ _ Nl), (add_end_new _ _ Nr). f_equal.
  f_equal.
  - apply map_ext. intros ra. apply set_cell_new, Nl.
  - rewrite !map_map. apply map_ext_in. intros rb Ib. rewrite (set_cell_new _ _ _ _ Nr).
    assert (List.length rb = List.length (cols r)) as Lb by (unfold width_ok in Wr; rewrite Forall_forall in Wr; apply Wr, Ib).
    rewrite map_app. cbn [map]. f_equal.
    + apply map_ext_in. intros x Ix. destruct (in_dec string_dec x (cols r)) as [I|N].
      * apply get_app_l; assumption.
      * rewrite (get_app_r _ _ _ _ _ N Lb). rewrite (get_absent (cols r) rb x N). unfold get. simpl.
        destruct (eq_dec x c) as [->|ne]; [contradiction|reflexivity].
    + f_equal. rewrite (get_app_r _ _ _ _ _ Nr Lb). unfold get. simpl. destruct (eq_dec c c); [reflexivity|congruence].
Qed.

Lemma same_set_add_end (a b : list string) c : same_set a b -> same_set (add_end a c) (add_end b c).
Proof. intros S x. rewrite !In_add_end, (S x). tauto. Qed.

Lemma px_concat_eqv idc an bn l r u :
  same_set (cols l) (cols r) -> (forall c, idc = Some c -> ~ In c (cols l)) -> width_ok l -> width_ok r ->
  px_concat idc an bn l r = Some u -> tab_eqv u (sem_concat idc an bn l r).
Proof.
  intros S N _ Wr H. destruct idc as [c|]; [|apply (px_concat_none_eqv an bn l r u S H)].
  rewrite px_concat_some_unfold in H.
  pose proof (N c eq_refl) as Nl. assert (~ In c (cols r)) as Nr by (intros I; apply Nl, S, I).
  rewrite <- (sem_concat_id_as_columns c an bn l r Nl Nr Wr).
  apply px_concat_none_eqv; [|exact H]. unfold pd_set_scalar. cbn [cols]. apply same_set_add_end, S.
Qed.

Lemma px_concat_width idc an bn l r u : width_ok l -> width_ok r -> px_concat idc an bn l r = Some u -> width_ok u.
Proof.
  intros Wl Wr.
  assert (forall l r u, width_ok l -> width_ok r -> px_concat None an bn l r = Some u -> width_ok u) as K.
  { clear. intros l r u Wl Wr. unfold px_concat. cbn [obind fst snd].
    destruct (Nat.ltb (nrows l) 1); [intros H; inversion H; subst; exact Wr|].
    destruct (Nat.ltb (nrows r) 1); intros H; inversion H; subst; [exact Wl|].
    unfold clean_copy, pd_reset_index, pd_concat_rows, width_ok. cbn [cols rows]. apply Forall_forall. intros x I.
    apply in_app_iff in I. destruct I as [I|I]; apply in_map_iff in I; destruct I as [y [<- _]]; apply map_length. }
  destruct idc as [c|]; [|apply K; assumption]. rewrite px_concat_some_unfold. apply K; apply width_set_scalar; assumption.
Qed.
