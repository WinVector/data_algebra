(* C06, part 5: chains of steps.  The builders keep the prefix invariant, and the pipeline built with simplifications denotes
   the same table as applying each step in turn to the materialised result of the previous one (chain_eq_steps: same column set,
   same rows as a multiset; the same rows in the same order after a total final order_rows). *)
From Coq Require Import List Bool String .
Import ListNotations.
From DA Require Import Base.PyRT Base.Val Model.Sem Model.PermGuard Model.Extend Model.MergeGuard Model.Simplify Gen.G_MergeOps
  Proofs.MergeOpsP Proofs.MergeGuardP Proofs.SemBasicP Proofs.SemOrderP Proofs.PermP2 Proofs.PermP3 Proofs.PermP4 Proofs.ComposeP5
  Proofs.SimplifyP1 Proofs.SimplifyP2 Proofs.SimplifyP3 Proofs.SimplifyP4.
Local Open Scope list_scope.

(* ------------------------------------------------------------------ the builders keep the prefix invariant *)
Lemma mk_extend_ok iw p ops a : prefix_ok iw p -> NoDup (map fst ops) -> (forall k, In k (map fst ops) -> ~ In k (eff_part a ++ a_order a)) ->
  prefix_ok iw (mk_extend iw p ops a).
Proof.
  intros OK N D. unfold mk_extend. cbn [prefix_ok node_of n_windowed n_part n_order n_rev w_part w_order]. repeat split; try assumption.
  intros ->. reflexivity.
Qed.

Lemma build_extend_ok iw ops a : NoDup (map fst ops) -> (forall k, In k (map fst ops) -> ~ In k (eff_part a ++ a_order a)) ->
  forall p, prefix_ok iw p -> prefix_ok iw (build_extend iw p ops a).
Proof.
  intros N D.
  induction p as [nm cs0|s IH o1 wd1 w1|s IH ops0 gb|s IH x|s IH cs1|s IH ds|s IH m|s IH m dels|s IH cs0 rev0 lim|pa IHa b IHb on_a on_b jt|pa IHa b IHb idc an bn];
    intros OK; cbn [build_extend]; try (apply mk_extend_ok; assumption).
  - destruct (merge_guard _ _ _) eqn:G; [|apply mk_extend_ok; assumption].
    destruct (try_to_merge_ops gcu o1 ops) as [m|] eqn:M; [|apply mk_extend_ok; assumption].
    destruct OK as (N1 & D1 & C1 & OKs).
    destruct (merged_node_same iw o1 ops m a _ N1 N M G C1) as [S2 Sm].
    pose proof (merge_spec_holds cols_used o1 ops m N1 N M) as (_ & _ & Nm & Km).
    unfold mk_extend. rewrite Sm. cbn [prefix_ok n_windowed n_part n_order n_rev w_part w_order]. repeat split; try assumption.
    + intros k Ik. apply Km in Ik. destruct Ik as [Ik|Ik]; [apply D1, Ik|].
      assert (eff_part a = w_part w1 /\ a_order a = w_order w1) as [<- <-].
      { unfold node_of in S2. injection S2 as _ P O _. split; assumption. }
      apply D, Ik.
    + intros Im. destruct (merge_implies cols_used (iwp iw) o1 ops m N1 N M) as [_ Down]. rewrite <- !implies_values in Down.
      destruct (Down Im) as [I1|I2]; [apply C1, I1|].
      try rewrite <- implies_values in I2. unfold node_of in S2. rewrite I2 in S2. injection S2 as W _ _ _. symmetry. exact W.
  - destruct lim; [apply mk_extend_ok; assumption|]. apply IH, OK.
Qed.

Lemma build_select_cols_ok iw cs tup : forall p, prefix_ok iw p -> (forall c, In c cs -> In c (column_names p)) -> prefix_ok iw (build_select_cols p cs tup).
Proof.
  induction p as [nm cs0|s IH o1 wd1 w1|s IH ops0 gb|s IH x|s IH cs1|s IH ds|s IH m|s IH m dels|s IH cs0 rev0 lim|pa IHa b IHb on_a on_b jt|pa IHa b IHb idc an bn];
    intros OK Sub; cbn [build_select_cols]; (destruct (tup && eqb cs (declared_names _)); [exact OK|]);
    try (cbn [mk_select prefix_ok]; split; assumption).
  - destruct OK as [Sub1 OKs]. apply IH; [exact OKs|]. intros c I. apply Sub1. apply (Sub c I).
  - apply IH; [exact OK|]. intros c I. specialize (Sub c I). cbn [column_names] in Sub. apply filter_In in Sub. tauto.
  - destruct lim; [cbn [mk_select prefix_ok]; split; assumption|]. apply IH; assumption.
Qed.

Lemma unorder_ok iw p : prefix_ok iw p -> prefix_ok iw (unorder p).
Proof. induction p; intros OK; try exact OK. destruct limit; [exact OK|]. apply IHp, OK. Qed.

Lemma build_step_ok iw x p : prefix_ok iw p -> step_valid x (column_names p) -> prefix_ok iw (build_step iw p x).
Proof.
  intros OK V. destruct (no_op x) eqn:N; [rewrite build_step_no_op; assumption|]. destruct (skipping x) eqn:K.
  - rewrite (build_step_unorder iw p x K N). apply unorder_ok in OK. destruct x; try discriminate K; exact OK.
  - destruct x; try discriminate K; cbn [no_op] in N; cbn [build_step step_valid] in *.
    + rewrite N. destruct V as [Nk D]. apply build_extend_ok; assumption.
    + apply build_select_cols_ok; assumption.
Qed.

(* ------------------------------------------------------------------ chains *)
(* the premises, step by step, on the tables of the step-by-step run *)
Fixpoint steps_ok (iw : list string) (fl : flavor) (e : env) (ro : option table) (xs : list step) : Prop :=
  match xs with
  | [] => True
  | x :: rest => (forall r, ro = Some r -> step_valid x (cols r) /\ step_insensitive iw fl x r)
                 /\ steps_ok iw fl e (obind ro (apply_sem iw fl e x)) rest
  end.

Lemma build_none iw fl e xs : forall p, sem_gen fl p e = None -> sem_gen fl (build iw p xs) e = None.
Proof. induction xs as [|x t IH]; intros p E; [exact E|]. apply IH, build_step_none, E. Qed.

Lemma chain_sim iw fl e xs : forall p ro,
  otab_sim (sem_gen fl p e) ro -> (ro <> None -> prefix_ok iw p) -> (forall r, ro = Some r -> width_ok r) -> steps_ok iw fl e ro xs ->
  otab_sim (sem_gen fl (build iw p xs) e) (run_steps iw fl e ro xs).
Proof.
  induction xs as [|x rest IH]; intros p ro S OK W H; [exact S|].
  destruct ro as [r|].
  - destruct (sem_gen fl p e) as [t|] eqn:E; [|destruct S]. cbn [otab_sim] in S. destruct H as [H1 H2]. destruct (H1 r eq_refl) as [V I].
    specialize (OK ltac:(discriminate)).
    cbn [build run_steps fold_left obind] in *.
    assert (same_set (cols r) (column_names p)) as Sc by (rewrite <- (sem_cols _ _ _ _ E); apply same_set_sym, (tab_sim_cols _ _ S)).
    apply (IH (build_step iw p x) (apply_sem iw fl e x r)).
    + apply (build_step_sound iw fl e x p t r E S (W r eq_refl) OK V I).
    + intros _. apply (build_step_ok iw x p OK (step_valid_same_set x _ _ Sc V)).
    + intros r' Er'. eapply width_apply; [apply (W r eq_refl)|exact Er'].
    + exact H2.
  - destruct (sem_gen fl p e) as [t|] eqn:E; [destruct S|].
    change (build iw p (x :: rest)) with (build iw (build_step iw p x) rest).
    rewrite (build_none iw fl e rest _ (build_step_none iw fl e x p E)), run_steps_none. exact Logic.I.
Qed.

(* the property: for every list of steps *)
Theorem chain_eq_steps iw fl e p0 xs :
  prefix_ok iw p0 -> steps_ok iw fl e (sem_gen fl p0 e) xs ->
  otab_sim (sem_gen fl (build iw p0 xs) e) (run_steps iw fl e (sem_gen fl p0 e) xs).
Proof.
  intros OK H. apply chain_sim; [apply otab_sim_refl|intros _; exact OK| |exact H].
  intros r E. eapply sem_rows_width, E.
Qed.

Lemma build_app iw p xs ys : build iw p (xs ++ ys) = build iw (build iw p xs) ys.
Proof. unfold build. apply fold_left_app. Qed.
Lemma run_steps_app iw fl e ro xs ys : run_steps iw fl e ro (xs ++ ys) = run_steps iw fl e (run_steps iw fl e ro xs) ys.
Proof. unfold run_steps. apply fold_left_app. Qed.

(* with a total final order_rows: the same rows in the same order *)
Theorem chain_eq_steps_ordered iw fl e p0 xs cs rev lim :
  prefix_ok iw p0 -> steps_ok iw fl e (sem_gen fl p0 e) xs -> cs <> [] ->
  (forall r, run_steps iw fl e (sem_gen fl p0 e) xs = Some r -> total_on fl (cols r) (map (fun c => (c, mem c rev)) cs) (rows r)) ->
  otab_eqv (sem_gen fl (build iw p0 (xs ++ [SOrder cs rev lim])) e) (run_steps iw fl e (sem_gen fl p0 e) (xs ++ [SOrder cs rev lim])).
Proof.
  intros OK H Ncs T. rewrite build_app, run_steps_app.
  pose proof (chain_eq_steps iw fl e p0 xs OK H) as S.
  destruct (run_steps iw fl e (sem_gen fl p0 e) xs) as [r|] eqn:Er.
  - destruct (sem_gen fl (build iw p0 xs) e) as [t|] eqn:Et; [|destruct S]. cbn [otab_sim] in S.
    cbn [build run_steps fold_left obind apply_sem].
    apply (order_sound_total iw fl e r); [destruct cs; [congruence|reflexivity]|apply (T r eq_refl)|]. exists t. split; assumption.
  - destruct (sem_gen fl (build iw p0 xs) e) as [t|] eqn:Et; [destruct S|].
    cbn [build run_steps fold_left obind]. rewrite (build_step_none iw fl e _ _ Et). exact Logic.I.
Qed.
