(* SQLGEN, part 7: compiler correctness, by induction over the generator's fuel: every node kind of the fragment, with the
   extend step (windowed or not, merged or built afresh) and concat_rows as lemmas of their own over the induction hypothesis. *)
From Coq Require Import List Bool String.
Import ListNotations.
From DA Require Import Base.PyRT Base.Val Model.Sem Proofs.SemBasicP Model.ColumnsUsed Proofs.ColumnsUsedP1 Proofs.ColumnsUsedP2
  Proofs.ColumnsUsedP3 Proofs.ColumnsUsedP4 Proofs.ComposeP Model.SqlGen Model.SqlSem Proofs.SqlGenP1 Proofs.SqlGenP2 Proofs.SqlGenP3
  Proofs.SqlGenP4 Proofs.SqlGenP6 Proofs.SqlGenP11 Proofs.SqlGenP12 Proofs.SqlGenP14 Proofs.SqlGenP15 Proofs.SqlGenP16 Proofs.SqlGenP17 Proofs.SqlGenP18 Proofs.SqlGenP19 Proofs.ListP Proofs.TabP.
Local Open Scope list_scope.

Definition req (p : op) (usg : option (list string)) : list string :=
  match usg with Some u => u | None => column_names p end.

Lemma wf_env_unary e p s : table_descrs p = table_descrs s -> wf_env e p -> wf_env e s.
Proof. intros E W n cs I. apply W. rewrite E. exact I. Qed.
Lemma wf_env_left e p a b : table_descrs p = table_descrs a ++ table_descrs b -> wf_env e p -> wf_env e a.
Proof. intros E W n cs I. apply W. rewrite E. apply in_app_iff. left. exact I. Qed.
Lemma wf_env_right e p a b : table_descrs p = table_descrs a ++ table_descrs b -> wf_env e p -> wf_env e b.
Proof. intros E W n cs I. apply W. rewrite E. apply in_app_iff. right. exact I. Qed.

Lemma builder_extend_const_cases a c v : concat_src_ok a = true ->
  builder_extend_const a c v = OExtend a [(c, EConst v)] false no_window \/
  exists s0 ops0, a = OExtend s0 ops0 false no_window /\ builder_extend_const a c v = OExtend s0 (ops0 ++ [(c, EConst v)]) false no_window.
Proof.
  destruct a as [n cs|s ops wd w|s ops gb|s x|s cs|s ds|s m|s m dels|s cs rev lim|a1 b1 on_a on_b jt|a1 b1 idc an bn]; simpl; intros H; try (left; reflexivity).
  - destruct wd; [left; reflexivity|]. destruct w as [[|p1 pt] [|o1 ot] [|r1 rt]]; try (left; reflexivity). right. exists s, ops. split; reflexivity.
  - destruct lim; [left; reflexivity|discriminate].
Qed.

Lemma NoDup_nodupb l : NoDup l -> nodupb l = true.
Proof. induction 1 as [|x t Nx _ IH]; simpl; [reflexivity|]. rewrite IH, andb_true_r. apply negb_true_iff, mem_false, Nx. Qed.
Lemma disjointb_nil_r (l : list string) : disjointb l [] = true.
Proof. unfold disjointb. induction l; simpl; auto. Qed.

Lemma bok_extend_app_const s0 ops0 c v :
  builder_ok (OExtend s0 ops0 false no_window) = true -> ~ In c (map fst ops0) ->
  builder_ok (OExtend s0 (ops0 ++ [(c, EConst v)]) false no_window) = true.
Proof.
  intros BO Nc. destruct (bok_extend_full _ _ _ _ BO) as [BOs [Ic Nk]].
  cbn [builder_ok w_part w_order w_rev no_window]. rewrite BOs. cbn [nodupb subset forallb app andb].
  assert (subset (ops_cols (ops0 ++ [(c, EConst v)])) (column_names s0) = true) as E1.
  { apply subset_spec. intros x Hx. apply Ic. unfold ops_cols in *. rewrite flat_map_app in Hx. simpl in Hx. rewrite app_nil_r in Hx. exact Hx. }
  assert (nodupb (map fst (ops0 ++ [(c, EConst v)])) = true) as E2.
  { apply NoDup_nodupb. rewrite map_app. simpl. apply NoDup_snoc; assumption. }
  rewrite E1, E2, disjointb_nil_r. reflexivity.
Qed.

Lemma is_nil_false {A} (l : list A) : l <> [] -> is_nil l = false.
Proof. destruct l; [congruence|reflexivity]. Qed.

Section Main.
Variable fl : flavor.
Variable e : env.

(* what the induction over the fuel supplies *)
Definition gen_ok (fuel : nat) (d : dialect) : Prop := forall p usg n q n',
  builder_ok p = true -> stage1 (d_allow_extend_merges d) (join_covered d fl) p = true -> wf_env e p ->
  NoDup (req p usg) -> incl (req p usg) (column_names p) ->
  to_near_f fuel d p usg n = Ok (q, n') ->
  exists T, sem_gen fl p e = Some T /\ Delivers fl e q (req p usg) T /\ (d_allow_extend_merges d = true -> MergeInvN q).

(* the end of extend_to_near_sql: the step (terms tms, declared dependencies deps) is merged into the sub-query when the dialect
   merges and the contention test allows it, and built afresh otherwise *)
Lemma extend_finish (m : bool) sub n1 (tms : terms) (deps : depmap) su u T q n' :
  (m = true -> MergeInvN sub) -> merge_okN tms deps ->
  (forall nm dp, Delivers fl e (TUnary nm (norm tms) sub (mk_tci (Some su) false None) SfxNone true dp) u T) ->
  (forall n0 ts s0 ci ds, sub = TUnary n0 (Some ts) s0 ci SfxNone true (Some ds) -> merge_okN ts ds ->
     contention (non_trivial_terms deps tms) (needs deps (non_trivial_terms deps tms))
                (non_trivial_terms ds ts) (needs ds (non_trivial_terms ds ts)) = [] ->
     Delivers fl e (TUnary n0 (Some (merged_terms (non_trivial_terms deps tms) tms deps ts)) s0 ci SfxNone true
                           (Some (merged_deps (non_trivial_terms deps tms) tms deps ds))) u T
     /\ merge_okN (merged_terms (non_trivial_terms deps tms) tms deps ts) (merged_deps (non_trivial_terms deps tms) tms deps ds)) ->
  (let fresh := Ok (TUnary (mkvn "extend" n1) (norm tms) sub (mk_tci (Some su) false None) SfxNone true (Some deps), S n1) in
   if m then match try_sql_merge sub tms deps with
             | Some (Ok m0) => Ok (m0, n1) | Some Raise => Raise | Some OutOfFuel => OutOfFuel | None => fresh
             end
   else fresh) = Ok (q, n') ->
  Delivers fl e q u T /\ (m = true -> MergeInvN q).
Proof.
  intros MI MOK Fresh Merged H. cbv zeta in H.
  assert (MergeInvN (TUnary (mkvn "extend" n1) (norm tms) sub (mk_tci (Some su) false None) SfxNone true (Some deps))) as FreshM.
  { intros n0 ts0 s00 ci0 sfx0 dp0 Eq. injection Eq as _ E2 _ _ E5 E6. subst sfx0 dp0. split; [reflexivity|].
    exists tms. split; [rewrite <- E2; exact (norm_nonempty tms (proj1 MOK))|exact MOK]. }
  destruct m.
  - destruct (try_sql_merge sub tms deps) as [[m0| |]|] eqn:EM; try discriminate; injection H as <- _; [|split; [apply Fresh|intros _; exact FreshM]].
    destruct (try_sql_merge_inv _ _ _ _ EM) as [n0 [ts [s00 [ci0 [ds [Esub [Hcont Em]]]]]]]. subst sub m0.
    destruct (MI eq_refl n0 (Some ts) s00 ci0 SfxNone ds eq_refl) as [_ [l0 [El MOKs]]]. injection El as <-.
    destruct (Merged n0 ts s00 ci0 ds eq_refl MOKs Hcont) as [DM MOKm]. split; [exact DM|].
    intros _ n1' ts1 s1' ci1 sfx1 dp1 Eq. injection Eq as _ E2 _ _ E5 E6. subst sfx1 dp1. split; [reflexivity|].
    eexists. split; [symmetry; exact E2|exact MOKm].
  - injection H as <- _. split; [apply Fresh|intros HM; discriminate].
Qed.

Lemma stage_extend fuel d s ops wd w usg n q n' :
  gen_ok fuel d ->
  builder_ok (OExtend s ops wd w) = true -> stage1 (d_allow_extend_merges d) (join_covered d fl) (OExtend s ops wd w) = true ->
  wf_env e (OExtend s ops wd w) ->
  NoDup (req (OExtend s ops wd w) usg) -> incl (req (OExtend s ops wd w) usg) (column_names (OExtend s ops wd w)) ->
  gen_extend d (to_near_f fuel d s) (OExtend s ops wd w) s ops wd w usg n = Ok (q, n') ->
  exists T, sem_gen fl (OExtend s ops wd w) e = Some T /\ Delivers fl e q (req (OExtend s ops wd w) usg) T /\
            (d_allow_extend_merges d = true -> MergeInvN q).
Proof.
  intros IH BO St WF Nu Iu H. cbn [stage1] in St. apply andb_true_iff in St. destruct St as [Sts Wd].
  set (p := OExtend s ops wd w) in *. set (u := req p usg) in *.
  destruct (bok_extend_full _ _ _ _ BO) as [BOs [Ic Nk]]. destruct (bok_extend _ _ _ _ BO) as [_ Dk]. destruct (bok_window _ _ _ _ BO) as [Ip [Io Ir]].
  pose proof (wf_env_unary e p s eq_refl WF) as WFs.
  unfold gen_extend in H. change (match usg with Some u0 => u0 | None => column_names p end) with u in H.
  destruct (sub_ops u ops) as [|so0 sor] eqn:ESub.
  - (* no output requested: the source's query is passed on *)
    assert (forall k, In k u -> ~ In k (map fst ops)) as Hno.
    { intros k Ik I. apply in_map_iff in I. destruct I as [ke [Ek Ike]]. pose proof (in_sub_ops u ops ke Ike) as X. rewrite Ek in X. specialize (X Ik). rewrite ESub in X. destruct X. }
    assert (incl u (column_names s)) as Ius.
    { intros k Ik. specialize (Iu k Ik). simpl in Iu. apply In_ext_cols in Iu. destruct Iu as [X|X]; [exact X|destruct (Hno k Ik X)]. }
    destruct (IH s (Some u) n q n' BOs Sts WFs Nu Ius H) as [S [ES [D MI]]]. cbn [req] in D.
    exists ((if wd then sem_wextend fl ops w else sem_extend fl ops) S). split; [simpl; rewrite ES; reflexivity|].
    split; [|exact MI]. pose proof (sem_rows_width fl s e S ES) as WS.
    assert (forall K, (forall k, In k K -> ~ In k (map fst ops)) -> sel K ((if wd then sem_wextend fl ops w else sem_extend fl ops) S) = sel K S) as Hun
        by (intros K HK; destruct wd; [apply sel_wextend_unused|apply sel_extend_unused]; assumption).
    apply (delivers_transfer fl e q u S _ D).
    + apply Hun. intros k [].
    + intros K IK. apply Hun. intros k Ik. apply Hno, IK, Ik.
    + intros k Ik. assert (In k (ext_cols (cols S) (map fst ops))) as X by (apply In_ext_cols; left; rewrite (sem_cols fl s e S ES); apply Ius, Ik).
      destruct wd; exact X.
  - assert (sub_ops u ops <> []) as NSub by (rewrite ESub; discriminate). rewrite <- ESub in H. clear ESub so0 sor.
    pose proof (sub_ops_nonempty u ops NSub) as NEU.
    (* the partition and order columns are requested too *)
    set (u1 := set_union (set_union (set_union u (w_part w)) (w_order w)) (w_rev w)) in *.
    assert (forall c, In c u1 <-> In c u \/ In c (w_part w ++ w_order w ++ w_rev w)) as Hu1.
    { intros c. unfold u1. rewrite !In_set_union, !in_app_iff. tauto. }
    assert (NoDup u1) as Nu1 by (unfold u1; apply NoDup_set_union, NoDup_set_union, NoDup_set_union, Nu).
    assert (incl u u1) as Iuu1 by (intros c Hc; apply Hu1; left; exact Hc).
    assert (incl u1 (column_names p)) as Iu1.
    { intros c Hc. apply Hu1 in Hc. destruct Hc as [Hc|Hc]; [apply Iu, Hc|]. simpl. apply In_ext_cols. left.
      apply in_app_iff in Hc. destruct Hc as [Hc|Hc]; [exact (Ip c Hc)|]. apply in_app_iff in Hc. destruct Hc as [Hc|Hc]; [exact (Io c Hc)|exact (Io c (Ir c Hc))]. }
    assert (sub_ops u1 ops = sub_ops u ops) as ESO.
    { unfold u1. rewrite !sub_ops_more; [reflexivity| | |]; intros k Ik I; apply (Dk k Ik); apply in_app_iff; [left|right; apply in_app_iff; left|right; apply in_app_iff; right]; exact I. }
    assert (u1 <> []) as NU1 by (intros X; destruct u as [|x u']; [congruence|]; pose proof (Iuu1 x (or_introl eq_refl)) as I; rewrite X in I; destruct I).
    rewrite (is_nil_false u1 NU1), (proj2 (subset_spec u1 (column_names p)) Iu1) in H. cbn [negb] in H. unfold bind in H.
    set (su := cfs1 p u1) in *.
    destruct (to_near_f fuel d s (Some su) n) as [[sub n1]| |] eqn:ER; try discriminate.
    pose proof (cfs1_incl p s u1 BO eq_refl Iu1) as Isu.
    assert (NoDup su) as Nsu.
    { pose proof (builder_ok_nodup s BOs) as Ns. unfold su, cfs1. simpl. destruct (sub_ops u1 ops); [exact Ns|apply NoDup_filter, Ns]. }
    destruct (IH s (Some su) n sub n1 BOs Sts WFs Nsu Isu ER) as [S [ES [D MI]]]. cbn [req] in D.
    exists ((if wd then sem_wextend fl ops w else sem_extend fl ops) S). split; [simpl; rewrite ES; reflexivity|].
    assert (sub_ops u1 ops <> []) as NSub1 by (rewrite ESO; exact NSub). rewrite <- ESO in H.
    destruct (ext_split u1 ops Nu1 Nk) as [No [Nso [Dj _]]].
    destruct wd.
    + destruct (wextend_deps_ok _ _ w No Nso Dj NSub1) as [MOK _].
      refine (extend_finish (d_allow_extend_merges d) sub n1 _ _ su u _ q n' MI MOK _ _ H).
      * intros nm dp. exact (node_wextend fl e s ops w sub u u1 S nm dp BO ES Nu1 Iuu1 Iu1 NSub1 Nsu D).
      * intros n0 ts s0 ci ds -> MOKs Hcont.
        exact (merged_wextend_N fl e s ops w n0 ts s0 ci ds u u1 S BO ES Nu Nu1 Iuu1 Iu1 NSub1 (fun c Hc => proj2 (Hu1 c) (or_intror Hc)) NEU Nsu D MOKs Hcont).
    + (* the window is empty: nothing is added to the request *)
      apply window_empty_is in Wd. subst w.
      destruct (extend_deps_ok (fun t => is_agg_term t = false) _ _ No Nso Dj NSub1 eq_refl (fun x => eq_refl)) as [MOK _].
      refine (extend_finish (d_allow_extend_merges d) sub n1 _ _ su u _ q n' MI MOK _ _ H).
      * intros nm dp. exact (node_extend fl e s ops sub u S nm dp BO ES Nu Iu NSub Nsu Isu D).
      * intros n0 ts s0 ci ds -> MOKs Hcont. exact (merged_extend_N fl e s ops n0 ts s0 ci ds u S BO ES Nu Iu NSub NEU D MOKs Hcont).
Qed.

Lemma stage_concat fuel d a b idc an bn usg n q n' :
  gen_ok fuel d ->
  builder_ok (OConcat a b idc an bn) = true -> stage1 (d_allow_extend_merges d) (join_covered d fl) (OConcat a b idc an bn) = true ->
  wf_env e (OConcat a b idc an bn) ->
  NoDup (req (OConcat a b idc an bn) usg) -> incl (req (OConcat a b idc an bn) usg) (column_names (OConcat a b idc an bn)) ->
  to_near_f (S fuel) d (OConcat a b idc an bn) usg n = Ok (q, n') ->
  exists T, sem_gen fl (OConcat a b idc an bn) e = Some T /\ Delivers fl e q (req (OConcat a b idc an bn) usg) T /\
            (d_allow_extend_merges d = true -> MergeInvN q).
Proof.
  intros IH BO St WF Nu Iu H. set (u := req (OConcat a b idc an bn) usg) in *. cbn [to_near_f] in H.
  simpl in St. rewrite !andb_true_iff in St. destruct St as [[Sta Stb] Sid].
  destruct (bok_concat _ _ _ _ _ BO) as [BOa [BOb Hab]].
  assert (forall c, In c (column_names a) <-> In c (column_names b)) as Eab.
  { pose proof BO as BO'. simpl in BO'. rewrite !andb_true_iff in BO'. destruct BO' as [[[_ _] B] _]. unfold set_eqb in B. apply andb_true_iff in B. destruct B as [B1 B2].
    intros c. split; [apply (proj1 (subset_spec _ _) B1)|apply (proj1 (subset_spec _ _) B2)]. }
  pose proof (builder_ok_nodup a BOa) as Na.
  set (p := OConcat a b idc an bn) in *.
  change (match usg with Some u0 => u0 | None => column_names p end) with u in H.
  set (u1 := if is_nil u then firstn 1 (column_names p) else u) in *.
  assert (column_names p <> []) as NCp by (apply (stage1_cols_nonempty (d_allow_extend_merges d) (join_covered d fl)); [exact BO|simpl; rewrite Sta, Stb, Sid; reflexivity]).
  assert (u1 <> [] /\ NoDup u1 /\ incl u1 (column_names p) /\ incl u u1) as [NU1 [Nu1 [Iu1 Iuu1]]].
  { unfold u1. destruct (is_nil u) eqn:EN.
    - assert (u = []) as Eu by (destruct u; [reflexivity|discriminate]).
      destruct (column_names p) as [|c0 t]; [congruence|]. simpl. split; [discriminate|]. split; [constructor; [intros []|constructor]|].
      split; [intros x [<-|[]]; left; reflexivity|rewrite Eu; intros x []].
    - split; [intros X; rewrite X in EN; discriminate|]. split; [exact Nu|]. split; [exact Iu|apply incl_refl]. }
  assert (subset u1 (column_names p) = true) as Sb1 by (apply subset_spec; exact Iu1).
  rewrite Sb1 in H. cbn [negb] in H.
  set (ul := cfs1 p u1) in *. set (ur := cfs2 p u1) in *.
  destruct (set_eqb ul ur) eqn:Seq; cbn [negb] in H; [|discriminate].
  assert (forall c, In c ul <-> In c (column_names a) /\ In c u1) as Hul by (intros c; unfold ul, cfs1, p; simpl; apply In_set_inter).
  set (uj := match idc with Some c => add_end ul c | None => ul end) in *.
  assert (NoDup ul) as Nul by (unfold ul, cfs1, p; simpl; apply NoDup_set_inter, Na).
  assert (NoDup uj) as Nuj by (unfold uj; destruct idc; [apply NoDup_add_end|]; exact Nul).
  assert (column_names p = column_names a ++ match idc with Some c => [c] | None => [] end) as ECp by reflexivity.
  assert (forall c, In c uj <-> (In c (column_names a) /\ In c u1) \/ match idc with Some c0 => c = c0 | None => False end) as Huj.
  { intros c. unfold uj. destruct idc as [c0|]; [rewrite In_add_end|]; rewrite Hul; tauto. }
  assert (incl u1 uj) as Iu1j.
  { intros c Hc. apply Huj. specialize (Iu1 c Hc). rewrite ECp in Iu1. apply in_app_iff in Iu1. destruct Iu1 as [X|X]; [left; tauto|right].
    destruct idc as [c0|]; [destruct X as [<-|[]]; reflexivity|destruct X]. }
  assert (uj <> []) as NUj. { destruct u1 as [|x t]; [congruence|]. intros X. specialize (Iu1j x (or_introl eq_refl)). rewrite X in Iu1j. destruct Iu1j. }
  unfold bind in H.
  set (el := match idc with Some c => builder_extend_const a c (VStr an) | None => a end) in *.
  set (er := match idc with Some c => builder_extend_const b c (VStr bn) | None => b end) in *.
  destruct (to_near_f fuel d el (Some uj) n) as [[ql n1]| |] eqn:ERl; try discriminate.
  destruct (to_near_f fuel d er (Some uj) n1) as [[qr n2]| |] eqn:ERr; try discriminate.
  injection H as <- _.
  pose proof (wf_env_left e p a b eq_refl WF) as WFa. pose proof (wf_env_right e p a b eq_refl WF) as WFb.
  (* the two operands, with their labels *)
  assert (forall (x : op) (lab : string), builder_ok x = true -> stage1 (d_allow_extend_merges d) (join_covered d fl) x = true -> wf_env e x ->
            (forall c, In c (column_names a) <-> In c (column_names x)) ->
            match idc with Some _ => concat_src_ok x = true | None => True end ->
            forall qx m1 m2, to_near_f fuel d (match idc with Some c => builder_extend_const x c (VStr lab) | None => x end) (Some uj) m1 = Ok (qx, m2) ->
            exists X, sem_gen fl x e = Some X /\
                      Delivers fl e qx uj (match idc with Some c => mktable (cols X ++ [c]) (map (fun r => r ++ [VStr lab]) (rows X)) | None => X end)) as Hop.
  { intros x lab BOx Stx WFx Eax Okx qx m1 m2 ER.
    assert (forall c, In c uj -> In c (column_names x) \/ match idc with Some c0 => c = c0 | None => False end) as Ijx.
    { intros c Hc. apply Huj in Hc. destruct Hc as [[Hc _]|Hc]; [left; apply Eax, Hc|right; exact Hc]. }
    destruct idc as [c0|].
    - assert (~ In c0 (column_names x)) as Ncx by (intros I; apply Hab, Eax, I).
      destruct (builder_extend_const_cases x c0 (VStr lab) Okx) as [EB|[s0 [ops0 [Ex EB]]]]; rewrite EB in ER.
      + assert (builder_ok (OExtend x [(c0, EConst (VStr lab))] false no_window) = true) as BOe by (simpl; rewrite BOx; reflexivity).
        assert (stage1 (d_allow_extend_merges d) (join_covered d fl) (OExtend x [(c0, EConst (VStr lab))] false no_window) = true) as Ste by (simpl; rewrite Stx; reflexivity).
        assert (incl uj (column_names (OExtend x [(c0, EConst (VStr lab))] false no_window))) as Ije.
        { intros c Hc. simpl. apply In_add_end. destruct (Ijx c Hc) as [X|X]; [left; exact X|right; exact X]. }
        destruct (IH _ (Some uj) m1 qx m2 BOe Ste (wf_env_unary e _ x eq_refl WFx) Nuj Ije ER) as [TX [ETX [DX _]]]. cbn [req] in DX.
        simpl in ETX. destruct (sem_gen fl x e) as [X|] eqn:EX; [|discriminate]. simpl in ETX. injection ETX as <-.
        exists X. split; [reflexivity|].
        rewrite (sem_extend_const_fresh fl c0 (VStr lab) X) in DX; [exact DX|].
        apply mem_false. rewrite (sem_cols fl x e X EX). exact Ncx.
      + subst x.
        assert (~ In c0 (map fst ops0)) as Nck by (intros I; apply Ncx; simpl; apply In_ext_cols; right; exact I).
        pose proof (bok_extend_app_const s0 ops0 c0 (VStr lab) BOx Nck) as BOe.
        assert (stage1 (d_allow_extend_merges d) (join_covered d fl) (OExtend s0 (ops0 ++ [(c0, EConst (VStr lab))]) false no_window) = true) as Ste by exact Stx.
        assert (incl uj (column_names (OExtend s0 (ops0 ++ [(c0, EConst (VStr lab))]) false no_window))) as Ije.
        { intros c Hc. cbn [column_names]. unfold ext_cols. rewrite map_app, fold_left_app. simpl. apply In_add_end.
          destruct (Ijx c Hc) as [X|X]; [left; exact X|right; exact X]. }
        destruct (IH _ (Some uj) m1 qx m2 BOe Ste (wf_env_unary e _ (OExtend s0 ops0 false no_window) eq_refl WFx) Nuj Ije ER) as [TX [ETX [DX _]]]. cbn [req] in DX.
        simpl in ETX. destruct (sem_gen fl s0 e) as [S0|] eqn:ES0; [|discriminate]. simpl in ETX. injection ETX as <-.
        assert (sem_gen fl (OExtend s0 ops0 false no_window) e = Some (sem_extend fl ops0 S0)) as EX by (simpl; rewrite ES0; reflexivity).
        exists (sem_extend fl ops0 S0). split; [exact EX|].
        rewrite (sem_extend_app_const fl ops0 c0 (VStr lab) S0) in DX.
        rewrite (sem_extend_const_fresh fl c0 (VStr lab) (sem_extend fl ops0 S0)) in DX; [exact DX|].
        apply mem_false. rewrite (sem_cols fl _ e _ EX). exact Ncx.
    - assert (incl uj (column_names x)) as Ije by (intros c Hc; destruct (Ijx c Hc) as [X|[]]; exact X).
      destruct (IH x (Some uj) m1 qx m2 BOx Stx WFx Nuj Ije ER) as [X [EX [DX _]]]. exists X. split; [exact EX|exact DX]. }
  assert (match idc with Some _ => concat_src_ok a = true | None => True end /\ match idc with Some _ => concat_src_ok b = true | None => True end) as [Oka Okb].
  { destruct idc; [apply andb_true_iff in Sid; exact Sid|split; exact I]. }
  destruct (Hop a an BOa Sta WFa (fun c => iff_refl _) Oka ql n n1 ERl) as [A [EA DA]].
  destruct (Hop b bn BOb Stb WFb Eab Okb qr n1 n2 ERr) as [B [EB DB]].
  pose proof (sem_cols fl a e A EA) as ECA. pose proof (sem_cols fl b e B EB) as ECB.
  exists (sem_concat idc an bn A B). split; [simpl; rewrite EA, EB; reflexivity|].
  split; [|intros _; apply merge_invN_not_mg; exact I].
  apply (delivers_union fl e _ uj ql qr _ _ u (sem_concat idc an bn A B) DA DB Nuj NUj).
  + intros c Hc. apply Iu1j, Iuu1, Hc.
  + intros c Hc. specialize (Iu c Hc). rewrite ECp in Iu. unfold sem_concat. destruct idc; cbn [cols]; rewrite ECA; [exact Iu|rewrite app_nil_r in Iu; exact Iu].
  + intros K IK. apply (sel_concat idc an bn A B K).
    * exact (sem_rows_width fl b e B EB).
    * intros c. rewrite ECA, ECB. apply Eab.
    * destruct idc; [rewrite ECA; exact Hab|exact I].
    * intros c Hc. specialize (IK c Hc). apply Huj in IK. destruct idc as [c0|]; cbn [cols]; rewrite ECA.
      { apply in_app_iff. destruct IK as [[X _]|X]; [left; exact X|right; left; symmetry; exact X]. }
      { destruct IK as [[X _]|[]]. exact X. }
Qed.

Lemma stage_fresh fuel d p s su u (F : table -> table) k tms sfx n q n' :
  gen_ok fuel d -> builder_ok s = true -> stage1 (d_allow_extend_merges d) (join_covered d fl) s = true -> wf_env e s ->
  NoDup su -> incl su (column_names s) ->
  (forall S, sem_gen fl s e = Some S -> sem_gen fl p e = Some (F S)) ->
  (forall S sub nm, sem_gen fl s e = Some S -> Delivers fl e sub su S ->
     Delivers fl e (TUnary nm tms sub (mk_tci (Some su) false None) sfx false None) u (F S)) ->
  (do (subsql, n1) <- to_near_f fuel d s (Some su) n;
   Ok (TUnary (mkvn k n1) tms subsql (mk_tci (Some su) false None) sfx false None, S n1)) = Ok (q, n') ->
  exists T, sem_gen fl p e = Some T /\ Delivers fl e q u T /\ (d_allow_extend_merges d = true -> MergeInvN q).
Proof.
  intros IH BOs Sts WFs Nsu Isu HF HD H. unfold bind in H.
  destruct (to_near_f fuel d s (Some su) n) as [[sub n1]| |] eqn:ER; try discriminate. injection H as <- _.
  destruct (IH s (Some su) n sub n1 BOs Sts WFs Nsu Isu ER) as [S [ES [D _]]].
  exists (F S). split; [exact (HF S ES)|]. split; [exact (HD S sub _ ES D)|intros _; apply merge_invN_not_mg; exact I].
Qed.

Theorem gen_stage1 : forall fuel d, gen_ok fuel d.
Proof.
  induction fuel as [|fuel IH]; intros d p usg n q n' BO St WF Nu Iu H; [discriminate|].
  destruct p as [name cs|s ops wd w|s ops gb|s x|s cs|s ds|s m|s m dels|s cs rev lim|a b on_a on_b jt|a b idc an bn];
    [ | exact (stage_extend fuel d s ops wd w usg n q n' (IH d) BO St WF Nu Iu H) | | | | | | | | | exact (stage_concat fuel d a b idc an bn usg n q n' (IH d) BO St WF Nu Iu H)];
    set (u := req _ usg) in *; cbn [to_near_f] in H.
  - (* table *)
    change (match usg with Some u0 => u0 | None => column_names (OTable name cs) end) with u in H.
    destruct (subset u cs) eqn:Sb; cbn [negb] in H; [|discriminate].
    destruct (WF name cs (or_introl eq_refl)) as [st [G WT]].
    simpl in BO. apply andb_true_iff in BO. destruct BO as [_ Ncs]. apply nodupb_NoDup in Ncs.
    exists st. split; [simpl; rewrite G; f_equal; apply sel_id_table; assumption|].
    destruct (negb (is_nil u) && negb (set_eqb u cs)) eqn:C; injection H as <- _.
    + split; [|intros _; apply merge_invN_not_mg; exact I]. apply delivers_table_reference with (cs := cs); try assumption. destruct u; [discriminate|discriminate].
    + split; [|intros _; apply merge_invN_not_mg; exact I]. apply (delivers_table fl e name cs st u (filter (fun c => mem c u) cs) G WT).
      * intros c Hc. apply filter_In. split; [apply Iu, Hc|apply mem_In, Hc].
      * intros c Hc. apply filter_In in Hc. tauto.
      * apply NoDup_filter, Ncs.
  - (* project *)
    simpl in St. apply andb_true_iff in St. destruct St as [Sts NE0].
    destruct (bok_project _ _ _ BO) as [BOs Nall].
    change (match usg with Some u0 => u0 | None => column_names (OProject s ops gb) end) with u in H.
    set (guard := is_nil gb && negb (is_nil ops) && negb (existsb (fun k => mem k u) (map fst ops))) in *.
    set (u1 := if guard then u ++ firstn 1 (map fst ops) else u) in *.
    assert (incl u u1) as Iuu1 by (unfold u1; destruct guard; [intros c Hc; apply in_app_iff; left; exact Hc|apply incl_refl]).
    assert (incl u1 (column_names (OProject s ops gb))) as Iu1.
    { unfold u1. destruct guard; [|exact Iu]. intros c Hc. apply in_app_iff in Hc. destruct Hc as [Hc|Hc]; [apply Iu, Hc|].
      simpl. apply in_app_iff. right. destruct (map fst ops) as [|k0 t]; [destruct Hc|]. simpl in Hc. destruct Hc as [<-|[]]. left. reflexivity. }
    assert (gb = [] -> sub_ops u1 ops <> []) as Hsub.
    { intros ->. destruct ops as [|[k0 e0] ops']; [simpl in NE0; discriminate|]. unfold u1, guard. cbn [is_nil negb andb map fst].
      destruct (existsb (fun k => mem k u) (k0 :: map fst ops')) eqn:EX; cbn [negb].
      - apply existsb_exists in EX. destruct EX as [k [Ik Mk]]. apply mem_In in Mk. change (k0 :: map fst ops') with (map fst ((k0, e0) :: ops')) in Ik. apply in_map_iff in Ik. destruct Ik as [ke [Ek Ike]].
        intros X. pose proof (in_sub_ops u ((k0, e0) :: ops') ke Ike) as I. rewrite Ek in I. specialize (I Mk). rewrite X in I. destruct I.
      - cbn [firstn]. intros X. pose proof (in_sub_ops (u ++ [k0]) ((k0, e0) :: ops') (k0, e0) (or_introl eq_refl)) as I.
        cbn [fst] in I. specialize (I ltac:(apply in_app_iff; right; left; reflexivity)). rewrite X in I. destruct I. }
    assert (incl (py_set (cfs1 (OProject s ops gb) u1)) (column_names s)) as Isu
        by (intros c Hc; apply (proj1 (In_py_set _ _)) in Hc; exact (cfs1_incl _ s u1 BO eq_refl Iu1 c Hc)).
    refine (stage_fresh fuel d (OProject s ops gb) s _ u (sem_project fl ops gb) _ _ _ n q n' (IH d) BOs Sts (wf_env_unary e _ s eq_refl WF)
                        (NoDup_py_set _) Isu _ _ H).
    + intros S ES. simpl. rewrite ES. reflexivity.
    + intros S sub nm ES D. exact (node_project fl e s ops gb sub u u1 S nm BO NE0 ES Iuu1 Iu1 Hsub Isu D).
  - (* select_rows *)
    simpl in St. pose proof (bok_select_rows _ _ BO) as BOs.
    change (match usg with Some u0 => u0 | None => column_names (OSelectRows s x) end) with u in H.
    pose proof (cfs1_incl _ s u BO eq_refl Iu) as Isu.
    assert (NoDup (cfs1 (OSelectRows s x) u)) as Nsu by (unfold cfs1; simpl; apply NoDup_set_union, NoDup_set_inter, (builder_ok_nodup s BOs)).
    refine (stage_fresh fuel d (OSelectRows s x) s _ u (sem_select_rows fl x) _ _ _ n q n' (IH d) BOs St (wf_env_unary e _ s eq_refl WF) Nsu Isu _ _ H).
    + intros S ES. simpl. rewrite ES. reflexivity.
    + intros S sub nm ES D. exact (node_select_rows fl e s x sub u S nm BO ES Nu Iu Nsu Isu D).
  - (* select_columns *)
    simpl in St. destruct (bok_select_cols _ _ BO) as [BOs Ncs].
    change (match usg with Some u0 => u0 | None => column_names (OSelectCols s cs) end) with u in H. unfold bind in H.
    set (su := cfs1 (OSelectCols s cs) u) in *.
    destruct (to_near_f fuel d s (Some su) n) as [[sub n1]| |] eqn:ER; try discriminate.
    assert (forall c, In c su <-> In c cs /\ In c u) as Hsu by (intros c; unfold su, cfs1; simpl; apply In_set_inter).
    assert (NoDup su) as Nsu by (unfold su, cfs1; simpl; apply NoDup_set_inter, Ncs).
    pose proof (cfs1_incl _ s u BO eq_refl Iu) as Isu.
    destruct (IH d s (Some su) n sub n1 BOs St (wf_env_unary e _ s eq_refl WF) Nsu Isu ER) as [S [ES [D MI]]]. cbn [req] in D.
    exists (sel cs S). split; [simpl; rewrite ES; reflexivity|].
    assert (exists q', (if terms_is_none sub then (match su with [] => Some (empty_terms sub) | _ => None end) else narrow_or_first sub su) = Some q' /\ q = q') as [q' [Eq' ->]].
    { destruct (terms_is_none sub) eqn:TN.
      - injection H as <- _. exists (empty_terms sub). split; [|reflexivity].
        destruct su as [|c0 su'] eqn:Esu; [reflexivity|]. exfalso.
        assert (tkeys sub = []) as EK by (destruct sub as [n0 [ts|]|nm [l|] s0 ci sfx mg dp|nm [l|] s1 c1 j s2 c2 on]; try discriminate; reflexivity).
        pose proof (dv_incl _ _ _ _ _ D c0 (or_introl eq_refl)) as X. rewrite EK in X. destruct X.
      - destruct (narrow_or_first sub su) as [q0|]; [|discriminate]. injection H as <- _. exists q0. split; reflexivity. }
    split; [|intros HM; exact (merge_invN_narrow sub su q' (MI HM) Nsu Eq')].
    apply (delivers_narrowing fl e sub su S su u (sel cs S) D Nsu (incl_refl _)); try assumption.
    + intros c Hc. apply Hsu. split; [apply Iu, Hc|exact Hc].
    + apply sel_nil_sel.
    + intros C IC. apply sel_sel. intros c Hc. apply Iu, IC, Hc.
  - (* drop_columns *)
    simpl in St. pose proof (bok_drop _ _ BO) as BOs.
    change (match usg with Some u0 => u0 | None => column_names (ODropCols s ds) end) with u in H. unfold bind in H.
    set (su := cfs1 (ODropCols s ds) u) in *.
    assert (forall c, In c u -> In c (column_names s) /\ ~ In c ds) as Hu.
    { intros c Hc. specialize (Iu c Hc). simpl in Iu. apply filter_In in Iu. destruct Iu as [A B]. apply negb_true_iff, mem_false in B. tauto. }
    assert (su = u) as Esu.
    { unfold su, cfs1. simpl. apply filter_all. intros c Hc. apply negb_true_iff, mem_false. apply Hu, Hc. }
    assert (filter (fun k => negb (mem k ds)) u = u) as Ekeep by (apply filter_all; intros c Hc; apply negb_true_iff, mem_false; apply Hu, Hc).
    rewrite Ekeep in H.
    destruct (to_near_f fuel d s (Some su) n) as [[sub n1]| |] eqn:ER; try discriminate.
    assert (NoDup su /\ incl su (column_names s)) as [Nsu Isu] by (rewrite Esu; split; [exact Nu|intros c Hc; apply Hu, Hc]).
    destruct (IH d s (Some su) n sub n1 BOs St (wf_env_unary e _ s eq_refl WF) Nsu Isu ER) as [S [ES [D MI]]]. cbn [req] in D.
    exists (sem_drop_cols ds S). split; [simpl; rewrite ES; reflexivity|].
    assert (exists q', (if terms_is_none sub then (match u with [] => Some (empty_terms sub) | _ => None end) else narrow_or_first sub u) = Some q' /\ q = q') as [q' [Eq' ->]].
    { destruct (terms_is_none sub) eqn:TN.
      - destruct u as [|c0 u']; [|discriminate]. injection H as <- _. exists (empty_terms sub). split; reflexivity.
      - destruct (narrow_or_first sub u) as [q0|]; [|discriminate]. injection H as <- _. exists q0. split; reflexivity. }
    rewrite Esu in D.
    assert (incl u (cols (sem_drop_cols ds S))) as IuT.
    { intros c Hc. simpl. apply filter_In. rewrite (sem_cols fl s e S ES). split; [apply Hu, Hc|apply negb_true_iff, mem_false; apply Hu, Hc]. }
    split; [|intros HM; exact (merge_invN_narrow sub u q' (MI HM) Nu Eq')].
    apply (delivers_narrowing fl e sub u S u u (sem_drop_cols ds S) D Nu (incl_refl _) (incl_refl _) IuT); try assumption.
    + unfold sem_drop_cols. apply sel_nil_sel.
    + intros C IC. unfold sem_drop_cols. apply sel_sel. intros c Hc. apply IuT, IC, Hc.
  - (* rename_columns *)
    simpl in St. destruct (bok_rename _ _ BO) as [BOs OK].
    change (match usg with Some u0 => u0 | None => column_names (ORename s m) end) with u in H.
    assert (incl (py_set (cfs1 (ORename s m) u)) (column_names s)) as Isu
        by (intros c Hc; apply (proj1 (In_py_set _ _)) in Hc; exact (cfs1_incl _ s u BO eq_refl Iu c Hc)).
    refine (stage_fresh fuel d (ORename s m) s _ u (sem_rename m) _ _ _ n q n' (IH d) BOs St (wf_env_unary e _ s eq_refl WF) (NoDup_py_set _) Isu _ _ H).
    + intros S ES. simpl. rewrite ES. reflexivity.
    + intros S sub nm ES D. exact (node_rename fl e s m sub u S nm BO ES Nu Iu Isu D).
  - (* map_columns *)
    simpl in St. destruct (bok_map_cols _ _ _ BO) as [BOs OK].
    change (match usg with Some u0 => u0 | None => column_names (OMapCols s m dels) end) with u in H.
    assert (incl (py_set (cfs1 (OMapCols s m dels) u)) (column_names s)) as Isu
        by (intros c Hc; apply (proj1 (In_py_set _ _)) in Hc; exact (cfs1_incl _ s u BO eq_refl Iu c Hc)).
    refine (stage_fresh fuel d (OMapCols s m dels) s _ u (fun t => sem_drop_cols dels (sem_rename m t)) _ _ _ n q n' (IH d) BOs St
                        (wf_env_unary e _ s eq_refl WF) (NoDup_py_set _) Isu _ _ H).
    + intros S ES. simpl. rewrite ES. reflexivity.
    + intros S sub nm ES D. exact (node_map_cols fl e s m dels sub u S nm BO ES Nu Iu Isu D).
  - (* order_rows *)
    simpl in St. pose proof (bok_order _ _ _ _ BO) as BOs.
    change (match usg with Some u0 => u0 | None => column_names (OOrder s cs rev lim) end) with u in H. cbn [column_names] in H.
    assert (NoDup (filter (fun c => mem c (cfs1 (OOrder s cs rev lim) u)) (column_names s))) as Nsu by (apply NoDup_filter, (builder_ok_nodup s BOs)).
    refine (stage_fresh fuel d (OOrder s cs rev lim) s _ u (sem_order fl cs rev lim) _ _ _ n q n' (IH d) BOs St (wf_env_unary e _ s eq_refl WF) Nsu _ _ _ H).
    + intros c Hc. apply filter_In in Hc. tauto.
    + intros S ES. simpl. rewrite ES. reflexivity.
    + intros S sub nm ES D. exact (node_order fl e s cs rev lim sub u S nm BO ES Nu Iu Nsu D).
  - (* natural_join written as a join (no rewrite) *)
    cbn [stage1] in St. rewrite !andb_true_iff in St. destruct St as [[Sta Stb] Jk].
    unfold join_covered in Jk. rewrite !andb_true_iff in Jk. destruct Jk as [[Carry NM] Jt]. apply negb_true_iff in NM.
    destruct (bok_join _ _ _ _ _ BO) as [BOa BOb].
    assert (gen_join d (to_near_f fuel d a) (to_near_f fuel d b) (OJoin a b on_a on_b jt) a b on_a on_b jt true usg n = Ok (q, n')) as HJ.
    { destruct jt; try exact H; apply negb_true_iff in Jt; rewrite Jt in H; exact H. }
    pose proof (join_not_mg d a b on_a on_b jt usg n q n' (S fuel) H) as NMq. clear H.
    pose proof (wf_env_left e (OJoin a b on_a on_b jt) a b eq_refl WF) as WFa. pose proof (wf_env_right e (OJoin a b on_a on_b jt) a b eq_refl WF) as WFb.
    destruct (node_join fl e d (to_near_f fuel d a) (to_near_f fuel d b) a b on_a on_b jt usg n q n' Carry NM BO
                (stage1_cols_nonempty _ _ a BOa Sta) (stage1_cols_nonempty _ _ b BOb Stb) Nu Iu HJ) as [T [ET D]].
    + intros ul ql n1 n2 Nl Il E1. destruct (IH d a (Some ul) n1 ql n2 BOa Sta WFa Nl Il E1) as [A [EA [DA _]]].
      exists A. split; [exact EA|]. split; [exact DA|]. exact (gen_bare_ok e fuel d a (Some ul) n1 ql n2 BOa WFa Il E1).
    + intros ur qr n1 n2 Nr Ir E1. destruct (IH d b (Some ur) n1 qr n2 BOb Stb WFb Nr Ir E1) as [B [EB [DB _]]].
      exists B. split; [exact EB|]. split; [exact DB|]. exact (gen_bare_ok e fuel d b (Some ur) n1 qr n2 BOb WFb Ir E1).
    + exists T. split; [exact ET|]. split; [exact D|intros _; exact (merge_invN_not_mg _ NMq)].
Qed.

End Main.
