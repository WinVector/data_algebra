(* PEXEC, part 3: the non-windowed branch of _extend_step (act_on per expression, columns_to_frame_,
   add_data_frame_columns_to_data_frame_ with its two column-copy paths) refines sem_extend up to column order. *)
From Coq Require Import List Bool Arith String Lia Sorted.
Import ListNotations.
From DA Require Import Base.PyRT Base.Val Model.Sem Model.PdPrim Model.PandasExec
  Proofs.SemBasicP Proofs.SemOrderP Proofs.ComposeP5 Proofs.PandasExecP1 Proofs.PandasExecP2 Proofs.ListP Proofs.TabP.
Local Open Scope string_scope.
Local Open Scope list_scope.

Lemma combine_map_r {A B C} (g : B -> C) (l : list A) (m : list B) :
  combine l (map g m) = map (fun p => (fst p, g (snd p))) (combine l m).
Proof. revert m. induction l as [|a l IH]; intros [|b m]; simpl; try reflexivity. rewrite IH. reflexivity. Qed.
Lemma combine_map_zip {A B C} (h : A * B -> C) (l : list A) (m : list B) :
  combine (map h (combine l m)) m = map (fun p => (h p, snd p)) (combine l m).
Proof. revert m. induction l as [|a l IH]; intros [|b m]; simpl; try reflexivity. rewrite IH. reflexivity. Qed.
Lemma combine_map_l {A B C} (g : A -> C) (l : list A) (m : list B) :
  combine (map g l) m = map (fun p => (g (fst p), snd p)) (combine l m).
Proof. revert m. induction l as [|a l IH]; intros [|b m]; simpl; try reflexivity. rewrite IH. reflexivity. Qed.
Lemma combine_self_map {A B} (f : A -> B) (l : list A) : combine l (map f l) = map (fun a => (a, f a)) l.
Proof. induction l as [|a l IH]; simpl; [reflexivity|]. rewrite IH. reflexivity. Qed.

Lemma map_snd_tag (rs : list (list val)) : forall n, map snd (tag_from n rs) = rs.
Proof. induction rs as [|r rs IH]; intros n; simpl; [reflexivity|]. rewrite IH. reflexivity. Qed.

Lemma transpose_rows n (cs : list (list val)) :
  transpose_cols n cs = map (fun i => map (fun c => nth i c VNull) cs) (seq 0 n).
Proof.
  revert cs. induction n as [|n IH]; intros cs; simpl; [reflexivity|]. f_equal.
  - apply map_ext. intros [|x c]; reflexivity.
  - rewrite IH, <- seq_shift, !map_map. apply map_ext. intros i. rewrite map_map. apply map_ext. intros [|x c]; simpl; [destruct i; reflexivity|reflexivity].
Qed.

Lemma transpose_cols_length n (cs : list (list val)) : List.length (transpose_cols n cs) = n.
Proof. rewrite transpose_rows, map_length. apply seq_length. Qed.

Lemma all_some_map {X Y} (f : X -> Y) (l : list X) : all_some (map (fun x => Some (f x)) l) = Some (map f l).
Proof. induction l as [|a l IH]; simpl; [reflexivity|]. rewrite IH. reflexivity. Qed.
Lemma all_some_ext {X Y} (f g : X -> option Y) (l : list X) : (forall x, In x l -> f x = g x) -> all_some (map f l) = all_some (map g l).
Proof. intros H. f_equal. apply map_ext_in, H. Qed.

Lemma nth_repeat {A} (v d : A) n i : (i < n)%nat -> nth i (repeat v n) d = v.
Proof. revert i. induction n as [|n IH]; intros [|i] L; simpl; try lia; [reflexivity|]. apply IH. lia. Qed.

Lemma map_const_repeat {A B} (f : A -> B) (v : B) (l : list A) : (forall x, In x l -> f x = v) -> map f l = repeat v (List.length l).
Proof. induction l as [|a l IH]; intros H; simpl; [reflexivity|]. rewrite (H a (or_introl eq_refl)), IH; [reflexivity|]. intros x I. apply H. right. exact I. Qed.

(* ------------------------------------------------------------------ expressions without column reference are scalars *)
Lemma cols_used_app_nil l : (fix go (l : list expr) : list string := match l with [] => [] | a :: t => cols_used a ++ go t end) l = [] ->
  Forall (fun a => cols_used a = []) l.
Proof.
  induction l as [|a t IH]; intros H; [constructor|]. apply app_eq_nil in H. destruct H as [Ha Ht]. constructor; [exact Ha|apply IH, Ht].
Qed.
Lemma eval_expr_no_cols fl cs r cs' r' e : cols_used e = [] -> eval_expr fl cs r e = eval_expr fl cs' r' e.
Proof.
  induction e as [c|v|o args IH] using expr_ind2; cbn [eval_expr cols_used]; intros H; [discriminate|reflexivity|].
  f_equal. apply cols_used_app_nil in H. induction IH as [|a t Ha Ht IHt]; [reflexivity|].
  inversion H; subst. rewrite Ha by assumption. rewrite IHt by assumption. reflexivity.
Qed.

(* ------------------------------------------------------------------ columns_to_frame_ on the values of act_on *)
Definition new_rows (ops : list (string * expr)) (t : table) : list (list val) :=
  map (fun r => map (fun ke => eval_expr fl_pandas (cols t) r (snd ke)) ops) (rows t).

Lemma act_on_len e t : match cval_len (act_on e t) with None => True | Some ln => ln = nrows t end.
Proof. unfold act_on. destruct (cols_used e); simpl; [exact I|]. apply map_length. Qed.

Lemma promote_act_on e t n : n = nrows t -> (0 < n)%nat ->
  promote n (act_on e t) = Some (map (fun r => eval_expr fl_pandas (cols t) r e) (rows t)).
Proof.
  intros -> P. unfold promote. destruct (nrows t) as [|k] eqn:E; [lia|]. unfold act_on.
  destruct (cols_used e) eqn:U.
  - f_equal. unfold nrows in E. rewrite <- E. symmetry. apply map_const_repeat. intros r _. apply eval_expr_no_cols, U.
  - rewrite map_length. unfold nrows in E. rewrite E, Nat.eqb_refl. reflexivity.
Qed.

Lemma columns_to_frame_fold (cs : list (string * cval)) n b :
  (forall kv, In kv cs -> match cval_len (snd kv) with None => True | Some ln => ln = n end) ->
  exists b', fold_left (fun (st : option (bool * option nat)) kv =>
                          st' <- st ;;
                          match cval_len (snd kv) with
                          | None => Some st'
                          | Some ln => match snd st' with
                                       | None => Some (false, Some ln)
                                       | Some tr => if Nat.eqb tr ln then Some (false, Some tr) else None
                                       end
                          end) cs (Some (b, Some n)) = Some (b', Some n).
Proof.
  revert b. induction cs as [|kv cs IH]; intros b H; simpl; [exists b; reflexivity|].
  pose proof (H kv (or_introl eq_refl)) as Hk. destruct (cval_len (snd kv)) as [ln|].
  - subst ln. rewrite Nat.eqb_refl. apply IH. intros x I. apply H. right. exact I.
  - apply IH. intros x I. apply H. right. exact I.
Qed.

Lemma columns_to_frame_extend ops t xf :
  (0 < nrows t)%nat -> ops <> [] ->
  columns_to_frame (map (fun ke => (fst ke, act_on (snd ke) t)) ops) (Some (nrows t)) = Some xf ->
  xf_tab xf = mktable (map fst ops) (new_rows ops t).
Proof.
  intros P N. unfold columns_to_frame. rewrite map_length.
  destruct ops as [|op0 ops0] eqn:Eo; [congruence|]. rewrite <- Eo in *. clear N.
  replace (Nat.ltb (List.length ops) 1) with false by (rewrite Eo; reflexivity).
  destruct (columns_to_frame_fold (map (fun ke => (fst ke, act_on (snd ke) t)) ops) (nrows t) true) as [b' Hf].
  { intros kv I. apply in_map_iff in I. destruct I as [ke [<- _]]. cbn [snd]. apply act_on_len. }
  rewrite Hf. clear Hf.
  assert (all_some (map (fun kv : string * cval => option_map (fun vs => (fst kv, vs)) (promote (nrows t) (snd kv)))
                        (map (fun ke => (fst ke, act_on (snd ke) t)) ops))
          = Some (map (fun ke => (fst ke, map (fun r => eval_expr fl_pandas (cols t) r (snd ke)) (rows t))) ops)) as Ha.
  { rewrite map_map. rewrite <- all_some_map. apply all_some_ext. intros ke _. cbn [fst snd].
    rewrite (promote_act_on _ _ _ eq_refl P). reflexivity. }
  assert (pd_frame_of_columns (nrows t) (map (fun ke => (fst ke, map (fun r => eval_expr fl_pandas (cols t) r (snd ke)) (rows t))) ops)
          = Some (mktable (map fst ops) (new_rows ops t))) as Hp.
  { unfold pd_frame_of_columns.
    replace (forallb _ _) with true.
    2:{ symmetry. apply forallb_forall. intros kv I. apply in_map_iff in I. destruct I as [ke [<- _]]. cbn [snd]. rewrite map_length. apply Nat.eqb_refl. }
    f_equal. f_equal; [rewrite map_map; reflexivity|].
    rewrite transpose_rows, map_map. cbn [snd]. unfold new_rows, nrows.
    rewrite <- (map_nth_seq (fun r => map (fun ke => eval_expr fl_pandas (cols t) r (snd ke)) ops) (rows t) []).
    apply map_ext_in. intros i Ii. apply in_seq in Ii. rewrite map_map. apply map_ext. intros ke.
    rewrite (nth_indep _ VNull (eval_expr fl_pandas (cols t) [] (snd ke))) by (rewrite map_length; lia).
    apply (map_nth (fun r => eval_expr fl_pandas (cols t) r (snd ke))). }
  destruct b'.
  - rewrite Ha. cbn [obind]. rewrite Hp. cbn [obind]. intros H. inversion H; subst. reflexivity.
  - replace (Nat.ltb (nrows t) 1) with false by (symmetry; apply Nat.ltb_ge; lia).
    rewrite Ha. cbn [obind]. rewrite Hp. cbn [obind]. intros H. inversion H; subst. reflexivity.
Qed.

(* ------------------------------------------------------------------ add_data_frame_columns_to_data_frame_ *)

Lemma fold_del_none cs : fold_left (fun acc c => r <- acc ;; pd_del c r) cs None = None.
Proof. induction cs as [|c cs IH]; simpl; [reflexivity|exact IH]. Qed.
Lemma fold_del_spec cs : forall t t',
  fold_left (fun acc c => r <- acc ;; pd_del c r) cs (Some t) = Some t' ->
  (cs = [] /\ t' = t) \/ t' = sem_select_cols (filter (fun x => negb (mem x cs)) (cols t)) t.
Proof.
  induction cs as [|c cs IH]; intros t t' H.
  - simpl in H. inversion H; subst. left. split; reflexivity.
  - right. simpl in H. destruct (pd_del c t) as [t1|] eqn:E; [|rewrite fold_del_none in H; discriminate].
    apply pd_del_inv in E. destruct E as [-> Ic].
    assert (filter (fun x => negb (mem x cs)) (remove_elem c (cols t)) = filter (fun x => negb (mem x (c :: cs))) (cols t)) as FF.
    { unfold remove_elem. rewrite filter_filter. apply filter_ext. intros x. cbn [mem].
      unfold eqb. destruct (eq_dec c x), (eq_dec x c); try congruence; reflexivity. }
    destruct (IH _ _ H) as [[-> ->] | ->].
    + cbn [mem negb]. f_equal. unfold remove_elem. apply filter_ext. intros x. unfold eqb.
      destruct (eq_dec c x), (eq_dec x c); try congruence; reflexivity.
    + cbn [cols sem_select_cols]. rewrite select_select by (intros x I; apply filter_In in I; tauto). rewrite FF. reflexivity.
Qed.

(* the cells of a frame after deleting the columns cs, read by name *)
Lemma fold_del_rows cs t t' : fold_left (fun acc c => r <- acc ;; pd_del c r) cs (Some t) = Some t' -> width_ok t ->
  cols t' = filter (fun x => negb (mem x cs)) (cols t) /\ width_ok t' /\ List.length (rows t') = List.length (rows t) /\
  Forall2 (fun r' r => forall x, get (cols t') r' x = if mem x (cols t') then get (cols t) r x else VNull) (rows t') (rows t).
Proof.
  intros H W. destruct (fold_del_spec _ _ _ H) as [[-> ->] | ->].
  - cbn [mem negb]. rewrite filter_true. split; [reflexivity|]. split; [exact W|]. split; [reflexivity|].
    apply Forall2_refl. intros r x.
    destruct (mem x (cols t)) eqn:M; [reflexivity|]. apply get_absent, mem_false, M.
  - cbn [cols rows sem_select_cols]. split; [reflexivity|]. split; [apply width_select_cols|]. split; [apply map_length|].
    apply Forall2_map_l. intros r _ x. apply get_map_cols.
Qed.

(* the normal path: res[c] = new[c] for every column of new, per row a fold of set_cell *)
Definition row_fold (cn : list string) (ks : list string) (st : list val * list string) (rn : list val) : list val * list string :=
  fold_left (fun (acc : list val * list string) k => (set_cell (snd acc) (fst acc) k (get cn rn k), add_end (snd acc) k)) ks st.

Lemma row_fold_cols cn ks : forall row ccs rn, snd (row_fold cn ks (row, ccs) rn) = fold_left add_end ks ccs.
Proof. induction ks as [|k ks IH]; intros row ccs rn; simpl; [reflexivity|]. apply IH. Qed.
Lemma row_fold_length cn ks : forall row ccs rn, List.length row = List.length ccs ->
  List.length (fst (row_fold cn ks (row, ccs) rn)) = List.length (fold_left add_end ks ccs).
Proof. induction ks as [|k ks IH]; intros row ccs rn L; simpl; [exact L|]. apply IH. apply set_cell_length, L. Qed.
Lemma row_fold_get cn ks : forall row ccs rn x, List.length row = List.length ccs ->
  get (fold_left add_end ks ccs) (fst (row_fold cn ks (row, ccs) rn)) x = if mem x ks then get cn rn x else get ccs row x.
Proof.
  induction ks as [|k ks IH]; intros row ccs rn x L; [reflexivity|].
  change (row_fold cn (k :: ks) (row, ccs) rn) with (row_fold cn ks (set_cell ccs row k (get cn rn k), add_end ccs k) rn).
  cbn [fold_left]. rewrite IH by (apply set_cell_length, L). cbn [mem].
  destruct (mem x ks) eqn:M; [destruct (eq_dec x k); reflexivity|].
  rewrite (set_cell_get _ _ _ _ _ L). destruct (eq_dec x k) as [->|n]; reflexivity.
Qed.

Lemma fold_setcol_spec new ks : forall acc u,
  (forall k, In k ks -> In k (cols new)) -> List.length (rows acc) = List.length (rows new) ->
  fold_left (fun a c => r <- a ;; vs <- pd_col c new ;; pd_set_col c vs r) ks (Some acc) = Some u ->
  u = mktable (fold_left add_end ks (cols acc))
              (map (fun p => fst (row_fold (cols new) ks (fst p, cols acc) (snd p))) (combine (rows acc) (rows new))).
Proof.
  induction ks as [|k ks IH]; intros acc u S L H.
  - simpl in H. inversion H; subst. cbn [fold_left]. unfold row_fold. cbn [fold_left fst].
    rewrite <- (map_map (fun p : list val * list val => fst p) (fun r => r)), map_id, map_fst_combine by exact L. symmetry. apply table_eta.
  - cbn [fold_left] in H. unfold obind at 2 in H. unfold pd_col in H.
    assert (mem k (cols new) = true) as Mk by (apply mem_In, S; left; reflexivity). rewrite Mk in H. cbn [obind] in H.
    unfold pd_set_col in H. unfold getcol, nrows in H. rewrite map_length, <- L, Nat.eqb_refl in H.
    apply IH in H; [|intros k' I; apply S; right; exact I|cbn [rows]; rewrite map_length, combine_length, map_length, <- L, Nat.min_id; reflexivity].
    rewrite H. cbn [cols rows fold_left]. f_equal.
    rewrite combine_map_r, map_map. cbn [fst snd].
    rewrite (combine_map_zip (fun p => set_cell (cols acc) (fst p) k (get (cols new) (snd p) k))), map_map. cbn [fst snd].
    apply map_ext. intros p. reflexivity.
Qed.

(* what add_data_frame_columns_to_data_frame_ returns, read by name: the cells of `new` where it has the column, those of `res` elsewhere *)
Definition overlay_ok (res new u : table) : Prop :=
  same_set (cols u) (cols res ++ cols new) /\ width_ok u /\
  Forall2 (fun ru p => forall x, get (cols u) ru x = if mem x (cols new) then get (cols new) (snd p) x else get (cols res) (fst p) x)
          (rows u) (combine (rows res) (rows new)).

Lemma Forall2_combine_l {A B} (P : A -> A * B -> Prop) (l : list A) (m : list B) :
  List.length l = List.length m -> (forall a b, In (a, b) (combine l m) -> P a (a, b)) -> Forall2 P l (combine l m).
Proof.
  revert m. induction l as [|a l IH]; intros [|b m] L H; simpl in *; try discriminate; constructor.
  - apply H. left. reflexivity.
  - apply IH; [lia|]. intros x y I. apply H. right. exact I.
Qed.
Lemma Forall2_combine_r {A B} (P : B -> A * B -> Prop) (l : list A) (m : list B) :
  List.length l = List.length m -> (forall a b, In (a, b) (combine l m) -> P b (a, b)) -> Forall2 P m (combine l m).
Proof.
  revert m. induction l as [|a l IH]; intros [|b m] L H; simpl in *; try discriminate; constructor.
  - apply H. left. reflexivity.
  - apply IH; [lia|]. intros x y I. apply H. right. exact I.
Qed.

Lemma add_columns_spec res new u :
  width_ok res -> width_ok new -> nrows res = nrows new -> add_columns res new = Some u -> overlay_ok res new u.
Proof.
  intros Wr Wn L. unfold add_columns, ncols, nrows in *.
  destruct (Nat.ltb (List.length (cols new)) 1) eqn:E1.
  { (* no new column *)
    intros H. inversion H; subst. apply ltb1_nil in E1. unfold overlay_ok. rewrite E1, app_nil_r.
    split; [apply same_set_refl|]. split; [exact Wr|]. apply Forall2_combine_l; [exact L|]. intros a b _ x. reflexivity. }
  replace (Nat.eqb (List.length (rows res)) 0 && Nat.ltb 0 (List.length (rows new))) with false.
  2:{ symmetry. destruct (Nat.eqb (List.length (rows res)) 0) eqn:E0; [|reflexivity]. apply Nat.eqb_eq in E0. rewrite <- L, E0. reflexivity. }
  rewrite L, Nat.eqb_refl. cbn [andb].
  destruct (Nat.ltb (List.length (cols res)) 1) eqn:E2.
  { (* res has no column: new is returned *)
    intros H. inversion H; subst. apply ltb1_nil in E2. unfold overlay_ok. rewrite E2. cbn [app].
    split; [apply same_set_refl|]. split; [exact Wn|]. apply Forall2_combine_r; [exact L|]. intros a b _ x.
    destruct (mem x (cols u)) eqn:M; [reflexivity|]. cbn [snd fst]. rewrite (get_absent (cols u) b x) by (apply mem_false, M). reflexivity. }
  destruct (Nat.ltb (List.length (cols res)) (2 * List.length (cols new))) eqn:E3.
  - (* lots of columns path *)
    destruct (fold_left _ (set_inter (cols res) (cols new)) (Some res)) as [res'|] eqn:Ed; cbn [obind]; [|discriminate].
    destruct (fold_del_rows _ _ _ Ed Wr) as [C' [W' [L' F']]].
    unfold pd_concat_cols, nrows. rewrite L', L, Nat.eqb_refl. intros H. inversion H; subst. clear H.
    assert (forall x, In x (cols res') <-> In x (cols res) /\ ~ In x (cols new)) as Ic.
    { intros x. rewrite C', filter_In, negb_true_iff, mem_false, In_set_inter. tauto. }
    unfold overlay_ok. cbn [cols rows]. split; [|split].
    + intros x. rewrite !in_app_iff, Ic. clear. destruct (in_dec string_dec x (cols new)); tauto.
    + unfold width_ok. cbn [cols rows]. apply Forall_forall. intros r I. apply in_map_iff in I. destruct I as [[a b] [<- I]].
      cbn [fst snd]. rewrite !app_length. unfold width_ok in W', Wn. rewrite Forall_forall in W', Wn.
      rewrite (W' a (in_combine_l _ _ _ _ I)), (Wn b (in_combine_r _ _ _ _ I)). reflexivity.
    + (* rows: (r' ++ rn) against (r, rn) *)
      clear Ed E1 E2 E3. unfold width_ok in W', Wn. revert F' L' L W' Wn. generalize (rows res') as R'. generalize (rows res) as R. generalize (rows new) as Rn.
      intros Rn R R' F'. revert Rn. induction F' as [|r' r R' R Hr F' IH]; intros Rn L' L W' Wn; destruct Rn as [|rn Rn]; simpl in *; try discriminate; constructor.
      * intros x. cbn [fst snd]. inversion W' as [|? ? Lr' W'']; subst. inversion Wn as [|? ? Lrn Wn'']; subst.
        destruct (mem x (cols new)) eqn:M.
        -- apply mem_In in M. rewrite get_app_r; [reflexivity| |exact Lr']. intros I. apply Ic in I. tauto.
        -- apply mem_false in M. destruct (in_dec string_dec x (cols res)) as [I|N].
           ++ rewrite get_app_l; [|apply Ic; tauto|exact Lr']. rewrite (Hr x).
              replace (mem x (cols res')) with true by (symmetry; apply mem_In, Ic; tauto). reflexivity.
           ++ rewrite get_app_r; [|intros I; apply Ic in I; tauto|exact Lr']. rewrite (get_absent _ _ _ M), (get_absent _ _ _ N). reflexivity.
      * apply IH; try lia; [inversion W'; assumption|inversion Wn; assumption].
  - (* normal path *)
    intros H. apply fold_setcol_spec in H; [|intros k I; exact I|exact L]. subst u.
    unfold overlay_ok. cbn [cols rows]. split; [|split].
    + intros x. rewrite In_fold_add_end, in_app_iff. tauto.
    + unfold width_ok. cbn [cols rows]. apply Forall_forall. intros r I. apply in_map_iff in I. destruct I as [[a b] [<- I]].
      cbn [fst snd]. apply row_fold_length. unfold width_ok in Wr. rewrite Forall_forall in Wr. apply Wr. eapply in_combine_l, I.
    + apply Forall2_map_l. intros [a b] I x. cbn [fst snd].
      apply row_fold_get. unfold width_ok in Wr. rewrite Forall_forall in Wr. apply Wr. eapply in_combine_l, I.
Qed.

(* ------------------------------------------------------------------ the non-windowed extend *)
Lemma Forall2_change_r {A B C D} (P : A -> C -> Prop) (Q : A -> D -> Prop) (f : B -> C) (g : B -> D) l m :
  (forall a b, In b m -> P a (f b) -> Q a (g b)) -> Forall2 P l (map f m) -> Forall2 Q l (map g m).
Proof.
  revert l. induction m as [|b m IH]; intros l H F; simpl in *; inversion F; subst; constructor.
  - apply H; [left; reflexivity|assumption].
  - apply IH; [|assumption]. intros a b' I. apply H. right. exact I.
Qed.

Lemma get_cons_same k ks (v : val) vs : get (k :: ks) (v :: vs) k = v.
Proof. unfold get. simpl. destruct (eq_dec k k); [reflexivity|congruence]. Qed.

Lemma last_assign_nodup {X} (F : string * X -> val) (ops : list (string * X)) x :
  NoDup (map fst ops) ->
  last_assign F ops x = if mem x (map fst ops) then Some (get (map fst ops) (map F ops) x) else None.
Proof.
  induction ops as [|ke t IH]; intros N; cbn [last_assign map mem]; [reflexivity|].
  inversion N as [|? ? Nk Nt]; subst. rewrite (IH Nt). destruct (eq_dec x (fst ke)) as [->|ne].
  - replace (mem (fst ke) (map fst t)) with false by (symmetry; apply mem_false, Nk). rewrite get_cons_same. reflexivity.
  - rewrite (get_cons_other _ _ _ _ _ ne). destruct (mem x (map fst t)); reflexivity.
Qed.

Lemma px_extend_plain_eqv ops t u :
  (0 < nrows t)%nat -> ops <> [] -> NoDup (map fst ops) -> width_ok t ->
  px_extend_plain ops t = Some u -> tab_eqv u (sem_extend fl_pandas ops t) /\ width_ok u.
Proof.
  intros P Ne N W. unfold px_extend_plain.
  destruct (columns_to_frame _ _) as [nf|] eqn:Ec; cbn [obind]; [|discriminate].
  pose proof (columns_to_frame_extend _ _ _ P Ne Ec) as En. rewrite En. intros H.
  assert (width_ok (mktable (map fst ops) (new_rows ops t))) as Wn.
  { unfold width_ok, new_rows. cbn [cols rows]. apply Forall_forall. intros r I. apply in_map_iff in I. destruct I as [r0 [<- _]].
    rewrite !map_length. reflexivity. }
  apply add_columns_spec in H; [|exact W|exact Wn|unfold nrows, new_rows; cbn [rows]; rewrite map_length; reflexivity].
  destruct H as [S [Wu F]]. split; [|exact Wu]. cbn [cols rows] in *.
  split; cbn [cols rows sem_extend].
  - intros x. rewrite (S x). unfold ext_cols. rewrite In_fold_add_end, in_app_iff. tauto.
  - unfold new_rows in F. rewrite combine_self_map in F. revert F. apply Forall2_change_r. intros ru r Ir Hr x. cbn [fst snd] in Hr.
    rewrite (Hr x). rewrite extend_row_get by (unfold width_ok in W; rewrite Forall_forall in W; apply W, Ir).
    rewrite (last_assign_nodup (fun ke => eval_expr fl_pandas (cols t) r (snd ke)) ops x N).
    destruct (mem x (map fst ops)); reflexivity.
Qed.
