(* C12, part 5: lemmas about the pieces of Model/PipePrint.v -- the two expression types (to_e / of_e), Python dict
   displays with distinct keys, evaluation of the literal syntax the printers emit. *)
From Coq Require Import List Bool String QArith Lia.
Import ListNotations.
From DA Require Import Base.PyRT Model.Equiv Gen.G_MergeOps Proofs.EquivP1 Proofs.EquivP2.
From DA Require Import Model.PyExpr Model.ExprPrint Model.ExprParse Model.ExprRoundtrip Model.PipePrintStr Model.PipePrintSyn Model.PipePrint.
Local Close Scope Q_scope.
Local Open Scope string_scope.
Local Open Scope bool_scope.
Local Open Scope list_scope.

Lemma mapM_map {A B C} (f : B -> option C) (g : A -> B) (l : list A) : mapM f (map g l) = mapM (fun x => f (g x)) l.
Proof. induction l as [|x t IH]; simpl; [reflexivity|]. rewrite IH. reflexivity. Qed.
Lemma mapM_ext {A B} (f g : A -> option B) (l : list A) : (forall x, In x l -> f x = g x) -> mapM f l = mapM g l.
Proof. induction l as [|x t IH]; intros H; simpl; [reflexivity|]. rewrite (H x (or_introl eq_refl)), IH; [reflexivity|].
  intros y Hy. apply H. right. exact Hy. Qed.
Lemma mapM_Some {A} (l : list A) : mapM (@Some A) l = Some l.
Proof. induction l as [|x t IH]; simpl; [reflexivity|]. rewrite IH. reflexivity. Qed.
Lemma mapM_some_map {A B} (f : A -> B) (l : list A) : mapM (fun x => Some (f x)) l = Some (map f l).
Proof. induction l as [|x t IH]; simpl; [reflexivity|]. rewrite IH. reflexivity. Qed.
Lemma mapM_inv {A B} (f : A -> option B) (l : list A) (r : list B) :
  mapM f l = Some r -> Forall2 (fun x y => f x = Some y) l r.
Proof. revert r. induction l as [|x t IH]; intros r H; simpl in H.
  - inversion H. constructor.
  - destruct (f x) as [y|] eqn:Fx; [|discriminate]. destruct (mapM f t) as [ys|] eqn:Ft; [|discriminate].
    inversion H; subst. constructor; [exact Fx|apply IH; reflexivity]. Qed.
Lemma mapM_of_Forall2 {A B} (f : A -> option B) (l : list A) (r : list B) :
  Forall2 (fun x y => f x = Some y) l r -> mapM f l = Some r.
Proof. induction 1 as [|x y l r Hxy _ IH]; simpl; [reflexivity|]. rewrite Hxy, IH. reflexivity. Qed.

Lemma of_to_const k v : to_const k = Some v -> of_const v = Some k.
Proof. destruct k as [|b|z|q| |s]; simpl; intros H; inversion H; subst; simpl; try reflexivity.
  destruct q as [n d]. simpl. destruct (Z.ltb n 0) eqn:L; f_equal; f_equal; f_equal.
  - apply Z.ltb_lt in L. rewrite Z.abs_neq by lia. lia.
  - apply Z.ltb_ge in L. rewrite Z.abs_eq by lia. reflexivity. Qed.

Lemma of_to_consts ks vs : mapM to_const ks = Some vs -> mapM of_const vs = Some ks.
Proof. intros H. apply mapM_inv in H. apply mapM_of_Forall2.
  induction H as [|k v ks vs Hkv _ IH]; constructor; [exact (of_to_const k v Hkv)|exact IH]. Qed.

(* the nested fixpoints of to_e / of_e as list functions *)
Lemma to_e_op op i m args :
  to_e (POp op i m args) = option_map (EOp op i m None) (mapM to_e args).
Proof. simpl. f_equal. induction args as [|a t IH]; simpl; [reflexivity|]. rewrite IH. reflexivity. Qed.
Lemma of_e_op op i m args :
  of_e (EOp op i m None args) = option_map (POp op i m) (mapM of_e args).
Proof. simpl. f_equal. induction args as [|a t IH]; simpl; [reflexivity|]. rewrite IH. reflexivity. Qed.

Lemma of_to_e x : forall e, to_e x = Some e -> boxed x = true -> of_e e = Some x.
Proof. induction x as [c|k|w xs|o i m args IH] using pexpr_ind'; intros e H B.
  - inversion H. reflexivity.
  - simpl in H. destruct (to_const k) as [v|] eqn:K; [|discriminate]. inversion H. simpl. rewrite (of_to_const k v K). reflexivity.
  - simpl in H, B. subst w. destruct (mapM to_const xs) as [vs|] eqn:K; [|discriminate]. inversion H. simpl.
    rewrite (of_to_consts xs vs K). reflexivity.
  - rewrite to_e_op in H. destruct (mapM to_e args) as [es|] eqn:K; [|discriminate]. inversion H; subst e.
    rewrite of_e_op. simpl in B.
    assert (M : mapM of_e es = Some args).
    { clear H. apply mapM_inv in K. apply mapM_of_Forall2. revert B IH. induction K as [|a e' args es Hae _ IHK]; intros B IH; [constructor|].
      simpl in B. apply andb_true_iff in B. destruct B as [Ba Bt]. inversion IH as [|? ? IHa IHt]; subst.
      constructor; [exact (IHa e' Hae Ba)|exact (IHK Bt IHt)]. }
    rewrite M. reflexivity. Qed.

(* ------------------------------------------------------------------ dict displays with distinct keys *)
Section DictDistinct.
  Context {V : Type}.
  Lemma dict_set_fresh (d : pydict string V) k v : ~ In k (map fst d) -> dict_set d k v = d ++ [(k, v)].
  Proof. induction d as [|[k' v'] t IH]; simpl; intros N; [reflexivity|].
    destruct (eq_dec k k') as [->|Ne]; [exfalso; apply N; left; reflexivity|]. rewrite IH; [reflexivity|]. intros I. apply N. right. exact I. Qed.
  Lemma dict_update_fresh (l acc : pydict string V) :
    NoDup (map fst l) -> (forall k, In k (map fst l) -> ~ In k (map fst acc)) -> dict_update acc l = acc ++ l.
  Proof. unfold dict_update. revert acc. induction l as [|[k v] t IH]; intros acc N F; simpl; [rewrite app_nil_r; reflexivity|].
    inversion N as [|? ? Nk Nt]; subst. rewrite dict_set_fresh by (apply F; left; reflexivity).
    rewrite IH; [rewrite <- app_assoc; reflexivity|exact Nt|].
    intros k' Hk' I. rewrite map_app in I. apply in_app_or in I. destruct I as [I|[E|[]]].
    - apply (F k'); [right; exact Hk'|exact I].
    - simpl in E. subst k'. apply Nk. exact Hk'. Qed.
  Lemma dict_of_list_distinct (l : pydict string V) : NoDup (map fst l) -> dict_of_list l = l.
  Proof. intros N. unfold dict_of_list. rewrite dict_update_fresh; [reflexivity|exact N|]. intros k _ []. Qed.
End DictDistinct.

Lemma nodups_NoDup (l : list string) : nodups l = true <-> NoDup l.
Proof. unfold nodups. apply nodupb_NoDup. Qed.

(* ------------------------------------------------------------------ evaluating literal syntax *)
Section Eval.
Variable E : penv.
(* the string-literal layer (Proofs/PipePrintP1.py_unquote_repr; discharged in PipePrintP9.unq_E) *)
Hypothesis unq : forall s, py_unquote (py_repr (e_np E) s) = Some s.

Lemma eval_atom_str l : eval_syn E (SAtom (TkStr l)) = option_map YStr (py_unquote l).
Proof. reflexivity. Qed.
Lemma eval_str s : eval_syn E (str_syn E s) = Some (YStr s).
Proof. unfold str_syn. rewrite eval_atom_str, unq. reflexivity. Qed.

Lemma eval_list xs :
  eval_syn E (SList xs) = option_map YList (mapM (eval_syn E) xs).
Proof. simpl. f_equal. induction xs as [|x t IH]; simpl; [reflexivity|]. rewrite IH. reflexivity. Qed.
Lemma eval_tuple xs :
  eval_syn E (STuple xs) = option_map YTuple (mapM (eval_syn E) xs).
Proof. simpl. f_equal. induction xs as [|x t IH]; simpl; [reflexivity|]. rewrite IH. reflexivity. Qed.
Lemma eval_dict tr kvs :
  eval_syn E (SDict tr kvs) =
  option_map YDict (mapM (fun kv => match eval_syn E (fst kv), eval_syn E (snd kv) with Some k, Some v => Some (k, v) | _, _ => None end) kvs).
Proof. simpl. f_equal. induction kvs as [|kv t IH]; simpl; [reflexivity|]. rewrite IH.
  destruct (eval_syn E (fst kv)), (eval_syn E (snd kv)); reflexivity. Qed.
Definition eval_args (args : list (option string * syn)) : option args_t :=
  mapM (fun a => option_map (fun v => (fst a, v)) (eval_syn E (snd a))) args.
(* the inner loop of eval_syn over an argument list *)
Lemma eval_args_fix args :
  (fix go (l : list (option string * syn)) : option args_t :=
     match l with
     | [] => Some []
     | a :: t => match eval_syn E (snd a), go t with Some v, Some vs => Some ((fst a, v) :: vs) | _, _ => None end
     end) args = eval_args args.
Proof. unfold eval_args. induction args as [|a t IH]; simpl; [reflexivity|]. rewrite IH. destruct (eval_syn E (snd a)); reflexivity. Qed.

Lemma eval_call path args :
  eval_syn E (SCall path args) = match eval_args args with Some a => call_global path a | None => None end.
Proof. simpl. rewrite eval_args_fix. reflexivity. Qed.
Lemma eval_meth recv m args :
  eval_syn E (SMeth recv m args) =
  match eval_syn E recv, eval_args args with
  | Some (YOp p), Some a => option_map YOp (call_method_op E p m a)
  | _, _ => None
  end.
Proof. simpl. rewrite eval_args_fix. reflexivity. Qed.

Lemma eval_strs l : eval_syn E (strs_syn E l) = Some (YList (map YStr l)).
Proof. unfold strs_syn. rewrite eval_list, mapM_map.
  rewrite (mapM_ext _ (fun s => Some (YStr s))) by (intros; apply eval_str). rewrite mapM_some_map. reflexivity. Qed.
Lemma as_strs_list l : as_strs (YList (map YStr l)) = Some l.
Proof. simpl. rewrite mapM_map. simpl. apply mapM_Some. Qed.
Lemma as_strs1_list l : as_strs1 (YList (map YStr l)) = Some l.
Proof. unfold as_strs1. apply as_strs_list. Qed.

End Eval.

(* `pr` prints a value, `val` is what its text evaluates to *)
Section SDict.
  Variable E : penv.
  Hypothesis unq : forall s, py_unquote (py_repr (e_np E) s) = Some s.
  Context {X : Type} (pr : X -> option syn) (val : X -> pyv).
  Definition prints (x : X) : Prop := exists sx, pr x = Some sx /\ wf_syn sx = true /\ eval_syn E sx = Some (val x).
  Definition vals (l : list (string * X)) : list (string * pyv) := map (fun kx => (fst kx, val (snd kx))) l.
  Definition sdict_val (l : list (string * X)) : pyv := YDict (map (fun kw => (YStr (fst kw), snd kw)) (vals l)).

  Lemma sdict_print (l : list (string * X)) : (forall kx, In kx l -> prints (snd kx)) ->
    exists kvs, mapM (fun kx => option_map (fun v => (str_syn E (fst kx), v)) (pr (snd kx))) l = Some kvs
      /\ forallb (fun kv => wf_syn (fst kv) && wf_syn (snd kv)) kvs = true
      /\ nonempty kvs = nonempty l
      /\ forall tr, eval_syn E (SDict tr kvs) = Some (sdict_val l).
  Proof. induction l as [|[k x] t IH]; intros H; [exists []; repeat split|].
    destruct (H (k, x) (or_introl eq_refl)) as [sx [X1 [X2 X3]]]. cbn [snd] in X1, X3.
    destruct (IH (fun kx I => H kx (or_intror I))) as [kvs [M1 [M2 [_ M4]]]].
    exists ((str_syn E k, sx) :: kvs). cbn [mapM fst snd forallb wf_syn]. rewrite X1. cbn [option_map]. rewrite M1, X2, M2.
    repeat split. intros tr. specialize (M4 tr). rewrite eval_dict in *. unfold sdict_val in *. cbn [mapM map vals fst snd].
    rewrite (eval_str E unq), X3. destruct (mapM _ kvs) as [ys|]; [|discriminate M4]. injection M4 as ->. reflexivity. Qed.

  Lemma vals_keys (l : list (string * X)) : map fst (vals l) = map fst l.
  Proof. unfold vals. rewrite map_map. reflexivity. Qed.

  Lemma as_sdict_val (l : list (string * X)) : NoDup (map fst l) -> as_sdict (sdict_val l) = Some (vals l).
  Proof. intros N. unfold sdict_val. simpl. rewrite mapM_map. simpl.
    rewrite (mapM_ext _ (fun kw => Some kw)) by (intros [k v] _; reflexivity). rewrite mapM_Some. simpl.
    rewrite dict_of_list_distinct by (rewrite vals_keys; exact N). reflexivity. Qed.

  Lemma mapM_vals (rd : string * pyv -> option (string * X)) (l : list (string * X)) :
    (forall kx, In kx l -> rd (fst kx, val (snd kx)) = Some kx) -> mapM rd (vals l) = Some l.
  Proof. intros H. unfold vals. rewrite mapM_map, (mapM_ext _ Some) by exact H. apply mapM_Some. Qed.
End SDict.

Lemma ssdict_print (E : penv) (unq : forall s, py_unquote (py_repr (e_np E) s) = Some s) (m : list (string * string)) :
  wf_syn (SDict false (map (fun kv => (str_syn E (fst kv), str_syn E (snd kv))) m)) = true
  /\ eval_syn E (SDict false (map (fun kv => (str_syn E (fst kv), str_syn E (snd kv))) m)) = Some (sdict_val YStr m).
Proof. destruct (sdict_print E unq (fun s => Some (str_syn E s)) YStr m) as [kvs [M1 [M2 [_ M4]]]].
  { intros kx _. exists (str_syn E (snd kx)). repeat split. apply eval_str, unq. }
  cbn [option_map] in M1. rewrite mapM_some_map in M1. injection M1 as <-. cbn [wf_syn]. rewrite M2. split; [reflexivity|apply M4]. Qed.
