(* Proofs/ExprParseP10.v -- C13, part 3: the walker on list / dict / key_value nodes (wn_list, wn_dict, wn_key_value);
   constants, printing and re-reading a value; the shapes of to_py / dtree_of; joining; interleaved children. *)
From Coq Require Import List Bool String QArith Lia.
Import ListNotations.
From DA Require Import Model.PyExpr Model.ExprPrint Model.ExprParse Model.ExprAst Model.ExprRoundtrip
  Proofs.ExprParseP1 Proofs.ExprParseP2.
Local Close Scope Q_scope.
Local Open Scope string_scope.
Local Open Scope bool_scope.
Local Open Scope list_scope.

(* ------------------------------------------------------------------ more unfoldings of walk_node *)
Lemma wn_const_none c cs rs g a : walk_node c "const_none" cs rs g a = Ok (EVal PNone).
Proof. reflexivity. Qed.
Lemma wn_const_true c cs rs g a : walk_node c "const_true" cs rs g a = Ok (EVal (PBool true)).
Proof. reflexivity. Qed.
Lemma wn_const_false c cs rs g a : walk_node c "const_false" cs rs g a = Ok (EVal (PBool false)).
Proof. reflexivity. Qed.

Lemma wn_list c cs rs g a : walk_node c "list" cs rs g a =
  match coll_items cs rs g with
  | Some l =>
      match all_ok l with
      | Ok vs =>
          match all_some (map (fun e => match e with EVal v => Some v | _ => None end) vs) with
          | Some vals =>
              if existsb (fun v => pval_eqb v PNone) vals then Err
              else if negb (compatible_types (map type_of vals)) then Err
              else Ok (EList vals)
          | None => Err
          end
      | Err => Err
      end
  | None => Err
  end.
Proof. reflexivity. Qed.

(* the tree of a constant is never a tuplelist_comp / set_comp node *)
Lemma strip_dval_kind v : exists d cs, strip (dval v) = LNode d cs /\ mem_str d ["tuplelist_comp"; "set_comp"] = false.
Proof. destruct v as [|b|z|neg m|neg|s]; simpl; try (eexists; eexists; split; reflexivity).
  - destruct b; eexists; eexists; split; reflexivity.
  - destruct (Z.ltb z 0); eexists; eexists; split; reflexivity.
  - destruct neg; eexists; eexists; split; reflexivity.
  - destruct neg; eexists; eexists; split; reflexivity. Qed.

Lemma wn_dict c cs rs g a : walk_node c "dict" cs rs g a =
  match cs, g with
  | [_], Some l =>
      match all_ok l with
      | Ok ds =>
          match dict_combine [] ds with
          | Some comb =>
              if negb (compatible_types (map (fun kv => type_of (fst kv)) comb)) then Err
              else if negb (compatible_types (map (fun kv => type_of (snd kv)) comb)) then Err
              else Ok (EDict comb)
          | None => Err
          end
      | Err => Err
      end
  | _, _ => Err
  end.
Proof. reflexivity. Qed.

Lemma wn_key_value c cs rs g a : walk_node c "key_value" cs rs g a =
  match rs with [Ok (EVal k); Ok (EVal v)] => Ok (EDict [(k, v)]) | _ => Err end.
Proof. reflexivity. Qed.

Lemma unparse_dval v : unparse (dval v) = val_toks v.
Proof. destruct v as [|b|z|neg m|neg|s]; simpl; try reflexivity.
  - destruct (Z.ltb z 0) eqn:E; simpl.
    + apply Z.ltb_lt in E. rewrite Z.abs_neq by lia. reflexivity.
    + apply Z.ltb_ge in E. rewrite Z.abs_eq by lia. reflexivity.
  - destruct neg; reflexivity.
  - destruct neg; reflexivity. Qed.

Lemma wfn_dval v : wfn (dval v) = true.
Proof. destruct v as [|b|z|neg m|neg|s]; simpl; try reflexivity.
  - destruct b; reflexivity.
  - destruct (Z.ltb z 0); reflexivity.
  - destruct neg; reflexivity.
  - destruct neg; reflexivity. Qed.

Lemma src_ok_dval v : src_ok (dval v) = true.
Proof. destruct v as [|b|z|neg m|neg|s]; simpl; try reflexivity.
  - destruct (Z.ltb z 0); reflexivity.
  - destruct neg; reflexivity.
  - destruct neg; reflexivity. Qed.

Lemma dlvl_dval_ge10 v : 10 <= dlvl (dval v).
Proof. destruct v as [|b|z|neg m|neg|s]; simpl; try lia.
  - destruct (Z.ltb z 0); simpl; lia.
  - destruct neg; simpl; lia.
  - destruct neg; simpl; lia. Qed.

(* a value that prints without a sign is an atom *)
Definition signless (v : pval) : bool :=
  match v with PInt z => negb (Z.ltb z 0) | PFloat neg _ => negb neg | PInf neg => negb neg | _ => true end.
Lemma dlvl_dval_signless v : signless v = true -> dlvl (dval v) = 12.
Proof. destruct v as [|b|z|neg m|neg|s]; simpl; try reflexivity.
  - destruct (Z.ltb z 0); [discriminate|reflexivity].
  - destruct neg; [discriminate|reflexivity].
  - destruct neg; [discriminate|reflexivity]. Qed.

Section Values.
Variables (c : cfg) (dd : list string).

Lemma walk_number t :
  walk c dd (LNode "number" [LTok t]) = walk c dd (LTok t).
Proof. rewrite walk_node_eq. rewrite (wn_var c "number"); [reflexivity|simpl; tauto]. Qed.

Lemma walk_dval v : is_inf v = false -> walk c dd (strip (dval v)) = Ok (EVal v).
Proof. intros Hi. destruct v as [|b|z|neg m|neg|s]; try discriminate Hi.
  - reflexivity.
  - destruct b; reflexivity.
  - simpl dval. destruct (Z.ltb z 0) eqn:E.
    + apply Z.ltb_lt in E. cbn [dneg strip]. rewrite walk_node_eq, wn_factor. cbn [map tok_text].
      rewrite walk_number. cbn [walk]. change (remap factor_remap "-") with "__neg__".
      unfold call_method. cbn [is_term negb]. change (find_method "__neg__" method_table) with (Some MNeg). cbv iota beta.
      cbn [py_neg]. rewrite Z2N.id by lia. rewrite Z.abs_neq by lia. rewrite Z.opp_involutive. reflexivity.
    + apply Z.ltb_ge in E. cbn [dneg strip]. rewrite walk_number. cbn [walk]. rewrite Z2N.id by lia.
      rewrite Z.abs_eq by lia. reflexivity.
  - simpl dval. destruct neg.
    + cbn [dneg strip]. rewrite walk_node_eq, wn_factor. cbn [map tok_text]. rewrite walk_number. reflexivity.
    + cbn [dneg strip]. rewrite walk_number. reflexivity.
  - reflexivity. Qed.

End Values.

Lemma to_py_false_flag e : snd (to_py false e) = false.
Proof. destruct e as [n|v|vs|kvs|op i m p args]; try reflexivity.
  destruct args as [|a [|b l]]; cbn [to_py]; try reflexivity.
  - destruct (to_py false a) as [s0 p0]. destruct i; [reflexivity|]. destruct m; reflexivity.
  - destruct i; [reflexivity|]. destruct m; [|reflexivity]. cbn [map]. destruct (to_py false a). reflexivity. Qed.

Lemma tp_unary want op m p a :
  to_py want (EOp op true m p [a]) =
  (let text := op_tok op :: paren (fst (to_py false a)) in if want then (paren text, true) else (text, false)).
Proof. cbn [to_py]. pose proof (to_py_false_flag a) as F. destruct (to_py false a) as [s0 p0]. simpl in F. subst p0. reflexivity. Qed.

Lemma tp_inline want op m p a b more :
  to_py want (EOp op true m p (a :: b :: more)) =
  (let result := join_with [op_tok op] (map (fun x => fst (to_py true x)) (a :: b :: more)) in
   if want then (paren result, true) else (result, false)).
Proof. reflexivity. Qed.

Definition recv_toks (a0 : expr) : list tok :=
  if is_col a0 then fst (to_py false a0) else paren (fst (to_py false a0)).

Lemma tp_method want op p a0 rest :
  to_py want (EOp op false true p (a0 :: rest)) =
  (recv_toks a0 ++ TSym "." :: op_tok op :: TSym "(" :: join_with [TSym ","] (map (fun x => fst (to_py false x)) rest) ++ [TSym ")"], false).
Proof. unfold recv_toks. pose proof (to_py_false_flag a0) as F. destruct rest as [|b rest]; cbn [to_py map].
  - destruct (to_py false a0) as [s0 p0]. simpl in F. subst p0. reflexivity.
  - destruct (to_py false a0) as [s0 p0]. simpl in F. subst p0. cbn [fst orb]. rewrite map_map. reflexivity. Qed.

Lemma tp_fn want op p args :
  to_py want (EOp op false false p args) =
  (op_tok op :: TSym "(" :: join_with [TSym ","] (map (fun x => fst (to_py false x)) args) ++ [TSym ")"], false).
Proof. destruct args as [|a [|b l]]; cbn [to_py map]; try reflexivity.
  - destruct (to_py false a) as [s0 p0]. reflexivity.
  - rewrite map_map. reflexivity. Qed.

Lemma dt_unary want op m p a :
  dtree_of want (EOp op true m p [a]) = par_when want (DFactor op (DPar (dtree_of false a))).
Proof. reflexivity. Qed.

Lemma dt_chain want op m p a b more : (op ==s "**") = false ->
  dtree_of want (EOp op true m p (a :: b :: more)) =
  par_when want (DChain (binop_level op) (dtree_of true a) (map (fun x => (op, dtree_of true x)) (b :: more))).
Proof. intros H. cbn [dtree_of]. rewrite H. reflexivity. Qed.

Lemma dt_pow want m p a b :
  dtree_of want (EOp "**" true m p [a; b]) = par_when want (DPower (dtree_of true a) (dtree_of true b)).
Proof. reflexivity. Qed.

Definition recv_tree (a0 : expr) : dtree := par_when (negb (is_col a0)) (dtree_of false a0).

Lemma dt_method want op p a0 rest :
  dtree_of want (EOp op false true p (a0 :: rest)) = DCall (DAttr (recv_tree a0) op) (map (dtree_of false) rest) false.
Proof. destruct rest; reflexivity. Qed.

Lemma dt_fn want op p args :
  dtree_of want (EOp op false false p args) = DCall (DName op) (map (dtree_of false) args) false.
Proof. destruct args as [|a [|b l]]; reflexivity. Qed.

Lemma commas_join parts : commas parts false = join_with [TSym ","] parts.
Proof. induction parts as [|p [|q parts] IH]; [reflexivity|simpl; apply app_nil_r|].
  change (commas (p :: q :: parts) false) with (p ++ TSym "," :: commas (q :: parts) false).
  change (join_with [TSym ","] (p :: q :: parts)) with (p ++ [TSym ","] ++ join_with [TSym ","] (q :: parts)).
  rewrite IH. reflexivity. Qed.

Lemma join_flat t p0 ps : join_with [t] (p0 :: ps) = p0 ++ flat_map (fun p => t :: p) ps.
Proof. revert p0. induction ps as [|q ps IH]; intros p0; [simpl; symmetry; apply app_nil_r|].
  change (join_with [t] (p0 :: q :: ps)) with (p0 ++ [t] ++ join_with [t] (q :: ps)). rewrite IH. reflexivity. Qed.

Lemma op_tok_sym op : is_sym_text op = true -> op_tok op = TSym op.
Proof. unfold op_tok, is_sym_text. intros H. rewrite H. reflexivity. Qed.
Lemma op_tok_name op : is_sym_text op = false -> op_tok op = TName op.
Proof. unfold op_tok, is_sym_text. intros H. rewrite H. reflexivity. Qed.

Lemma kops_sym op : mem_str op kops = true -> is_sym_text op = true /\ (op ==s "**") = false.
Proof. intros H. apply mem_str_In in H. simpl in H. destruct H as [<-|[<-|[<-|[<-|[]]]]]; split; reflexivity. Qed.
Lemma bin2_sym op : mem_str op bin2_ops = true -> is_sym_text op = true.
Proof. intros H. apply mem_str_In in H. simpl in H.
  destruct H as [<-|[<-|[<-|[<-|[<-|[<-|[<-|[<-|[<-|[<-|[<-|[<-|[]]]]]]]]]]]]]; reflexivity. Qed.

(* ------------------------------------------------------------------ interleaved children of a chain node *)
Definition inter (op : string) (ts : list ltree) : list ltree := flat_map (fun t => [LTok (TSym op); t]) ts.

Lemma evens_inter op t0 ts : evens (t0 :: inter op ts) = t0 :: ts.
Proof. revert t0. induction ts as [|t ts IH]; intros t0; [reflexivity|].
  change (inter op (t :: ts)) with (LTok (TSym op) :: t :: inter op ts). rewrite evens_cons2, IH. reflexivity. Qed.

Lemma odds_inter op t0 ts : odds (t0 :: inter op ts) = map (fun _ => LTok (TSym op)) ts.
Proof. revert t0. induction ts as [|t ts IH]; intros t0; [reflexivity|].
  change (inter op (t :: ts)) with (LTok (TSym op) :: t :: inter op ts). rewrite odds_cons2, IH. reflexivity. Qed.

Lemma length_inter op ts : List.length (inter op ts) = 2 * List.length ts.
Proof. induction ts as [|t ts IH]; [reflexivity|]. change (inter op (t :: ts)) with (LTok (TSym op) :: t :: inter op ts).
  simpl List.length. rewrite IH. lia. Qed.

Lemma flat_map_keep op (rest : list expr) (f : expr -> ltree) :
  flat_map (fun p : string * ltree => [LTok (TSym (fst p)); snd p]) (map (fun x => (op, f x)) rest) = inter op (map f rest).
Proof. induction rest as [|x rest IH]; [reflexivity|]. simpl. rewrite IH. reflexivity. Qed.

Lemma flat_map_drop op (rest : list expr) (f : expr -> ltree) :
  flat_map (fun p : string * ltree => [snd p]) (map (fun x => (op, f x)) rest) = map f rest.
Proof. induction rest as [|x rest IH]; [reflexivity|]. simpl. rewrite IH. reflexivity. Qed.

Lemma mk_chain_ops name keep op t0 (xs : list expr) (f : expr -> ltree) : xs <> [] ->
  mk_chain name keep t0 (map (fun x => (op, f x)) xs) = LNode name (t0 :: if keep then inter op (map f xs) else map f xs).
Proof. intros Hne. destruct keep; [rewrite <- (flat_map_keep op xs f)|rewrite <- (flat_map_drop op xs f)];
  (destruct xs; [congruence|reflexivity]). Qed.

Lemma all_some_repeat {A} (x : A) n : all_some (repeat (Some x) n) = Some (repeat x n).
Proof. induction n as [|n IH]; [reflexivity|]. cbn [repeat all_some]. rewrite IH. reflexivity. Qed.

Lemma forallb_repeat_eqb op n : forallb (String.eqb op) (repeat op n) = true.
Proof. induction n as [|n IH]; [reflexivity|]. cbn [repeat forallb]. rewrite String.eqb_refl, IH. reflexivity. Qed.

Lemma kopsel_repeat op n : mem_str op ["+"; "*"] = true -> kopsel (repeat (Some op) (S n)) = Some op.
Proof. intros Hm. unfold kopsel. rewrite all_some_repeat. unfold all_same. cbn [repeat].
  rewrite forallb_repeat_eqb, Hm. reflexivity. Qed.

Lemma map_const_repeat {A B} (l : list A) (b : B) : map (fun _ => b) l = repeat b (List.length l).
Proof. induction l; simpl; congruence. Qed.
