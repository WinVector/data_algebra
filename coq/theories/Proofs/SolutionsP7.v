(* C21, part 7: last_observed_carried_forward computes locf_spec. *)
From Coq Require Import List QArith String Lia Permutation.
Import ListNotations.
From DA Require Import Base.PyRT Base.Val Model.Sem Model.Solutions Proofs.SemBasicP Proofs.SemOrderP
  Proofs.SolutionsP1 Proofs.SolutionsP3 Proofs.SolutionsP4 Proofs.SolutionsP6 Proofs.ListP Proofs.TabP.
Local Open Scope string_scope.
Local Open Scope list_scope.

Lemma pairwiseb_tagged (f : list val -> list val -> bool) rs : (forall x y, f x y = f y x) -> pairwiseb f rs = true ->
  forall n a b, In a (tag_from n rs) -> In b (tag_from n rs) -> fst a <> fst b -> f (snd a) (snd b) = true.
Proof. intros Sym. induction rs as [|x l IH]; intros P n a b Ia Ib N; [destruct Ia|].
  cbn [pairwiseb] in P. apply andb_true_iff in P as [P1 P2]. rewrite forallb_forall in P1. cbn [tag_from] in Ia, Ib.
  destruct Ia as [<-|Ia], Ib as [<-|Ib].
  - congruence.
  - cbn [snd]. apply P1. eapply tag_from_In, Ib.
  - cbn [snd]. rewrite Sym. apply P1. eapply tag_from_In, Ia.
  - eapply IH; eassumption. Qed.

Section Locf.
  Variable pw : nat -> nat.
  Variables (fl : flavor) (ob pb : list string) (vcol use rk tb : string) (t : table).
  Hypothesis V : locf_valid fl ob pb vcol use rk tb t = true.
  Let cs := cols t.
  Let rs := rows t.
  Let U := tag_from 0 rs.

  Definition totf (r r' : list val) : bool := negb (same_part cs pb r r' && tied fl cs ob r r').
  Lemma locf_facts :
    (~ In use cs /\ ~ In rk cs /\ ~ In tb cs /\ use <> rk /\ use <> tb /\ rk <> tb)
    /\ (In vcol cs /\ ~ In vcol pb /\ (forall c, In c ob -> In c cs) /\ (forall c, In c pb -> In c cs) /\ NoDup pb /\ NoDup cs)
    /\ (forall r, In r rs -> List.length r = List.length cs)
       /\ (forall r c, In r rs -> In c pb -> is_null (get cs r c) = false)
       /\ pairwiseb totf rs = true.
  Proof. unfold locf_valid in V. fold cs rs in V.
    apply andb_prop in V as [[[[[[[[[[[[V1 V2]%andb_prop V3]%andb_prop V4]%andb_prop V5]%andb_prop V6]%andb_prop V7]%andb_prop V8]%andb_prop
                                  V9]%andb_prop V10]%andb_prop V11]%andb_prop V12]%andb_prop V13].
    cbn [nodupb] in V4. apply andb_prop in V4 as [N1%negb_mem_notin [N2%negb_mem_notin _]%andb_prop].
    split; [|split].
    - split; [apply negb_mem_notin; exact V1|]. split; [apply negb_mem_notin; exact V2|]. split; [apply negb_mem_notin; exact V3|].
      split; [intros E; apply N1; left; symmetry; exact E|]. split; [intros E; apply N1; right; left; symmetry; exact E|].
      intros E; apply N2; left; symmetry; exact E.
    - split; [apply mem_In; exact V5|]. split; [apply negb_mem_notin; exact V6|]. split; [apply subset_spec; exact V7|]. split; [apply subset_spec; exact V8|].
      split; apply nodupb_NoDup; assumption.
    - split; [exact (widthb_ok t V11)|]. split; [|exact V13].
      intros r c Ir Ic. eapply forallb_forall in V12; [|exact Ir]. eapply forallb_forall in V12; [|exact Ic]. apply negb_true_iff, V12. Qed.

  Definition nn (y : nat * list val) : bool := negb (is_null (get cs (snd y) vcol)).
  Definition uv (r : list val) : val := if is_null (get cs r vcol) then vnat 0 else vnat 1.
  Definition where_expr : expr := EOp "where" [EOp "is_null" [ECol vcol]; EConst (vnat 0); EConst (vnat 1)].

  Lemma LU_row ir : In ir U -> In (snd ir) rs /\ List.length (snd ir) = List.length cs.
  Proof. intros I. assert (In (snd ir) rs) as R by (eapply tag_from_In, I). split; [exact R|]. apply locf_facts, R. Qed.
  Lemma rs_U : rs = map snd U.
  Proof. unfold U. symmetry. apply tag_from_snd. Qed.

  Lemma eval_where r : eval_x pw fl cs r where_expr = uv r.
  Proof. unfold eval_x. change (norm_expr where_expr) with where_expr. unfold where_expr. cbn [eval_n].
    change (xscalar pw fl "is_null" [get cs r vcol]) with (VBool (is_null (get cs r vcol))).
    change (xscalar pw fl "where" [VBool (is_null (get cs r vcol)); vnat 0; vnat 1]) with (if is_null (get cs r vcol) then vnat 0 else vnat 1).
    reflexivity. Qed.

  Lemma step_a : sem_extend_x pw fl [(use, where_expr)] t = mktable (cs ++ [use]) (map (fun ir => snd ir ++ [uv (snd ir)]) U).
  Proof. destruct locf_facts as ((Nu & _) & _). unfold sem_extend_x. cbn [map fst]. unfold ext_cols. cbn [fold_left]. fold cs rs.
    rewrite (add_end_new cs use Nu). f_equal. rewrite rs_U, map_map. apply map_ext_in. intros ir I.
    unfold extend_row_x. cbn [fold_left fst snd]. rewrite (set_cell_new cs _ use _ Nu), eval_where. reflexivity. Qed.

  Section WithNb.
    Variable nb : nat -> nat.
    Hypothesis nb_inj : forall i j, (i < List.length rs)%nat -> (j < List.length rs)%nat -> nb i = nb j -> i = j.

    Definition Fb (ir : nat * list val) : list val := snd ir ++ [uv (snd ir); vnat (nb (fst ir))].
    Definition csb : list string := cs ++ [use; tb].
    Definition tbl : table := mktable csb (map Fb U).
    Definition lleob (a b : nat * list val) : bool := row_le fl cs (okeys ob) (snd a) (snd b).
    Definition lsp (a b : nat * list val) : bool := same_part cs pb (snd a) (snd b).
    Definition lle12 (y x : nat * list val) : bool := lleob y x && (negb (lleob x y) || Nat.leb (nb (fst y)) (nb (fst x))).
    Definition bef (a b : nat * list val) : bool := before fl cs ob (snd a) (snd b).
    Definition CC (x : nat * list val) : nat := List.length (filter (fun y => lsp x y && lle12 y x && nn y) U).

    (* tbl, the table after steps a and b, is the tie-broken table of SolutionsP4 with the one further cell uv *)
    Lemma Fb_len ir : In ir U -> List.length (Fb ir) = List.length csb.
    Proof. apply (tb_row_len cs [use] tb rs (fun r => [uv r]) nb); [apply locf_facts|reflexivity]. Qed.
    Lemma Fb_get_old ir c : In ir U -> In c cs -> get csb (Fb ir) c = get cs (snd ir) c.
    Proof. apply (tb_row_old cs [use] tb rs (fun r => [uv r]) nb), locf_facts. Qed.
    Lemma Fb_get_use ir : In ir U -> get csb (Fb ir) use = uv (snd ir).
    Proof. intros I. unfold csb, Fb. rewrite get_app_r; [apply get_head|apply locf_facts|apply LU_row, I]. Qed.

    (* ---- step c: the number of observed (non-null) rows at or before each row *)
    Definition wc : window := mkwin pb (ob ++ [tb]) [].
    Definition ec : expr := EOp "cumsum" [ECol use].
    Definition rk3 (ir : nat * list val) : val := lookup_pos (wpiece fl wc tbl ec (key_of csb pb (Fb ir))) (fst ir).
    Definition F3 (ir : nat * list val) : list val := Fb ir ++ [rk3 ir].
    Definition cs3 : list string := csb ++ [rk].
    Definition t3 : table := mktable cs3 (map F3 U).

    Lemma rk_notin_csb : ~ In rk csb.
    Proof. destruct locf_facts as ((Nu & Nk & Nt & Duk & Dut & Dkt) & _). unfold csb. intros I.
      apply in_app_or in I as [I|[I|[I|[]]]]; [contradiction|congruence|congruence]. Qed.
    Lemma step_c : sem_wextend fl [(rk, ec)] wc tbl = t3.
    Proof. apply wextend1_new, rk_notin_csb. Qed.

    Lemma rk3_sum (h : list val -> Q) ir : In ir U -> (forall y, In y U -> num_of (get csb (Fb y) use) = Some (h (Fb y))) ->
      exists q, rk3 ir = qn q /\ q == qsum (map (fun y => h (Fb y)) (filter (fun y => lsp ir y && lle12 y ir) U)).
    Proof. destruct locf_facts as ((Nu & _ & Nt & _ & Dut & _) & (_ & _ & So & Sp & _) & W & _).
      assert (~ In tb (cs ++ [use])) as Ntb by (intros X; apply in_app_or in X as [X|[X|[]]]; [contradiction|congruence]).
      exact (tb_cumsum fl cs ob pb [use] tb rs (fun r => [uv r]) nb W So Sp (fun _ => eq_refl) Ntb nb_inj (ECol use) h ir). Qed.
    Lemma rk3_val ir : In ir U -> exists q, rk3 ir = qn q /\ q == inject_Z (Z.of_nat (CC ir)).
    Proof. intros I. destruct locf_facts as (_ & (Iv & _) & _).
      destruct (rk3_sum (fun r => if is_null (get csb r vcol) then 0 else 1) ir I) as [q [Hq Eq]].
      - intros y Iy. rewrite Fb_get_use, Fb_get_old by assumption. unfold uv. destruct (is_null (get cs (snd y) vcol)); rewrite vnat_eq; reflexivity.
      - exists q. split; [exact Hq|]. rewrite Eq, (qsum_indicator nn).
        + rewrite filter_filter. reflexivity.
        + intros y Iy. apply filter_In in Iy as [Iy _]. rewrite Fb_get_old by assumption. unfold nn. destruct (is_null (get cs (snd y) vcol)); reflexivity.
    Qed.

    (* ---- the order inside a partition is strict and total *)
    Lemma lsp_refl a : lsp a a = true.
    Proof. apply keys_eqv_refl. Qed.
    Lemma lsp_sym a b : lsp a b = lsp b a.
    Proof. apply keys_eqv_sym. Qed.
    Lemma lsp_cong x y z : lsp x y = true -> lsp y z = lsp x z.
    Proof. unfold lsp, same_part. intros E. symmetry. apply keys_eqv_cong_l, E. Qed.
    Lemma totf_sym x y : totf x y = totf y x.
    Proof. unfold totf, same_part, tied. rewrite keys_eqv_sym, (andb_comm (row_le fl cs (okeys ob) x y)). reflexivity. Qed.
    Lemma TOTU a b : In a U -> In b U -> a <> b -> lsp a b = true -> tied fl cs ob (snd a) (snd b) = false.
    Proof. intros Ia Ib N S. destruct locf_facts as (_ & _ & _ & _ & TOT).
      assert (fst a <> fst b) as Nf by (intros E; apply N; eapply tag_same_fst; eassumption).
      pose proof (pairwiseb_tagged totf rs totf_sym TOT 0%nat a b Ia Ib Nf) as T. unfold totf in T. unfold lsp in S. rewrite S in T.
      apply negb_true_iff in T. exact T. Qed.
    Lemma U_dec (a b : nat * list val) : In a U -> In b U -> a = b \/ a <> b.
    Proof. intros Ia Ib. destruct (Nat.eq_dec (fst a) (fst b)) as [E|N]; [left; eapply tag_same_fst; eassumption|right; intros ->; apply N; reflexivity]. Qed.
    Lemma lle12_refl a : lle12 a a = true.
    Proof. unfold lle12, lleob. rewrite row_le_refl, Nat.leb_refl. reflexivity. Qed.
    Lemma lle12_bef a b : In a U -> In b U -> a <> b -> lsp a b = true -> lle12 a b = bef a b.
    Proof. intros Ia Ib N S. pose proof (TOTU a b Ia Ib N S) as T. unfold tied in T. unfold lle12, bef, before, lleob.
      destruct (row_le fl cs (okeys ob) (snd a) (snd b)); [|reflexivity]. cbn [andb] in *. rewrite T. reflexivity. Qed.
    Lemma tri a b : In a U -> In b U -> lsp a b = true -> a = b \/ bef a b = true \/ bef b a = true.
    Proof. intros Ia Ib S. destruct (U_dec a b Ia Ib) as [E|N]; [left; exact E|right].
      pose proof (TOTU a b Ia Ib N S) as T. unfold tied in T. unfold bef, before.
      destruct (row_le_total fl cs (okeys ob) (snd a) (snd b)) as [H|H]; rewrite H in *; cbn [andb] in *.
      - left. rewrite T. reflexivity.
      - right. apply andb_false_iff in T as [T|T]; [rewrite T; reflexivity|congruence]. Qed.
    Lemma bef_le a b : bef a b = true -> lleob a b = true /\ lleob b a = false.
    Proof. unfold bef, before, lleob. intros H. apply andb_true_iff in H as [H1 H2]. apply negb_true_iff in H2. split; assumption. Qed.
    Lemma lle12_trans_bef y x z : lle12 y x = true -> bef x z = true -> lle12 y z = true.
    Proof. unfold lle12. intros H B. apply bef_le in B as [B1 B2]. apply andb_true_iff in H as [H1 _]. unfold lleob in *.
      rewrite (row_le_trans _ _ _ _ _ _ H1 B1). cbn [andb].
      destruct (row_le fl cs (okeys ob) (snd z) (snd y)) eqn:E; [|reflexivity].
      rewrite (row_le_trans _ _ _ _ _ _ E H1) in B2. discriminate. Qed.

    Lemma CC_le x z : In x U -> In z U -> lsp x z = true -> bef x z = true -> (CC x <= CC z)%nat.
    Proof. intros Ix Iz S B. unfold CC. apply filter_length_le. intros y Iy H.
      apply andb_true_iff in H as [H H3]. apply andb_true_iff in H as [H1 H2].
      rewrite lsp_sym in S. rewrite <- (lsp_cong z x y S), H1, (lle12_trans_bef y x z H2 B), H3. reflexivity. Qed.
    Lemma CC_lt x z : In x U -> In z U -> lsp x z = true -> bef x z = true -> nn z = true -> (CC x < CC z)%nat.
    Proof. intros Ix Iz S B Nz. unfold CC. apply (filter_length_lt _ _ U z); [|exact Iz| |].
      - intros y Iy H. apply andb_true_iff in H as [H H3]. apply andb_true_iff in H as [H1 H2].
        pose proof S as S'. rewrite lsp_sym in S'. rewrite <- (lsp_cong z x y S'), H1, (lle12_trans_bef y x z H2 B), H3. reflexivity.
      - apply bef_le in B as [_ B2]. unfold lle12. rewrite B2. cbn [andb]. rewrite andb_false_r. reflexivity.
      - rewrite lsp_refl, lle12_refl, Nz. reflexivity. Qed.

    (* ---- which observed row a row is joined with *)
    Definition mt (a b : nat * list val) : bool := lsp a b && Nat.eqb (CC a) (CC b).
    Definition NNU : list (nat * list val) := filter nn U.
    Definition cands (a : nat * list val) : list (nat * list val) := filter (fun y => lsp a y && bef y a && nn y) U.
    Definition ms (a : nat * list val) : list (nat * list val) := filter (mt a) NNU.

    Lemma M1 a b : In a U -> In b U -> nn a = true -> nn b = true -> mt a b = true -> b = a.
    Proof. intros Ia Ib Na Nb M. apply andb_true_iff in M as [S E]. apply Nat.eqb_eq in E.
      destruct (tri a b Ia Ib S) as [->|[B|B]]; [reflexivity| |].
      - pose proof (CC_lt a b Ia Ib S B Nb). lia.
      - rewrite lsp_sym in S. pose proof (CC_lt b a Ib Ia S B Na). lia. Qed.
    Lemma M2 a b : In a U -> In b U -> nn a = false -> nn b = true -> mt a b = true ->
      bef b a = true /\ (forall c, In c U -> nn c = true -> lsp a c = true -> bef c a = true -> lleob c b = true).
    Proof. intros Ia Ib Na Nb M. apply andb_true_iff in M as [S E]. apply Nat.eqb_eq in E.
      assert (bef b a = true) as B.
      { destruct (tri a b Ia Ib S) as [->|[B|B]]; [congruence| |exact B]. pose proof (CC_lt a b Ia Ib S B Nb). lia. }
      split; [exact B|]. intros c Ic Nc Sc Bc.
      assert (lsp b c = true) as Sbc by (rewrite (lsp_cong a b c S); exact Sc).
      destruct (tri b c Ib Ic Sbc) as [->|[B'|B']].
      - apply row_le_refl.
      - pose proof (CC_lt b c Ib Ic Sbc B' Nc). rewrite lsp_sym in Sc. pose proof (CC_le c a Ic Ia Sc Bc). lia.
      - apply bef_le in B' as [H _]. exact H. Qed.
    Lemma M3 a b : In a U -> In b U -> nn a = false -> nn b = true -> lsp a b = true -> bef b a = true ->
      (forall c, In c U -> nn c = true -> lsp a c = true -> bef c a = true -> lleob c b = true) -> mt a b = true.
    Proof. intros Ia Ib Na Nb S B Mx. unfold mt. rewrite S. cbn [andb]. apply Nat.eqb_eq. apply Nat.le_antisymm.
      - unfold CC. apply filter_length_le. intros y Iy H. apply andb_true_iff in H as [H H3]. apply andb_true_iff in H as [H1 H2].
        assert (y <> a) as Nya by (intros ->; congruence).
        assert (lsp y a = true) as Sya by (rewrite lsp_sym; exact H1).
        rewrite (lle12_bef y a Iy Ia Nya Sya) in H2.
        pose proof (Mx y Iy H3 H1 H2) as Lyb.
        rewrite (lsp_cong a b y S) , H1, H3. cbn [andb]. rewrite andb_true_r.
        destruct (U_dec y b Iy Ib) as [->|Nyb]; [apply lle12_refl|].
        assert (lsp y b = true) as Syb by (rewrite (lsp_cong a y b H1); exact S).
        rewrite (lle12_bef y b Iy Ib Nyb Syb). pose proof (TOTU y b Iy Ib Nyb Syb) as T. unfold tied in T. unfold bef, before. unfold lleob in Lyb. rewrite Lyb in *. cbn [andb] in *. rewrite T. reflexivity.
      - rewrite lsp_sym in S. apply CC_le; assumption. Qed.

    Lemma lleob_total a b : lleob a b = true \/ lleob b a = true.
    Proof. apply row_le_total. Qed.
    Lemma lleob_trans a b c : lleob a b = true -> lleob b c = true -> lleob a c = true.
    Proof. apply row_le_trans. Qed.
    Lemma NNU_NoDup : NoDup NNU.
    Proof. apply NoDup_filter, tag_from_NoDup. Qed.
    (* an observed row is matched with itself, another one with the latest observed row before it, if there is one *)
    Definition pick (a : nat * list val) : option (nat * list val) := if nn a then Some a else latest lleob (cands a).
    Lemma ms_pick a : In a U -> ms a = match pick a with Some b => [b] | None => [] end.
    Proof. intros Ia. unfold pick. destruct (nn a) eqn:Na; [|destruct (latest lleob (cands a)) as [b|] eqn:L].
      - apply filter_singleton; [apply NNU_NoDup|apply filter_In; split; assumption| |].
        + unfold mt. rewrite lsp_refl, Nat.eqb_refl. reflexivity.
        + intros y Iy M. apply filter_In in Iy as [Iy Ny]. eapply M1; eassumption.
      - assert (cands a <> []) as NE by (intros E; rewrite E in L; discriminate).
        destruct (latest_some lleob lleob_total lleob_trans (cands a) NE) as [m [Lm [Im Mx]]].
        rewrite L in Lm. inversion Lm; subst m. clear Lm.
        apply filter_In in Im as [Ib Pb]. apply andb_true_iff in Pb as [Pb Nb]. apply andb_true_iff in Pb as [S B].
        assert (forall c, In c U -> nn c = true -> lsp a c = true -> bef c a = true -> lleob c b = true) as Mx'.
        { intros c Ic Nc Sc Bc. apply Mx. apply filter_In. split; [exact Ic|rewrite Sc, Bc, Nc; reflexivity]. }
        apply filter_singleton; [apply NNU_NoDup|apply filter_In; split; assumption|apply M3; assumption|].
        intros b' Ib' M'. apply filter_In in Ib' as [Ib' Nb'].
        destruct (M2 a b' Ia Ib' Na Nb' M') as [B' Mx2]. pose proof M' as M''. apply andb_true_iff in M'' as [S' _].
        pose proof (Mx' b' Ib' Nb' S' B') as L1. pose proof (Mx2 b Ib Nb S B) as L2.
        destruct (U_dec b' b Ib' Ib) as [E|N]; [exact E|exfalso].
        assert (lsp b' b = true) as Sb by (rewrite (lsp_cong a b' b S'); exact S).
        pose proof (TOTU b' b Ib' Ib N Sb) as T. unfold tied in T. unfold lleob in L1, L2. rewrite L1, L2 in T. discriminate.
      - apply filter_none. intros b Ib. apply filter_In in Ib as [Ib Nb]. destruct (mt a b) eqn:M; [|reflexivity]. exfalso.
        destruct (M2 a b Ia Ib Na Nb M) as [B _]. apply andb_true_iff in M as [S _].
        assert (In b (cands a)) as I by (apply filter_In; split; [exact Ib|rewrite S, B, Nb; reflexivity]).
        rewrite (latest_none lleob lleob_total lleob_trans (cands a) L) in I. destruct I. Qed.

    (* ---- the right-hand side of the join: the observed rows with their count *)
    Definition cb : list string := pb ++ [rk; vcol].
    Definition RB (y : nat * list val) : list val := key_of cs pb (snd y) ++ [rk3 y; get cs (snd y) vcol].
    Definition eq_expr : expr := EOp "==" [ECol use; EConst (vnat 1)].

    Lemma F3_len ir : In ir U -> List.length (F3 ir) = List.length cs3.
    Proof. intros I. unfold F3, cs3. rewrite !app_length, (Fb_len ir I). reflexivity. Qed.
    Lemma In_cs_csb c : In c cs -> In c csb.
    Proof. intros I. unfold csb. apply in_or_app. left. exact I. Qed.
    Lemma F3_get_old ir c : In ir U -> In c cs -> get cs3 (F3 ir) c = get cs (snd ir) c.
    Proof. intros I Ic. unfold cs3, F3. rewrite get_app_l; [apply Fb_get_old; assumption|apply In_cs_csb, Ic|apply Fb_len, I]. Qed.
    Lemma F3_get_use ir : In ir U -> get cs3 (F3 ir) use = uv (snd ir).
    Proof. intros I. unfold cs3, F3. rewrite get_app_l; [apply Fb_get_use, I| |apply Fb_len, I]. unfold csb. apply in_or_app. right. left. reflexivity. Qed.
    Lemma F3_get_rk ir : In ir U -> get cs3 (F3 ir) rk = rk3 ir.
    Proof. intros I. unfold cs3, F3. rewrite get_app_r; [apply get_head|apply rk_notin_csb|apply Fb_len, I]. Qed.
    Lemma F3_key ir ks : In ir U -> (forall c, In c ks -> In c cs) -> key_of cs3 ks (F3 ir) = key_of cs ks (snd ir).
    Proof. intros I S. unfold key_of. apply map_ext_in. intros c Ic. apply F3_get_old; auto. Qed.

    Lemma right_table :
      sem_select_cols cb (sem_select_rows_x pw fl eq_expr t3) = mktable cb (map RB NNU).
    Proof. destruct locf_facts as (_ & (Iv & _ & _ & Sp & _) & _).
      unfold sem_select_cols, sem_select_rows_x. cbn [cols rows t3]. f_equal. rewrite filter_map_comm, map_map. unfold NNU.
      rewrite (filter_ext_in _ nn U).
      - apply map_ext_in. intros y Iy. apply filter_In in Iy as [Iy _]. unfold cb, RB. rewrite map_app. cbn [map]. f_equal.
        + apply F3_key; assumption.
        + rewrite F3_get_rk, F3_get_old by assumption. reflexivity.
      - intros y Iy. unfold eval_x. change (norm_expr eq_expr) with eq_expr. unfold eq_expr. cbn [eval_n].
        change (xscalar pw fl "==" [get cs3 (F3 y) use; vnat 1]) with (compare_vals fl CEq (get cs3 (F3 y) use) (vnat 1)).
        rewrite F3_get_use by assumption. unfold uv, nn. apply vnat01_eq. Qed.

    Lemma key_left a : In a U -> key_of cs3 (pb ++ [rk]) (F3 a) = key_of cs pb (snd a) ++ [rk3 a].
    Proof. intros I. rewrite key_of_app. f_equal; [apply F3_key; [exact I|apply locf_facts]|]. cbn [key_of map]. rewrite F3_get_rk by exact I. reflexivity. Qed.
    Lemma rk_notin_pb : ~ In rk pb.
    Proof. destruct locf_facts as ((_ & Nk & _) & (_ & _ & _ & Sp & _) & _). intros I. apply Nk, Sp, I. Qed.
    Lemma key_right b : key_of cb (pb ++ [rk]) (RB b) = key_of cs pb (snd b) ++ [rk3 b].
    Proof. destruct locf_facts as (_ & (_ & _ & _ & _ & NDp & _) & _).
      rewrite key_of_app. unfold cb, RB. f_equal.
      - unfold key_of at 1. apply map_get_app_l; [exact NDp|apply map_length].
      - cbn [key_of map]. rewrite get_app_r; [rewrite get_head; reflexivity|apply rk_notin_pb|apply map_length]. Qed.
    Lemma RB_get_vcol b : get cb (RB b) vcol = get cs (snd b) vcol.
    Proof. destruct locf_facts as ((Nu & Nk & Nt & Duk & Dut & Dkt) & (Iv & Nvp & _) & _).
      unfold cb, RB. rewrite get_app_r; [|exact Nvp|apply map_length]. rewrite get_tail by (intros E; apply Nk; rewrite <- E; exact Iv). apply get_head. Qed.

    Lemma keys_mt nm a b : In a U -> In b NNU ->
      keys_match nm (key_of cs3 (pb ++ [rk]) (F3 a)) (key_of cb (pb ++ [rk]) (RB b)) = mt a b.
    Proof. intros Ia Ib. apply filter_In in Ib as [Ib Nb].
      destruct locf_facts as (_ & _ & _ & NN & _).
      rewrite (key_left a Ia), key_right. unfold keys_match.
      destruct (rk3_val a Ia) as [qa [Ea Qa]]. destruct (rk3_val b Ib) as [qb [Eb Qb]].
      assert (existsb is_null (key_of cs pb (snd a) ++ [rk3 a]) = false) as EN.
      { rewrite existsb_app, Ea. cbn [existsb is_null qn orb]. rewrite orb_false_r. apply existsb_false. intros v Iv'.
        unfold key_of in Iv'. apply in_map_iff in Iv' as [c [<- Ic]]. apply NN; [apply LU_row, Ia|exact Ic]. }
      rewrite EN, orb_true_r. cbn [negb andb]. rewrite keys_eqv_app by (unfold key_of; rewrite !map_length; reflexivity).
      unfold mt, lsp, same_part. f_equal. cbn [keys_eqv]. rewrite andb_true_r, Ea, Eb. apply qn_eqv_nat; assumption. Qed.

    (* ---- one output row per input row *)
    Definition JR (a : nat * list val) (ob' : option (nat * list val)) : list val :=
      join_mk cs3 cb cs3 (Some (F3 a)) (option_map RB ob').
    Definition DR (row : list val) : list val := map (get cs3 row) cs.
    Definition lv (a : nat * list val) : val := locf_value fl cs pb ob vcol rs (snd a).

    Lemma In_cs_cs3 c : In c cs -> In c cs3.
    Proof. intros I. unfold cs3. apply in_or_app. left. apply In_cs_csb, I. Qed.
    Lemma DR_JR a ob' : In a U ->
      DR (JR a ob') = map (fun c => let va := get cs (snd a) c in
                                     let vb := match ob' with Some b => if mem c cb then get cb (RB b) c else VNull | None => VNull end in
                                     if is_null va then vb else va) cs.
    Proof. intros Ia. unfold DR, JR, join_mk. apply map_ext_in. intros c Ic.
      rewrite (get_map_in _ cs3 c (In_cs_cs3 c Ic)). cbn zeta.
      assert (mem c cs3 = true) as M by (apply mem_In, In_cs_cs3, Ic). rewrite M, (F3_get_old a c Ia Ic).
      destruct ob'; reflexivity. Qed.

    Lemma lv_pick a : lv a = match pick a with Some b => get cs (snd b) vcol | None => VNull end.
    Proof. unfold lv, locf_value, pick, nn. destruct (negb (is_null (get cs (snd a) vcol))); [reflexivity|].
      rewrite rs_U, filter_map_comm, latest_map. unfold cands, lsp, bef, nn, lleob.
      destruct (latest _ _); reflexivity. Qed.

    Lemma out_row a : In a U -> DR (JR a (pick a)) = set_cell cs (snd a) vcol (lv a).
    Proof. intros Ia. destruct locf_facts as ((_ & Nk & _) & (Iv & _ & _ & _ & _ & ND) & _ & NN & _).
      destruct (LU_row a Ia) as [Ir La].
      rewrite (set_cell_as_map cs (snd a) vcol (lv a) ND La Iv), lv_pick, (DR_JR a (pick a) Ia). apply map_ext_in. intros c Ic. cbn zeta.
      destruct (String.eqb_spec c vcol) as [->|Ncv]; destruct (is_null (get cs (snd a) _)) eqn:Nl.
      - assert (mem vcol cb = true) as M by (apply mem_In; unfold cb; apply in_or_app; right; right; left; reflexivity).
        destruct (pick a) as [b|]; [rewrite M, RB_get_vcol|]; reflexivity.
      - unfold pick, nn. rewrite Nl. reflexivity.
      - (* another cell that is null stays null: the columns of the right table are the keys, which are not null, rk and vcol *)
        transitivity VNull; [|symmetry; apply is_null_VNull, Nl]. destruct (pick a) as [b|]; [|reflexivity].
        assert (mem c cb = false) as M; [|rewrite M; reflexivity].
        apply mem_false. unfold cb. intros I. apply in_app_or in I as [I|[I|[I|[]]]]; [|subst c; contradiction|congruence].
        rewrite (NN (snd a) c Ir I) in Nl. discriminate.
      - reflexivity. Qed.

    Lemma drop_cols_cs3 : filter (fun c => negb (mem c [use; rk; tb])) cs3 = cs.
    Proof. destruct locf_facts as ((Nu & Nk & Nt & _) & _). unfold cs3, csb. rewrite !filter_app. cbn [filter].
      assert (mem use [use; rk; tb] = true) as M1 by (apply mem_In; left; reflexivity).
      assert (mem tb [use; rk; tb] = true) as M2 by (apply mem_In; right; right; left; reflexivity).
      assert (mem rk [use; rk; tb] = true) as M3 by (apply mem_In; right; left; reflexivity).
      rewrite M1, M2, M3. cbn [negb app]. rewrite !app_nil_r. apply filter_all. intros c Ic.
      apply negb_true_iff, mem_false. intros [E|[E|[E|[]]]]; subst c; contradiction. Qed.

    Lemma locf_join nm :
      tbl_equiv (sem_drop_cols [use; rk; tb] (sem_join nm (pb ++ [rk]) (pb ++ [rk]) JLeft t3 (mktable cb (map RB NNU))))
                (locf_spec fl ob pb vcol t).
    Proof. destruct locf_facts as (_ & (Iv & _ & _ & Sp & _) & _).
      assert (filter (fun c => negb (mem c cs3)) cb = []) as FO.
      { apply filter_none. intros c Ic. apply negb_false_iff, mem_In. unfold cb in Ic. apply in_app_or in Ic as [Ic|[Ic|[Ic|[]]]].
        - apply In_cs_cs3, Sp, Ic.
        - subst c. unfold cs3. apply in_or_app. right. left. reflexivity.
        - subst c. apply In_cs_cs3, Iv. }
      assert (cols (sem_join nm (pb ++ [rk]) (pb ++ [rk]) JLeft t3 (mktable cb (map RB NNU))) = cs3) as C
        by (rewrite sem_join_left; cbn [cols t3]; rewrite FO; apply app_nil_r).
      unfold tbl_equiv, sem_drop_cols, sem_select_cols. cbn [cols rows locf_spec]. rewrite C, drop_cols_cs3. split; [reflexivity|]. fold DR cs rs.
      eapply perm_trans; [apply Permutation_map, (left_join_one nm (pb ++ [rk]) (pb ++ [rk]) cs3 cb F3 RB U NNU pick)|].
      - intros a Ia. rewrite (filter_ext_in _ (mt a) NNU) by (intros b Ib; apply keys_mt; assumption). apply ms_pick, Ia.
      - rewrite FO, app_nil_r, map_map.
        assert (map (fun r => set_cell cs r vcol (locf_value fl cs pb ob vcol rs r)) rs = map (fun a => set_cell cs (snd a) vcol (lv a)) U) as E.
        { transitivity (map (fun r => set_cell cs r vcol (locf_value fl cs pb ob vcol rs r)) (map snd U)); [f_equal; apply rs_U|rewrite map_map; reflexivity]. }
        rewrite E, <- (map_ext_in _ _ U out_row). apply Permutation_refl.
    Qed.
  End WithNb.

  Theorem locf_table_correct nm :
    let m := sem_wextend fl [(rk, EOp "cumsum" [ECol use])] (mkwin pb (ob ++ [tb]) [])
               (sem_wextend fl [(tb, EOp "_row_number" [])] (mkwin [] (pb ++ ob) [])
                  (sem_extend_x pw fl [(use, where_expr)] t)) in
    tbl_equiv (sem_drop_cols [use; rk; tb]
                 (sem_join nm (pb ++ [rk]) (pb ++ [rk]) JLeft m
                    (sem_select_cols (pb ++ [rk; vcol]) (sem_select_rows_x pw fl (EOp "==" [ECol use; EConst (vnat 1)]) m))))
              (locf_spec fl ob pb vcol t).
  Proof. destruct locf_facts as ((Nu & Nk & Nt & Duk & Dut & Dkt) & _).
    rewrite step_a. set (ta := mktable (cs ++ [use]) (map (fun ir => snd ir ++ [uv (snd ir)]) U)).
    assert (~ In tb (cs ++ [use])) as Ntb by (intros I; apply in_app_or in I as [I|[I|[]]]; [contradiction|congruence]).
    destruct (row_number_value fl (pb ++ ob) [] ta tb Ntb) as [nb [Inj E]]. rewrite E. clear E.
    assert (List.length (rows ta) = List.length rs) as LR by (unfold ta; cbn [rows]; rewrite map_length; unfold U; apply tag_from_length).
    rewrite LR in Inj.
    assert (mktable (cols ta ++ [tb]) (map (fun ir => snd ir ++ [vnat (nb (fst ir))]) (tag_from 0 (rows ta))) = tbl nb) as ET.
    { unfold ta, tbl, csb, U. cbn [cols rows]. rewrite <- app_assoc, tag_from_map_tag, map_map. f_equal.
      apply map_ext. intros ir. exact (eq_sym (app_assoc (snd ir) [uv (snd ir)] [vnat (nb (fst ir))])). }
    rewrite ET. cbn zeta. change (EOp "cumsum" [ECol use]) with ec. change (mkwin pb (ob ++ [tb]) []) with wc.
    rewrite (step_c nb). change (EOp "==" [ECol use; EConst (vnat 1)]) with eq_expr. change (pb ++ [rk; vcol]) with cb.
    rewrite (right_table nb). apply (locf_join nb Inj). Qed.
End Locf.

Theorem locf_correct (pw : nat -> nat) (fl : flavor) (d : op) (ob pb : list string) (vcol use rk tb : string) (e : env) (t : table) :
  sem_x pw fl d e = Some t -> locf_valid fl ob pb vcol use rk tb t = true ->
  exists out, sem_x pw fl (locf_pipeline d ob pb vcol use rk tb) e = Some out /\ tbl_equiv out (locf_spec fl ob pb vcol t).
Proof. intros Hd V. unfold locf_pipeline, locf_marked. cbn [sem_x]. rewrite Hd. cbn [option_map].
  eexists. split; [reflexivity|]. apply (locf_table_correct pw fl ob pb vcol use rk tb t V). Qed.
