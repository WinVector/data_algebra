(* C12, part 7: the nodes that carry expressions (select_rows, extend, project) and record maps (convert_records). *)
From Coq Require Import List Bool String NArith Arith Lia.
Import ListNotations.
From DA Require Import Base.PyRT Model.Equiv Gen.G_MergeOps Proofs.EquivP1 Proofs.EquivP2.
From DA Require Import Model.PyExpr Model.ExprPrint Model.ExprParse Model.ExprRoundtrip Model.PipePrintStr Model.PipePrintSyn Model.PipePrint.
From DA Require Import Proofs.ExprParseP14 Proofs.PipePrintP5 Proofs.PipePrintP6.
Local Close Scope Q_scope.
Local Open Scope string_scope.
Local Open Scope bool_scope.
Local Open Scope list_scope.

Section Builders2.
Variable E : penv.
Hypothesis unq : forall s, py_unquote (py_repr (e_np E) s) = Some s.
Hypothesis lexh : forall e, lexable e = true -> (forall m, In m (floats_of e) -> float_lex_ok (e_F E) m) ->
  lexg (e_F E) (expr_text (e_F E) (e_np E) e) = Some (to_python e).

Notation good := (good E).
Notation px_floats_ok := (px_floats_ok E).

Lemma select_rows_good s e : normal E (ESelectRows s e) = true -> px_floats_ok e -> good s -> good (ESelectRows s e).
Proof. cbn [normal]. intros H Fl G. split_andb.
  destruct (eval_expr_syn E unq lexh (ecolumn_names s) e) as [[sx [X1 [X4 X2]]] [t [Et X3]]]; try assumption. rewrite Et in X2.
  eapply (meth_good E s "select_rows" [(None, sx)] [(None, YStr t)]); try eassumption; try reflexivity.
  - apply eval_args_cons; [exact X2|reflexivity].
  - cbn [wf_args forallb snd]. rewrite X4. reflexivity.
  - change (call_method_op E s "select_rows" [(None, YStr t)]) with (b_select_rows E s [(None, YStr t)]).
    unfold b_select_rows. rewrite X3.
    rewrite strip_trivial_id by assumption.
    repeat match goal with Hx : _ = true |- _ => rewrite Hx end. reflexivity.
  - intros ss Hs. cbn [syn_of_op]. rewrite Hs, X1. reflexivity. Qed.

(* ---- the assignment dict of extend / project *)
Definition ops_floats_ok (ops : list (string * pexpr)) : Prop := forall ke, In ke ops -> px_floats_ok (snd ke).

Lemma ops_print cols ops : ops_ok E cols ops = true -> ops_floats_ok ops ->
  exists sd, ops_syn E ops = Some sd /\ wf_syn sd = true /\ eval_syn E sd = Some (sdict_val (expr_val E) ops)
    /\ parse_assignments E cols (vals (expr_val E) ops) = Some ops.
Proof. unfold ops_ok. intros H Fl. split_andb.
  assert (I : forall ke, In ke ops -> prints E (expr_syn E) (expr_val E) (snd ke)
                /\ exists t, expr_val E (snd ke) = YStr t /\ parse_px E cols t = Some (snd ke)).
  { intros ke Hk. apply (eval_expr_syn E unq lexh); [|exact (Fl ke Hk)].
    match goal with Ho : forallb _ ops = true |- _ => rewrite forallb_forall in Ho; exact (Ho ke Hk) end. }
  destruct (sdict_print E unq (expr_syn E) (expr_val E) ops (fun ke Hk => proj1 (I ke Hk))) as [kvs [M1 [M2 [_ M4]]]].
  exists (SDict false kvs). split; [unfold ops_syn; rewrite M1; reflexivity|]. split; [cbn [wf_syn]; rewrite M2; reflexivity|].
  split; [apply M4|]. unfold parse_assignments. rewrite mapM_vals.
  - match goal with Hd : disjointb _ _ = true |- _ => rewrite Hd end. reflexivity.
  - intros [k x] Hk. destruct (I _ Hk) as [_ [t [Et Pt]]]. cbn [fst snd] in *. rewrite Et, Pt. reflexivity. Qed.

Lemma ops_ok_nodup cols ops : ops_ok E cols ops = true -> NoDup (map fst ops).
Proof. unfold ops_ok. intros H. split_andb. apply nodups_NoDup. assumption. Qed.

Lemma work_cga_list cols l : nodups l = true -> subset l cols = true -> work_cga cols (Some (YList (map YStr l))) = Some (CGlist l).
Proof. intros N S. cbn [work_cga as_strs]. rewrite mapM_as_str, N, S. reflexivity. Qed.
Lemma work_cga_opt cols l : nodups l = true -> subset l cols = true ->
  work_cga cols (if nonempty l then Some (YList (map YStr l)) else None) = Some (CGlist l).
Proof. intros N S. destruct l as [|x t]; [reflexivity|]. apply work_cga_list; assumption. Qed.

Lemma cga_list_pb_of w part : w = true \/ part = [] -> cga_list (pb_of w part) = part.
Proof. unfold pb_of. intros [->| ->]; [destruct part; reflexivity|destruct w; reflexivity]. Qed.

(* the argument values of an extend call, and what the builder finds in them *)
Definition extend_vals (D X : pyv) (w : bool) (order rev : list string) : args_t :=
  [(None, D)] ++ opt_val w "partition_by" X ++ opt_val (nonempty order) "order_by" (YList (map YStr order))
    ++ opt_val (nonempty rev) "reverse" (YList (map YStr rev)).

Lemma extend_vals_spec D X w order rev :
  pos_args (extend_vals D X w order rev) = [D]
  /\ kws_ok ["partition_by"; "order_by"; "reverse"] (extend_vals D X w order rev) = true
  /\ kwarg "partition_by" (extend_vals D X w order rev) = (if w then Some X else None)
  /\ kwarg "order_by" (extend_vals D X w order rev) = (if nonempty order then Some (YList (map YStr order)) else None)
  /\ kwarg "reverse" (extend_vals D X w order rev) = (if nonempty rev then Some (YList (map YStr rev)) else None).
Proof. destruct w, order, rev; repeat split; reflexivity. Qed.

Lemma extend_good s ops part order rev w : normal E (EExtend s ops part order rev w) = true -> ops_floats_ok ops -> good s ->
  good (EExtend s ops part order rev w).
Proof. intros H Fl G. pose proof H as Hn. cbn [normal] in H. split_andb.
  destruct (ops_print (ecolumn_names s) ops) as [sd [O1 [O2 [O3 O5]]]]; try assumption.
  set (D := sdict_val (expr_val E) ops) in *.
  set (X := if nonempty part then YList (map YStr part) else YInt 1).
  destruct (extend_vals_spec D X w order rev) as [P1 [P2 [K1 [K2 K3]]]]. set (A := extend_vals D X w order rev) in *.
  assert (Wp : w = true \/ part = []).
  { match goal with Hw : w || _ = true |- _ => destruct w; [left; reflexivity|right; cbn [orb] in Hw; split_andb] end.
    destruct part; [reflexivity|discriminate]. }
  assert (P3 : work_cga (ecolumn_names s) (kwarg "partition_by" A) = Some (pb_of w part)).
  { rewrite K1. unfold pb_of, X. destruct w; cbn [andb].
    - destruct part as [|p0 pt]; [reflexivity|]. cbn [nonempty negb]. apply work_cga_list; assumption.
    - destruct Wp as [Wp|Wp]; [discriminate|]. subst part. reflexivity. }
  assert (P4 : work_cga (ecolumn_names s) (kwarg "order_by" A) = Some (CGlist order)) by (rewrite K2; apply work_cga_opt; assumption).
  assert (P5 : work_cga (ecolumn_names s) (kwarg "reverse" A) = Some (CGlist rev)) by (rewrite K3; apply work_cga_opt; assumption).
  eapply (meth_good E s "extend"
            ([(None, sd)] ++ opt_arg w "partition_by" (if nonempty part then strs_syn E part else SAtom (TkInt 1))
               ++ opt_arg (nonempty order) "order_by" (strs_syn E order) ++ opt_arg (nonempty rev) "reverse" (strs_syn E rev)) A);
    try eassumption; try reflexivity.
  - unfold A, extend_vals. apply mapM_app; [apply eval_args_cons; [exact O3|reflexivity]|].
    apply mapM_app; [apply eval_opt_arg; unfold X; destruct (nonempty part); [apply eval_strs; exact unq|reflexivity]|].
    apply mapM_app; apply eval_opt_arg, eval_strs; exact unq.
  - rewrite !wf_args_app. cbn [wf_args forallb snd]. rewrite O2.
    rewrite !wf_opt_arg; try apply wf_strs; [reflexivity|]. destruct (nonempty part); [apply wf_strs|reflexivity].
  - change (call_method_op E s "extend" A) with (b_extend E s A). unfold b_extend. rewrite P1, P2.
    unfold D. rewrite as_sdict_val by (eapply ops_ok_nodup; eassumption).
    rewrite O5. destruct ops as [|o0 ot]; [discriminate|]. rewrite P3, P4, P5, (cga_list_pb_of w part Wp).
    rewrite strip_trivial_id by assumption.
    repeat match goal with Hx : disjointb _ _ = true |- _ => rewrite Hx end.
    match goal with Hx : subset rev order = true |- _ => rewrite Hx end. cbn [andb].
    destruct (merge_candidate E s (o0 :: ot) (pb_of w part) order rev) as [[s0 no]|]; [discriminate|].
    unfold mk_extend. rewrite (cga_list_pb_of w part Wp).
    assert (Ww : windowed_of E (o0 :: ot) (cga_is_one (pb_of w part)) part order = w).
    { unfold windowed_of, pb_of. destruct w; cbn [andb].
      - destruct part; cbn [nonempty negb cga_is_one]; rewrite ?orb_true_r; reflexivity.
      - match goal with Hw : false || _ = true |- _ => cbn [orb] in Hw; split_andb end.
        repeat match goal with Hx : negb _ = true |- _ => apply negb_true_iff in Hx; rewrite Hx end. reflexivity. }
    rewrite Ww.
    repeat match goal with Hx : _ = true |- _ => rewrite Hx end. reflexivity.
  - intros ss Hs. cbn [syn_of_op]. rewrite Hs, O1. reflexivity. Qed.

Definition project_vals (D : pyv) (gb : list string) : args_t :=
  [(None, D)] ++ opt_val (nonempty gb) "group_by" (YList (map YStr gb)).

Lemma project_vals_spec D gb :
  pos_args (project_vals D gb) = [D] /\ kws_ok ["group_by"] (project_vals D gb) = true
  /\ kwarg "group_by" (project_vals D gb) = (if nonempty gb then Some (YList (map YStr gb)) else None).
Proof. destruct gb; repeat split; reflexivity. Qed.

Lemma project_good s ops gb : normal E (EProject s ops gb) = true -> ops_floats_ok ops -> good s -> good (EProject s ops gb).
Proof. intros H Fl G. cbn [normal] in H. split_andb.
  destruct (ops_print (ecolumn_names s) ops) as [sd [O1 [O2 [O3 O5]]]]; try assumption.
  set (D := sdict_val (expr_val E) ops) in *.
  destruct (project_vals_spec D gb) as [P1 [P2 K]]. set (A := project_vals D gb) in *.
  assert (P3 : work_cga (ecolumn_names s) (kwarg "group_by" A) = Some (CGlist gb)) by (rewrite K; apply work_cga_opt; assumption).
  eapply (meth_good E s "project" ([(None, sd)] ++ opt_arg (nonempty gb) "group_by" (strs_syn E gb)) A); try eassumption; try reflexivity.
  - unfold A, project_vals. apply mapM_app; [apply eval_args_cons; [exact O3|reflexivity]|]. apply eval_opt_arg, eval_strs; exact unq.
  - rewrite !wf_args_app. cbn [wf_args forallb snd]. rewrite O2, wf_opt_arg by apply wf_strs. reflexivity.
  - change (call_method_op E s "project" A) with (b_project E s A). unfold b_project. rewrite P1, P2.
    unfold D. rewrite as_sdict_val by (eapply ops_ok_nodup; eassumption).
    rewrite O5, P3.
    rewrite strip_trivial_id by assumption.
    match goal with Hx : nonempty ops || nonempty gb = true |- _ =>
      replace (negb (nonempty ops) && negb (nonempty gb)) with false by (destruct (nonempty ops), (nonempty gb); try reflexivity; discriminate Hx) end.
    repeat match goal with Hx : _ = true |- _ => rewrite Hx end. reflexivity.
  - intros ss Hs. cbn [syn_of_op]. rewrite Hs, O1. reflexivity. Qed.

Definition cell_val (k : pyconst) : pyv := match k with KStr s => YStr s | _ => YNone end.
Definition cells_ok (cells : list pyconst) : bool := forallb (fun k => match k with KStr _ | KNone => true | _ => false end) cells.

Lemma cells_print cells : cells_ok cells = true ->
  exists sc, mapM (cell_syn E) cells = Some sc /\ forallb wf_syn sc = true
             /\ mapM (eval_syn E) sc = Some (map cell_val cells) /\ mapM as_cell (map cell_val cells) = Some cells.
Proof. induction cells as [|k t IH]; intros H; [exists []; repeat split|].
  cbn [cells_ok forallb] in H. apply andb_true_iff in H. destruct H as [Hk Ht]. destruct (IH Ht) as [sc [C1 [C2 [C3 C4]]]].
  destruct k as [|b|z|q| |str]; try discriminate.
  - exists (none_syn :: sc). cbn [mapM cell_syn map cell_val forallb as_cell]. rewrite C1, C2, C3, C4. repeat split.
  - exists (str_syn E str :: sc). cbn [mapM cell_syn map cell_val forallb as_cell]. rewrite C1, C2, C4.
    rewrite (eval_str E unq), C3. repeat split. Qed.

Definition frame_ok (fr : list (string * list pyconst)) : bool := forallb (fun cc => cells_ok (snd cc)) fr.
Definition cells_val (cells : list pyconst) : pyv := YList (map cell_val cells).

Lemma frame_print fr : frame_ok fr = true -> all_same_len fr = true -> nodups (map fst fr) = true -> fr <> [] ->
  exists sf, frame_syn E fr = Some sf /\ wf_syn sf = true /\ eval_syn E sf = Some (YFrame fr).
Proof. intros Fo Al Nd Ne. unfold frame_ok in Fo. rewrite forallb_forall in Fo.
  destruct (sdict_print E unq (fun cs => option_map SList (mapM (cell_syn E) cs)) cells_val fr) as [kvs [M1 [M2 [M3 M4]]]].
  { intros cc Hc. destruct (cells_print (snd cc) (Fo cc Hc)) as [sc [C1 [C2 [C3 _]]]]. exists (SList sc). rewrite C1.
    repeat split; [exact C2|]. rewrite eval_list, C3. reflexivity. }
  exists (SCall ["pd"; "DataFrame"] [(None, SDict true kvs)]). split; [|split].
  - unfold frame_syn.
    rewrite (mapM_ext _ (fun cc => option_map (fun v => (str_syn E (fst cc), v)) (option_map SList (mapM (cell_syn E) (snd cc))))), M1;
      [reflexivity|]. intros cc _. destruct (mapM (cell_syn E) (snd cc)); reflexivity.
  - cbn [wf_syn nonempty_path forallb is_const_name smem existsb const_names String.eqb Ascii.eqb Bool.eqb negb andb orb snd].
    rewrite M2. destruct kvs; [destruct fr; [contradiction|discriminate M3]|reflexivity].
  - rewrite eval_call. unfold eval_args. cbn [mapM fst snd]. rewrite M4. cbn [option_map].
    change (call_global ["pd"; "DataFrame"] [(None, sdict_val cells_val fr)]) with (g_frame [(None, sdict_val cells_val fr)]).
    unfold g_frame. rewrite as_sdict_val by (apply nodups_NoDup; exact Nd). rewrite mapM_vals, Al; [reflexivity|].
    intros [c cells] Hc. destruct (cells_print cells (Fo _ Hc)) as [sc [_ [_ [_ C4]]]]. cbn [fst snd cells_val]. rewrite C4. reflexivity. Qed.

Lemma spec_print r : spec_ok r = true ->
  exists sr, spec_syn E r = Some sr /\ wf_syn sr = true /\ eval_syn E sr = Some (YSpec r).
Proof. unfold spec_ok. intros H. split_andb.
  assert (Ne : rs_control r <> []).
  { intros Em. match goal with Hx : Nat.leb 2 (List.length (rs_control r)) = true |- _ => rewrite Em in Hx; discriminate Hx end. }
  destruct (frame_print (rs_control r)) as [sf [F1 [F2 F3]]]; try assumption.
  set (A := [(Some "record_keys", YList (map YStr (rs_record_keys r))); (Some "control_table", YFrame (rs_control r));
             (Some "control_table_keys", YList (map YStr (rs_control_keys r))); (Some "strict", YBool (rs_strict r))]).
  exists (SCall ["data_algebra"; "cdata"; "RecordSpecification"]
      [(Some "record_keys", strs_syn E (rs_record_keys r)); (Some "control_table", sf);
       (Some "control_table_keys", strs_syn E (rs_control_keys r)); (Some "strict", bool_syn (rs_strict r))]).
  split; [unfold spec_syn; rewrite F1; reflexivity|]. split.
  - cbn [wf_syn nonempty_path forallb is_const_name smem existsb const_names String.eqb Ascii.eqb Bool.eqb negb andb orb snd].
    rewrite !wf_strs, F2. destruct (rs_strict r); reflexivity.
  - rewrite eval_call.
    assert (Ea : eval_args E [(Some "record_keys", strs_syn E (rs_record_keys r)); (Some "control_table", sf);
                              (Some "control_table_keys", strs_syn E (rs_control_keys r)); (Some "strict", bool_syn (rs_strict r))] = Some A).
    { unfold A. apply eval_args_cons; [apply eval_strs; exact unq|]. apply eval_args_cons; [exact F3|].
      apply eval_args_cons; [apply eval_strs; exact unq|]. apply eval_args_cons; [destruct (rs_strict r); reflexivity|reflexivity]. }
    rewrite Ea. change (call_global ["data_algebra"; "cdata"; "RecordSpecification"] A) with (g_spec A). unfold g_spec.
    change (pos_args A) with (@nil pyv). change (kws_ok ["record_keys"; "control_table"; "control_table_keys"; "strict"] A) with true.
    change (kwarg "control_table" A) with (Some (YFrame (rs_control r))). change (kwarg "strict" A) with (Some (YBool (rs_strict r))).
    change (kwarg "record_keys" A) with (Some (YList (map YStr (rs_record_keys r)))).
    change (kwarg "control_table_keys" A) with (Some (YList (map YStr (rs_control_keys r)))).
    cbv beta iota zeta. rewrite !as_strs1_list.
    assert (R1 : Nat.leb 1 (frame_rows (rs_control r)) = true).
    { match goal with Hx : Nat.leb 2 (frame_rows (rs_control r)) = true |- _ => apply Nat.leb_le in Hx; apply Nat.leb_le; lia end. }
    rewrite R1.
    repeat match goal with Hx : _ = true |- _ => rewrite Hx end. rewrite orb_true_r. destruct r; reflexivity. Qed.

Lemma opt_spec_print o : opt_spec_ok o = true ->
  exists so, opt_spec_syn E o = Some so /\ wf_syn so = true
    /\ eval_syn E so = Some (match o with Some r => YSpec r | None => YNone end).
Proof. destruct o as [r|]; intros H; [exact (spec_print r H)|]. exists none_syn. repeat split. Qed.

Lemma spec_rows r : spec_ok r = true -> Nat.leb (frame_rows (rs_control r)) 1 = false.
Proof. unfold spec_ok. intros H. split_andb.
  match goal with Hx : Nat.leb 2 (frame_rows (rs_control r)) = true |- _ => apply Nat.leb_le in Hx; apply Nat.leb_gt; lia end. Qed.

Lemma convert_good s rm : normal E (EConvert s rm) = true -> good s -> good (EConvert s rm).
Proof. cbn [normal]. intros H G. split_andb.
  destruct (opt_spec_print (rm_in rm)) as [si [I1 [I2 I3]]]; [assumption|].
  destruct (opt_spec_print (rm_out rm)) as [so [U1 [U2 U3]]]; [assumption|].
  set (sm := SCall ["data_algebra"; "cdata"; "RecordMap"] [(Some "blocks_in", si); (Some "blocks_out", so); (Some "strict", bool_syn (rm_strict rm))]).
  assert (Rm : recmap_syn E rm = Some sm) by (unfold recmap_syn; rewrite I1, U1; reflexivity).
  assert (Wm : wf_syn sm = true).
  { unfold sm. cbn [wf_syn nonempty_path forallb is_const_name smem existsb const_names String.eqb Ascii.eqb Bool.eqb negb andb orb snd].
    rewrite I2, U2. destruct (rm_strict rm); reflexivity. }
  assert (Em : eval_syn E sm = Some (YMap rm)).
  { unfold sm. rewrite eval_call.
    set (A := [(Some "blocks_in", match rm_in rm with Some r => YSpec r | None => YNone end);
               (Some "blocks_out", match rm_out rm with Some r => YSpec r | None => YNone end); (Some "strict", YBool (rm_strict rm))]).
    assert (Ea : eval_args E [(Some "blocks_in", si); (Some "blocks_out", so); (Some "strict", bool_syn (rm_strict rm))] = Some A).
    { unfold A. apply eval_args_cons; [exact I3|]. apply eval_args_cons; [exact U3|].
      apply eval_args_cons; [destruct (rm_strict rm); reflexivity|reflexivity]. }
    rewrite Ea. change (call_global ["data_algebra"; "cdata"; "RecordMap"] A) with (g_recmap A). unfold g_recmap.
    change (pos_args A) with (@nil pyv). change (kws_ok ["blocks_in"; "blocks_out"; "strict"] A) with true.
    change (kwarg "blocks_in" A) with (Some (match rm_in rm with Some r => YSpec r | None => YNone end)).
    change (kwarg "blocks_out" A) with (Some (match rm_out rm with Some r => YSpec r | None => YNone end)).
    change (kwarg "strict" A) with (Some (YBool (rm_strict rm))).
    destruct rm as [ri ro rs]. cbn [rm_in rm_out rm_strict] in *.
    destruct ri as [ri|], ro as [ro|]; cbn [opt_spec_ok] in *; rewrite ?spec_rows by assumption; try reflexivity. discriminate. }
  eapply (meth_good E s "convert_records" [(None, sm)] [(None, YMap rm)]); try eassumption; try reflexivity.
  - apply eval_args_cons; [exact Em|reflexivity].
  - cbn [wf_args forallb snd]. rewrite Wm. reflexivity.
  - change (call_method_op E s "convert_records" [(None, YMap rm)]) with (b_convert_records s [(None, YMap rm)]).
    unfold b_convert_records.
    rewrite strip_trivial_id by assumption.
    repeat match goal with Hx : _ = true |- _ => rewrite Hx end. reflexivity.
  - intros ss Hs. cbn [syn_of_op]. rewrite Hs, Rm. reflexivity. Qed.

End Builders2.
