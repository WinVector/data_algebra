(* C03, part 6: the extend step of the Polars executor model: without a window it computes sem_extend on the same input;
   with one (group aggregates over a partition, with or without an order) the Pandas-flavoured sem_wextend, up to the order
   of the rows. *)
From Coq Require Import List Bool Qreduction String Lia Permutation.
Import ListNotations.
From DA Require Import Base.PyRT Base.PyStr Base.Val Model.Sem Model.PolarsExec Proofs.SemOrderP Proofs.SemBasicP Proofs.PermP1
  Proofs.PolarsP1 Proofs.PolarsP2 Proofs.PolarsP3 Proofs.PolarsP4 Proofs.PolarsP5 Proofs.ListP Proofs.TabP.
Local Open Scope string_scope.
Local Open Scope list_scope.

(* ------------------------------------------------------------------ the value a window aggregate gives to a row *)
Definition wval (cs : list string) (RS : list (list val)) (part : list string) (e : expr) (r : list val) : val :=
  agg_fn fl_pandas (agg_name e) (map (argval e cs) (filter (fun r0 => keys_eqv (key_of cs part r) (key_of cs part r0)) RS)).
Definition hrow (cs : list string) (RS : list (list val)) (part : list string) (ops : list (string * expr)) (r : list val) : list val :=
  fst (fold_left (fun acc ke => let '(row, ccs) := acc in
                                (set_cell ccs row (fst ke) (wval cs RS part (snd ke) r), add_end ccs (fst ke))) ops (r, cs)).

Lemma wval_perm cs RS RS' part e r : agg_vocab e = true -> Permutation RS RS' -> wval cs RS part e r = wval cs RS' part e r.
Proof.
  intros V P. unfold wval. apply agg_fn_perm.
  apply Permutation_map. apply perm_filter. exact P.
Qed.

Lemma hrow_perm cs RS RS' part (ops : list (string * expr)) r : forallb agg_vocab (map snd ops) = true -> Permutation RS RS' ->
  hrow cs RS part ops r = hrow cs RS' part ops r.
Proof.
  intros V P. unfold hrow. generalize (r, cs) as acc. induction ops as [|ke t IH]; intros acc; [reflexivity|].
  cbn [map forallb] in V. apply andb_true_iff in V. destruct V as [V1 V2]. cbn [fold_left].
  rewrite (wval_perm cs RS RS' part (snd ke) r V1 P). apply IH. exact V2.
Qed.

(* ------------------------------------------------------------------ keys *)

(* ------------------------------------------------------------------ Model/Sem.v window_column for a group aggregate *)

Lemma combine_map_const {A B} (l : list (nat * A)) (f : nat * A -> B) (a : val) :
  combine (map fst l) (map (fun _ => a) (map f l)) = map (fun ir => (fst ir, a)) l.
Proof. induction l as [|x t IH]; simpl; [reflexivity|]. rewrite IH. reflexivity. Qed.

Lemma find_tag_none {A} (l : list (nat * A)) (a : val) i : (forall ir, In ir l -> fst ir <> i) ->
  find (fun p : nat * val => Nat.eqb (fst p) i) (map (fun ir => (fst ir, a)) l) = None.
Proof.
  induction l as [|x t IH]; simpl; intros H; [reflexivity|].
  destruct (Nat.eqb (fst x) i) eqn:E; [apply Nat.eqb_eq in E; exfalso; apply (H x); auto|]. apply IH. intros ir I. apply H. auto.
Qed.
Lemma find_tag_some {A} (l : list (nat * A)) (a : val) i : (exists ir, In ir l /\ fst ir = i) ->
  find (fun p : nat * val => Nat.eqb (fst p) i) (map (fun ir => (fst ir, a)) l) = Some (i, a).
Proof.
  induction l as [|x t IH]; simpl; intros [ir [I E]]; [destruct I|].
  destruct (Nat.eqb (fst x) i) eqn:Ex; [apply Nat.eqb_eq in Ex; rewrite Ex; reflexivity|].
  apply IH. destruct I as [<-|I]; [apply Nat.eqb_neq in Ex; congruence|]. eauto.
Qed.

Lemma tag_from_unique n rs ir : In ir (tag_from n rs) -> nth_error rs (fst ir - n) = Some (snd ir) /\ (n <= fst ir)%nat.
Proof.
  revert n. induction rs as [|x t IH]; intros n; simpl; [tauto|]. intros [<-|I].
  - cbn [fst snd]. rewrite Nat.sub_diag. split; [reflexivity|lia].
  - destruct (IH _ I) as [A B]. split; [|lia]. replace (fst ir - n)%nat with (S (fst ir - S n)) by lia. exact A.
Qed.

Lemma in_tag_from n rs i r : nth_error rs i = Some r -> In ((n + i)%nat, r) (tag_from n rs).
Proof. intros N. apply nth_error_In with (n := i). rewrite nth_error_tag_from, N. reflexivity. Qed.

(* the window column of a vocabulary aggregate, written out *)
Lemma window_column_agg w t e : agg_vocab e = true ->
  window_column fl_pandas w t e =
  flat_map (fun k =>
      let S := stable_sort (fun a b => row_le fl_pandas (cols t) (map (fun c => (c, mem c (w_rev w))) (w_order w)) (snd a) (snd b))
                 (filter (fun ir => keys_eqv k (key_of (cols t) (w_part w) (snd ir))) (tag_from 0 (rows t))) in
      map (fun ir => (fst ir, agg_fn fl_pandas (agg_name e) (map (fun ir0 => argval e (cols t) (snd ir0)) S))) S)
    (distinct_keys (map (fun r => key_of (cols t) (w_part w) r) (rows t))).
Proof.
  intros V. unfold window_column. apply flat_map_ext. intros k. cbv zeta.
  agg_cases V; cbn [win_parts win_fn agg_name argval flat_map]; apply combine_map_const.
Qed.

Lemma window_lookup w t e i r : agg_vocab e = true -> nth_error (rows t) i = Some r ->
  lookup_pos (window_column fl_pandas w t e) i = wval (cols t) (rows t) (w_part w) e r.
Proof.
  intros V N. rewrite (window_column_agg w t e V).
  set (cs := cols t). set (part := w_part w).
  set (le := fun a b : nat * list val => row_le fl_pandas cs (map (fun c => (c, mem c (w_rev w))) (w_order w)) (snd a) (snd b)).
  set (tagged := tag_from 0 (rows t)).
  set (SK := fun k => stable_sort le (filter (fun ir => keys_eqv k (key_of cs part (snd ir))) tagged)).
  set (AK := fun k => agg_fn fl_pandas (agg_name e) (map (fun ir0 : nat * list val => argval e cs (snd ir0)) (SK k))).
  change (lookup_pos (flat_map (fun k => map (fun ir => (fst ir, AK k)) (SK k)) (distinct_keys (map (fun r0 => key_of cs part r0) (rows t)))) i
          = wval cs (rows t) part e r).
  assert (forall k ir, In ir (SK k) -> In ir tagged /\ keys_eqv k (key_of cs part (snd ir)) = true) as InS.
  { intros k ir I. unfold SK in I. apply SemBasicP.stable_sort_In in I. apply filter_In in I. exact I. }
  assert (forall ir, In ir tagged -> fst ir = i -> snd ir = r) as Uniq.
  { intros ir I E. destruct (tag_from_unique 0 (rows t) ir I) as [A _]. rewrite Nat.sub_0_r, E, N in A. congruence. }
  assert (In (i, r) tagged) as Iir by (apply (in_tag_from 0 (rows t) i r N)).
  (* the value of the group of r *)
  assert (forall k, keys_eqv k (key_of cs part r) = true -> AK k = wval cs (rows t) part e r) as Val.
  { intros k E. unfold AK, wval, SK.
    apply agg_fn_perm.
    rewrite <- (map_map snd (argval e cs)). apply Permutation_map.
    eapply perm_trans; [apply Permutation_map, SemOrderP.stable_sort_perm|].
    rewrite (filter_ext_in (fun ir : nat * list val => keys_eqv k (key_of cs part (snd ir)))
                            (fun ir => (fun r0 => keys_eqv (key_of cs part r) (key_of cs part r0)) (snd ir))).
    - unfold tagged. rewrite (filter_tag_snd (fun r0 => keys_eqv (key_of cs part r) (key_of cs part r0)) (rows t) 0). apply Permutation_refl.
    - intros ir _. cbv beta. apply keys_eqv_cong_l. exact E. }
  assert (exists k, In k (distinct_keys (map (fun r0 => key_of cs part r0) (rows t))) /\ keys_eqv k (key_of cs part r) = true) as Ex.
  { apply distinct_keys_complete. apply in_map_iff. exists r. split; [reflexivity|]. eapply nth_error_In; eassumption. }
  revert Ex. generalize (distinct_keys (map (fun r0 => key_of cs part r0) (rows t))) as G.
  induction G as [|k G IH]; intros [k0 [I0 E0]]; [destruct I0|].
  cbn [flat_map]. unfold lookup_pos. rewrite find_app.
  destruct (keys_eqv k (key_of cs part r)) eqn:Ek.
  - rewrite (find_tag_some (SK k) (AK k) i).
    + cbn [snd]. apply Val. exact Ek.
    + exists (i, r). split; [|reflexivity]. unfold SK.
      eapply Permutation_in; [apply Permutation_sym, SemOrderP.stable_sort_perm|]. apply filter_In. split; [exact Iir|exact Ek].
  - rewrite (find_tag_none (SK k) (AK k) i).
    + apply IH. destruct I0 as [->|I0]; [congruence|]. eauto.
    + intros ir I E. destruct (InS k ir I) as [It Ke]. rewrite (Uniq ir It E) in Ke. congruence.
Qed.

Lemma fold_left_map' {A B C} (f : A -> B -> A) (g : C -> B) l a : fold_left f (map g l) a = fold_left (fun acc x => f acc (g x)) l a.
Proof. revert a. induction l as [|x t IH]; intros a; simpl; [reflexivity|]. apply IH. Qed.

Lemma sem_wextend_rows (ops : list (string * expr)) w t : forallb agg_vocab (map snd ops) = true ->
  rows (sem_wextend fl_pandas ops w t) = map (hrow (cols t) (rows t) (w_part w) ops) (rows t).
Proof.
  intros V. unfold sem_wextend. cbn [rows]. apply map_tag_from_rowwise. intros i r N. cbn [fst snd].
  unfold hrow. rewrite fold_left_map'. f_equal. apply fold_left_ext_in. intros [row0 ccs0] ke Ike. cbn [fst snd].
  rewrite (window_lookup w t (snd ke) i r); [reflexivity| |exact N].
  rewrite forallb_forall in V. apply V. apply in_map. exact Ike.
Qed.

(* ------------------------------------------------------------------ the loop of _extend_step in a windowed situation *)
Definition agg_xe (one : string) (e : expr) : plx := match tr_expr one true e with Ok x => x | _ => PLit VNull end.

Lemma fold_extend_true one pb (ops : list (string * expr)) temps acc names : forallb agg_vocab (map snd ops) = true ->
  fold_left (extend_fold_step one true pb) ops (Ok (temps, acc, names)) =
  Ok (temps, acc ++ map (fun ke => (fst ke, COver (agg_xe one (snd ke)) pb)) ops, names).
Proof.
  revert acc. induction ops as [|ke t IH]; intros acc V; [simpl; rewrite app_nil_r; reflexivity|].
  cbn [map forallb] in V. apply andb_true_iff in V. destruct V as [V1 V2].
  destruct (agg_plx_value one (snd ke) V1) as [x [T _]].
  assert (extend_fold_step one true pb (Ok (temps, acc, names)) ke = Ok (temps, acc ++ [(fst ke, COver x pb)], names)) as S1.
  { unfold extend_fold_step. cbn [rbind]. rewrite (agg_vocab_promote _ _ _ _ V1), T. cbn [rbind].
    destruct (agg_vocab_shape _ V1) as [[op [_ ->]]|[op [c [_ ->]]]]; reflexivity. }
  cbn [fold_left map]. rewrite S1, IH by exact V2. rewrite <- app_assoc. cbn [app]. unfold agg_xe at 2. rewrite T. reflexivity.
Qed.

(* ------------------------------------------------------------------ the step *)
Lemma wextend_step_perm declared (ops : list (string * expr)) w t t' t2 :
  good t -> cols t = cols t' -> Permutation (rows t) (rows t') ->
  declared = ext_cols (cols t) (map fst ops) ->
  forallb agg_vocab (map snd ops) = true ->
  (forall c, In c (flat_map (fun ke => expr_cols (snd ke)) ops) \/ In c (w_part w) -> In c (cols t)) ->
  pl_extend_step declared ops true w t = Ok t2 ->
  cols t2 = ext_cols (cols t) (map fst ops) /\ Permutation (rows t2) (rows (sem_wextend fl_pandas ops w t')).
Proof.
  intros [ND W] C P -> V NR H.
  (* the reference side, on t' and then on t *)
  rewrite (sem_wextend_rows ops w t' V). rewrite <- C.
  assert (Permutation (map (hrow (cols t) (rows t) (w_part w) ops) (rows t)) (map (hrow (cols t) (rows t') (w_part w) ops) (rows t'))) as PR.
  { rewrite (map_ext _ _ (fun r => hrow_perm (cols t) (rows t) (rows t') (w_part w) ops r V P)). apply Permutation_map. exact P. }
  cut (cols t2 = ext_cols (cols t) (map fst ops) /\ Permutation (rows t2) (map (hrow (cols t) (rows t) (w_part w) ops) (rows t))).
  { intros [A B]. split; [exact A|]. eapply perm_trans; eassumption. }
  clear PR P C t'.
  unfold pl_extend_step in H.
  set (used := ext_cols (cols t) (map fst ops)) in *.
  set (P := fresh extend_part_base used) in *.
  set (pb := match w_part w with [] => [P] | (_ :: _) as p => p end) in *.
  destruct (step_temps_ok (w_part w) extend_part_base used (map snd ops) (agg_no_zero _ V)) as [TO LG]. fold P in TO, LG.
  set (o := fresh one_base _) in *. set (temps := _ ++ req_temps _ o (map snd ops)) in *.
  assert (forall c, In c (cols t) -> In c used) as SubU by (intros c I; unfold used; apply In_ext_cols; left; exact I).
  rewrite fold_extend_true in H by exact V. cbn [rbind app] in H.
  rewrite (with_columns_if_lits t temps (to_lit _ _ _ _ TO)) in H.
  set (cs1 := ext_cols (cols t) (map fst temps)) in *.
  set (w1 := temps_row t temps) in *.
  set (r2 := match w_order w with [] => mktable cs1 (map w1 (rows t)) | _ :: _ => _ end) in *.
  assert (cols r2 = cs1) as C2 by (unfold r2; destruct (w_order w); reflexivity).
  assert (Permutation (rows r2) (map w1 (rows t))) as P2.
  { unfold r2. destruct (w_order w); [apply Permutation_refl|]. cbn [pl_sort rows cols]. apply SemOrderP.stable_sort_perm. }
  assert (forall row2, In row2 (rows r2) -> exists r, In r (rows t) /\ row2 = w1 r) as From.
  { intros row2 I. apply (Permutation_in _ P2) in I. apply in_map_iff in I. destruct I as [r [<- I]]. eauto. }
  (* the partition key of a row of r2: the stand-in column is constant, the user's columns are untouched *)
  assert (forall r r0, In r (rows t) -> In r0 (rows t) ->
            keys_eqv (key_of cs1 pb (w1 r)) (key_of cs1 pb (w1 r0)) = keys_eqv (key_of (cols t) (w_part w) r) (key_of (cols t) (w_part w) r0)) as KP.
  { intros r r0 I I0. unfold pb. destruct (w_part w) as [|p0 pt] eqn:Ep.
    - rewrite !(LG eq_refl t) by (apply width_row; auto). reflexivity.
    - assert (forall x, In x (rows t) -> key_of cs1 (p0 :: pt) (w1 x) = key_of (cols t) (p0 :: pt) x) as K1.
      { intros x Ix. apply (key_of_temps t temps used o _ (p0 :: pt) x TO); [apply width_row; auto|].
        intros c Ic. apply SubU, NR. right. exact Ic. }
      rewrite (K1 r I), (K1 r0 I0). reflexivity. }
  (* a cell computed by .over on r2 *)
  assert (forall i r ke, nth_error (rows r2) i = Some (w1 r) -> In r (rows t) -> In ke ops ->
            col_at r2 (COver (agg_xe o (snd ke)) pb) i = wval (cols t) (rows t) (w_part w) (snd ke) r) as CV.
  { intros i r ke N Ir Ike. cbn [col_at]. rewrite C2. rewrite (nth_error_nth _ _ [] N).
    rewrite (map_nth_filter_seq (fun r' => keys_eqv (key_of cs1 pb (w1 r)) (key_of cs1 pb r')) (rows r2)).
    assert (agg_vocab (snd ke) = true) as Vk by (rewrite forallb_forall in V; apply V; apply in_map; exact Ike).
    set (q := fun r' => keys_eqv (key_of cs1 pb (w1 r)) (key_of cs1 pb r')).
    assert (Permutation (filter q (rows r2)) (map w1 (filter (fun r0 => keys_eqv (key_of (cols t) (w_part w) r) (key_of (cols t) (w_part w) r0)) (rows t)))) as PF.
    { eapply perm_trans; [apply perm_filter, P2|]. rewrite filter_map_comm.
      rewrite (filter_ext_in (fun x => q (w1 x)) (fun r0 => keys_eqv (key_of (cols t) (w_part w) r) (key_of (cols t) (w_part w) r0)))
        by (intros r0 I0; unfold q; apply KP; assumption).
      apply Permutation_refl. }
    unfold wval.
    transitivity (agg_fn fl_pandas (agg_name (snd ke)) (map (argval (snd ke) cs1) (filter q (rows r2)))).
    - destruct (agg_plx_value o (snd ke) Vk) as [x [T E]]. unfold agg_xe. rewrite T. apply E.
      intros Uo row2 I2. apply filter_In in I2. destruct I2 as [I2 _]. destruct (From row2 I2) as [r0 [I0 ->]].
      apply (temps_one t temps used o _ r0 TO); [|apply width_row; auto].
      apply (needs_one_in _ (snd ke)); [apply in_map; exact Ike|exact Uo].
    - rewrite (agg_fn_perm fl_pandas _ _ _ (Permutation_map (argval (snd ke) cs1) PF)).
      f_equal. rewrite map_map. apply map_ext_in. intros r0 I0. apply filter_In in I0. destruct I0 as [I0 _].
      apply (argval_temps t temps used o _ (snd ke) r0 TO Vk); [apply width_row; auto|].
      intros c Ic. apply SubU, NR. left. apply in_flat_map. exists ke. auto. }
  destruct (produced_rows t temps used o _ r2 ops (fun ke => COver (agg_xe o (snd ke)) pb)
              (fun r ke => wval (cols t) (rows t) (w_part w) (snd ke) r) t2 (conj ND W) TO (fun c I => I) C2 From CV H) as [Ct [row_of [R E]]].
  split; [exact Ct|]. rewrite R. eapply perm_trans; [apply Permutation_map, P2|].
  rewrite map_map, (map_ext_in (fun r => row_of (w1 r)) (hrow (cols t) (rows t) (w_part w) ops) (rows t) E). apply Permutation_refl.
Qed.

Lemma extend_step_ok declared ops w t t2 :
  good t -> w_order w = [] -> declared = ext_cols (cols t) (map fst ops) ->
  forallb expr_vocab (map snd ops) = true ->
  (forall c, In c (flat_map (fun ke => expr_cols (snd ke)) ops) -> In c (cols t)) ->
  (forall r e, In r (rows t) -> In e (map snd ops) -> nulls_ok3 (cols t) r e) ->
  pl_extend_step declared ops false w t = Ok t2 -> t2 = sem_extend fl_pandas ops t.
Proof.
  intros [ND W] Wo -> V NR G H. unfold pl_extend_step in H. rewrite Wo in H.
  set (used := ext_cols (cols t) (map fst ops)) in *.
  assert (existsb needs_zero (map snd ops) = false) as Z.
  { rewrite forallb_forall in V. apply existsb_false. intros e I. apply (vocab_no_temps e (V e I)). }
  destruct (step_temps_ok (w_part w) extend_part_base used (map snd ops) Z) as [TO _].
  set (temps := _ ++ req_temps _ _ (map snd ops)) in *.
  rewrite fold_extend_false in H by exact V. cbn [rbind app] in H.
  rewrite (with_columns_if_lits t temps (to_lit _ _ _ _ TO)) in H.
  destruct (produced_rows t temps used _ _ (mktable (ext_cols (cols t) (map fst temps)) (map (temps_row t temps) (rows t))) ops
              (fun ke => CPlain (tr_ok (snd ke))) (fun r ke => eval_expr fl_pandas (cols t) r (snd ke)) t2 (conj ND W) TO (fun c I => I) eq_refl)
    as [Ct [row_of [R E]]]; [| |exact H|].
  - intros row2 I. apply in_map_iff in I. destruct I as [r [<- I]]. eauto.
  - (* a produced cell: the translated expression reads, in the row with its temporaries, the row's own cells *)
    intros i r ke N Ir Ike. cbn [col_at cols rows] in *.
    assert (expr_vocab (snd ke) = true) as Vk by (rewrite forallb_forall in V; apply V, in_map, Ike).
    destruct (tr_expr_sound (snd ke) Vk) as [x [T Ex]]. unfold tr_ok. rewrite T.
    assert (forall c, In c (expr_cols (snd ke)) ->
              get (cols t) r c = get (ext_cols (cols t) (map fst temps)) (temps_row t temps r) c) as CE.
    { intros c Ic. symmetry. apply (temps_get_user t temps used _ _ r c TO); [apply width_row; auto|].
      apply In_ext_cols. left. apply NR. apply in_flat_map. exists ke. auto. }
    rewrite Ex; rewrite (nth_error_nth _ _ [] N).
    + symmetry. apply eval_expr_cols_ext. exact CE.
    + eapply nulls_ok3_cols_ext; [exact CE|]. apply G; [exact Ir|apply in_map, Ike].
  - destruct t2 as [c2 rs2]. cbn [cols rows] in *. subst c2. unfold sem_extend. f_equal.
    rewrite R, map_map. apply map_ext_in. exact E.
Qed.
