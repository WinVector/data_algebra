(* Text generation: the token stream of to_sql() does not depend on the layout options (annotate, initial_commas,
   sql_indent); every comment the generator writes is inert (C14's theorem about _clean_annotation, imported). *)
From Coq Require Import List Bool String Ascii.
Import ListNotations.
From DA Require Import Base.PyRT Base.PyStr Model.Lex Model.NearSql Model.WithForm Model.Render Gen.G_Quote Proofs.QuoteP.
Local Open Scope string_scope.
Local Open Scope list_scope.

Definition ltoks (ls : list (list item)) : list string := flat_map (flat_map tok_of) ls.

(* a SELECT list as tokens: the terms separated by commas *)
Fixpoint inter (ts : list string) : list string :=
  match ts with [] => [] | t :: r => t :: (if is_nil r then [] else "," :: inter r) end.

(* what a block contributes to the token stream: no layout option in sight *)
Definition block_toks (b : block) : list string :=
  match b_c b with
  | BText s => [s]
  | BSelect _ => ["SELECT"]
  | BComment _ | BHeader _ => []
  | BTerms ts => inter ts
  end.

Lemma terms_lines_initial o ind : initial_commas o = true -> forall ts first,
  ltoks (terms_lines o ind first ts) = if first then inter ts else if is_nil ts then [] else "," :: inter ts.
Proof.
  intros Ic. induction ts as [|t r IH]; intros first; [destruct first; reflexivity|].
  unfold ltoks in *. cbn [terms_lines]. rewrite Ic. cbn [flat_map]. rewrite (IH false).
  destruct first; cbn [flat_map tok_of app inter is_nil]; destruct r; reflexivity.
Qed.

Lemma terms_lines_trailing o ind : initial_commas o = false -> forall ts first,
  ltoks (terms_lines o ind first ts) = inter ts.
Proof.
  intros Ic. induction ts as [|t r IH]; intros first; [reflexivity|].
  unfold ltoks in *. cbn [terms_lines]. rewrite Ic. cbn [flat_map]. rewrite (IH false).
  destruct r; cbn [is_nil flat_map tok_of app inter]; reflexivity.
Qed.

Lemma block_lines_toks o b : ltoks (block_lines o b) = block_toks b.
Proof.
  unfold block_lines, block_toks. destruct (b_c b) as [s|[a|]|a|s|ts]; try reflexivity.
  - destruct (annotate o); reflexivity.
  - destruct (annotate o); reflexivity.
  - destruct (initial_commas o) eqn:Ic; [rewrite terms_lines_initial by exact Ic|rewrite terms_lines_trailing by exact Ic]; reflexivity.
Qed.

Lemma toks_blocks o bs : toks o bs = flat_map block_toks bs.
Proof.
  unfold toks, sql_lines. induction bs as [|b t IH]; [reflexivity|].
  cbn [flat_map]. rewrite flat_map_app, IH. f_equal. apply block_lines_toks.
Qed.

(* which blocks are written depends on use_with / use_cte_elim only *)
Lemma to_sql_blocks_layout_free d fl o1 o2 q :
  use_with o1 = use_with o2 -> use_cte_elim o1 = use_cte_elim o2 -> to_sql_blocks d fl o1 q = to_sql_blocks d fl o2 q.
Proof. intros H1 H2. unfold to_sql_blocks. rewrite H1, H2. reflexivity. Qed.

Theorem render_tokens_invariant d fl o1 o2 q :
  use_with o1 = use_with o2 -> use_cte_elim o1 = use_cte_elim o2 ->
  toks o1 (to_sql_blocks d fl o1 q) = toks o2 (to_sql_blocks d fl o2 q).
Proof. intros H1 H2. rewrite (to_sql_blocks_layout_free d fl o1 o2 q H1 H2), !toks_blocks. reflexivity. Qed.

(* ------------------------------------------------------------------ comments *)
Lemma clean_is_cleaned a : _clean_annotation (Some a) = Some (clean a).
Proof. unfold clean. destruct (_clean_annotation (Some a)) eqn:E; [reflexivity|].
  rewrite clean_annotation_shape in E. discriminate. Qed.

(* an annotation comment ends exactly at the newline written after it, whatever the annotation contains *)
Lemma annotation_comment_inert a rest :
  skip_comment (String.append (String.append "-- " (clean a)) (String "010"%char rest)) = Some rest.
Proof.
  rewrite str_append_assoc. apply (comment_is_inert a). apply clean_is_cleaned.
Qed.

(* every comment item is the LAST item of its line and is either an annotation comment or a line of to_sql's preamble *)
Lemma block_comments o b l s :
  In l (block_lines o b) -> In (IComment s) l ->
  (exists pre, l = pre ++ [IComment s]) /\
  ((exists a, s = String.append "-- " (clean a)) \/ b_c b = BHeader s).
Proof.
  unfold block_lines. destruct (b_c b) as [t|[a|]|a|h|ts]; intros Il Ic.
  - destruct Il as [<-|[]]. simpl in Ic. destruct Ic as [E|[E|[]]]; discriminate.
  - destruct (annotate o).
    + destruct Il as [<-|[]]. simpl in Ic. destruct Ic as [E|[E|[E|[E|[]]]]]; try discriminate. injection E as <-.
      split; [exists [IWs (repeat_str (sql_indent o) (b_ind b)); ITok "SELECT"; IWs "  "]; reflexivity|left; exists a; reflexivity].
    + destruct Il as [<-|[]]. simpl in Ic. destruct Ic as [E|[E|[]]]; discriminate.
  - destruct Il as [<-|[]]. simpl in Ic. destruct Ic as [E|[E|[]]]; discriminate.
  - destruct Il as [<-|[]]. simpl in Ic. destruct Ic as [E|[E|[]]]; try discriminate. injection E as <-.
    split; [exists [IWs (repeat_str (sql_indent o) (b_ind b))]; reflexivity|left; exists a; reflexivity].
  - destruct (annotate o); [|contradiction]. destruct Il as [<-|[]]. simpl in Ic. destruct Ic as [E|[E|[]]]; try discriminate.
    injection E as <-. split; [exists [IWs (repeat_str (sql_indent o) (b_ind b))]; reflexivity|right; reflexivity].
  - exfalso. revert l Il Ic. generalize true as first. induction ts as [|t r IH]; intros first l Il Ic; [contradiction|].
    cbn [terms_lines] in Il. destruct Il as [<-|Il]; [|exact (IH _ _ Il Ic)].
    destruct (initial_commas o).
    + simpl in Ic. destruct first; destruct Ic as [E|[E|[E|[E|[]]]]]; discriminate.
    + destruct (is_nil r); simpl in Ic.
      * destruct Ic as [E|[E|[]]]; discriminate.
      * destruct Ic as [E|[E|[E|[E|[]]]]]; discriminate.
Qed.

Theorem comments_are_inert o bs l s rest :
  In l (sql_lines o bs) -> In (IComment s) l ->
  (forall b h, In b bs -> b_c b = BHeader h -> has_char is_eol h = false /\ exists h', h = String "-" (String "-" h')) ->
  (exists pre, l = pre ++ [IComment s]) /\ skip_comment (String.append s (String "010"%char rest)) = Some rest.
Proof.
  unfold sql_lines. intros Il Ic Hh. apply in_flat_map in Il. destruct Il as (b & Ib & Il).
  destruct (block_comments o b l s Il Ic) as [Pre [[a ->]|Hb]]; split; try exact Pre.
  - apply annotation_comment_inert.
  - destruct (Hh b s Ib Hb) as [Ne [h' ->]]. cbn [String.append skip_comment]. f_equal.
    change (String "-" (String "-" h')) with (String.append "--" h') in Ne.
    apply skip_line_no_eol. simpl in Ne. exact Ne.
Qed.

(* for examples: a text given line by line *)
Definition text_of_lines (ls : list string) : string :=
  concat_str (map (fun l => String.append l (String "010"%char EmptyString)) ls).
