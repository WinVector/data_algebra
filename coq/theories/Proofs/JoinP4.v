(* C16, part 4: SQLite's FULL join emulation (_emit_full_join_as_complex):
        key table = distinct keys of both sides (GROUP BY: a NULL key value is a group), LEFT JOIN left, LEFT JOIN right.
   Per key k with m rows on the left and n on the right the two LEFT joins give m*n, m (n = 0) or n (m = 0) rows: exactly the
   FULL join -- PROVIDED no key contains a NULL.  A NULL key is a group of the key table but matches nothing in either LEFT
   join, so all the rows carrying it collapse into one all-NULL row (refuted below, with the witness). *)
From Coq Require Import List Bool QArith String Permutation.
Import ListNotations.
From DA Require Import Base.PyRT Base.Val Model.Sem Model.JoinSpec Model.JoinEmul Proofs.SemBasicP Proofs.JoinP1 Proofs.JoinP2 Proofs.JoinP3 Proofs.ListP Proofs.TabP.
Local Open Scope list_scope.

Lemma filter_filter_sub {A} (p q : A -> bool) l : (forall x, In x l -> p x = true -> q x = true) -> filter p (filter q l) = filter p l.
Proof.
  intros H. induction l as [|x t IH]; simpl; [reflexivity|].
  assert (filter p (filter q t) = filter p t) as E by (apply IH; intros y I; apply H; right; exact I).
  destruct (q x) eqn:Q; simpl; [rewrite E; reflexivity|].
  destruct (p x) eqn:P; [|exact E]. rewrite (H x (or_introl eq_refl) P) in Q. discriminate.
Qed.

(* ---------- a list splits into the classes of a complete family of pairwise inequivalent keys *)
Lemma partition_by_classes {A} (key : A -> list val) K : forall l,
  ForallOrdPairs (fun x y => keys_eqv x y = false) K ->
  (forall r, In r l -> exists k, In k K /\ keys_eqv k (key r) = true) ->
  Permutation l (flat_map (fun k => filter (fun r => keys_eqv k (key r)) l) K).
Proof.
  induction K as [|k0 K' IH]; intros l P C.
  - destruct l as [|r t]; [constructor|]. destruct (C r (or_introl eq_refl)) as [k [[] _]].
  - inversion P as [|? ? F P']. subst. cbn [flat_map].
    eapply perm_trans; [apply (perm_partition (fun r => keys_eqv k0 (key r)))|]. apply Permutation_app_head.
    eapply perm_trans; [apply (IH _ P')|].
    + intros r I. apply filter_In in I. destruct I as [I N]. apply negb_true_iff in N.
      destruct (C r I) as [k [[<-|Ik] E]]; [congruence|]. exists k. split; assumption.
    + rewrite (flat_map_ext_in _ (fun k => filter (fun r => keys_eqv k (key r)) l)); [apply Permutation_refl|].
      intros k Ik. apply filter_filter_sub. intros r _ E. apply negb_true_iff.
      destruct (keys_eqv k0 (key r)) eqn:E0; [|reflexivity]. exfalso.
      rewrite Forall_forall in F. specialize (F k Ik).
      rewrite (keys_eqv_trans k0 (key r) k E0) in F; [discriminate|]. rewrite keys_eqv_sym. exact E.
Qed.

(* selecting every column of a well-formed table changes nothing (OTable re-reads its declared columns) *)
Lemma reread_all cs : NoDup cs -> forall r, List.length r = List.length cs -> map (get cs r) cs = r.
Proof.
  induction 1 as [|c cs N ND IH]; intros [|x r] L; simpl in L; try discriminate; [reflexivity|].
  cbn [map]. f_equal.
  - unfold get. cbn [index_of]. destruct (eq_dec c c); [reflexivity|congruence].
  - rewrite <- (IH r (eq_add_S _ _ L)) at 2. apply map_ext_in. intros c' I. unfold get. cbn [index_of].
    destruct (eq_dec c' c) as [->|n]; [contradiction|]. destruct (index_of c' cs); reflexivity.
Qed.
Lemma select_all_cols_id t : wf_table t -> sem_select_cols (cols t) t = t.
Proof.
  intros [N W]. destruct t as [cs rs]. unfold sem_select_cols. cbn [cols rows] in *. f_equal.
  rewrite <- (map_id rs) at 2. apply map_ext_in. intros r I. rewrite Forall_forall in W. apply reread_all; [exact N|apply W, I].
Qed.

Section FullEmul.
  Variables (J : list string) (a b : table).
  Let ca := cols a.
  Let cb := cols b.
  Let keyA := key_of ca J.
  Let keyB := key_of cb J.
  Let allkeys := map keyA (rows a) ++ map keyB (rows b).
  Hypothesis HJ : J <> [].
  Hypothesis HJa : incl J ca.
  Hypothesis HJb : incl J cb.
  (* no key contains a NULL *)
  Hypothesis Hnn : forall k, In k allkeys -> existsb is_null k = false.
  (* key values are in canonical form: two keys that compare equal ARE equal (one type per key column, numbers reduced) *)
  Hypothesis Hcanon : forall k1 k2, In k1 allkeys -> In k2 allkeys -> keys_eqv k1 k2 = true -> k1 = k2.

  Let on := combine J J.
  Let c1 := out_cols J ca.
  Let c2 := out_cols c1 cb.
  Let out := out_cols ca cb.

  Lemma key_reread cs r : map (get J (key_of cs J r)) J = key_of cs J r.
  Proof. unfold key_of. apply map_ext_in. intros c I. apply get_map_in. exact I. Qed.
  Lemma get_key cs r c : In c J -> get J (key_of cs J r) c = get cs r c.
  Proof. intros I. unfold key_of. apply get_map_in. exact I. Qed.
  Lemma allkeys_shape k : In k allkeys -> exists cs r, k = key_of cs J r.
  Proof.
    unfold allkeys. rewrite in_app_iff, !in_map_iff. intros [[r [<- _]]|[r [<- _]]]; [exists ca, r|exists cb, r]; reflexivity.
  Qed.
  Lemma allkeys_reread k : In k allkeys -> key_of J J k = k.
  Proof. intros I. destruct (allkeys_shape k I) as [cs [r ->]]. apply key_reread. Qed.
  Lemma allkeys_cell_nonnull k c : In k allkeys -> In c J -> is_null (get J k c) = false.
  Proof.
    intros I Ic. pose proof (Hnn k I) as N. destruct (allkeys_shape k I) as [cs [r ->]].
    rewrite get_key by exact Ic. unfold key_of in N.
    destruct (is_null (get cs r c)) eqn:E; [|reflexivity].
    assert (existsb is_null (map (get cs r) J) = true) as X by (apply existsb_exists; exists (get cs r c); split; [apply in_map, Ic|exact E]).
    congruence.
  Qed.

  (* ----- the key table *)
  Lemma project_keys fl t : sem_project fl [] J t = mktable J (distinct_keys (map (key_of (cols t) J) (rows t))).
  Proof.
    unfold sem_project. destruct J as [|j J'] eqn:EJ; [congruence|]. cbn [map]. rewrite app_nil_r. f_equal.
    rewrite <- (map_id (distinct_keys _)) at 2. apply map_ext. intros k. apply app_nil_r.
  Qed.

  Definition Krows := distinct_keys (distinct_keys (map keyA (rows a)) ++ distinct_keys (map keyB (rows b))).

  Lemma dk_app_sound k : In k (distinct_keys (map keyA (rows a)) ++ distinct_keys (map keyB (rows b))) -> In k allkeys.
  Proof. unfold allkeys. rewrite !in_app_iff. intros [H|H]; [left|right]; apply distinct_keys_sound, H. Qed.
  Lemma Krows_sound k : In k Krows -> In k allkeys.
  Proof. intros I. apply dk_app_sound. apply distinct_keys_sound. exact I. Qed.
  (* canonical keys: distinct_keys keeps every key itself, not only a representative *)
  Lemma dk_cover ks k : (forall k', In k' ks -> In k' allkeys) -> In k ks -> In k (distinct_keys ks).
  Proof.
    intros S I. destruct (distinct_keys_complete ks k I) as [k' [I' E]].
    rewrite <- (Hcanon k' k); [exact I'|apply S, distinct_keys_sound, I'|apply S, I|exact E].
  Qed.
  Lemma Krows_cover k : In k allkeys -> In k Krows.
  Proof.
    intros I. apply dk_cover; [exact dk_app_sound|]. apply in_app_iff in I. apply in_app_iff.
    destruct I as [I|I]; [left|right]; (apply dk_cover; [|exact I]); intros k' I'; apply in_app_iff; auto.
  Qed.

  Lemma key_table_eq : key_table J a b = mktable J Krows.
  Proof.
    unfold key_table. rewrite (project_keys fl_sqlite a), (project_keys fl_sqlite b). unfold sem_concat. cbn [cols rows].
    rewrite project_keys. cbn [cols rows]. f_equal. unfold Krows. f_equal.
    fold ca cb. fold keyA keyB.
    assert (map (fun r => map (get J r) J) (distinct_keys (map keyB (rows b))) = distinct_keys (map keyB (rows b))) as E.
    { rewrite <- (map_id (distinct_keys _)) at 2. apply map_ext_in. intros k I.
      apply distinct_keys_sound in I. apply in_map_iff in I. destruct I as [r [<- _]]. apply key_reread. }
    rewrite E. rewrite <- (map_id (_ ++ _)) at 2. apply map_ext_in. intros k I. apply allkeys_reread, dk_app_sound, I.
  Qed.

  Lemma keyA_all ra : In ra (rows a) -> In (keyA ra) allkeys.
  Proof. intros I. apply in_app_iff. left. apply in_map, I. Qed.
  Lemma keyB_all rb : In rb (rows b) -> In (keyB rb) allkeys.
  Proof. intros I. apply in_app_iff. right. apply in_map, I. Qed.

  (* ----- classes: the rows of one side that carry the key k *)
  Definition cls (key : list val -> list val) (rs : list (list val)) (k : list val) : list (list val) :=
    filter (fun r => keys_eqv k (key r)) rs.

  Section Classes.
    Variables (key : list val -> list val) (rs : list (list val)).
    Hypothesis Hall : forall r, In r rs -> In (key r) allkeys.

    Lemma cls_key k r : In k Krows -> In r (cls key rs k) -> In r rs /\ key r = k.
    Proof.
      intros Ik I. apply filter_In in I. destruct I as [I E]. split; [exact I|]. symmetry.
      apply Hcanon; [apply Krows_sound, Ik|apply Hall, I|exact E].
    Qed.
    Lemma cls_own r : In r rs -> In r (cls key rs (key r)).
    Proof. intros I. apply filter_In. split; [exact I|apply keys_eqv_refl]. Qed.
    Lemma rows_by_class : Permutation rs (flat_map (cls key rs) Krows).
    Proof.
      apply (partition_by_classes key Krows rs (distinct_keys_pairwise _)). intros r I. exists (key r). split; [|apply keys_eqv_refl].
      apply Krows_cover, Hall, I.
    Qed.
  End Classes.

  Definition Acls := cls keyA (rows a).
  Definition Bcls := cls keyB (rows b).

  Lemma class_nonempty k : In k Krows -> Acls k <> [] \/ Bcls k <> [].
  Proof.
    intros Ik. pose proof (Krows_sound k Ik) as I. apply in_app_iff in I.
    destruct I as [I|I]; apply in_map_iff in I; destruct I as [r [<- I]]; [left|right]; intros N.
    - apply (cls_own keyA) in I. unfold Acls in N. rewrite N in I. exact I.
    - apply (cls_own keyB) in I. unfold Bcls in N. rewrite N in I. exact I.
  Qed.

  Lemma on_holds_nonnull cs1 cs2 r1 r2 : existsb is_null (key_of cs1 J r1) = false ->
    on_holds cs1 cs2 on r1 r2 = keys_eqv (key_of cs1 J r1) (key_of cs2 J r2).
  Proof. intros N. unfold on. rewrite on_holds_keys_match by reflexivity. unfold keys_match. rewrite N. reflexivity. Qed.

  (* ----- what the FULL join is, class by class *)
  Definition Gcls (k : list val) : list (list val) :=
    flat_map (fun o1 => map (select_row ca cb o1) (opts (Bcls k))) (opts (Acls k)).

  Lemma partnersA ra k : In k Krows -> In ra (Acls k) -> partners_of_left on a b ra = Bcls k.
  Proof.
    intros Ik I. destruct (cls_key keyA (rows a) keyA_all k ra Ik I) as [Ia E]. apply filter_ext_in. intros rb _.
    fold ca cb. rewrite on_holds_nonnull by apply Hnn, keyA_all, Ia. fold (keyA ra). rewrite E. reflexivity.
  Qed.
  Lemma partnersB rb k : In k Krows -> In rb (Bcls k) -> partners_of_right on a b rb = Acls k.
  Proof.
    intros Ik I. destruct (cls_key keyB (rows b) keyB_all k rb Ik I) as [Ib E]. apply filter_ext_in. intros ra Ia.
    fold ca cb. rewrite on_holds_nonnull by apply Hnn, keyA_all, Ia. fold (keyB rb). rewrite E. apply keys_eqv_sym.
  Qed.

  Lemma spec_by_class : Permutation (sql_join_rows SFull on a b) (flat_map Gcls Krows).
  Proof.
    eapply perm_trans; [apply full_join_by_left_row|].
    (* left part *)
    assert (Permutation (flat_map (left_contribution on a b) (rows a))
              (flat_map (fun k => flat_map (fun ra => map (select_row ca cb (Some ra)) (opts (Bcls k))) (Acls k)) Krows)) as P1.
    { eapply perm_trans; [apply Permutation_flat_map, (rows_by_class keyA (rows a) keyA_all)|]. rewrite flat_map_flat_map.
      erewrite flat_map_ext_in; [reflexivity|].
      intros k Ik. apply flat_map_ext_in. intros ra I. rewrite left_contribution_opts, (partnersA ra k Ik I). reflexivity. }
    (* right-only part: the classes no left row belongs to *)
    assert (Permutation (unmatched_right on a b) (flat_map (fun k => match Acls k with [] => Bcls k | _ => [] end) Krows)) as P2.
    { unfold unmatched_right. eapply perm_trans; [apply perm_filter, (rows_by_class keyB (rows b) keyB_all)|]. rewrite filter_flat_map.
      erewrite flat_map_ext_in; [reflexivity|]. intros k Ik.
      transitivity (filter (fun _ => match Acls k with [] => true | _ => false end) (Bcls k)).
      - apply filter_ext_in. intros rb Ib. rewrite existsb_filter. fold (partners_of_right on a b rb).
        rewrite (partnersB rb k Ik Ib). destruct (Acls k); reflexivity.
      - destruct (Acls k); [apply filter_all|apply filter_none]; reflexivity. }
    eapply perm_trans; [apply Permutation_app; [exact P1|apply Permutation_map, P2]|].
    rewrite map_flat_map.
    eapply perm_trans; [apply flat_map_app_perm|].
    erewrite flat_map_ext_in; [reflexivity|].
    intros k Ik. unfold Gcls. destruct (class_nonempty k Ik) as [NE|NE].
    - destruct (Acls k) as [|ra0 t]; [congruence|]. cbn [opts]. rewrite flat_map_map, app_nil_r. reflexivity.
    - destruct (Acls k) as [|ra0 t].
      + cbn [opts flat_map app]. rewrite app_nil_r. destruct (Bcls k) as [|rb0 u]; [congruence|]. cbn [opts]. rewrite map_map. reflexivity.
      + cbn [opts]. rewrite flat_map_map, app_nil_r. reflexivity.
  Qed.

  (* ----- what the emulation computes, class by class *)
  Definition S1 (k : list val) (o1 : option (list val)) : list val := select_row J ca (Some k) o1.
  Definition C1 (k : list val) : list (list val) := map (S1 k) (opts (Acls k)).

  Lemma Ktab_partners k : In k Krows -> partners_of_left on (mktable J Krows) a k = Acls k.
  Proof.
    intros Ik. unfold partners_of_left, Acls. cbn [cols rows]. apply filter_ext_in. intros ra _. fold ca.
    rewrite on_holds_nonnull; rewrite (allkeys_reread k (Krows_sound k Ik)); [reflexivity|apply Hnn, Krows_sound, Ik].
  Qed.

  Lemma L1_rows : Permutation (rows (sem_join false J J JLeft (key_table J a b) a)) (flat_map C1 Krows).
  Proof.
    rewrite key_table_eq. eapply perm_trans; [apply sem_left_join_by_left_row; reflexivity|]. cbn [rows]. fold on.
    rewrite (flat_map_ext_in _ C1); [apply Permutation_refl|].
    intros k Ik. rewrite left_contribution_opts, (Ktab_partners k Ik). reflexivity.
  Qed.
  Lemma L1_cols : cols (sem_join false J J JLeft (key_table J a b) a) = c1.
  Proof. rewrite key_table_eq. reflexivity. Qed.

  Lemma S1_key k o1 : In k Krows -> key_of c1 J (S1 k o1) = k.
  Proof.
    intros Ik. pose proof (Krows_sound k Ik) as Ia. rewrite <- (allkeys_reread k Ia) at 2. apply map_ext_in. intros c Ic.
    unfold S1, c1. rewrite get_select_row, coalesce_cell_eq. cbn [cell]. rewrite (allkeys_cell_nonnull k c Ia Ic). reflexivity.
  Qed.

  Lemma L2_contribution k o1 : In k Krows ->
    left_contribution on (sem_join false J J JLeft (key_table J a b) a) b (S1 k o1)
    = map (select_row c1 cb (Some (S1 k o1))) (opts (Bcls k)).
  Proof.
    intros Ik. rewrite left_contribution_opts, L1_cols. fold cb. f_equal. f_equal.
    unfold partners_of_left, Bcls. rewrite L1_cols. fold cb. apply filter_ext_in. intros rb _.
    rewrite on_holds_nonnull; rewrite (S1_key k o1 Ik); [reflexivity|apply Hnn, Krows_sound, Ik].
  Qed.

  Definition Ecls (k : list val) : list (list val) :=
    flat_map (fun o1 => map (select_row c1 cb (Some (S1 k o1))) (opts (Bcls k))) (opts (Acls k)).

  Lemma emul_rows : Permutation (rows (sqlite_full_join J a b)) (flat_map Ecls Krows).
  Proof.
    unfold sqlite_full_join. eapply perm_trans; [apply sem_left_join_by_left_row; reflexivity|]. fold on.
    eapply perm_trans; [apply Permutation_flat_map, L1_rows|]. rewrite flat_map_flat_map.
    rewrite (flat_map_ext_in _ Ecls); [apply Permutation_refl|].
    intros k Ik. unfold C1, Ecls. rewrite flat_map_map. apply flat_map_ext_in. intros o1 _. apply L2_contribution, Ik.
  Qed.
  Lemma emul_cols : cols (sqlite_full_join J a b) = c2.
  Proof. unfold sqlite_full_join. rewrite sem_join_unfold. cbv zeta. cbn [cols]. rewrite L1_cols. reflexivity. Qed.

  (* ----- cell by cell, a row of the emulation re-read in the declared columns is the row of the FULL join: a key column
     shows the key table's value, which every row of the class carries; elsewhere the key table contributes nothing *)
  Lemma cell_agree k o1 o2 c : In k Krows ->
    (forall ra, o1 = Some ra -> keyA ra = k) -> (forall rb, o2 = Some rb -> keyB rb = k) -> (o1 <> None \/ o2 <> None) ->
    coalesce_cell c1 cb (Some (S1 k o1)) o2 c = coalesce_cell ca cb o1 o2 c.
  Proof.
    intros Ik H1 H2 Hne. rewrite (coalesce_cell_eq c1). cbn [cell]. unfold S1, c1. rewrite get_select_row.
    destruct (in_dec string_dec c J) as [IJ|NJ].
    - pose proof (allkeys_cell_nonnull k c (Krows_sound k Ik) IJ) as N.
      rewrite (coalesce_cell_eq J). cbn [cell]. rewrite !N, coalesce_cell_eq.
      destruct o1 as [ra|]; cbn [cell].
      + unfold keyA in H1. rewrite <- (get_key ca ra c IJ), (H1 ra eq_refl), N. reflexivity.
      + destruct o2 as [rb|]; [|destruct Hne; congruence].
        cbn [cell is_null]. unfold keyB in H2. rewrite <- (get_key cb rb c IJ), (H2 rb eq_refl). reflexivity.
    - rewrite (coalesce_absent_l J) by (apply mem_false, NJ). symmetry. apply coalesce_cell_eq.
  Qed.

  Lemma Ecls_reread k : In k Krows -> map (fun r => map (get c2 r) out) (Ecls k) = Gcls k.
  Proof.
    intros Ik. unfold Ecls, Gcls. rewrite map_flat_map. apply flat_map_ext_in. intros o1 I1. rewrite map_map.
    apply map_ext_in. intros o2 I2. rewrite (select_row_coalesce ca cb). apply map_ext. intros c. unfold c2. rewrite get_select_row.
    destruct (In_opts _ _ I1) as [A1 A2]. destruct (In_opts _ _ I2) as [B1 B2].
    apply cell_agree; [exact Ik| | |].
    - intros ra E. apply (cls_key keyA (rows a) keyA_all k ra Ik), A1, E.
    - intros rb E. apply (cls_key keyB (rows b) keyB_all k rb Ik), B1, E.
    - destruct o1; [left; discriminate|]. destruct o2; [right; discriminate|]. exfalso.
      destruct (class_nonempty k Ik) as [N|N]; [apply N, A2|apply N, B2]; reflexivity.
  Qed.

  Theorem sqlite_full_join_is_full_join :
    Permutation (reorder_rows (sqlite_full_join J a b) (out_cols (cols a) (cols b))) (sql_join_rows SFull (combine J J) a b)
    /\ (forall c, In c (cols (sqlite_full_join J a b)) <-> In c (out_cols (cols a) (cols b))).
  Proof.
    split.
    - unfold reorder_rows. rewrite emul_cols. fold ca cb out on.
      eapply perm_trans; [apply Permutation_map, emul_rows|]. rewrite map_flat_map.
      rewrite (flat_map_ext_in _ Gcls) by (intros k Ik; apply Ecls_reread, Ik).
      apply Permutation_sym, spec_by_class.
    - intros c. rewrite emul_cols. unfold c2, c1. fold ca cb. rewrite !In_out_cols. split; [|tauto].
      intros [[H|H]|H]; [left; apply HJa, H|left; exact H|right; exact H].
  Qed.
End FullEmul.

(* the emitted pipeline, evaluated on the two tables, is that composition *)
Local Open Scope string_scope.
Lemma sqlite_full_emul_is_the_pipeline J a b : J <> [] -> wf_table a -> wf_table b ->
  sqlite_full_emul J J a b = Some (sqlite_full_join J a b).
Proof.
  intros HJ Wa Wb. unfold sqlite_full_emul. destruct J as [|j J'] eqn:EJ; [congruence|]. rewrite <- EJ.
  unfold eqb. destruct (eq_dec J J); [|congruence].
  unfold full_emul_op. cbn [sem_gen].
  replace (dict_get [("a", a); ("b", b)] "a") with (Some a) by reflexivity.
  replace (dict_get [("a", a); ("b", b)] "b") with (Some b) by reflexivity.
  cbn [option_map f_join_null_match fl_sqlite]. rewrite (select_all_cols_id a Wa), (select_all_cols_id b Wb). reflexivity.
Qed.

Theorem sqlite_full_emul_partial J a b :
  J <> [] -> wf_table a -> wf_table b -> incl J (cols a) -> incl J (cols b) ->
  (forall k, In k (map (key_of (cols a) J) (rows a) ++ map (key_of (cols b) J) (rows b)) -> existsb is_null k = false) ->
  (forall k1 k2, In k1 (map (key_of (cols a) J) (rows a) ++ map (key_of (cols b) J) (rows b)) ->
                 In k2 (map (key_of (cols a) J) (rows a) ++ map (key_of (cols b) J) (rows b)) -> keys_eqv k1 k2 = true -> k1 = k2) ->
  exists t, sqlite_full_emul J J a b = Some t
    /\ Permutation (reorder_rows t (out_cols (cols a) (cols b))) (sql_join_rows SFull (combine J J) a b)
    /\ (forall c, In c (cols t) <-> In c (out_cols (cols a) (cols b))).
Proof.
  intros HJ Wa Wb Ha Hb Hn Hc. exists (sqlite_full_join J a b). split; [apply sqlite_full_emul_is_the_pipeline; assumption|].
  apply sqlite_full_join_is_full_join; assumption.
Qed.

(* a NULL key on both sides: the FULL join keeps both rows (NULL-extended); the emulation returns ONE row of NULLs *)
Definition full_witness_a : table := mktable ["k"; "x"] [[VNull; VNum 12]; [VNum 1; VNum 10]].
Definition full_witness_b : table := mktable ["k"; "y"] [[VNull; VNum 21]; [VNull; VNum 22]].
Lemma sqlite_full_emul_refuted :
  exists J a b t, J <> [] /\ wf_table a /\ wf_table b /\ incl J (cols a) /\ incl J (cols b) /\ sqlite_full_emul J J a b = Some t /\
    ~ Permutation (reorder_rows t (out_cols (cols a) (cols b))) (sql_join_rows SFull (combine J J) a b).
Proof.
  exists ["k"], full_witness_a, full_witness_b. eexists.
  split; [discriminate|]. split; [split; [repeat constructor; simpl; intuition discriminate|repeat constructor]|].
  split; [split; [repeat constructor; simpl; intuition discriminate|repeat constructor]|].
  split; [intros c [<-|[]]; left; reflexivity|]. split; [intros c [<-|[]]; left; reflexivity|].
  split; [vm_compute; reflexivity|].
  intros P. apply Permutation_length in P. vm_compute in P. discriminate.
Qed.
(* differently named keys, or no keys: the code asserts (AssertionError) *)
Lemma sqlite_full_emul_asserts on_a on_b a b : on_a = [] \/ on_a <> on_b -> sqlite_full_emul on_a on_b a b = None.
Proof.
  intros [->|N]; [reflexivity|]. unfold sqlite_full_emul. destruct on_a; [reflexivity|]. unfold eqb.
  destruct (eq_dec _ _); [contradiction|reflexivity].
Qed.
