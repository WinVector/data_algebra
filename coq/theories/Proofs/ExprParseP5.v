(* Proofs/ExprParseP5.v -- C13, part 2: the parser model on the flattened form of an AST; splitting lemmas. *)
From Coq Require Import List Bool String Arith Lia.
Import ListNotations.
From DA Require Import Model.PyExpr Model.ExprParse Model.ExprAst Proofs.ExprParseP1.
Local Open Scope string_scope.
Local Open Scope bool_scope.
Local Open Scope list_scope.

(* the text of an AST at one nesting depth: bracketed groups already carry their parsed content *)
Fixpoint flat (d : dtree) : list elem :=
  match d with
  | DPar x => [EGrp BParen [GTest (strip x)] false]
  | DName s => [ETok (TName s)]
  | DNum t => [ETok t]
  | DStr t => [ETok t]
  | DConst k => [ETok (TSym k)]
  | DChain _ d0 rest => flat d0 ++ flat_map (fun p => ETok (TSym (fst p)) :: flat (snd p)) rest
  | DNot x => ETok (TSym "not") :: flat x
  | DFactor op x => ETok (TSym op) :: flat x
  | DPower b e => flat b ++ ETok (TSym "**") :: flat e
  | DCall f args tr => flat f ++ [EGrp BParen (map (fun a => GTest (strip a)) args) tr]
  | DAttr o n => flat o ++ [ETok (TSym "."); ETok (TName n)]
  | DColl k items tr => [EGrp k (map (fun a => GTest (strip a)) items) tr]
  | DDict items tr => [EGrp BBrace (map (fun kv => GKV (strip (fst kv)) (strip (snd kv))) items) tr]
  end.

(* the parser of each grammar level *)
Definition plvl (L : nat) : list elem -> option ltree :=
  match L with
  | 0 => p_or_test | 1 => p_and_test | 2 => p_not_test | 3 => p_comparison | 4 => p_expr | 5 => p_xor_expr
  | 6 => p_and_expr | 7 => p_shift | 8 => p_arith | 9 => p_term | 10 => p_factor | 11 => p_factor
  | _ => p_atom_expr
  end.

(* ------------------------------------------------------------------ binary position bookkeeping *)
Definition prev_after (p : bool) (es : list elem) : bool := fold_left (fun _ e => is_operand_end e) es p.

Definition bin_ok (M : nat) (e : elem) (prev : bool) : bool :=
  match e with
  | ETok (TSym s) => if prev then match binlvl s with Some l => Nat.leb M l | None => true end else true
  | _ => true
  end.
(* every operator token standing in binary position belongs to a level >= M *)
Fixpoint binpos_ok (M : nat) (prev : bool) (es : list elem) : bool :=
  match es with
  | [] => true
  | e :: r => bin_ok M e prev && binpos_ok M (is_operand_end e) r
  end.

Lemma prev_after_app p a b : prev_after p (a ++ b) = prev_after (prev_after p a) b.
Proof. unfold prev_after. apply fold_left_app. Qed.

Lemma prev_after_cons p e r : prev_after p (e :: r) = prev_after (is_operand_end e) r.
Proof. reflexivity. Qed.

Lemma binpos_ok_app M p a b : binpos_ok M p (a ++ b) = binpos_ok M p a && binpos_ok M (prev_after p a) b.
Proof. revert p. induction a as [|e a IH]; intros p; [reflexivity|].
  rewrite <- app_comm_cons. cbn [binpos_ok]. rewrite IH, prev_after_cons. rewrite andb_assoc. reflexivity. Qed.

Lemma bin_ok_mono M M' e p : M <= M' -> bin_ok M' e p = true -> bin_ok M e p = true.
Proof. intros Hle. unfold bin_ok. destruct e as [[| | | |s|]|]; try (intros; reflexivity).
  destruct p; [|intros; reflexivity]. destruct (binlvl s) as [l|]; [|intros; reflexivity].
  intros H. apply Nat.leb_le in H. apply Nat.leb_le. lia. Qed.

Lemma binpos_ok_mono M M' p es : M <= M' -> binpos_ok M' p es = true -> binpos_ok M p es = true.
Proof. intros Hle. revert p. induction es as [|e r IH]; intros p; simpl; [reflexivity|].
  intros H. apply andb_prop in H as [H1 H2]. rewrite (bin_ok_mono _ _ _ _ Hle H1), (IH _ H2). reflexivity. Qed.

Lemma binlvl_values s l : binlvl s = Some l -> In l [0; 1; 3; 4; 5; 6; 7; 8; 9; 11].
Proof. unfold binlvl.
  repeat match goal with |- context[if ?b then _ else _] => destruct b end; intros H; inversion H; simpl; tauto. Qed.

Lemma binpos_ok_10_11 p es : binpos_ok 10 p es = true -> binpos_ok 11 p es = true.
Proof. revert p. induction es as [|e r IH]; intros p; simpl; [reflexivity|].
  intros H. apply andb_prop in H as [H1 H2]. rewrite (IH _ H2), andb_true_r.
  unfold bin_ok in *. destruct e as [[| | | |s|]|]; try reflexivity. destruct p; [|reflexivity].
  destruct (binlvl s) as [l|] eqn:B; [|reflexivity]. apply binlvl_values in B. simpl in B.
  apply Nat.leb_le in H1. apply Nat.leb_le. intuition lia. Qed.

Lemma is_binop_at_lvl L s : is_binop_at L s = true -> binlvl s = Some L.
Proof. unfold is_binop_at. destruct (binlvl s) as [l|]; [|discriminate]. intros H. apply Nat.eqb_eq in H. subst. reflexivity. Qed.

(* ------------------------------------------------------------------ splitting *)
Lemma split_none L M : L < M -> forall es p, binpos_ok M p es = true -> split_go L p es = (es, []).
Proof. intros Hlt. induction es as [|e r IH]; intros p H; simpl; [reflexivity|].
  simpl in H. apply andb_prop in H as [H1 H2].
  destruct e as [t|k items tr].
  - destruct t as [s|n|m|s|s|b ty]; try (rewrite (IH _ H2); reflexivity).
    destruct (p && is_binop_at L s) eqn:Sp.
    + exfalso. apply andb_prop in Sp as [Hp Hb]. subst p. apply is_binop_at_lvl in Hb.
      simpl in H1. rewrite Hb in H1. apply Nat.leb_le in H1. lia.
    + rewrite (IH _ H2). reflexivity.
  - rewrite (IH _ H2). reflexivity. Qed.

Lemma split_app L M : L < M -> forall a b p, binpos_ok M p a = true ->
  split_go L p (a ++ b) = (let '(p1, r) := split_go L (prev_after p a) b in (a ++ p1, r)).
Proof. intros Hlt. induction a as [|e a IH]; intros b p H.
  - simpl. destruct (split_go L p b); reflexivity.
  - simpl in H. apply andb_prop in H as [H1 H2]. rewrite <- app_comm_cons. rewrite prev_after_cons.
    specialize (IH b _ H2). simpl.
    destruct e as [t|k items tr].
    + destruct t as [s|n|m|s|s|bb ty]; try (rewrite IH; destruct (split_go L (prev_after _ a) b); reflexivity).
      destruct (p && is_binop_at L s) eqn:Sp.
      * exfalso. apply andb_prop in Sp as [Hp Hb]. subst p. apply is_binop_at_lvl in Hb.
        simpl in H1. rewrite Hb in H1. apply Nat.leb_le in H1. lia.
      * rewrite IH. destruct (split_go L (prev_after _ a) b); reflexivity.
    + rewrite IH. destruct (split_go L (prev_after _ a) b); reflexivity. Qed.

(* an operator of level L standing after an operand splits *)
Lemma split_op L s r : is_binop_at L s = true ->
  split_go L true (ETok (TSym s) :: r) = (let '(p1, rest) := split_go L false r in ([], (s, p1) :: rest)).
Proof. intros H. simpl. rewrite H. reflexivity. Qed.

(* operand (op operand)* splits into its operands *)
Lemma split_join L : forall (rest : list (string * list elem)) (p0 : list elem) p,
  binpos_ok (S L) p p0 = true -> prev_after p p0 = true ->
  Forall (fun q => is_binop_at L (fst q) = true /\ binpos_ok (S L) false (snd q) = true /\ prev_after false (snd q) = true) rest ->
  split_go L p (p0 ++ flat_map (fun q => ETok (TSym (fst q)) :: snd q) rest) = (p0, rest).
Proof. induction rest as [|[s x] rest IH]; intros p0 p H0 He Hr.
  - simpl. rewrite app_nil_r. apply (split_none L (S L)); [lia|exact H0].
  - inversion Hr as [|? ? [Hs [Hx Hxe]] Hr']; subst. simpl in Hs, Hx, Hxe.
    rewrite (split_app L (S L)); [|lia|exact H0]. rewrite He.
    cbn [flat_map fst snd]. rewrite <- app_comm_cons. rewrite (split_op L s _ Hs).
    rewrite (IH x false Hx Hxe Hr'). rewrite app_nil_r. reflexivity. Qed.

(* ------------------------------------------------------------------ one grammar level *)
Lemma p_level_single name keep L sub es : split_go L false es = (es, []) -> p_level name keep L sub es = sub es.
Proof. intros H. unfold p_level. rewrite H. simpl. destruct (sub es); reflexivity. Qed.

Lemma mapM_pairs (sub : list elem -> option ltree) (rest : list (string * list elem)) (ts : list (string * ltree)) :
  Forall2 (fun q t => fst q = fst t /\ sub (snd q) = Some (snd t)) rest ts ->
  mapM (fun p => match sub (snd p) with Some t => Some (fst p, t) | None => None end) rest = Some ts.
Proof. induction 1 as [|[s x] [s' t] rest ts [Hs Ht] _ IH]; simpl; [reflexivity|].
  simpl in Hs, Ht. subst s'. rewrite Ht, IH. reflexivity. Qed.

Lemma p_level_join name keep L sub p0 t0 rest ts :
  split_go L false (p0 ++ flat_map (fun q => ETok (TSym (fst q)) :: snd q) rest) = (p0, rest) ->
  sub p0 = Some t0 ->
  Forall2 (fun q t => fst q = fst t /\ sub (snd q) = Some (snd t)) rest ts ->
  p_level name keep L sub (p0 ++ flat_map (fun q => ETok (TSym (fst q)) :: snd q) rest) = Some (mk_chain name keep t0 ts).
Proof. intros Hs H0 Hr. unfold p_level. rewrite Hs, H0, (mapM_pairs _ _ _ Hr). reflexivity. Qed.

(* ------------------------------------------------------------------ going down the levels *)
Definition head_sym (es : list elem) : option string :=
  match es with ETok (TSym s) :: _ => Some s | _ => None end.

Lemma strip_nots_none es : head_sym es <> Some "not" -> strip_nots es = (0, es).
Proof. destruct es as [|[[| | | |s|]|] r]; try reflexivity. simpl. intros H.
  destruct (s ==s "not") eqn:E; [|reflexivity]. apply String.eqb_eq in E. subst. exfalso. apply H. reflexivity. Qed.

Lemma strip_uops_none es : (forall s, head_sym es = Some s -> is_uop s = false) -> strip_uops es = ([], es).
Proof. destruct es as [|[[| | | |s|]|] r]; try reflexivity. simpl. intros H. rewrite (H s eq_refl). reflexivity. Qed.

Definition clean (M : nat) (es : list elem) : Prop :=
  binpos_ok M false es = true /\ (3 <= M -> head_sym es <> Some "not")
  /\ (11 <= M -> forall s, head_sym es = Some s -> is_uop s = false).

Lemma plvl_step M es L : clean M es -> L < M -> L < 12 -> plvl L es = plvl (S L) es.
Proof. intros [Hb [Hn Hu]] Hlt H12.
  assert (Sp : forall L', L' < M -> split_go L' false es = (es, [])).
  { intros L' HL'. apply (split_none L' M HL'). exact Hb. }
  destruct L as [|[|[|[|[|[|[|[|[|[|[|[|L]]]]]]]]]]]]; [| | | | | | | | | | | |lia].
  1-2, 4-10: apply p_level_single, Sp, Hlt.
  - cbn [plvl]. unfold p_not_test. rewrite (strip_nots_none es (Hn ltac:(lia))). simpl.
    destruct (p_comparison es); reflexivity.
  - reflexivity.
  - cbn [plvl]. unfold p_factor. rewrite (Sp 11 Hlt). cbn [p_factor_segs].
    rewrite (strip_uops_none es (Hu ltac:(lia))). destruct (p_atom_expr es); reflexivity. Qed.

Lemma plvl_ge12 L : 12 <= L -> plvl L = p_atom_expr.
Proof. intros H. destruct L as [|[|[|[|[|[|[|[|[|[|[|[|L]]]]]]]]]]]]; try lia. reflexivity. Qed.

Lemma plvl_descend M es : clean M es -> M <= 12 -> forall k L, L + k = M -> plvl L es = plvl M es.
Proof. intros Hc HM. induction k as [|k IH]; intros L HL.
  - replace L with M by lia. reflexivity.
  - rewrite (plvl_step M es L Hc); [|lia|lia]. apply IH. lia. Qed.
