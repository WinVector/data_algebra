(* PEXEC, part 7: the pipeline theorem.  pexec_gen srt arr q p e = Some t  ->  t has the declared columns (no premise on the data),
   and sem_gen fl_pandas p e = Some t' with t refines t' (same column set, the cells of t' read by name, rows up to a permutation),
   by ONE induction over the pipeline with one refinement lemma per step kind (parts 2-6, 9), the congruence of every Sem operator
   under column reordering (C07, ComposeP5) and under row permutation (C18, PermP1..4). *)
From Coq Require Import List Bool Arith String Lia Permutation Sorted.
Import ListNotations.
From DA Require Import Base.PyRT Base.Val Model.Sem Model.PdPrim Model.PandasExec Model.PermGuard
  Proofs.SemBasicP Proofs.SemOrderP Proofs.PermP1 Proofs.PermP2 Proofs.PermP3 Proofs.PermP4 Proofs.ComposeP5
  Proofs.PandasExecP1 Proofs.PandasExecP2 Proofs.PandasExecP3 Proofs.PandasExecP4 Proofs.PandasExecP5 Proofs.PandasExecP6 Proofs.PandasExecP9 Proofs.TabP.
Local Open Scope string_scope.
Local Open Scope list_scope.

Lemma perm_width (cs : list string) (l l' : list (list val)) : Permutation l l' -> Forall (fun r => List.length r = List.length cs) l' -> Forall (fun r => List.length r = List.length cs) l.
Proof. intros P F. apply Forall_forall. intros r I. rewrite Forall_forall in F. apply F. eapply Permutation_in; eassumption. Qed.

(* a unary operator of Sem that respects column reordering and row permutation respects `refines` *)
Lemma refines_step (f : table -> table) u u' :
  refines u u' -> width_ok u' ->
  (forall b, cols b = cols u' -> width_ok b -> tab_eqv u b -> tab_eqv (f u) (f b)) ->
  (forall b, cols b = cols u' -> Permutation (rows b) (rows u') -> cols (f b) = cols (f u') /\ Permutation (rows (f b)) (rows (f u'))) ->
  refines (f u) (f u').
Proof.
  intros [v [E [C P]]] Wu' He Hp.
  assert (width_ok v) as Wv by (unfold width_ok; rewrite C; eapply perm_width; [exact P|exact Wu']).
  exists (f v). split; [apply He; assumption|]. apply Hp; assumption.
Qed.
Lemma refines_step2 (f : table -> table -> table) a a' b b' :
  refines a a' -> refines b b' -> width_ok a' -> width_ok b' ->
  (forall x y, cols x = cols a' -> cols y = cols b' -> width_ok x -> width_ok y -> tab_eqv a x -> tab_eqv b y -> tab_eqv (f a b) (f x y)) ->
  (forall x y, cols x = cols a' -> cols y = cols b' -> Permutation (rows x) (rows a') -> Permutation (rows y) (rows b') ->
               cols (f x y) = cols (f a' b') /\ Permutation (rows (f x y)) (rows (f a' b'))) ->
  refines (f a b) (f a' b').
Proof.
  intros [va [Ea [Ca Pa]]] [vb [Eb [Cb Pb]]] Wa Wb He Hp.
  assert (width_ok va) as Wva by (unfold width_ok; rewrite Ca; eapply perm_width; [exact Pa|exact Wa]).
  assert (width_ok vb) as Wvb by (unfold width_ok; rewrite Cb; eapply perm_width; [exact Pb|exact Wb]).
  exists (f va vb). split; [apply He; assumption|]. apply Hp; assumption.
Qed.

Lemma refines_width_witness u u' : refines u u' -> width_ok u' ->
  exists v, tab_eqv u v /\ cols v = cols u' /\ Permutation (rows v) (rows u') /\ width_ok v.
Proof.
  intros [v [E [C P]]] W. exists v. split; [exact E|]. split; [exact C|]. split; [exact P|]. unfold width_ok. rewrite C. eapply perm_width; [exact P|exact W].
Qed.

(* ------------------------------------------------------------------ order_rows against the reference on the REFERENCE input *)
Lemma px_order_refines2 srt cs rev lim u u' x :
  sorter_ok srt -> refines u u' -> width_ok u' ->
  (lim <> None -> total_on fl_pandas (cols u') (map (fun c => (c, mem c rev)) cs) (rows u')) ->
  px_order srt cs rev lim u = Some x -> refines x (sem_order fl_pandas cs rev lim u').
Proof.
  intros So Rf Wu' G H. destruct (px_order_shape srt So _ _ _ _ _ H) as [S [PS [SS ->]]].
  destruct (refines_width_witness _ _ Rf Wu') as [v [[Sc F] [C [P Wv]]]].
  set (keys := map (fun c => (c, mem c rev)) cs) in *.
  destruct (Forall2_perm_l _ _ _ _ (Permutation_sym PS) F) as [Sv [PSv FS]].
  assert (StronglySorted (fun a b => row_le fl_pandas (cols v) keys a b = true) Sv) as SSv.
  { eapply sorted_transfer; [|exact FS|exact SS]. intros a a' b b' Ra Rb. apply row_le_eqv; assumption. }
  destruct lim as [n|].
  - assert (Sv = stable_sort (row_le fl_pandas (cols u') keys) (rows u')) as Es.
    { rewrite C in SSv. apply (sorted_perm_unique (row_le fl_pandas (cols u') keys)).
      - exact SSv.
      - apply stable_sort_sorted; [intros; apply row_le_total|intros; eapply row_le_trans; eassumption].
      - eapply perm_trans; [apply Permutation_sym, PSv|]. eapply perm_trans; [exact P|]. apply Permutation_sym, stable_sort_perm.
      - intros a b Ia Ib. apply G; [discriminate| |]; apply (Permutation_in _ (perm_trans (Permutation_sym PSv) P)); assumption. }
    apply refines_of_eqv. split; cbn [cols rows sem_order]; [rewrite <- C; exact Sc|].
    fold keys. rewrite <- Es. rewrite <- C. apply Forall2_firstn, FS.
  - exists (mktable (cols v) Sv). split; [split; cbn [cols rows]; assumption|]. cbn [cols rows sem_order]. split; [exact C|].
    eapply perm_trans; [apply Permutation_sym, PSv|]. eapply perm_trans; [exact P|]. apply Permutation_sym, stable_sort_perm.
Qed.

(* ------------------------------------------------------------------ the window premise moves from the reference input to the executor's *)

Lemma row_eqv_inj c1 c2 (r1 r2 r' r'' : list val) :
  NoDup c2 -> List.length r' = List.length c2 -> List.length r'' = List.length c2 ->
  row_eqv c1 c2 r1 r' -> row_eqv c1 c2 r2 r'' -> r1 = r2 -> r' = r''.
Proof.
  intros N L1 L2 R1 R2 ->. apply (row_ext c2); try assumption. intros c _. rewrite <- (R1 c), <- (R2 c). reflexivity.
Qed.

Lemma window_total_perm fl cs w rs rs' : Permutation rs rs' -> window_total fl cs w rs' -> window_total fl cs w rs.
Proof.
  intros P G r I. destruct (G r (Permutation_in _ P I)) as [N T].
  pose proof (part_rows_perm cs (w_part w) rs rs' r P) as PP. split.
  - eapply Permutation_NoDup; [apply Permutation_sym, PP|exact N].
  - intros r1 r2 I1 I2. apply T; eapply Permutation_in; eassumption.
Qed.

Lemma window_total_eqv fl w u v :
  tab_eqv u v -> NoDup (cols v) -> width_ok v -> window_total fl (cols v) w (rows v) -> window_total fl (cols u) w (rows u).
Proof.
  intros [Sc F] Nv Wv G r I.
  destruct (Forall2_In_l _ _ _ _ F I) as [r' [I' Rr]]. destruct (G r' I') as [Nd T].
  set (PU := part_rows (cols u) (w_part w) (rows u) r). set (PV := part_rows (cols v) (w_part w) (rows v) r') in *.
  assert (Forall2 (row_eqv (cols u) (cols v)) PU PV) as FP.
  { unfold PU, PV, part_rows. apply ColumnsUsedP1.F2_filter; [exact F|]. intros a b Rab.
    rewrite (key_of_eqv _ _ _ _ (w_part w) Rr), (key_of_eqv _ _ _ _ (w_part w) Rab). reflexivity. }
  assert (forall x, In x PV -> List.length x = List.length (cols v)) as LV.
  { intros x Ix. unfold PV, part_rows in Ix. apply filter_In in Ix. unfold width_ok in Wv. rewrite Forall_forall in Wv. apply Wv, Ix. }
  assert (forall i j a b, nth_error PU i = Some a -> nth_error PU j = Some b ->
            (a = b \/ (row_le fl (cols u) (okeys_of w) a b = true /\ row_le fl (cols u) (okeys_of w) b a = true)) -> i = j) as Key.
  { intros i j a b Hi Hj Hab.
    destruct (Forall2_nth_error _ _ _ _ _ FP Hi) as [a' [Ha' Ra]]. destruct (Forall2_nth_error _ _ _ _ _ FP Hj) as [b' [Hb' Rb]].
    assert (a' = b') as E.
    { destruct Hab as [E|[L1 L2]].
      - apply (row_eqv_inj (cols u) (cols v) a b); try assumption; apply LV; eapply nth_error_In; eassumption.
      - apply T; [eapply nth_error_In; eassumption|eapply nth_error_In; eassumption| |].
        + rewrite <- (row_le_eqv fl _ _ (okeys_of w) _ _ _ _ Ra Rb). exact L1.
        + rewrite <- (row_le_eqv fl _ _ (okeys_of w) _ _ _ _ Rb Ra). exact L2. }
    subst b'. apply (proj1 (NoDup_nth_error PV) Nd); [apply nth_error_Some; congruence|congruence]. }
  split.
  - apply (proj2 (NoDup_nth_error PU)). intros i j Li E.
    destruct (nth_error PU i) as [a|] eqn:Hi; [|apply nth_error_None in Hi; lia]. symmetry in E.
    apply (Key i j a a Hi E). left. reflexivity.
  - intros r1 r2 I1 I2 L1 L2. destruct (In_nth_error _ _ I1) as [i Hi]. destruct (In_nth_error _ _ I2) as [j Hj].
    assert (i = j) as -> by (apply (Key i j r1 r2 Hi Hj); right; split; assumption). congruence.
Qed.

Lemma window_total_transfer fl w u u' : refines u u' -> NoDup (cols u') -> width_ok u' ->
  window_total fl (cols u') w (rows u') -> window_total fl (cols u) w (rows u).
Proof.
  intros Rf N W G. destruct (refines_width_witness _ _ Rf W) as [v [E [C [P Wv]]]].
  apply (window_total_eqv fl w u v E); [rewrite C; exact N|exact Wv|]. rewrite C. eapply window_total_perm; eassumption.
Qed.

(* ------------------------------------------------------------------ declared columns *)
Lemma same_set_union_form (ca cb : list string) : same_set (ca ++ filter (fun c => negb (mem c ca)) cb) (ca ++ cb).
Proof.
  intros c. rewrite !in_app_iff, filter_In, negb_true_iff, mem_false. destruct (in_dec string_dec c ca); tauto.
Qed.
Lemma same_set_join_cols ca ca' cb cb' : same_set ca ca' -> same_set cb cb' ->
  same_set (ca ++ filter (fun c => negb (mem c ca)) cb) (ca' ++ filter (fun c => negb (mem c ca')) cb').
Proof.
  intros Sa Sb. eapply same_set_trans; [apply same_set_union_form|]. eapply same_set_trans; [|apply same_set_sym, same_set_union_form].
  apply same_set_app; assumption.
Qed.
Lemma join_declared_set ca cb : same_set (join_declared ca cb) (ca ++ cb).
Proof.
  unfold join_declared. set (u := ca ++ filter (fun c => negb (mem c ca)) cb).
  pose proof (same_set_union_form ca cb) as Su. fold u in Su.
  destruct (set_eqb u ca) eqn:E1; [eapply same_set_trans; [apply same_set_sym, set_eqb_same_set, E1|exact Su]|].
  destruct (set_eqb u cb) eqn:E2; [eapply same_set_trans; [apply same_set_sym, set_eqb_same_set, E2|exact Su]|exact Su].
Qed.

Lemma declared_same_set p : same_set (declared_cols p) (column_names p).
Proof.
  induction p; cbn [declared_cols column_names]; try apply same_set_refl; try assumption.
  - apply same_set_ext_cols. assumption.
  - apply same_set_filter. assumption.
  - apply same_set_map. assumption.
  - apply same_set_filter, same_set_map. assumption.
  - eapply same_set_trans; [apply join_declared_set|]. eapply same_set_trans; [|apply same_set_sym, same_set_union_form].
    apply same_set_app; assumption.
  - apply same_set_app; [assumption|apply same_set_refl].
Qed.

Definition window_situation (wd : bool) (w : window) : bool := wd || Nat.ltb 0 (List.length (w_part w)) || Nat.ltb 0 (List.length (w_order w)).

Lemma agg_ok_of_b cs cs' e : same_set cs' cs -> agg_ok_b cs e = true -> agg_ok cs' e.
Proof.
  intros S. unfold agg_ok_b, agg_ok. destruct (agg_shape e) as [[fn [[c|v]|]]|]; auto.
  - intros M. apply S, mem_In, M.
  - intros M. apply String.eqb_eq, M.
Qed.

Lemma wf_op_inv p : wf_op_b p = true ->
  NoDup (column_names p) /\ column_names p <> [] /\
  match p with
  | OTable _ _ => True
  | OExtend s ops wd w =>
      wf_op_b s = true /\ nodup_names (map fst ops) = true /\ ops <> [] /\
      (window_situation wd w = true ->
       wd = true /\ disjointb (map fst ops) (w_part w ++ w_order w) = true /\ subset (w_part w ++ w_order w) (column_names s) = true /\
       nodup_names (w_part w ++ w_order w) = true /\ forallb (win_ok_b (column_names s) (map fst ops)) ops = true)
  | OProject s ops gb =>
      wf_op_b s = true /\ (forall g, In g gb -> In g (column_names s)) /\ (forall ke, In ke ops -> agg_ok_b (column_names s) (snd ke) = true)
  | OSelectRows s _ | OSelectCols s _ | ODropCols s _ | ORename s _ | OOrder s _ _ _ => wf_op_b s = true
  | OMapCols s m _ => wf_op_b s = true /\ NoDup (map (rename_col m) (column_names s))
  | OJoin a b on_a on_b _ =>
      wf_op_b a = true /\ wf_op_b b = true /\ (forall c, In c on_a -> In c (column_names a)) /\ (forall c, In c on_b -> In c (column_names b)) /\
      List.length on_a = List.length on_b
  | OConcat a b _ _ _ => wf_op_b a = true /\ wf_op_b b = true /\ same_set (column_names a) (column_names b)
  end.
Proof.
  intros W.
  assert (NoDup (column_names p) /\ column_names p <> []) as [ND NE].
  { destruct p; cbn [wf_op_b] in W; apply andb_true_iff in W; destruct W as [W _]; apply andb_true_iff in W; destruct W as [N L];
      (split; [apply nodup_names_sound, N|intros E; rewrite E in L; discriminate]). }
  split; [exact ND|]. split; [exact NE|].
  destruct p; cbn [wf_op_b] in W; apply andb_true_iff in W; destruct W as [_ W]; try exact W; try exact I.
  - (* extend *)
    fold (window_situation windowed w) in W. rewrite !andb_true_iff in W. destruct W as [[[Ws Nk] Nops] Ww].
    split; [exact Ws|]. split; [exact Nk|]. split; [intros E; rewrite E in Nops; discriminate|].
    intros S. rewrite S, !andb_true_iff in Ww. tauto.
  - (* project *)
    rewrite !andb_true_iff in W. destruct W as [[Ws Wgb] Wagg].
    split; [exact Ws|]. split; [apply subset_spec, Wgb|apply forallb_forall, Wagg].
  - (* map_columns *)
    apply andb_true_iff in W. destruct W as [Ws Wm]. split; [exact Ws|apply nodup_names_sound, Wm].
  - (* natural_join *)
    unfold join_keys_clean in W. rewrite !andb_true_iff in W. destruct W as [[Wa Wb] [[Ha Hb] Hl]].
    split; [exact Wa|]. split; [exact Wb|]. split; [apply subset_spec, Ha|]. split; [apply subset_spec, Hb|apply Nat.eqb_eq, Hl].
  - (* concat_rows *)
    rewrite !andb_true_iff in W. destruct W as [[Wa Wb] Wc]. split; [exact Wa|]. split; [exact Wb|apply set_eqb_same_set, Wc].
Qed.

Lemma sem_facts p e u : sem_gen fl_pandas p e = Some u -> width_ok u /\ cols u = column_names p.
Proof. intros E. split; [exact (sem_rows_width _ _ _ _ E)|exact (sem_cols _ _ _ _ E)]. Qed.

Section Main.
  Variable srt : sorter.
  Hypothesis srt_ok : sorter_ok srt.
  Variable arr : arranger.
  Hypothesis arr_ok : arranger_ok arr.
  Variable q : pquirks.

  (* For every node: the frame has exactly the declared columns and well-formed rows, whatever the data (every scratch column is
     gone again); and under the premises of C18 the reference semantics is defined and the frame refines its table.  The two go
     through one induction because the second needs the first of the sub-frames. *)
  Theorem pexec_sound p : forall e t,
    wf_op_b p = true -> pexec_gen srt arr q p e = Some t ->
    (same_set (cols t) (column_names p) /\ width_ok t) /\
    (total_orders fl_pandas p e -> exact_group_keys fl_pandas p e -> exists t', sem_gen fl_pandas p e = Some t' /\ refines t t').
  Proof.
    induction p as [n cs|s IH ops wd w|s IH ops gb|s IH x|s IH cs|s IH cs|s IH m|s IH m dels|s IH cs rev lim|a IHa b IHb on_a on_b jt|a IHa b IHb idc an bn];
      intros e t W H; destruct (wf_op_inv _ W) as [ND [NE Wp]]; cbn [pexec_gen] in H; cbn [column_names sem_gen total_orders exact_group_keys].
    - (* table *)
      destruct (dict_get e n) as [df|]; cbn [obind] in H; [|discriminate]. rewrite (px_table_exact _ _ _ H).
      split; [split; [apply same_set_refl|apply width_select_cols]|]. intros _ _. eexists. split; [reflexivity|apply refines_refl].
    - (* extend *)
      destruct (pexec_gen srt arr q s e) as [u|] eqn:Eu; cbn [obind] in H; [|discriminate].
      destruct Wp as [Ws [Nk [Nops Ww]]]. destruct (IH e u Ws Eu) as [[Su Wu] Rs].
      assert (same_set (ext_cols (cols u) (map fst ops)) (ext_cols (column_names s) (map fst ops))) as Se by (apply same_set_ext_cols, Su).
      unfold px_extend in H. fold (window_situation wd w) in H. destruct (Nat.leb (nrows u) 0) eqn:En.
      + (* no rows *)
        inversion H; subst t. split; [split; [exact Se|unfold width_ok, px_extend_empty, pd_empty_frame; cbn [rows]; constructor]|].
        intros [TOs _] EG. destruct (Rs TOs EG) as [u' [Eu' Rf]]. rewrite Eu'. eexists. split; [reflexivity|].
        apply Nat.leb_le in En. unfold nrows in En.
        assert (rows u' = []) as R0' by (apply length_zero_iff_nil; rewrite <- (refines_row_count _ _ Rf); lia).
        apply refines_of_eqv. unfold px_extend_empty, pd_empty_frame. split; cbn [cols rows].
        * assert (same_set (fold_left add_end (map fst ops) (cols u)) (ext_cols (cols u') (map fst ops))) as S1
            by (apply same_set_ext_cols, refines_same_set, Rf).
          destruct wd; exact S1.
        * destruct wd; unfold sem_wextend, sem_extend; cbn [rows]; rewrite R0'; constructor.
      + apply Nat.leb_gt in En. destruct (window_situation wd w) eqn:Ws0.
        * (* windowed *)
          destruct (Ww eq_refl) as [-> [Wdj [Wsub [Wnd Wf]]]].
          destruct (px_extend_windowed_eqv srt ops w u t (column_names s) srt_ok Wu Su En Nk Nops Wdj Wsub Wnd Wf H) as [Wx [Sx Ex]].
          split; [split; [eapply same_set_trans; [exact Sx|exact Se]|exact Wx]|].
          intros [TOs TOw] EG. destruct (Rs TOs EG) as [u' [Eu' Rf]]. rewrite Eu'. destruct (sem_facts _ _ _ Eu') as [Wu' Cu'].
          eexists. split; [reflexivity|].
          assert (ops_order_sensitive ops = true -> window_total fl_pandas (cols u') w (rows u')) as G' by (intros Os; apply (TOw eq_refl Os u' Eu')).
          eapply refines_trans.
          -- apply refines_of_eqv, Ex. intros Os.
             apply (window_total_transfer fl_pandas w u u' Rf); [rewrite Cu'; apply (wf_op_inv _ Ws)|exact Wu'|apply G', Os].
          -- apply refines_step; [exact Rf|exact Wu'| |].
             ++ intros b0 _ Wb Eb. apply wextend_eqv; assumption.
             ++ intros b0 Cb Pb. destruct (wextend_perm fl_pandas ops w u' b0 (eq_sym Cb) (Permutation_sym Pb) G') as [C1 P1].
                split; [symmetry; exact C1|apply Permutation_sym, P1].
        * (* row-wise *)
          destruct (px_extend_plain_eqv ops u t En Nops (nodup_names_sound _ Nk) Wu H) as [Ex Wx].
          split; [split; [eapply same_set_trans; [apply Ex|exact Se]|exact Wx]|].
          intros [TOs _] EG. destruct (Rs TOs EG) as [u' [Eu' Rf]]. rewrite Eu'. destruct (sem_facts _ _ _ Eu') as [Wu' _].
          assert (wd = false) as -> by (destruct wd; [discriminate Ws0|reflexivity]).
          eexists. split; [reflexivity|]. eapply refines_trans; [apply refines_of_eqv, Ex|].
          apply refines_step; [exact Rf|exact Wu'| |].
          -- intros b0 _ Wb Eb. apply extend_eqv; assumption.
          -- intros b0 Cb Pb. destruct (extend_perm fl_pandas ops b0 u' Cb Pb) as [C1 P1]. split; assumption.
    - (* project *)
      destruct (pexec_gen srt arr q s e) as [u|] eqn:Eu; cbn [obind] in H; [|discriminate].
      destruct Wp as [Ws [Wgb Wagg]]. destruct (IH e u Ws Eu) as [[Su Wu] Rs].
      destruct (px_project_refines q ops gb u t Wu) as [Rx Wx]; try assumption.
      { intros g Ig. apply Su, Wgb, Ig. }
      { intros ke Ike. apply (agg_ok_of_b (column_names s)); [exact Su|apply Wagg, Ike]. }
      { cbn [column_names] in NE. destruct ops; [right|left; discriminate]. intros E0. subst gb. apply NE. reflexivity. }
      split; [split; [apply (refines_same_set _ _ Rx)|exact Wx]|].
      intros TO [EGs EGk]. destruct (Rs TO EGs) as [u' [Eu' Rf]]. rewrite Eu'. destruct (sem_facts _ _ _ Eu') as [Wu' _].
      eexists. split; [reflexivity|]. eapply refines_trans; [exact Rx|].
      apply refines_step; [exact Rf|exact Wu'| |].
      + intros b0 _ _ Eb. rewrite (project_eqv fl_pandas ops gb u b0 Eb). apply tab_eqv_refl.
      + intros b0 Cb Pb. destruct (project_perm fl_pandas ops gb u' b0 (eq_sym Cb) (Permutation_sym Pb) (EGk u' Eu')) as [C1 P1].
        split; [symmetry; exact C1|apply Permutation_sym, P1].
    - (* select_rows *)
      destruct (pexec_gen srt arr q s e) as [u|] eqn:Eu; cbn [obind] in H; [|discriminate].
      destruct (IH e u Wp Eu) as [[Su Wu] Rs]. rewrite (px_select_rows_exact _ _ _ H).
      split; [split; [exact Su|apply width_select_rows, Wu]|].
      intros TO EG. destruct (Rs TO EG) as [u' [Eu' Rf]]. rewrite Eu'. destruct (sem_facts _ _ _ Eu') as [Wu' _].
      eexists. split; [reflexivity|]. apply refines_step; [exact Rf|exact Wu'| |].
      + intros b0 _ _ Eb. apply select_rows_eqv, Eb.
      + intros b0 Cb Pb. split; [cbn [cols sem_select_rows]; exact Cb|apply select_rows_perm; assumption].
    - (* select_columns *)
      destruct (pexec_gen srt arr q s e) as [u|] eqn:Eu; cbn [obind] in H; [|discriminate].
      destruct (IH e u Wp Eu) as [[Su Wu] Rs]. rewrite (px_select_cols_exact _ _ _ H).
      split; [split; [apply same_set_refl|apply width_select_cols]|].
      intros TO EG. destruct (Rs TO EG) as [u' [Eu' Rf]]. rewrite Eu'. destruct (sem_facts _ _ _ Eu') as [Wu' _].
      eexists. split; [reflexivity|]. apply refines_step; [exact Rf|exact Wu'| |].
      + intros b0 _ _ Eb. apply select_cols_eqv; [apply same_set_refl|exact Eb].
      + intros b0 Cb Pb. split; [reflexivity|apply select_cols_perm; assumption].
    - (* drop_columns *)
      destruct (pexec_gen srt arr q s e) as [u|] eqn:Eu; cbn [obind] in H; [|discriminate].
      destruct (IH e u Wp Eu) as [[Su Wu] Rs]. rewrite (px_drop_cols_exact _ _ _ H).
      split; [split; [apply same_set_filter, Su|apply width_select_cols]|].
      intros TO EG. destruct (Rs TO EG) as [u' [Eu' Rf]]. rewrite Eu'. destruct (sem_facts _ _ _ Eu') as [Wu' _].
      eexists. split; [reflexivity|]. apply refines_step; [exact Rf|exact Wu'| |].
      + intros b0 _ _ Eb. apply drop_cols_eqv, Eb.
      + intros b0 Cb Pb. unfold sem_drop_cols. rewrite Cb. split; [reflexivity|apply select_cols_perm; assumption].
    - (* rename_columns *)
      destruct (pexec_gen srt arr q s e) as [u|] eqn:Eu; cbn [obind] in H; [|discriminate].
      destruct (IH e u Wp Eu) as [[Su Wu] Rs]. rewrite (px_rename_exact _ _ _ H).
      split; [split; [apply same_set_map, Su|apply width_rename, Wu]|].
      intros TO EG. destruct (Rs TO EG) as [u' [Eu' Rf]]. rewrite Eu'. destruct (sem_facts _ _ _ Eu') as [Wu' Cu'].
      eexists. split; [reflexivity|]. apply refines_step; [exact Rf|exact Wu'| |].
      + intros b0 Cb _ Eb. apply rename_eqv; [|exact Eb]. rewrite Cb, Cu'. apply inj_on_NoDup_map. exact ND.
      + intros b0 Cb Pb. split; [cbn [cols sem_rename]; rewrite Cb; reflexivity|exact Pb].
    - (* map_columns *)
      destruct (pexec_gen srt arr q s e) as [u|] eqn:Eu; cbn [obind] in H; [|discriminate].
      destruct Wp as [Ws Wm]. destruct (IH e u Ws Eu) as [[Su Wu] Rs]. pose proof (px_map_cols_eqv _ _ _ _ H) as Ex.
      split; [split|].
      + eapply same_set_trans; [apply Ex|]. cbn [cols sem_drop_cols sem_select_cols sem_rename]. apply same_set_filter, same_set_map, Su.
      + unfold px_map_cols in H. destruct (Nat.ltb 0 (List.length dels)).
        * apply pd_select_inv in H. destruct H as [-> _]. apply width_select_cols.
        * inversion H; subst. rewrite pd_rename_sem. apply width_rename, Wu.
      + intros TO EG. destruct (Rs TO EG) as [u' [Eu' Rf]]. rewrite Eu'. destruct (sem_facts _ _ _ Eu') as [Wu' Cu'].
        eexists. split; [reflexivity|]. eapply refines_trans; [apply refines_of_eqv, Ex|].
        apply (refines_step (fun t0 => sem_drop_cols dels (sem_rename m t0))); [exact Rf|exact Wu'| |].
        * intros b0 Cb _ Eb. apply drop_cols_eqv, rename_eqv; [|exact Eb]. rewrite Cb, Cu'. apply inj_on_NoDup_map, Wm.
        * intros b0 Cb Pb. unfold sem_drop_cols. cbn [cols sem_rename]. rewrite Cb. split; [reflexivity|].
          apply select_cols_perm; [cbn [cols sem_rename]; rewrite Cb; reflexivity|exact Pb].
    - (* order_rows *)
      destruct (pexec_gen srt arr q s e) as [u|] eqn:Eu; cbn [obind] in H; [|discriminate].
      destruct (IH e u Wp Eu) as [[Su Wu] Rs].
      split; [split; [|apply (px_order_width srt cs rev lim u t srt_ok Wu H)]|].
      + destruct (px_order_shape srt srt_ok _ _ _ _ _ H) as [S [_ [_ ->]]]. exact Su.
      + intros [TOs TOl] EG. destruct (Rs TOs EG) as [u' [Eu' Rf]]. rewrite Eu'. destruct (sem_facts _ _ _ Eu') as [Wu' _].
        eexists. split; [reflexivity|].
        apply (px_order_refines2 srt cs rev lim u u' t srt_ok Rf Wu'); [|exact H]. intros Nl. apply (TOl Nl u' Eu').
    - (* natural_join *)
      destruct (pexec_gen srt arr q a e) as [l|] eqn:El; cbn [obind] in H; [|discriminate].
      destruct (pexec_gen srt arr q b e) as [r|] eqn:Er; cbn [obind] in H; [|discriminate].
      destruct Wp as [Wa [Wb [Ha [Hb Hlen]]]].
      destruct (IHa e l Wa El) as [[Sl Wl] Rl]. destruct (IHb e r Wb Er) as [[Sr Wr] Rr].
      destruct (px_join_with_refines arr (declared_cols (OJoin a b on_a on_b jt)) on_a on_b jt l r t arr_ok Wl Wr) as [Rx Wx]; try assumption.
      { intros c I. apply Sl, Ha, I. }
      { intros c I. apply Sr, Hb, I. }
      { cbn [declared_cols]. eapply same_set_trans; [apply join_declared_set|]. eapply same_set_trans; [|apply same_set_sym, same_set_union_form].
        apply same_set_app; (eapply same_set_trans; [apply declared_same_set|apply same_set_sym; assumption]). }
      split; [split; [|exact Wx]|].
      + eapply same_set_trans; [apply (refines_same_set _ _ Rx)|]. unfold sem_join. cbn [cols]. apply same_set_join_cols; assumption.
      + intros [TOa TOb] [EGa EGb]. destruct (Rl TOa EGa) as [l' [El' Rfl]]. destruct (Rr TOb EGb) as [r' [Er' Rfr]]. rewrite El', Er'.
        destruct (sem_facts _ _ _ El') as [Wl' _]. destruct (sem_facts _ _ _ Er') as [Wr' _].
        eexists. split; [reflexivity|]. eapply refines_trans; [exact Rx|].
        apply (refines_step2 (sem_join false on_a on_b jt)); try assumption.
        * intros x0 y0 _ _ _ _ Ex Ey. apply join_eqv; assumption.
        * intros x0 y0 Cx Cy Px Py. split; [unfold sem_join; cbn [cols]; rewrite Cx, Cy; reflexivity|apply join_perm; assumption].
    - (* concat_rows *)
      destruct (pexec_gen srt arr q a e) as [l|] eqn:El; cbn [obind] in H; [|discriminate].
      destruct (pexec_gen srt arr q b e) as [r|] eqn:Er; cbn [obind] in H; [|discriminate].
      destruct Wp as [Wa [Wb Sab]].
      destruct (IHa e l Wa El) as [[Sl Wl] Rl]. destruct (IHb e r Wb Er) as [[Sr Wr] Rr].
      assert (tab_eqv t (sem_concat idc an bn l r)) as Ex.
      { apply (px_concat_eqv idc an bn l r t); try assumption.
        - eapply same_set_trans; [exact Sl|]. eapply same_set_trans; [exact Sab|apply same_set_sym, Sr].
        - intros c -> Ic. cbn [column_names] in ND. apply NoDup_remove_2 in ND. rewrite app_nil_r in ND. apply ND, Sl, Ic. }
      split; [split; [|apply (px_concat_width idc an bn l r t Wl Wr H)]|].
      + eapply same_set_trans; [apply Ex|]. unfold sem_concat. destruct idc as [c|]; cbn [cols]; [apply same_set_app; [exact Sl|apply same_set_refl]|].
        rewrite app_nil_r. exact Sl.
      + intros [TOa TOb] [EGa EGb]. destruct (Rl TOa EGa) as [l' [El' Rfl]]. destruct (Rr TOb EGb) as [r' [Er' Rfr]]. rewrite El', Er'.
        destruct (sem_facts _ _ _ El') as [Wl' _]. destruct (sem_facts _ _ _ Er') as [Wr' _].
        eexists. split; [reflexivity|]. eapply refines_trans; [apply refines_of_eqv, Ex|].
        apply (refines_step2 (sem_concat idc an bn)); try assumption.
        * intros x0 y0 _ _ Wx0 _ Ex0 Ey. apply concat_eqv; assumption.
        * intros x0 y0 Cx Cy Px Py. split; [unfold sem_concat; rewrite Cx; destruct idc; reflexivity|apply concat_perm; assumption].
  Qed.
End Main.
