(* Proofs about Model/DataSpace.v: the step lemmas of both spaces and the invariant of the database-backed one (C20). *)
From Coq Require Import List Bool String Lia.
Import ListNotations.
From DA Require Import Base.PyRT Model.DataSpace.

Section P.
Context {T P : Type} (evalp : pydict string T -> P -> option T) (name_of : nat -> string).
Hypothesis name_of_inj : forall a b, name_of a = name_of b -> a = b.
Notation m_step := (m_step evalp name_of).
Notation d_step := (d_step evalp name_of).

(* the map after a successful write of k := v *)
Definition written (d d' : pydict string T) (k : string) (v : T) : Prop :=
  forall k2, dict_get d' k2 = if eq_dec k2 k then Some v else dict_get d k2.

Definition is_write (o : @dop T P) : option (option string * bool) :=
  match o with DInsert key _ ow => Some (key, ow) | DExecute _ key ow => Some (key, ow) | _ => None end.

(* ---------- the automatic key is never in use *)
Lemma fresh_aux (used : list string) : forall fuel n seen, NoDup seen -> incl seen used ->
  (forall x, In x seen -> exists j, j < n /\ x = name_of j) ->
  List.length seen + fuel >= List.length used -> ~ In (name_of (fresh name_of fuel used n)) used.
Proof.
  assert (Hcons: forall n seen, NoDup seen -> incl seen used ->
     (forall x, In x seen -> exists j, j < n /\ x = name_of j) -> In (name_of n) used ->
     NoDup (name_of n :: seen) /\ incl (name_of n :: seen) used /\
     (forall x, In x (name_of n :: seen) -> exists j, j < S n /\ x = name_of j)).
  { intros n seen N I B U. split; [|split].
    - constructor; [|exact N]. intros Hin. destruct (B _ Hin) as [j [Hj E]]. apply name_of_inj in E. lia.
    - intros x [<-|Hx]; [exact U|apply I, Hx].
    - intros x [<-|Hx]; [exists n; split; [lia|reflexivity]|].
      destruct (B _ Hx) as [j [Hj E]]. exists j. split; [lia|exact E]. }
  induction fuel as [|f IH]; intros n seen N I B L; simpl.
  - intros U. destruct (Hcons n seen N I B U) as [N' [I' _]].
    pose proof (NoDup_incl_length N' I') as Q. simpl in Q. lia.
  - destruct (mem (name_of n) used) eqn:E.
    + apply mem_In in E. destruct (Hcons n seen N I B E) as [N' [I' B']].
      apply (IH (S n) (name_of n :: seen)); auto. simpl. lia.
    + apply mem_false in E. exact E.
Qed.

Lemma auto_key_fresh (used : list string) (n : nat) : ~ In (fst (auto_key name_of used n)) used.
Proof.
  unfold auto_key. simpl. apply (fresh_aux used (List.length used) (S n) []).
  - constructor.
  - intros x [].
  - intros x [].
  - simpl. lia.
Qed.

Lemma fold_left_inv {S O : Type} (Inv : S -> Prop) (f : S -> O -> S) :
  (forall s o, Inv s -> Inv (f s o)) -> forall ops s, Inv s -> Inv (fold_left f ops s).
Proof. intros St. induction ops as [|o t IH]; intros s I; simpl; [exact I|]. apply IH, St, I. Qed.

(* ---------- DataModelSpace *)
Lemma pick_spec (used : list string) (key : option string) n k n' :
  (match key with Some k => (k, n) | None => auto_key name_of used n end) = (k, n') ->
  key = Some k \/ (key = None /\ ~ In k used).
Proof.
  destruct key as [k1|]; intros E.
  - left. congruence.
  - right. split; [reflexivity|]. pose proof (auto_key_fresh used n) as F. rewrite E in F. exact F.
Qed.

Lemma written_set (d : pydict string T) k v : written d (dict_set d k v) k v.
Proof. intros k2. destruct (eq_dec k2 k) as [->|n]; [apply dict_get_set_same|apply dict_get_set_other, n]. Qed.

Lemma written_pop_set (d : pydict string T) k v : written d (dict_set (dict_pop d k) k v) k v.
Proof. intros k2. destruct (eq_dec k2 k) as [->|n]; [apply dict_get_set_same|].
  rewrite dict_get_set_other by exact n. rewrite dict_get_pop. destruct (eq_dec k2 k); [contradiction|reflexivity]. Qed.

Ltac pickm s key k0 n0 EK :=
  destruct (match key with Some k => (k, ntmp s) | None => auto_key name_of (dict_keys (dmap s)) (ntmp s) end)
    as [k0 n0] eqn:EK.
Ltac pickd s key k0 n0 EK :=
  destruct (match key with Some k => (k, dn s) | None => auto_key name_of (ddesc s) (dn s) end)
    as [k0 n0] eqn:EK.

Lemma m_fail_unchanged s o s' : m_step s o = (s', OFail) -> dmap s' = dmap s.
Proof.
  destruct o; unfold DataSpace.m_step.
  - pickm s key k0 n0 EK. destruct (negb ow && dict_has (dmap s) k0); intros Q; inversion Q; reflexivity.
  - destruct (dict_has (dmap s) k); intros Q; inversion Q; reflexivity.
  - pickm s key k0 n0 EK. destruct (negb ow && dict_has (dmap s) k0); [intros Q; inversion Q; reflexivity|].
    destruct (evalp (dmap s) p); intros Q; inversion Q; reflexivity.
  - destruct (dict_get (dmap s) k); intros Q; inversion Q; subst; reflexivity.
  - destruct (dict_has (dmap s) k); intros Q; inversion Q; subst; reflexivity.
  - intros Q; inversion Q.
Qed.

Lemma m_insert_ok s key v ow s' k : m_step s (DInsert key v ow) = (s', OKey k) ->
  written (dmap s) (dmap s') k v /\ (key = Some k \/ (key = None /\ ~ In k (dict_keys (dmap s)))) /\
  (ow = false -> ~ In k (dict_keys (dmap s))).
Proof.
  unfold DataSpace.m_step. pickm s key k0 n0 EK.
  destruct (negb ow && dict_has (dmap s) k0) eqn:E; intros Q; inversion Q; subst; clear Q. simpl.
  split; [apply written_set|]. split; [eapply pick_spec; exact EK|].
  intros ->. simpl in E. apply dict_has_false in E. exact E.
Qed.

Lemma m_execute_ok s p key ow s' k : m_step s (DExecute p key ow) = (s', OKey k) ->
  exists v, evalp (dmap s) p = Some v /\ written (dmap s) (dmap s') k v /\
            (key = Some k \/ (key = None /\ ~ In k (dict_keys (dmap s)))) /\ (ow = false -> ~ In k (dict_keys (dmap s))).
Proof.
  unfold DataSpace.m_step. pickm s key k0 n0 EK.
  destruct (negb ow && dict_has (dmap s) k0) eqn:E; [intros Q; inversion Q|].
  destruct (evalp (dmap s) p) as [v|] eqn:EV; intros Q; inversion Q; subst; clear Q. simpl.
  exists v. split; [reflexivity|]. split; [apply written_set|]. split; [eapply pick_spec; exact EK|].
  intros ->. simpl in E. apply dict_has_false in E. exact E.
Qed.

Lemma m_no_overwrite_when_forbidden s o k : is_write o = Some (Some k, false) -> In k (dict_keys (dmap s)) ->
  snd (m_step s o) = OFail /\ dmap (fst (m_step s o)) = dmap s.
Proof.
  intros W I. apply dict_has_true in I.
  destruct o; simpl in W; inversion W; subst; unfold DataSpace.m_step; simpl; rewrite I; simpl; split; reflexivity.
Qed.

Lemma m_auto_key_never_replaces s o ow : is_write o = Some (None, ow) ->
  forall k0 v0, dict_get (dmap s) k0 = Some v0 -> dict_get (dmap (fst (m_step s o))) k0 = Some v0.
Proof.
  intros W k0 v0 G.
  assert (forall k1, ~ In k1 (dict_keys (dmap s)) -> k0 <> k1) as NE.
  { intros k1 N ->. apply N. eapply dict_get_Some_keys, G. }
  destruct o; simpl in W; inversion W; subst; unfold DataSpace.m_step.
  - pickm s (@None string) k1 n1 EK. destruct (pick_spec _ None _ _ _ EK) as [Q|[_ F]]; [discriminate|].
    destruct (negb ow && dict_has (dmap s) k1); simpl; [exact G|].
    rewrite dict_get_set_other; [exact G|apply NE, F].
  - pickm s (@None string) k1 n1 EK. destruct (pick_spec _ None _ _ _ EK) as [Q|[_ F]]; [discriminate|].
    destruct (negb ow && dict_has (dmap s) k1); simpl; [exact G|].
    destruct (evalp (dmap s) p); simpl; [|exact G].
    rewrite dict_get_set_other; [exact G|apply NE, F].
Qed.

Lemma m_remove_ok s k s' : m_step s (DRemove k) = (s', OUnit) ->
  In k (dict_keys (dmap s)) /\ forall k2, dict_get (dmap s') k2 = if eq_dec k2 k then None else dict_get (dmap s) k2.
Proof.
  unfold DataSpace.m_step. destruct (dict_has (dmap s) k) eqn:E; intros Q; inversion Q; subst; clear Q.
  split; [apply dict_has_true, E|]. intros k2. simpl. apply dict_get_pop.
Qed.

Lemma m_queries s : (forall k, m_step s (DRetrieve k) = (s, match dict_get (dmap s) k with Some v => OVal v | None => OFail end)) /\
                    m_step s DKeys = (s, OKeys (dict_keys (dmap s))).
Proof.
  split; [|reflexivity]. intros k. unfold DataSpace.m_step. destruct (dict_get (dmap s) k); reflexivity.
Qed.

Lemma m_step_nodup s o : NoDup (dict_keys (dmap s)) -> NoDup (dict_keys (dmap (fst (m_step s o)))).
Proof.
  intros N. destruct o; unfold DataSpace.m_step.
  - pickm s key k0 n0 EK. destruct (negb ow && dict_has (dmap s) k0); simpl; [exact N|apply NoDup_dict_keys_set, N].
  - destruct (dict_has (dmap s) k); simpl; [apply NoDup_dict_keys_pop, N|exact N].
  - pickm s key k0 n0 EK. destruct (negb ow && dict_has (dmap s) k0); simpl; [exact N|].
    destruct (evalp (dmap s) p); simpl; [apply NoDup_dict_keys_set, N|exact N].
  - destruct (dict_get (dmap s) k); exact N.
  - destruct (dict_has (dmap s) k); exact N.
  - exact N.
Qed.

Lemma m_keys_nodup ops : NoDup (dict_keys (dmap (m_run evalp name_of ops))).
Proof. apply (fold_left_inv (fun s => NoDup (dict_keys (dmap s)))); [apply m_step_nodup | constructor]. Qed.

(* ---------- DBSpace *)
Definition Dinv (s : @dstate T) : Prop :=
  NoDup (ddesc s) /\ NoDup (dict_keys (ddb s)) /\ forall k, In k (ddesc s) <-> In k (dict_keys (ddb s)).

(* Dinv does not mention the counter: it is a property of the two maps *)
Definition dinv (desc : list string) (db : pydict string T) : Prop :=
  NoDup desc /\ NoDup (dict_keys db) /\ forall k, In k desc <-> In k (dict_keys db).

Lemma dinv_write desc db k v : dinv desc db -> dinv (add_end desc k) (dict_set db k v).
Proof.
  intros [N1 [N2 I]]. split; [apply NoDup_add_end, N1|].
  split; [apply NoDup_dict_keys_set, N2|]. intros x. rewrite dict_keys_set, !In_add_end, I. tauto.
Qed.

Lemma dinv_remove desc db k : dinv desc db -> dinv (remove_elem k desc) (dict_pop db k).
Proof.
  intros [N1 [N2 I]]. split; [apply NoDup_filter, N1|].
  split; [apply NoDup_dict_keys_pop, N2|]. intros x. rewrite In_dict_keys_pop, In_remove_elem, I. tauto.
Qed.

Lemma dinv_insert desc db k v : dinv desc db -> dinv (add_end desc k) (dict_set (dict_pop db k) k v).
Proof.
  intros [N1 [N2 I]]. split; [apply NoDup_add_end, N1|].
  split; [apply NoDup_dict_keys_set, NoDup_dict_keys_pop, N2|].
  intros x. rewrite dict_keys_set, !In_add_end, In_dict_keys_pop, I.
  destruct (eq_dec x k); tauto.
Qed.

Lemma d_inv_step s o : Dinv s -> Dinv (fst (d_step s o)).
Proof.
  intros D. change (dinv (ddesc s) (ddb s)) in D. destruct o; unfold DataSpace.d_step.
  - pickd s key k0 n0 EK.
    destruct (negb ow && mem k0 (ddesc s)); simpl; [exact D|].
    destruct (negb ow && dict_has (ddb s) k0); simpl; [exact D|].
    exact (dinv_insert _ _ _ _ D).
  - destruct (mem k (ddesc s)); simpl; [exact (dinv_remove _ _ _ D)|exact D].
  - pickd s key k0 n0 EK.
    destruct (mem k0 (ddesc s) && negb ow); simpl; [exact D|].
    assert (dinv (if mem k0 (ddesc s) then remove_elem k0 (ddesc s) else ddesc s)
                 (if mem k0 (ddesc s) then dict_pop (ddb s) k0 else ddb s)) as D1.
    { destruct (mem k0 (ddesc s)); [apply dinv_remove, D|exact D]. }
    destruct (dict_has (if mem k0 (ddesc s) then dict_pop (ddb s) k0 else ddb s) k0); simpl; [exact D1|].
    destruct (evalp (if mem k0 (ddesc s) then dict_pop (ddb s) k0 else ddb s) p); simpl; [|exact D1].
    exact (dinv_write _ _ _ _ D1).
  - destruct (mem k (ddesc s)); [destruct (dict_get (ddb s) k)|]; exact D.
  - destruct (mem k (ddesc s)); exact D.
  - exact D.
Qed.
Lemma d_inv_run ops : Dinv (d_run evalp name_of ops).
Proof. apply (fold_left_inv Dinv); [apply d_inv_step|]. split; [constructor|]. split; [constructor|]. simpl. tauto. Qed.

Lemma d_insert_ok s key v ow s' k : Dinv s -> d_step s (DInsert key v ow) = (s', OKey k) ->
  written (ddb s) (ddb s') k v /\ (forall k2, In k2 (ddesc s') <-> In k2 (ddesc s) \/ k2 = k) /\
  (key = Some k \/ (key = None /\ ~ In k (ddesc s))) /\ (ow = false -> ~ In k (ddesc s)).
Proof.
  intros D. unfold DataSpace.d_step. pickd s key k0 n0 EK.
  destruct (negb ow && mem k0 (ddesc s)) eqn:E1; [intros Q; inversion Q|].
  destruct (negb ow && dict_has (ddb s) k0) eqn:E2; intros Q; inversion Q; subst; clear Q. simpl.
  split; [apply written_pop_set|]. split; [intros k2; apply In_add_end|].
  split; [eapply pick_spec; exact EK|]. intros ->. simpl in E1. apply mem_false in E1. exact E1.
Qed.

(* execute: the pipeline is evaluated on the contents AFTER the old entry of k was removed *)
Lemma d_execute_ok s p key ow s' k : Dinv s -> d_step s (DExecute p key ow) = (s', OKey k) ->
  exists v, evalp (dict_pop (ddb s) k) p = Some v /\ written (ddb s) (ddb s') k v /\
            (forall k2, In k2 (ddesc s') <-> In k2 (ddesc s) \/ k2 = k) /\
            (key = Some k \/ (key = None /\ ~ In k (ddesc s))) /\ (ow = false -> ~ In k (ddesc s)).
Proof.
  intros D. unfold DataSpace.d_step. pickd s key k0 n0 EK.
  destruct (mem k0 (ddesc s)) eqn:M.
  - destruct ow; simpl; [|intros Q; inversion Q].
    destruct (dict_has (dict_pop (ddb s) k0) k0); [intros Q; inversion Q|].
    destruct (evalp (dict_pop (ddb s) k0) p) as [v|] eqn:EV; intros Q; inversion Q; subst; clear Q. simpl.
    exists v. split; [exact EV|]. split; [apply written_pop_set|].
    split; [|split; [eapply pick_spec; exact EK|discriminate]].
    intros k2. rewrite In_add_end, In_remove_elem. apply mem_In in M.
    destruct (eq_dec k2 k) as [->|n]; tauto.
  - simpl. destruct (dict_has (ddb s) k0) eqn:Hh; [intros Q; inversion Q|].
    destruct (evalp (ddb s) p) as [v|] eqn:EV; intros Q; inversion Q; subst; clear Q. simpl.
    apply dict_has_false in Hh. rewrite (dict_pop_absent _ _ Hh).
    exists v. split; [exact EV|]. split; [apply written_set|]. split; [intros k2; apply In_add_end|].
    split; [eapply pick_spec; exact EK|]. intros _. apply mem_false, M.
Qed.

Lemma d_no_overwrite_when_forbidden s o k : is_write o = Some (Some k, false) -> In k (ddesc s) ->
  snd (d_step s o) = OFail /\ ddesc (fst (d_step s o)) = ddesc s /\ ddb (fst (d_step s o)) = ddb s.
Proof.
  intros W I. apply mem_In in I.
  destruct o; simpl in W; inversion W; subst; unfold DataSpace.d_step; simpl; rewrite I; simpl; repeat split; reflexivity.
Qed.

Lemma d_auto_key_never_replaces s o ow : Dinv s -> is_write o = Some (None, ow) ->
  forall k0 v0, In k0 (ddesc s) -> dict_get (ddb s) k0 = Some v0 ->
    In k0 (ddesc (fst (d_step s o))) /\ dict_get (ddb (fst (d_step s o))) k0 = Some v0.
Proof.
  intros D W k0 v0 I G.
  destruct o; simpl in W; inversion W; subst; unfold DataSpace.d_step.
  - pickd s (@None string) k1 n1 EK. destruct (pick_spec _ None _ _ _ EK) as [Q|[_ F]]; [discriminate|].
    assert (k0 <> k1) as NE by (intros ->; exact (F I)).
    destruct (negb ow && mem k1 (ddesc s)); simpl; [tauto|].
    destruct (negb ow && dict_has (ddb s) k1); simpl; [tauto|].
    split; [apply In_add_end; tauto|]. rewrite dict_get_set_other by exact NE.
    rewrite dict_get_pop. destruct (eq_dec k0 k1); [contradiction|exact G].
  - pickd s (@None string) k1 n1 EK. destruct (pick_spec _ None _ _ _ EK) as [Q|[_ F]]; [discriminate|].
    assert (k0 <> k1) as NE by (intros ->; exact (F I)).
    apply mem_false in F. rewrite F. simpl.
    destruct (dict_has (ddb s) k1); simpl; [tauto|].
    destruct (evalp (ddb s) p); simpl; [|tauto].
    split; [apply In_add_end; tauto|]. rewrite dict_get_set_other by exact NE. exact G.
Qed.

(* failed operations leave the contents unchanged, EXCEPT execute(key=k, allow_overwrite=True) on an existing k *)
Lemma d_fail_unchanged s o s' : Dinv s ->
  (forall p k, o = DExecute p (Some k) true -> ~ In k (ddesc s)) ->
  d_step s o = (s', OFail) -> ddesc s' = ddesc s /\ ddb s' = ddb s.
Proof.
  intros D Hex. destruct o; unfold DataSpace.d_step.
  - pickd s key k0 n0 EK.
    destruct (negb ow && mem k0 (ddesc s)); [intros Q; inversion Q; simpl; tauto|].
    destruct (negb ow && dict_has (ddb s) k0); intros Q; inversion Q; simpl; tauto.
  - destruct (mem k (ddesc s)); intros Q; inversion Q; subst; tauto.
  - pickd s key k0 n0 EK. destruct (mem k0 (ddesc s)) eqn:M.
    + destruct ow; simpl; [|intros Q; inversion Q; simpl; tauto].
      exfalso. apply mem_In in M. destruct (pick_spec _ _ _ _ _ EK) as [->|[_ F]]; [|exact (F M)].
      exact (Hex p k0 eq_refl M).
    + simpl. destruct (dict_has (ddb s) k0); [intros Q; inversion Q; simpl; tauto|].
      destruct (evalp (ddb s) p); intros Q; inversion Q; simpl; tauto.
  - destruct (mem k (ddesc s)); [destruct (dict_get (ddb s) k)|]; intros Q; inversion Q; subst; tauto.
  - destruct (mem k (ddesc s)); intros Q; inversion Q; subst; tauto.
  - intros Q; inversion Q.
Qed.
End P.

(* the exception is real: a failing self-overwriting execute loses the entry (pipelines = "read table p") *)
Lemma d_execute_overwrite_loses_entry_refuted :
  exists (s s' : @dstate nat) (k : string),
    Dinv s /\ In k (ddesc s) /\
    d_step (fun db (p : string) => dict_get db p) (fun n => String (Ascii.ascii_of_nat n) EmptyString) s (DExecute k (Some k) true) = (s', OFail) /\
    ~ In k (ddesc s').
Proof.
  exists (mkd ["a"%string] [("a"%string, 1)] 0), (mkd [] [] 0), "a"%string.
  split; [|split; [simpl; tauto|split; [vm_compute; reflexivity|simpl; tauto]]].
  unfold Dinv. simpl. split; [repeat constructor; simpl; tauto|]. split; [repeat constructor; simpl; tauto|]. tauto.
Qed.

