(* C05 -- base lemmas and tactics for the scalar proofs *)
From Coq Require Import List Bool Qround Qabs String Lia Lqa.
Import ListNotations.
From DA Require Import Model.Scalar Model.SqlTemplates Model.ScalarBackends Model.ScalarCatalog Model.ScalarIndex.
Local Open Scope string_scope.

(* ------------------------------------------------------------------ value equivalence *)
Lemma cv_eqb_refl c : cv_eqb c c = true.
Proof. destruct c; simpl; auto using Qeq_bool_refl, String.eqb_refl. Qed.
Lemma sv_eqv_refl v : sv_eqv v v.
Proof. apply cv_eqb_refl. Qed.
Lemma sv_eqv_num p q : (p == q)%Q -> sv_eqv (SNum p) (SNum q).
Proof. intros E. apply Qeq_bool_iff. exact E. Qed.
Lemma norm_eqv d v : sv_eqv (norm d v) v.
Proof. destruct d, v; try apply sv_eqv_refl; try destruct b; reflexivity. Qed.
Lemma enc_eqv d v : sv_eqv (enc d v) v.
Proof. destruct d, v; try apply sv_eqv_refl; try destruct b; reflexivity. Qed.
Lemma mkb_eqv d b : sv_eqv (mkb d b) (SBool b).
Proof. destruct d, b; reflexivity. Qed.
Lemma str_in_In s l : str_in s l = true -> In s l.
Proof. intros E. apply existsb_exists in E. destruct E as [x [I E]]. apply String.eqb_eq in E. subst x. exact I. Qed.
Lemma lookup_In {A} k (t : list (string * A)) v : lookup k t = Some v -> In (k, v) t.
Proof. induction t as [|[k' v'] t IH]; cbn; [discriminate|]. destruct (String.eqb k k') eqn:E.
  - apply String.eqb_eq in E. intros H. inversion H; subst. left. reflexivity.
  - intros H. right. exact (IH H). Qed.
Lemma sv_eqv_missing a b : missing a = true -> missing b = true -> sv_eqv a b.
Proof. destruct a, b; simpl; intros; try discriminate; reflexivity. Qed.

(* ------------------------------------------------------------------ boolean facts about Q, turned into Props for lra *)
Lemma Qle_bool_false a b : Qle_bool a b = false -> (b < a)%Q.
Proof. intros E. apply Qnot_le_lt. intros L. apply Qle_bool_iff in L. congruence. Qed.
Lemma Qeq_bool_false a b : Qeq_bool a b = false -> ~ (a == b)%Q.
Proof. intros E L. apply Qeq_bool_iff in L. congruence. Qed.
Lemma Qlt_bool_true a b : Qlt_bool a b = true -> (a < b)%Q.
Proof. unfold Qlt_bool. intros E. apply negb_true_iff in E. apply Qle_bool_false. exact E. Qed.
Lemma Qlt_bool_false a b : Qlt_bool a b = false -> (b <= a)%Q.
Proof. unfold Qlt_bool. intros E. apply negb_false_iff in E. apply Qle_bool_iff. exact E. Qed.
Lemma Qcompare_Gt a b : (a ?= b)%Q = Gt -> (b < a)%Q. Proof. intros E. apply Qgt_alt in E. exact E. Qed.

Ltac q_props :=
  repeat match goal with
  | H : Qle_bool _ _ = true |- _ => apply Qle_bool_iff in H
  | H : Qle_bool _ _ = false |- _ => apply Qle_bool_false in H
  | H : Qeq_bool _ _ = true |- _ => apply Qeq_bool_iff in H
  | H : Qeq_bool _ _ = false |- _ => apply Qeq_bool_false in H
  | H : Qlt_bool _ _ = true |- _ => apply Qlt_bool_true in H
  | H : Qlt_bool _ _ = false |- _ => apply Qlt_bool_false in H
  | H : (_ ?= _)%Q = Eq |- _ => apply Qeq_alt in H
  | H : (_ ?= _)%Q = Lt |- _ => apply Qlt_alt in H
  | H : (_ ?= _)%Q = Gt |- _ => apply Qcompare_Gt in H
  end.
Ltac q_lra := q_props; lra.

(* a condition worth splitting on: not a constant, and with no condition of its own inside (the innermost test is split first,
   so that no equation about an outer test is left behind unsimplified) *)
Ltac atomic_test c :=
  lazymatch c with
  | true => fail | false => fail
  | context[if _ then _ else _] => fail
  | context[match _ with Eq => _ | Lt => _ | Gt => _ end] => fail
  | _ => idtac
  end.
Ltac break_step :=
  match goal with
  | H : context[match (?a ?= ?b)%Q with Eq => _ | Lt => _ | Gt => _ end] |- _ => destruct (a ?= b)%Q eqn:?
  | |- context[match (?a ?= ?b)%Q with Eq => _ | Lt => _ | Gt => _ end] => destruct (a ?= b)%Q eqn:?
  | H : context[if ?c then _ else _] |- _ => atomic_test c; destruct c eqn:?
  | |- context[if ?c then _ else _] => atomic_test c; destruct c eqn:?
  end.

(* the goal `exists r', lhs = Some r' /\ sv_eqv r' r` once lhs has been reduced to `Some _` *)
Ltac done_eqv :=
  first [ apply sv_eqv_refl | apply norm_eqv | exact (norm_eqv DSqlite _) | apply enc_eqv | exact (enc_eqv DSqlite _) | apply mkb_eqv | exact (mkb_eqv DSqlite _)
        | (apply sv_eqv_missing; reflexivity)
        | (apply sv_eqv_num; q_props; first [reflexivity | lra | (field; lra)]) ].
Ltac finish := eexists; split; [reflexivity | done_eqv].

(* ------------------------------------------------------------------ floor / ceiling / truncation facts *)
Lemma Qfloor_unique z x : (inject_Z z <= x)%Q -> (x < inject_Z (z + 1))%Q -> Qfloor x = z.
Proof. intros L U. pose proof (Qfloor_le x) as F1. pose proof (Qlt_floor x) as F2.
  assert (z <= Qfloor x)%Z as A. { rewrite <- (Qfloor_Z z). apply Qfloor_resp_le. exact L. }
  assert (Qfloor x < z + 1)%Z as B. { rewrite Zlt_Qlt. eapply Qle_lt_trans; [exact F1 | exact U]. }
  lia. Qed.
Lemma Qis_int_eq q : Qis_int q = true -> (q == inject_Z (Qfloor q))%Q.
Proof. intros E. apply Qeq_bool_iff. exact E. Qed.
Lemma Qis_int_inject z : Qis_int (inject_Z z) = true.
Proof. unfold Qis_int. rewrite Qfloor_Z. apply Qeq_bool_refl. Qed.
Lemma Qis_int_comp p q : (p == q)%Q -> Qis_int p = Qis_int q.
Proof. intros E. unfold Qis_int. rewrite (Qfloor_comp _ _ E).
  destruct (Qeq_bool q (inject_Z (Qfloor q))) eqn:A.
  - apply Qeq_bool_iff. apply Qeq_bool_iff in A. transitivity q; [exact E | exact A].
  - destruct (Qeq_bool p (inject_Z (Qfloor q))) eqn:B; [|reflexivity].
    apply Qeq_bool_iff in B. apply Qeq_bool_false in A. exfalso. apply A. transitivity p; [symmetry; exact E | exact B]. Qed.
Lemma Qceiling_int q : Qis_int q = true -> Qceiling q = Qfloor q.
Proof. intros E. apply Qis_int_eq in E. unfold Qceiling.
  assert (- q == inject_Z (- Qfloor q))%Q as N. { rewrite inject_Z_opp. rewrite <- E. reflexivity. }
  rewrite (Qfloor_comp _ _ N). rewrite Qfloor_Z. lia. Qed.
Lemma qtrunc_int q : Qis_int q = true -> (inject_Z (qtrunc q) == q)%Q.
Proof. intros E. unfold qtrunc. destruct (Qle_bool 0 q).
  - symmetry. apply Qis_int_eq. exact E.
  - rewrite (Qceiling_int _ E). symmetry. apply Qis_int_eq. exact E. Qed.
Lemma qtrunc_nonneg q : Qle_bool 0 q = true -> qtrunc q = Qfloor q.
Proof. intros E. unfold qtrunc. rewrite E. reflexivity. Qed.
Lemma Qfloor_nonneg q : (0 <= q)%Q -> (0 <= Qfloor q)%Z.
Proof. intros L. change 0%Z with (Qfloor 0). apply Qfloor_resp_le. exact L. Qed.
Lemma Qfloor_pos_int q : Qis_int q = true -> (0 < q)%Q -> (0 < Qfloor q)%Z.
Proof. intros E L. apply Qis_int_eq in E. rewrite E in L. rewrite Zlt_Qlt. exact L. Qed.

(* the sign conventions coincide on a non-negative dividend and a positive divisor *)
Lemma rem_is_mod p q : Qis_int q = true -> Qle_bool 0 p = true -> Qlt_bool 0 q = true ->
  Z.rem (Qfloor p) (Qfloor q) = Z.modulo (Qfloor p) (Qfloor q).
Proof. intros Iq Lp Lq. apply Z.rem_mod_nonneg.
  - apply Qfloor_nonneg. apply Qle_bool_iff. exact Lp.
  - apply Qfloor_pos_int; [exact Iq | apply Qlt_bool_true; exact Lq]. Qed.
(* p - floor(p / q) * q is p mod q on integers (numpy.mod, Python %, PostgreSQL's remainder formula) *)
Lemma floor_formula_is_mod p q : Qis_int p = true -> Qis_int q = true -> Qlt_bool 0 q = true ->
  (p - inject_Z (Qfloor (p / q)) * q == inject_Z (Z.modulo (Qfloor p) (Qfloor q)))%Q.
Proof. intros Ip Iq Lq.
  pose proof (Qfloor_pos_int _ Iq (Qlt_bool_true _ _ Lq)) as Pos.
  apply Qis_int_eq in Ip. apply Qis_int_eq in Iq.
  set (a := Qfloor p) in *. set (b := Qfloor q) in *.
  assert (Qfloor (p / q) = (a / b)%Z) as F.
  { rewrite (Qfloor_comp (p / q) (inject_Z a / inject_Z b)).
    - symmetry. apply Zdiv_Qdiv.
    - rewrite <- Ip, <- Iq. reflexivity. }
  rewrite F. transitivity (inject_Z a - inject_Z (a / b) * inject_Z b)%Q.
  { rewrite <- Ip, <- Iq. reflexivity. }
  rewrite (Z.mod_eq a b) by lia.
  rewrite <- inject_Z_mult. unfold Qminus. rewrite <- inject_Z_opp. rewrite <- inject_Z_plus.
  apply inject_Z_injective. lia. Qed.

(* rounding: away from the exact ties every rule is floor(q + 1/2) *)
Lemma inject_Z_minus a b : (inject_Z (a - b) == inject_Z a - inject_Z b)%Q.
Proof. unfold Z.sub. rewrite inject_Z_plus, inject_Z_opp. reflexivity. Qed.
Lemma inject_Z_succ a : (inject_Z (a + 1) == inject_Z a + 1)%Q.
Proof. rewrite inject_Z_plus. reflexivity. Qed.
Lemma qtie_false_ne q : qtie q = false -> ~ (q + (1 # 2) == inject_Z (Qfloor (q + (1 # 2))))%Q.
Proof. intros T E. apply Qeq_bool_false in T. apply T. unfold qfloor.
  set (n := Qfloor (q + (1 # 2))) in *.
  assert (Qfloor q = (n - 1)%Z) as F.
  { apply Qfloor_unique.
    - rewrite inject_Z_minus. change (inject_Z 1) with 1%Q. lra.
    - replace (n - 1 + 1)%Z with n by lia. lra. }
  rewrite F. rewrite inject_Z_minus. change (inject_Z 1) with 1%Q. lra. Qed.
Lemma round_half_away_nearest q : qtie q = false -> (round_half_away q == qround_nearest q)%Q.
Proof. intros T. unfold round_half_away, qround_nearest, qfloor. destruct (Qle_bool 0 q) eqn:S; [reflexivity|].
  pose proof (qtie_false_ne q T) as NE.
  pose proof (Qfloor_le (q + (1 # 2))) as F1. pose proof (Qlt_floor (q + (1 # 2))) as F2.
  set (n := Qfloor (q + (1 # 2))) in *.
  rewrite inject_Z_succ in F2.
  assert (Qfloor (- q + (1 # 2)) = (- n)%Z) as F.
  { apply Qfloor_unique.
    - rewrite inject_Z_opp. lra.
    - rewrite inject_Z_succ, inject_Z_opp.
      assert (inject_Z n < q + (1 # 2))%Q as LT.
      { apply Qle_lteq in F1. destruct F1 as [F1|F1]; [exact F1|]. exfalso. apply NE. symmetry. exact F1. }
      lra. }
  rewrite F. rewrite inject_Z_opp. lra. Qed.
Lemma round_half_even_nearest q : qtie q = false -> round_half_even q = qround_nearest q.
Proof. intros T. unfold round_half_even. rewrite T. reflexivity. Qed.

(* ------------------------------------------------------------------ tactics shared by the per-method proofs *)
Ltac junk H :=
  solve [ discriminate H
        | cbn in H; try discriminate H;
          repeat (match type of H with context[match ?v with _ => _ end] => is_var v; destruct v end; cbn in H; try discriminate H) ].
Ltac arity2 H args := destruct args as [|?a [|?b [|?c ?l]]]; [junk H | junk H | | junk H].
Ltac arity1 H args := destruct args as [|?a [|?b ?l]]; [junk H | | junk H].
Ltac arity3 H args := destruct args as [|?a [|?b [|?c [|?e ?l]]]]; [junk H | junk H | junk H | | junk H].
Ltac simp := cbn in *.
(* the order and extremum operations on extended reals are unfolded by cbn as soon as they are applied *)
Arguments xscale_inf _ _ /. Arguments xcompare _ _ /. Arguments xmax _ _ /. Arguments xmin _ _ /.
Arguments xeqb _ _ /. Arguments xltb _ _ /. Arguments xle !_ !_ /.
(* H : spec ... = Some r with the arguments already split by kind.  The specification's side decides the case first (a kind outside
   the documented domain ends here); what remains is unfolded on the backend's side, split on the comparisons of rationals that block
   reduction, and closed by equality up to sv_eqv, by contradiction between those comparisons (lra), or by congruence. *)
Ltac solve_val H :=
  cbn in H; try discriminate H; cbn in H |- *; repeat (break_step; cbn in H |- *); try discriminate H;
  try (inversion H; subst; clear H; cbn; repeat (break_step; cbn); try congruence; try finish; try (exfalso; q_lra)).
