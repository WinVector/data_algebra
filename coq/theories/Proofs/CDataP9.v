(* C17, part 9: the Polars realisation (Model/CDataPolars.v) agrees with the Pandas one (Model/CData.v) on strict
   specifications and conforming input, up to row and column order. *)
From Coq Require Import List Bool Arith String Lia Permutation.
Import ListNotations.
From DA Require Import Base.PyRT Base.Val Model.CData Model.CDataPolars
  Proofs.CDataP1 Proofs.CDataP2 Proofs.CDataP4 Proofs.CDataP5 Proofs.CDataP6 Proofs.CDataP7.

(* ------------------------------------------------------------------ nulls-first sort = nulls-last sort on non-null keys *)
Definition nn (k : list val) : bool := forallb non_null k.

Lemma val_cmp_nf_eq a b : non_null a = true -> non_null b = true -> val_cmp_nf a b = val_cmp a b.
Proof. destruct a, b; simpl; intros; try discriminate; reflexivity. Qed.

Lemma key_cmp_nf_eq a : forall b, nn a = true -> nn b = true -> key_cmp_nf a b = key_cmp a b.
Proof. induction a as [|x a IH]; intros [|y b] ha hb; simpl in *; try reflexivity.
  apply andb_true_iff in ha. apply andb_true_iff in hb. destruct ha as [hx ha], hb as [hy hb].
  rewrite (val_cmp_nf_eq x y hx hy). destruct (val_cmp x y); try reflexivity. apply IH; assumption. Qed.

Section SortNfFacts.
  Context {A : Type} (key : A -> list val).

  Lemma insert_by_nf_perm x l : Permutation (insert_by_nf key x l) (x :: l).
  Proof. induction l as [|y t IH]; simpl; [reflexivity|]. destruct (cmp_leb _); [reflexivity|]. rewrite IH. apply perm_swap. Qed.

  Lemma sort_by_nf_perm l : Permutation (sort_by_nf key l) l.
  Proof. induction l as [|x t IH]; simpl; [reflexivity|]. rewrite insert_by_nf_perm. constructor. exact IH. Qed.

  Lemma insert_by_nf_eq x l : nn (key x) = true -> (forall y, In y l -> nn (key y) = true) ->
    insert_by_nf key x l = insert_by key x l.
  Proof. intros hx. induction l as [|y t IH]; intros hl; simpl; [reflexivity|].
    rewrite (key_cmp_nf_eq _ _ hx (hl y (or_introl eq_refl))). destruct (cmp_leb _); [reflexivity|].
    rewrite IH; [reflexivity|]. intros z Hz. apply hl. right. exact Hz. Qed.

  Lemma sort_by_nf_eq l : (forall y, In y l -> nn (key y) = true) -> sort_by_nf key l = sort_by key l.
  Proof. induction l as [|x t IH]; intros hl; simpl; [reflexivity|].
    rewrite IH by (intros y Hy; apply hl; right; exact Hy).
    apply insert_by_nf_eq; [apply hl; left; reflexivity|].
    intros y Hy. apply hl. right. apply (sort_by_In key t y). exact Hy. Qed.
End SortNfFacts.

(* ------------------------------------------------------------------ the keyed check *)
Lemma is_keyed_pl_ok ks t : keyed_facts ks t -> is_keyed_pl ks t = true.
Proof. intros [Sub _ N]. unfold is_keyed_pl. destruct (Nat.ltb (List.length (rows t)) 2) eqn:L; [reflexivity|].
  rewrite (proj2 (subset_spec _ _) Sub). apply Nat.ltb_ge in L. destruct ks as [|k0 ks'].
  - exfalso. destruct (rows t) as [|r1 [|r2 rs]]; simpl in L; try lia. simpl in N. inversion N as [|? ? H1 _]; subst. apply H1. left. reflexivity.
  - apply nodupb_NoDup. exact N. Qed.

Lemma is_keyed_pl_select S X : keyed_facts (rs_keys S) X -> is_keyed_pl (rs_keys S) (select_cols (row_columns S) X) = true.
Proof. intros KF. apply is_keyed_pl_ok. apply keyed_facts_select; [apply rk_in_rc|exact KF]. Qed.

(* ------------------------------------------------------------------ rowrecs_to_blocks: the same table up to row order *)
Lemma r2b_pl_unfold S T : rows T <> [] -> is_keyed_pl (rs_keys S) (select_cols (row_columns S) T) = true ->
  rowrecs_to_blocks_pl S T =
  Ok (mktable (r2b_cols S)
        (sort_rows_nf (r2b_cols S) (rs_keys S ++ rs_ctkeys S)
           (flat_map (fun cr => map (r2b_row S cr) (rows (select_cols (row_columns S) T))) (rows (rs_ct S))))).
Proof. intros NE K. unfold rowrecs_to_blocks_pl. cbv zeta. rewrite K.
  destruct (rows (select_cols (row_columns S) T)) eqn:E.
  - simpl in E. destruct (rows T); [congruence|discriminate].
  - rewrite <- E. reflexivity. Qed.

Lemma r2b_pl_empty S T : rows T = [] -> rowrecs_to_blocks_pl S T = Ok (mktable (block_columns S) []).
Proof. intros E. unfold rowrecs_to_blocks_pl. cbv zeta. simpl. rewrite E. reflexivity. Qed.

Lemma r2b_agree S X : keyed_facts (rs_keys S) X ->
  exists Z Z', rowrecs_to_blocks S X = Ok Z /\ rowrecs_to_blocks_pl S X = Ok Z' /\ cols Z' = cols Z /\ Permutation (rows Z') (rows Z).
Proof. intros KF. destruct (rows X) eqn:E.
  - do 2 eexists. split; [apply r2b_empty; exact E|]. split; [apply r2b_pl_empty; exact E|]. split; reflexivity.
  - assert (NE : rows X <> []) by (rewrite E; discriminate).
    do 2 eexists. split; [apply (r2b_unfold S X NE (is_keyed_select_ok S X KF))|].
    split; [apply (r2b_pl_unfold S X NE (is_keyed_pl_select S X KF))|]. split; [reflexivity|]. cbn [rows].
    etransitivity; [apply sort_by_nf_perm|]. apply Permutation_sym. apply sort_by_perm. Qed.

Lemma tbl_eqv_of_perm Z' Z : cols Z' = cols Z -> Permutation (rows Z') (rows Z) -> NoDup (cols Z) ->
  (forall r, In r (rows Z) -> List.length r = List.length (cols Z)) -> tbl_eqv Z' Z.
Proof. intros Ec P N L. apply tbl_perm_eqv; try assumption; [rewrite Ec; exact N|].
  intros r Hr. rewrite Ec. apply L. apply (Permutation_in _ P). exact Hr. Qed.

(* blocks_to_rowrecs on Polars is an instance of b2r_tail (CDataP2.v) *)
Lemma b2r_pl_unfold S T :
  rows (select_cols (block_columns S) T) <> [] ->
  is_keyed_pl (rs_keys S ++ rs_ctkeys S) (select_cols (block_columns S) T) = true ->
  blocks_to_rowrecs_pl S T =
  b2r_tail (lookup_names_pl S) sort_rows_nf nodupb Reject S
    (map (fun kg : list val * list (list val) =>
            (fst kg, match rs_keys S with [] => snd kg | _ :: _ => sort_rows_nf (block_columns S) (rs_keys S) (snd kg) end))
         (partition_pl (rs_ctkeys S) (select_cols (block_columns S) T))).
Proof. intros NE K. unfold blocks_to_rowrecs_pl. cbv zeta. rewrite (match_nonempty _ _ _ NE). rewrite K. reflexivity. Qed.

Lemma lookup_names_pl_ok S cr : spec_facts S -> In cr (rows (rs_ct S)) -> lookup_names_pl S (kap S cr) = Ok (nm S cr).
Proof. intros F Hcr. pose proof (ct_row_of_key S cr F Hcr) as E. unfold lookup_names_pl, kap in *. rewrite E. reflexivity. Qed.

Section B2RPL.
  Variable S : recspec.
  Hypothesis F : spec_facts S.
  Variable X : Type.
  Variable rk : X -> list val.
  Variable vals : X -> list val -> list val.
  Variable brow : X -> list val -> list val.
  Variable recs : list X.
  Variable T : table.
  Let bc := block_columns S.
  Let RK := rs_keys S.
  Let CK := rs_ctkeys S.
  Let ctrows := rows (rs_ct S).
  Hypothesis Hperm : Permutation (rows (select_cols bc T)) (flat_map (fun x => map (brow x) ctrows) recs).
  Hypothesis Hne : recs <> [].
  Hypothesis Hrk_nodup : NoDup (map rk recs).
  Hypothesis Hrk_ok : forall x, In x recs -> key_ok (rk x) = true.
  Hypothesis Hrk_len : forall x, In x recs -> List.length (rk x) = List.length RK.
  Hypothesis Hb_rk : forall x cr, In x recs -> In cr ctrows -> cells bc (brow x cr) RK = rk x.
  Hypothesis Hb_ck : forall x cr, In x recs -> In cr ctrows -> cells bc (brow x cr) CK = kap S cr.
  Hypothesis Hb_vc : forall x cr, In x recs -> In cr ctrows -> cells bc (brow x cr) (value_cols S) = vals x cr.

  (* as b2r_char; the groups come in the order the control keys first appear in the data *)
  Theorem b2r_pl_char :
    exists G rows', Permutation G ctrows /\
      blocks_to_rowrecs_pl S T = Ok (mktable (RK ++ List.concat (map (nm S) G)) rows') /\
      Permutation rows' (map (fun x => rk x ++ List.concat (map (vals x) G)) recs).
  Proof.
    rewrite (b2r_pl_unfold S T); [|eapply b2r_d_ne; eassumption|apply is_keyed_pl_ok; eapply b2r_keyed; eassumption].
    unfold partition_pl. rewrite map_map.
    eapply (b2r_tail_char S F X rk vals brow recs T) with (lk := lookup_names_pl S) (srt := sort_rows_nf) (chk := nodupb); try eassumption.
    - intros cr Hcr. apply lookup_names_pl_ok; assumption.
    - intros cs ks rs. apply sort_by_nf_perm.
    - intros cs ks rs. apply sort_by_nf_eq.
    - intros G HG. apply nodupb_NoDup.
      eapply Permutation_NoDup; [apply Permutation_sym; apply (rowrec_cols_perm S F _ HG)|apply row_columns_nodup; exact F].
    - apply NoDup_dedup.
    - intros k. rewrite In_dedup.
      erewrite <- b2r_keys_In by eassumption. simpl. tauto.
  Qed.
End B2RPL.

(* ------------------------------------------------------------------ blocks_to_rowrecs: Pandas and Polars *)
Lemma cells_concat cs r (L : list (list string)) : cells cs r (List.concat L) = List.concat (map (cells cs r) L).
Proof. induction L as [|l L IH]; simpl; [reflexivity|]. rewrite cells_app, IH. reflexivity. Qed.

Theorem b2r_agree S T : strict_spec S = true -> complete_blocks S T = true ->
  exists X X', blocks_to_rowrecs S T = Ok X /\ blocks_to_rowrecs_pl S T = Ok X' /\ tbl_eqv X' X /\
    keyed_by (rs_keys S) X = true /\ Permutation (cols X) (row_columns S) /\
    keyed_by (rs_keys S) X' = true /\ Permutation (cols X') (row_columns S).
Proof. intros HS HC. pose proof (strict_spec_facts S HS) as F.
  destruct (rows T) as [|r0 rs0] eqn:ET.
  - exists (mktable (row_columns S) []), (mktable (row_columns S) []).
    assert (K0 : keyed_by (rs_keys S) (mktable (row_columns S) []) = true).
    { apply keyed_by_facts. constructor; simpl; [intros c Hc; apply In_rc; left; exact Hc|intros r []|constructor]. }
    split; [apply b2r_empty; exact ET|]. split; [unfold blocks_to_rowrecs_pl; cbv zeta; simpl; rewrite ET; reflexivity|].
    split; [split; [reflexivity|constructor]|]. repeat (split; [assumption || reflexivity|]). reflexivity.
  - assert (NE : rows T <> []) by (rewrite ET; discriminate). clear ET r0 rs0.
    destruct (complete_blocks_repr S T HS HC NE) as [recs [brow [Hperm [RNE [NR [Kok [Len [Brk Bck]]]]]]]].
    set (bc := block_columns S) in *. set (VC := value_cols S).
    set (V := fun p cr => cells bc (brow p cr) VC).
    assert (NRm : NoDup (map (fun p : list val => p) recs)) by (rewrite map_id; exact NR).
    destruct (b2r_char S F (list val) (fun p => p) V brow recs T Hperm RNE NRm Kok Len Brk Bck) as [G [rws [HG [E HP]]]];
      [reflexivity|].
    destruct (b2r_pl_char S F (list val) (fun p => p) V brow recs T Hperm RNE NRm Kok Len Brk Bck) as [G' [rws' [HG' [E' HP']]]];
      [reflexivity|].
    eexists. eexists. split; [exact E|]. split; [exact E'|].
    assert (LV : forall p cr, List.length (V p cr) = List.length (nm S cr)) by (intros; unfold V; rewrite cells_length, nm_length; reflexivity).
    split.
    + split.
      * cbn [cols]. rewrite (rowrec_cols_perm S F G' HG'), (rowrec_cols_perm S F G HG). reflexivity.
      * cbn [rows cols select_cols]. etransitivity; [apply Permutation_map; exact HP'|]. rewrite map_map.
        etransitivity; [|apply Permutation_sym; exact HP]. apply Permutation_refl'. apply map_ext_in. intros p Hp.
        rewrite cells_app. rewrite (rowrec_rk S F G' p (V p) (Len p Hp)). f_equal.
        rewrite cells_concat, map_map. f_equal. apply map_ext_in. intros cr Hcr.
        apply (rowrec_names S F G' HG' p (V p) (Len p Hp)); [intros; apply LV|apply (Permutation_in _ HG); exact Hcr].
    + split; [apply (rowform_keyed S F G V recs rws NR Kok Len HP)|]. split; [apply (rowrec_cols_perm S F G HG)|].
      split; [apply (rowform_keyed S F G' V recs rws' NR Kok Len HP')|apply (rowrec_cols_perm S F G' HG')].
Qed.

(* ------------------------------------------------------------------ RecordMap.transform: Pandas and Polars *)
Lemma transform_pl_steps m t x z : subset (columns_needed m) (cols t) = true ->
  match rm_in m with Some i => blocks_to_rowrecs_pl i t | None => Ok t end = Ok x ->
  match rm_out m with Some o => rowrecs_to_blocks_pl o x | None => Ok x end = Ok z -> transform_pl m t = Ok z.
Proof. intros Sub E1 E2. unfold transform_pl. rewrite Sub, E1. exact E2. Qed.

Theorem agree_rows_to_blocks S t : strict_spec S = true -> conforming_rows S t = true ->
  exists z z', transform (mkmap None (Some S) true) t = Ok z /\ transform_pl (mkmap None (Some S) true) t = Ok z' /\ tbl_eqv z' z.
Proof. intros HS HC. pose proof (strict_spec_facts S HS) as F.
  pose proof (conforming_sub S t HC) as Sub.
  destruct (r2b_agree S t (conforming_keyed S t HC)) as [Z [Z' [E [E' [Ec P]]]]].
  exists Z, Z'. split; [eapply transform_steps; [exact Sub|reflexivity|exact E]|].
  split; [eapply transform_pl_steps; [exact Sub|reflexivity|exact E']|].
  destruct (r2b_wf S t Z F E) as [N L]. apply tbl_eqv_of_perm; assumption. Qed.

Theorem agree_blocks_to_rows S t : strict_spec S = true -> complete_blocks S t = true ->
  exists z z', transform (mkmap (Some S) None true) t = Ok z /\ transform_pl (mkmap (Some S) None true) t = Ok z' /\ tbl_eqv z' z.
Proof. intros HS HC. destruct (b2r_agree S t HS HC) as [X [X' [E [E' [EQ _]]]]].
  pose proof (complete_blocks_sub S t HC) as Sub.
  exists X, X'. split; [eapply transform_steps; [exact Sub|exact E|reflexivity]|].
  split; [eapply transform_pl_steps; [exact Sub|exact E'|reflexivity]|exact EQ]. Qed.

Theorem agree_blocks_to_blocks A B t :
  strict_spec A = true -> strict_spec B = true -> same_records A B = true -> complete_blocks A t = true ->
  exists z z', transform (mkmap (Some A) (Some B) true) t = Ok z /\ transform_pl (mkmap (Some A) (Some B) true) t = Ok z' /\ tbl_eqv z' z.
Proof. intros HA HB SR HC. pose proof (strict_spec_facts B HB) as FB.
  destruct (b2r_agree A t HA HC) as [X [X' [E [E' [[PC PR] [KX [PX [KX' PX']]]]]]]].
  pose proof (complete_blocks_sub A t HC) as Sub.
  pose proof (conforming_keyed B X' (conforming_same_records A B X' SR KX' PX')) as KB'.
  pose proof (proj1 (subset_spec _ _) (conforming_sub B X (conforming_same_records A B X SR KX PX))) as rcBX.
  destruct (r2b_agree B X' KB') as [Z1 [Z1' [F1 [F1' [Ec1 P1]]]]].
  destruct (r2b_cong B X' X Z1) as [Z [F2 [Ec2 P2]]]; [|exact F1|].
  - apply (tbl_eqv_select (row_columns B) X' X (conj PC PR) rcBX).
  - exists Z, Z1'.
    split; [eapply transform_steps; [exact Sub|exact E|exact F2]|].
    split; [eapply transform_pl_steps; [exact Sub|exact E'|exact F1']|].
    destruct (r2b_wf B X Z FB F2) as [N L]. apply tbl_eqv_of_perm; [congruence| |exact N|exact L].
    etransitivity; [exact P1|]. apply Permutation_sym. exact P2. Qed.
