(* Proofs/ExprParseP21.v -- C13: a printable expression is is_equal to itself (so "the same object" implies the
   library's own notion of an equal tree); the statements of Props/C13.v that need a few more steps, and the concrete
   witnesses (vm_compute on closed terms only). *)
From Coq Require Import List Bool String QArith.
Import ListNotations.
From DA Require Import Model.PyExpr Model.ExprPrint Model.ExprParse Model.ExprSem Model.ExprAst Model.ExprRoundtrip
  Proofs.ExprParseP4 Proofs.ExprParseP9 Proofs.ExprParseP12 Proofs.ExprParseP14 Proofs.ExprParseP19.
Local Close Scope Q_scope.
Local Open Scope string_scope.
Local Open Scope list_scope.

Lemma py_eq_refl v : py_eq v v = true.
Proof. destruct v as [|b|z|neg m|neg|s]; simpl; try reflexivity.
  - apply Qeq_bool_refl. - apply Qeq_bool_refl. - apply Qeq_bool_refl. - apply Bool.eqb_reflx. - apply String.eqb_refl. Qed.

Lemma same_constant_refl v : same_constant v v = true.
Proof. unfold same_constant. rewrite py_eq_refl. destruct v; reflexivity. Qed.

Lemma pdict_find_self : forall kvs k v, distinct_keys kvs = true -> In (k, v) kvs -> pdict_find kvs k = Some (k, v).
Proof. induction kvs as [|[k' v'] kvs IH]; intros k v Hd Hin; [destruct Hin|].
  cbn [distinct_keys] in Hd. apply andb_prop in Hd as [H1 H2]. apply negb_true_iff in H1. cbn [pdict_find].
  destruct Hin as [E|Hin].
  - inversion E; subst. rewrite py_eq_refl. reflexivity.
  - destruct (py_eq k k') eqn:E.
    + exfalso. assert (X : existsb (fun kv => py_eq (fst kv) k') kvs = true).
      { apply existsb_exists. exists (k, v). split; [exact Hin|exact E]. }
      rewrite H1 in X. discriminate X.
    + exact (IH k v H2 Hin). Qed.

Lemma is_equal_refl c dd : forall e, printable c dd e = true -> is_equal e e = true.
Proof. induction e as [e IH] using expr_size_ind. intros H. destruct e as [nm|v|vs|kvs|op i m p args]; cbn [is_equal].
  - apply String.eqb_refl.
  - apply same_constant_refl.
  - apply list_eqb_refl. intros x _. apply same_constant_refl.
  - cbn [printable] in H. apply andb_prop in H as [H _]. apply andb_prop in H as [H _]. apply andb_prop in H as [_ Hd].
    rewrite Nat.eqb_refl. cbn [andb]. rewrite forallb_forall. intros [k v] Hin. cbn [fst snd].
    rewrite (pdict_find_self kvs k v Hd Hin), !same_constant_refl. reflexivity.
  - cbn [printable] in H. apply andb_prop in H as [H _]. apply andb_prop in H as [Hp Ha]. destruct p; [discriminate Hp|].
    rewrite String.eqb_refl, Bool.eqb_reflx. cbn [params_equal andb].
    rewrite forallb_forall in Ha. apply list_eqb_refl. intros x Hx. exact (IH x (esize_arg op i m None args x Hx) (Ha x Hx)). Qed.

Lemma printable_roundtrip_eq (c : cfg) (dd : list string) (e : expr) :
  printable c dd e = true -> is_term e = true ->
  parse c dd (to_python e) = Ok e /\ is_equal e e = true.
Proof. intros H Ht. split; [exact (printable_roundtrip c dd e H Ht)|].
  exact (is_equal_refl c dd e H). Qed.

Lemma roundtrip_of_source_eq (c : cfg) (dd : list string) (d : dtree) (e : expr) :
  wfn d = true -> src_ok d = true ->
  parse c dd (unparse d) = Ok e ->
  exists e', parse c dd (to_python e) = Ok e' /\ e' = e /\ is_equal e e' = true.
Proof. intros Wf Hs Hp. exists e. split; [exact (roundtrip_of_source c dd d e Wf Hs Hp)|split; [reflexivity|]].
  unfold parse in Hp. rewrite (lark_of_unparse d Wf) in Hp. unfold parse_tree in Hp.
  destruct (walk c dd (strip d)) as [e0|] eqn:Hw; [|discriminate Hp]. destruct (is_term e0); [|discriminate Hp].
  inversion Hp; subst e0.
  exact (is_equal_refl c dd e (built_printable c dd d e Wf Hs Hw)). Qed.

(* ---- 'a < b < c' *)
Definition chain_toks : list tok := [TName "a"; TSym "<"; TName "b"; TSym "<"; TName "c"].
Definition chain_tree : ltree :=
  LNode "comparison" [LNode "var" [LTok (TName "a")]; LTok (TSym "<"); LNode "var" [LTok (TName "b")];
                      LTok (TSym "<"); LNode "var" [LTok (TName "c")]].
Definition chain_expr : expr :=
  EOp "<" true false None [EOp "<" true false None [ECol "a"; ECol "b"]; ECol "c"].
Definition chain_env : env := [("a", PInt (-3)); ("b", PInt (-3)); ("c", PInt 5)].
Definition chain_cfg : cfg := mkcfg ["<"].
Definition no_fsem : fsem_t := fun _ _ => None.

(* the defect repaired by 1b8c7b2: the chain parses (it is in the grammar) and Python reads it as a conjunction (False on
   these operands); a left-nested expression object would say True; the walker rejects the tree *)
Lemma chain_rejected :
  lark_of chain_toks = Some chain_tree /\
  py_meaning no_fsem chain_env chain_tree = Some (PBool false) /\
  eval no_fsem chain_env chain_expr = Some (PBool true) /\
  parse_tree chain_cfg ["a"; "b"; "c"] chain_tree = Err.
Proof. repeat split; vm_compute; reflexivity. Qed.

(* the five round-trip defects repaired by a6af5a7, e648ab6, 3753518, 181daac *)
Definition kcfg : cfg := mkcfg ["+"; "-"; "**"; "&"; "is_in"; "abs"].
Definition kdd : list string := ["a"; "b"; "c"; "p"].

(* (-0.0) ** 2 printed without its parentheses is -0.0 ** 2, which reads back as -(0.0 ** 2): the printer writes them *)
Definition negzero_src : dtree := DPower (DPar (DFactor "-" (DNum (TFloat (Some 0%Q))))) (DNum (TInt 2)).
Definition negzero_e : expr := EOp "**" true false None [EVal (PFloat true 0%Q); EVal (PInt 2)].
Lemma negzero_regression :
  wfn negzero_src = true /\ src_ok negzero_src = true /\
  parse kcfg kdd (unparse negzero_src) = Ok negzero_e /\
  to_python negzero_e = [TSym "("; TSym "-"; TFloat (Some 0%Q); TSym ")"; TSym "**"; TInt 2] /\
  parse kcfg kdd (to_python negzero_e) = Ok negzero_e.
Proof. repeat split; vm_compute; reflexivity. Qed.

(* 1e400 + a printed would be inf + a, which does not parse: the literal is rejected *)
Definition inf_src : dtree := DChain 8 (DNum (TFloat None)) [("+", DName "a")].
Lemma inf_regression :
  wfn inf_src = true /\ src_ok inf_src = true /\ parse kcfg kdd (unparse inf_src) = Err.
Proof. repeat split; vm_compute; reflexivity. Qed.

(* a.is_in([-1,]) printed as a.is_in([-1]) which did not parse; a.is_in([True]) was parsed to the EMPTY list *)
Definition short_list_src : dtree :=
  DCall (DAttr (DName "a") "is_in") [DColl BBrack [DFactor "-" (DNum (TInt 1))] true] false.
Definition short_list_e : expr := EOp "is_in" false true None [ECol "a"; EList [PInt (-1)]].
Definition true_list_src : dtree := DCall (DAttr (DName "a") "is_in") [DColl BBrack [DConst "True"] false] false.
Definition true_list_e : expr := EOp "is_in" false true None [ECol "a"; EList [PBool true]].
Definition empty_list_src : dtree := DCall (DAttr (DName "a") "is_in") [DColl BBrack [] false] false.
Lemma short_list_regression :
  wfn short_list_src = true /\ src_ok short_list_src = true /\
  parse kcfg kdd (unparse short_list_src) = Ok short_list_e /\ parse kcfg kdd (to_python short_list_e) = Ok short_list_e /\
  wfn true_list_src = true /\ src_ok true_list_src = true /\
  parse kcfg kdd (unparse true_list_src) = Ok true_list_e /\ parse kcfg kdd (to_python true_list_e) = Ok true_list_e /\
  parse kcfg kdd (unparse empty_list_src) = Ok (EOp "is_in" false true None [ECol "a"; EList []]).
Proof. repeat split; vm_compute; reflexivity. Qed.

(* (+p)(a, c) read as a call of the function "+", and a.__and__(b) read as a & b, do not print back: both are rejected *)
Definition called_operator_src : dtree := DCall (DPar (DFactor "+" (DName "p"))) [DName "a"; DName "c"] false.
Definition dunder_src : dtree := DCall (DAttr (DName "a") "__and__") [DName "b"] false.
Lemma call_target_regression :
  wfn called_operator_src = true /\ src_ok called_operator_src = true /\
  parse kcfg kdd (unparse called_operator_src) = Err /\
  wfn dunder_src = true /\ src_ok dunder_src = true /\ parse kcfg kdd (unparse dunder_src) = Err.
Proof. repeat split; vm_compute; reflexivity. Qed.

(* ---- a non-trivial instance of every guard:  not p and -a ** 2 + b.abs() * (c - 1) < 3 *)
Definition sample_src : dtree :=
  DChain 1 (DNot (DName "p"))
    [("and", DChain 3
        (DChain 8 (DFactor "-" (DPower (DName "a") (DNum (TInt 2))))
           [("+", DChain 9 (DCall (DAttr (DName "b") "abs") [] false)
                    [("*", DPar (DChain 8 (DName "c") [("-", DNum (TInt 1))]))])])
        [("<", DNum (TInt 3))])].
Definition sample_cfg : cfg := mkcfg ["and"; "=="; "<"; "+"; "-"; "*"; "**"; "abs"].
Definition sample_env : env := [("a", PInt 3); ("b", PInt (-2)); ("c", PInt 5); ("p", PBool false)].
Definition sample_e : expr :=
  EOp "and" true false None
    [EOp "==" true false None [ECol "p"; EVal (PBool false)];
     EOp "<" true false None
       [EOp "+" true false None
          [EOp "-" true false None [EOp "**" true false None [ECol "a"; EVal (PInt 2)]];
           EOp "*" true false None [EOp "abs" false true None [ECol "b"];
                                    EOp "-" true false None [ECol "c"; EVal (PInt 1)]]];
        EVal (PInt 3)]].

Lemma sample_guards :
  wfn sample_src = true /\ src_ok sample_src = true /\
  parse sample_cfg kdd (unparse sample_src) = Ok sample_e /\
  printable sample_cfg kdd sample_e = true /\ is_term sample_e = true /\
  py_meaning concrete_fsem sample_env (strip sample_src) = Some (PBool true) /\
  eval concrete_fsem sample_env sample_e = Some (PBool true).
Proof. repeat split; vm_compute; reflexivity. Qed.

Lemma sample_trees :
  lark_of [TName "a"; TSym "-"; TName "b"; TSym "-"; TName "c"]
    = Some (LNode "arith_expr" [LNode "var" [LTok (TName "a")]; LTok (TSym "-"); LNode "var" [LTok (TName "b")];
                                LTok (TSym "-"); LNode "var" [LTok (TName "c")]])
  /\ lark_of [TSym "-"; TName "a"; TSym "**"; TName "b"; TSym "**"; TName "c"]
    = Some (LNode "factor" [LTok (TSym "-");
              LNode "power" [LNode "var" [LTok (TName "a")];
                             LNode "power" [LNode "var" [LTok (TName "b")]; LNode "var" [LTok (TName "c")]]]]).
Proof. split; vm_compute; reflexivity. Qed.
