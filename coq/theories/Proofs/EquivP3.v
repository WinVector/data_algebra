(* C11, part 3: the reference semantics of extend / windowed extend / project does not depend on the ORDER of the
   assignments beyond the column order it produces: two assignment lists with unique keys, the same lookups and the same
   resulting column list give the same table.  (ExtendNode._equiv_nodes compares the assignments as an unordered mapping,
   and ViewRepresentation.__eq__ compares column_names; this is why results still coincide.) *)
From Coq Require Import List Bool String Lia Permutation.
Import ListNotations.
From DA Require Import Base.PyRT Base.Val Model.Sem Proofs.SemBasicP Proofs.ListP.
Local Open Scope list_scope.

Lemma set_nth_comm i j v w (r : list val) : i <> j -> set_nth i v (set_nth j w r) = set_nth j w (set_nth i v r).
Proof. revert i j. induction r as [|x t IH]; intros [|i] [|j] N; simpl; try reflexivity; try congruence.
  f_equal. apply IH. congruence. Qed.

Lemma set_nth_app_l i v (r s : list val) : (i < List.length r)%nat -> set_nth i v (r ++ s) = set_nth i v r ++ s.
Proof. revert i. induction r as [|x t IH]; intros [|i] L; simpl in *; try lia; try reflexivity.
  f_equal. apply IH. lia. Qed.

Lemma index_of_inj c d cs i : index_of c cs = Some i -> index_of d cs = Some i -> c = d.
Proof. intros E1 E2. apply index_of_nth_error in E1, E2. congruence. Qed.

Lemma filter_map_fst {X} (f : string -> bool) (l : list (string * X)) :
  map fst (filter (fun kx => f (fst kx)) l) = filter f (map fst l).
Proof. induction l as [|[k x] t IH]; simpl; [reflexivity|]. destruct (f k); simpl; rewrite IH; reflexivity. Qed.

(* unique keys: equal lookups = the same assignments up to order *)
Lemma NoDup_keys_pairs {X} (l : list (string * X)) : NoDup (map fst l) -> NoDup l.
Proof. induction l as [|[k x] t IH]; simpl; intros N; [constructor|]. inversion N as [|? ? Nk Nt]; subst.
  constructor; [|apply IH, Nt]. intros I. apply Nk. apply in_map_iff. exists (k, x). split; [reflexivity|exact I]. Qed.

Lemma lookups_perm {X} (l l' : list (string * X)) :
  NoDup (map fst l) -> NoDup (map fst l') -> (forall k, dict_get l k = dict_get l' k) -> Permutation l l'.
Proof. intros N N' E. apply NoDup_Permutation; try (apply NoDup_keys_pairs; assumption).
  intros [k x]. rewrite <- (dict_get_NoDup_iff l k x N), <- (dict_get_NoDup_iff l' k x N'), E. tauto. Qed.

(* unique keys, same assignments up to order, same key ORDER: the same list *)
Lemma perm_same_keys_eq {X} (l : list (string * X)) : forall l',
  NoDup (map fst l) -> Permutation l l' -> map fst l = map fst l' -> l = l'.
Proof. induction l as [|[k x] t IH]; intros [|[k' x'] u] N P K; simpl in *; try discriminate; [reflexivity|].
  inversion K; subst k'. inversion N as [|? ? Nk Nt]; subst.
  assert (x = x') as ->.
  { assert (In (k, x') ((k, x) :: t)) as I by (eapply Permutation_in; [apply Permutation_sym, P|left; reflexivity]).
    destruct I as [I|I]; [congruence|]. exfalso. apply Nk. apply in_map_iff. exists (k, x'). split; [reflexivity|exact I]. }
  f_equal. apply IH; [exact Nt| eapply Permutation_cons_inv; exact P | assumption]. Qed.

(* ------------------------------------------------------------------ the new columns of an extend *)
Lemma fold_add_end_new (cs : list string) (ks : list string) : forall ns,
  NoDup ks -> (forall k, In k ks -> ~ In k ns) -> (forall k, In k ns -> ~ In k cs) ->
  fold_left add_end ks (cs ++ ns) = cs ++ ns ++ filter (fun k => negb (mem k cs)) ks.
Proof. induction ks as [|k t IH]; intros ns N D1 D2; simpl; [rewrite app_nil_r; reflexivity|].
  inversion N as [|? ? Nk Nt]; subst. unfold add_end at 2. rewrite mem_app. destruct (mem k cs) eqn:M; simpl.
  - apply IH; [exact Nt| |exact D2]. intros x Hx. apply D1. right. exact Hx.
  - assert (mem k ns = false) as M2 by (apply mem_false; apply D1; left; reflexivity). rewrite M2.
    rewrite <- app_assoc. rewrite IH.
    + rewrite <- app_assoc. reflexivity.
    + exact Nt.
    + intros x Hx I. apply in_app_iff in I. destruct I as [I|[<-|[]]]; [apply (D1 x); [right; exact Hx|exact I]|contradiction].
    + intros x I. apply in_app_iff in I. destruct I as [I|[<-|[]]]; [apply D2, I|apply mem_false, M]. Qed.

Lemma ext_cols_new cs ks : NoDup ks -> ext_cols cs ks = cs ++ filter (fun k => negb (mem k cs)) ks.
Proof. intros N. unfold ext_cols. rewrite <- (app_nil_r cs) at 1. rewrite fold_add_end_new;
    [reflexivity|exact N|intros k ? I; destruct I|intros k I; destruct I]. Qed.

(* ------------------------------------------------------------------ the keyed fold shared by extend_row and sem_wextend *)
Section KeyedFold.
  Context {X : Type} (g : string * X -> val).
  Definition kstep (acc : list val * list string) (kx : string * X) : list val * list string :=
    let '(row, ccs) := acc in (set_cell ccs row (fst kx) (g kx), add_end ccs (fst kx)).
  Definition kfold (cs : list string) (l : list (string * X)) (r : list val) : list val := fst (fold_left kstep l (r, cs)).

  Definition upd (cs : list string) (ro : list val) (kx : string * X) : list val :=
    match index_of (fst kx) cs with Some i => set_nth i (g kx) ro | None => ro end.
  Definition is_new (cs : list string) (kx : string * X) : bool := negb (mem (fst kx) cs).

  Lemma upd_length cs ro kx : List.length (upd cs ro kx) = List.length ro.
  Proof. unfold upd. destruct (index_of (fst kx) cs); [apply set_nth_length|reflexivity]. Qed.

  Lemma kfold_gen cs (l : list (string * X)) : forall ro vs ns,
    List.length ro = List.length cs -> NoDup (map fst l) ->
    (forall k, In k (map fst l) -> ~ In k ns) -> (forall k, In k ns -> ~ In k cs) ->
    fst (fold_left kstep l (ro ++ vs, cs ++ ns)) = fold_left (upd cs) l ro ++ vs ++ map g (filter (is_new cs) l).
  Proof. induction l as [|[k x] t IH]; intros ro vs ns L N D1 D2; simpl; [rewrite app_nil_r; reflexivity|].
    inversion N as [|? ? Nk Nt]; subst. unfold is_new at 1. simpl.
    unfold set_cell, add_end, upd at 2. simpl. rewrite mem_app.
    destruct (index_of k cs) as [i|] eqn:Ei.
    - rewrite (index_of_app_l _ _ _ _ Ei). rewrite (index_of_Some_mem _ _ _ Ei). simpl.
      rewrite set_nth_app_l by (rewrite L; eapply index_of_lt; eassumption).
      apply IH; [rewrite set_nth_length; exact L|exact Nt| |exact D2]. intros y Hy. apply D1. right. exact Hy.
    - assert (mem k cs = false) as M by (apply index_of_None; exact Ei). rewrite M. simpl.
      assert (mem k ns = false) as M2 by (apply mem_false; apply D1; left; reflexivity). rewrite M2.
      assert (index_of k (cs ++ ns) = None) as En by (apply index_of_None; rewrite mem_app, M, M2; reflexivity). rewrite En.
      rewrite <- !app_assoc. rewrite IH.
      + rewrite <- !app_assoc. reflexivity.
      + exact L.
      + exact Nt.
      + intros y Hy I. apply in_app_iff in I. destruct I as [I|[<-|[]]]; [apply (D1 y); [right; exact Hy|exact I]|contradiction].
      + intros y I. apply in_app_iff in I. destruct I as [I|[<-|[]]]; [apply D2, I|apply mem_false, M]. Qed.

  Lemma kfold_spec cs l r : List.length r = List.length cs -> NoDup (map fst l) ->
    kfold cs l r = fold_left (upd cs) l r ++ map g (filter (is_new cs) l).
  Proof. intros L N. unfold kfold. rewrite <- (app_nil_r r) at 1. rewrite <- (app_nil_r cs) at 1.
    rewrite kfold_gen; [reflexivity|exact L|exact N|intros k ? I; destruct I|intros k I; destruct I]. Qed.

  Lemma upd_comm cs ro a b : fst a <> fst b -> upd cs (upd cs ro a) b = upd cs (upd cs ro b) a.
  Proof. intros Nab. unfold upd. destruct (index_of (fst a) cs) as [i|] eqn:Ea, (index_of (fst b) cs) as [j|] eqn:Eb; try reflexivity.
    apply set_nth_comm. intros ->. apply Nab. symmetry. eapply index_of_inj; eassumption. Qed.

  Lemma fold_upd_perm cs l l' : Permutation l l' -> NoDup (map fst l) -> forall ro, fold_left (upd cs) l ro = fold_left (upd cs) l' ro.
  Proof. induction 1 as [|x l l' P IH|x y l|l l' l'' P1 IH1 P2 IH2]; intros N ro; simpl.
    - reflexivity.
    - inversion N; subst. apply IH. assumption.
    - f_equal. apply upd_comm. simpl in N. inversion N as [|? ? Ny _]; subst. intros E. apply Ny. left. symmetry. exact E.
    - rewrite IH1 by exact N. apply IH2. eapply Permutation_NoDup; [apply Permutation_map, P1|exact N]. Qed.

  (* same assignments up to order, and the same order among the NEW columns: the same row *)
  Lemma kfold_perm cs l l' r : List.length r = List.length cs -> NoDup (map fst l) -> Permutation l l' ->
    filter (fun k => negb (mem k cs)) (map fst l) = filter (fun k => negb (mem k cs)) (map fst l') ->
    kfold cs l r = kfold cs l' r.
  Proof. intros L N P F.
    assert (NoDup (map fst l')) as N' by (eapply Permutation_NoDup; [apply Permutation_map, P|exact N]).
    rewrite !kfold_spec by assumption. f_equal; [apply fold_upd_perm; assumption|]. f_equal.
    apply perm_same_keys_eq.
    - unfold is_new. rewrite (filter_map_fst (fun k => negb (mem k cs))). apply NoDup_filter, N.
    - apply perm_filter, P.
    - unfold is_new. rewrite !(filter_map_fst (fun k => negb (mem k cs))). exact F. Qed.
End KeyedFold.

Lemma new_keys_of_ext_cols cs ks ks' : NoDup ks -> NoDup ks' -> ext_cols cs ks = ext_cols cs ks' ->
  filter (fun k => negb (mem k cs)) ks = filter (fun k => negb (mem k cs)) ks'.
Proof. intros N N' E. rewrite !ext_cols_new in E by assumption. eapply app_inv_head, E. Qed.

(* ------------------------------------------------------------------ extend *)
Lemma extend_row_kfold fl cs ops r : extend_row fl cs ops r = kfold (fun ke => eval_expr fl cs r (snd ke)) cs ops r.
Proof. reflexivity. Qed.

Lemma sem_extend_perm fl ops ops' t : width_ok t -> NoDup (map fst ops) -> NoDup (map fst ops') ->
  (forall k, dict_get ops k = dict_get ops' k) -> ext_cols (cols t) (map fst ops) = ext_cols (cols t) (map fst ops') ->
  sem_extend fl ops t = sem_extend fl ops' t.
Proof. intros W N N' E C. unfold sem_extend. rewrite C. f_equal. apply map_ext_in. intros r Hr.
  rewrite !extend_row_kfold. apply kfold_perm.
  - unfold width_ok in W. rewrite Forall_forall in W. apply W, Hr.
  - exact N.
  - apply lookups_perm; assumption.
  - apply new_keys_of_ext_cols; assumption. Qed.

(* ------------------------------------------------------------------ windowed extend *)
Lemma sem_wextend_perm fl ops ops' w t : width_ok t -> NoDup (map fst ops) -> NoDup (map fst ops') ->
  (forall k, dict_get ops k = dict_get ops' k) -> ext_cols (cols t) (map fst ops) = ext_cols (cols t) (map fst ops') ->
  sem_wextend fl ops w t = sem_wextend fl ops' w t.
Proof. intros W N N' E C. unfold sem_wextend. rewrite C. f_equal. apply map_ext_in. intros ir Hir.
  set (tagf := fun ke : string * expr => (fst ke, window_column fl w t (snd ke))).
  change (kfold (fun kc : string * list (nat * val) => lookup_pos (snd kc) (fst ir)) (cols t) (map tagf ops) (snd ir) =
          kfold (fun kc : string * list (nat * val) => lookup_pos (snd kc) (fst ir)) (cols t) (map tagf ops') (snd ir)).
  assert (forall l : list (string * expr), map fst (map tagf l) = map fst l) as MF by (intros l; rewrite map_map; reflexivity).
  apply kfold_perm.
  - unfold width_ok in W. rewrite Forall_forall in W. apply W. eapply tag_from_In, Hir.
  - rewrite MF. exact N.
  - apply Permutation_map. apply lookups_perm; assumption.
  - rewrite !MF. apply new_keys_of_ext_cols; assumption. Qed.

(* ------------------------------------------------------------------ rename: the order of the map's entries is immaterial *)

Lemma find_perm_unique {A} (f : A -> bool) l l' : Permutation l l' ->
  (forall x y, In x l -> In y l -> f x = true -> f y = true -> x = y) -> find f l = find f l'.
Proof. induction 1 as [|x l l' P IH|x y l|l l' l'' P1 IH1 P2 IH2]; intros U; simpl.
  - reflexivity.
  - destruct (f x); [reflexivity|]. apply IH. intros a b Ia Ib. apply U; right; assumption.
  - destruct (f x) eqn:Fx, (f y) eqn:Fy; try reflexivity.
    f_equal. apply U; simpl; auto.
  - rewrite IH1 by exact U. apply IH2. intros a b Ia Ib. apply U; eapply Permutation_in; try (apply Permutation_sym; exact P1); assumption. Qed.

Lemma rename_col_perm m m' c : Permutation m m' -> NoDup (map snd m) -> rename_col m c = rename_col m' c.
Proof. intros P N. unfold rename_col. rewrite (find_perm_unique _ m m' P); [reflexivity|].
  intros x y Ix Iy Fx Fy. apply String.eqb_eq in Fx, Fy. apply (NoDup_map_inj snd m x y N Ix Iy). congruence. Qed.

Lemma sem_rename_perm m m' t : Permutation m m' -> NoDup (map snd m) -> sem_rename m t = sem_rename m' t.
Proof. intros P N. unfold sem_rename. f_equal. apply map_ext. intros c. apply rename_col_perm; assumption. Qed.

(* ------------------------------------------------------------------ project: the key order is fixed by the column list *)
Lemma same_keys_same_ops {X} (l l' : list (string * X)) : NoDup (map fst l) -> NoDup (map fst l') ->
  (forall k, dict_get l k = dict_get l' k) -> map fst l = map fst l' -> l = l'.
Proof. intros N N' E K. apply perm_same_keys_eq; [exact N| |exact K]. apply lookups_perm; assumption. Qed.
