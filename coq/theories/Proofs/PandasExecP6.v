(* PEXEC, part 6: the windowed branch of _extend_step (scratch names chosen away from the frame, constant stand-in columns, the
   sub-frame of partition / order / value columns, _data_algebra_orig_index, sort by partition + order + value columns, groupby +
   transform per term, sort back by the original index, copy out) refines sem_wextend, for EVERY sorting routine that returns a
   sorted permutation.  Premise (C18 / C27): a term whose value depends on the order inside the partition needs an order_by that is
   strict inside each partition. *)
From Coq Require Import List Bool QArith String Lia Permutation Sorted.
Import ListNotations.
From DA Require Import Base.PyRT Base.Val Model.Sem Model.PdPrim Model.PandasExec Model.PermGuard
  Proofs.SemBasicP Proofs.SemOrderP Proofs.PermP1 Proofs.PermP3 Proofs.ComposeP5
  Proofs.PandasExecP1 Proofs.PandasExecP2 Proofs.PandasExecP3 Proofs.PandasExecP4 Proofs.ListP Proofs.TabP.
Local Open Scope string_scope.
Local Open Scope list_scope.

(* ------------------------------------------------------------------ frames described row by row *)
(* F has one row per item, and the cell of row i under a column name x of F is phi (item i) x *)
Definition descr {I : Type} (F : table) (items : list I) (phi : I -> string -> val) : Prop :=
  width_ok F /\ Forall2 (fun row it => forall x, In x (cols F) -> get (cols F) row x = phi it x) (rows F) items.

Lemma descr_len {I} F (items : list I) phi : descr F items phi -> List.length (rows F) = List.length items.
Proof. intros [_ F2]. apply (Forall2_len _ _ _ F2). Qed.

Definition upd {I} (phi : I -> string -> val) (c : string) (f : I -> val) : I -> string -> val :=
  fun it x => if eq_dec x c then f it else phi it x.
Lemma upd_same {I} (phi : I -> string -> val) c f it : upd phi c f it c = f it.
Proof. unfold upd. destruct (eq_dec c c); [reflexivity|congruence]. Qed.
Lemma upd_other {I} (phi : I -> string -> val) c f it x : x <> c -> upd phi c f it x = phi it x.
Proof. intros N. unfold upd. destruct (eq_dec x c); [contradiction|reflexivity]. Qed.

Lemma descr_select {I} cs F F' (items : list I) phi : descr F items phi -> pd_select cs F = Some F' -> descr F' items phi /\ cols F' = cs.
Proof.
  intros [W F2] H. apply pd_select_inv in H. destruct H as [-> Sub]. split; [|reflexivity]. split; [apply width_select_cols|].
  cbn [cols rows sem_select_cols]. induction F2 as [|row it rs its Hr F2 IH]; cbn [map]; constructor; [|exact IH].
  intros x Ix. rewrite get_map_cols. apply mem_In in Ix as M. rewrite M. apply Hr, Sub, Ix.
Qed.

Lemma descr_getcol {I} F (items : list I) phi c : descr F items phi -> In c (cols F) -> getcol F c = map (fun it => phi it c) items.
Proof. intros [_ F2] Ic. unfold getcol. eapply ColumnsUsedP1.F2_map_eq; [exact F2|]. intros a b H. apply H, Ic. Qed.

Lemma descr_keys {I} F (items : list I) phi ks : descr F items phi -> (forall c, In c ks -> In c (cols F)) ->
  map (key_of (cols F) ks) (rows F) = map (fun it => map (phi it) ks) items.
Proof. intros [_ F2] S. eapply ColumnsUsedP1.F2_map_eq; [exact F2|]. intros a b H. unfold key_of. apply map_ext_in. intros c Ic. apply H, S, Ic. Qed.

Lemma In_add_end_other (cs : list string) c x : In x (add_end cs c) -> x <> c -> In x cs.
Proof. intros Ix N. apply In_add_end in Ix. destruct Ix as [Ix|Ix]; [exact Ix|contradiction]. Qed.

Lemma descr_set_col {I} c (f : I -> val) F F' (items : list I) phi :
  descr F items phi -> pd_set_col c (map f items) F = Some F' -> descr F' items (upd phi c f) /\ cols F' = add_end (cols F) c.
Proof.
  intros [W F2] H. destruct (pd_set_col_inv _ _ _ _ H) as [_ [C R]].
  split; [split; [exact (width_set_col _ _ _ _ W H)|]|exact C]. rewrite C, R.
  clear H C R. unfold width_ok in W. revert W F2. generalize (rows F) as rs. intros rs W F2.
  induction F2 as [|row it rs its Hr F2 IH]; cbn [map combine]; [constructor|].
  inversion W as [|? ? Lr Wt]; subst. constructor; [|apply IH, Wt].
  intros x Ix. cbn [fst snd]. rewrite (set_cell_get _ _ _ _ _ Lr). unfold upd.
  destruct (eq_dec x c) as [->|n]; [reflexivity|]. apply Hr, (In_add_end_other _ _ _ Ix n).
Qed.

Lemma descr_set_scalar {I} c v F (items : list I) phi :
  descr F items phi -> descr (pd_set_scalar c v F) items (upd phi c (fun _ => v)).
Proof.
  intros [W F2]. split; [apply width_set_scalar, W|].
  eapply Forall2_trans; [|exact (set_scalar_row_eqv c v F W)|exact F2].
  intros r' r it Hr Hi x Ix. cbn [cols pd_set_scalar] in Ix |- *. rewrite (Hr x). unfold upd.
  destruct (eq_dec x c) as [->|n]; [reflexivity|]. apply Hi, (In_add_end_other _ _ _ Ix n).
Qed.

Lemma descr_tagged t : width_ok t -> descr t (tag_from 0 (rows t)) (fun it x => get (cols t) (snd it) x).
Proof.
  intros W. split; [exact W|]. generalize 0%nat. induction (rows t) as [|r rs IH]; intros n; simpl; constructor; [|apply IH].
  intros x _. reflexivity.
Qed.

(* the selected columns cl of t (none of them called orig) with the row number under orig: subframe[orig] = subframe.index *)
Lemma index_subframe t cl orig sub0 sub1 :
  width_ok t -> ~ In orig cl -> pd_select cl t = Some sub0 -> pd_set_col orig (pd_range_index sub0) sub0 = Some sub1 ->
  descr sub1 (tag_from 0 (rows t)) (upd (fun it x => get (cols t) (snd it) x) orig (fun it => vnat (fst it))) /\ cols sub1 = cl ++ [orig].
Proof.
  intros W N E0 E1. destruct (descr_select _ _ _ _ _ (descr_tagged t W) E0) as [D0 C0].
  assert (pd_range_index sub0 = map (fun it : nat * list val => vnat (fst it)) (tag_from 0 (rows t))) as Er.
  { unfold pd_range_index, nrows. rewrite (descr_len _ _ _ D0), tag_from_length, <- (map_map fst vnat), tag_from_fst. reflexivity. }
  rewrite Er in E1. destruct (descr_set_col _ _ _ _ _ _ D0 E1) as [D1 C1]. rewrite C0, (add_end_new _ _ N) in C1.
  split; assumption.
Qed.

(* sorting a described frame: the items are permuted into a list sorted by the same comparison read through phi *)
Definition row_le_phi {I} (phi : I -> string -> val) (keys : list (string * bool)) (a b : I) : bool :=
  row_le fl_pandas (map fst keys) keys (map (fun kd => phi a (fst kd)) keys) (map (fun kd => phi b (fst kd)) keys).

Fixpoint rle {I} (phi : I -> string -> val) (keys : list (string * bool)) (a b : I) : bool :=
  match keys with
  | [] => true
  | (c, d) :: t => if v_eqv (phi a c) (phi b c) then rle phi t a b else v_le_dir (nulls_first fl_pandas d) d (phi a c) (phi b c)
  end.

Lemma row_le_rle {I} (phi : I -> string -> val) cs keys ra rb (a b : I) :
  (forall c, In c (map fst keys) -> get cs ra c = phi a c) -> (forall c, In c (map fst keys) -> get cs rb c = phi b c) ->
  row_le fl_pandas cs keys ra rb = rle phi keys a b.
Proof.
  induction keys as [|[c d] t IH]; intros Ha Hb; cbn [row_le rle]; [reflexivity|].
  rewrite (Ha c) by (left; reflexivity). rewrite (Hb c) by (left; reflexivity).
  rewrite IH; [reflexivity| |]; intros c0 I0; [apply Ha|apply Hb]; right; exact I0.
Qed.

Lemma rle_total {I} (phi : I -> string -> val) keys a b : rle phi keys a b = true \/ rle phi keys b a = true.
Proof.
  induction keys as [|[c d] t IH]; cbn [rle]; [left; reflexivity|]. rewrite (v_eqv_sym (phi b c) (phi a c)).
  destruct (v_eqv (phi a c) (phi b c)); [exact IH|apply v_le_dir_total].
Qed.
Lemma rle_trans {I} (phi : I -> string -> val) keys a b c : rle phi keys a b = true -> rle phi keys b c = true -> rle phi keys a c = true.
Proof.
  induction keys as [|[x d] t IH]; cbn [rle]; [reflexivity|].
  destruct (v_eqv (phi a x) (phi b x)) eqn:E1; destruct (v_eqv (phi b x) (phi c x)) eqn:E2.
  - rewrite (SemOrderP.v_eqv_cong_l _ _ _ E1), E2. exact IH.
  - rewrite (SemOrderP.v_eqv_cong_l _ _ _ E1), E2. intros _ H. rewrite (v_le_dir_cong_l _ _ _ _ _ E1). exact H.
  - rewrite <- (SemOrderP.v_eqv_cong_r _ _ _ E2), E1. intros H _. rewrite <- (v_le_dir_cong_r _ _ _ _ _ E2). exact H.
  - intros H1 H2. destruct (v_eqv (phi a x) (phi c x)) eqn:E3.
    + exfalso. rewrite (v_le_dir_cong_l _ _ _ _ _ E3) in H1. rewrite (SemOrderP.v_eqv_sym) in E2.
      apply (v_le_dir_antisym _ _ _ _ E2 H1 H2).
    + eapply v_le_dir_trans; eassumption.
Qed.

Lemma descr_sort {I} srt keys F F' (items : list I) phi :
  sorter_ok srt -> descr F items phi -> pd_sort_values_with srt keys F = Some F' ->
  exists items', Permutation items' items /\ StronglySorted (fun a b => rle phi (pd_sort_keys keys) a b = true) items' /\
                 descr F' items' phi /\ cols F' = cols F.
Proof.
  intros So [W F2] H. unfold pd_sort_values_with in H. destruct (subset (map fst keys) (cols F)) eqn:Sb; [|discriminate].
  inversion H; subst F'. clear H. set (le := row_le fl_pandas (cols F) (pd_sort_keys keys)).
  destruct (So le (rows F)) as [P S]; [intros; apply row_le_total|intros; eapply row_le_trans; eassumption|].
  destruct (Forall2_perm_l _ _ _ _ (Permutation_sym P) F2) as [items' [Pi Fi]].
  exists items'. split; [apply Permutation_sym, Pi|].
  assert (forall c, In c (map fst (pd_sort_keys keys)) -> In c (cols F)) as Sk.
  { intros c Ic. unfold pd_sort_keys in Ic. rewrite map_map in Ic. cbn [fst] in Ic. apply (proj1 (subset_spec _ _) Sb), Ic. }
  split; [|split; [split|reflexivity]].
  - eapply sorted_transfer; [|exact Fi|exact S]. intros a a' b b' Ra Rb. unfold le. apply row_le_rle; intros c Ic; [apply Ra|apply Rb]; apply Sk, Ic.
  - unfold width_ok. cbn [cols rows]. apply Forall_forall. intros r0 I0. unfold width_ok in W. rewrite Forall_forall in W. apply W.
    eapply Permutation_in; eassumption.
  - cbn [cols rows]. exact Fi.
Qed.

(* ------------------------------------------------------------------ groupby(...).transform: position inside the group *)
Lemma tag_vals_nth_error (L : list (list val * val)) : forall n j x, nth_error L j = Some x -> nth_error (tag_vals n L) j = Some ((n + j)%nat, x).
Proof.
  induction L as [|y L IH]; intros n j x H; [destruct j; discriminate|]. destruct j as [|j]; simpl in *.
  - inversion H; subst. rewrite Nat.add_0_r. reflexivity.
  - rewrite (IH (S n) j x H). f_equal. f_equal. lia.
Qed.
Lemma tag_vals_length (L : list (list val * val)) n : List.length (tag_vals n L) = List.length L.
Proof. revert n. induction L as [|y L IH]; intros n; simpl; [reflexivity|]. rewrite IH. reflexivity. Qed.

Lemma filter_tag_vals_snd (Q : list val * val -> bool) (L : list (list val * val)) : forall n,
  map (fun jkv : nat * (list val * val) => snd (snd jkv)) (filter (fun jkv => Q (snd jkv)) (tag_vals n L)) = map snd (filter Q L).
Proof. induction L as [|y L IH]; intros n; simpl; [reflexivity|]. destruct (Q y); simpl; rewrite IH; reflexivity. Qed.

Lemma tag_vals_tags_ge (L : list (list val * val)) : forall n p, In p (tag_vals n L) -> (n <= fst p)%nat.
Proof. induction L as [|y L IH]; intros n p I; simpl in I; [contradiction|]. destruct I as [<-|I]; [simpl; lia|]. apply IH in I. lia. Qed.

Lemma pos_of_tag_filter (Q : list val * val -> bool) (L : list (list val * val)) : forall n j x,
  nth_error L j = Some x -> Q x = true ->
  pos_of_tag (n + j) (map (fun jkv : nat * (list val * val) => (fst jkv, snd (snd jkv))) (filter (fun jkv => Q (snd jkv)) (tag_vals n L)))
  = List.length (filter Q (firstn j L)).
Proof.
  induction L as [|y L IH]; intros n j x H Qx; [destruct j; discriminate|]. destruct j as [|j]; simpl in H.
  - inversion H; subst y. simpl. rewrite Qx. simpl. rewrite Nat.add_0_r, Nat.eqb_refl. reflexivity.
  - cbn [tag_vals filter firstn snd]. destruct (Q y) eqn:Qy; cbn [map pos_of_tag fst List.length].
    + replace (Nat.eqb n (n + S j)) with false by (symmetry; apply Nat.eqb_neq; lia).
      replace (n + S j)%nat with (S n + j)%nat by lia. rewrite (IH (S n) j x H Qx). reflexivity.
    + replace (n + S j)%nat with (S n + j)%nat by lia. apply (IH (S n) j x H Qx).
Qed.

Lemma grouped_apply_length f rkeys vals : List.length (grouped_apply f rkeys vals) = List.length (combine rkeys vals).
Proof. unfold grouped_apply. rewrite map_length, tag_vals_length. reflexivity. Qed.

Lemma grouped_apply_nth {I} (f : list val -> list val) (K : I -> list val) (V : I -> val) (S : list I) j it :
  nth_error S j = Some it ->
  nth j (grouped_apply f (map K S) (map V S)) VNull
  = nth (List.length (filter (fun it' => keys_eqv (K it) (K it')) (firstn j S)))
        (f (map V (filter (fun it' => keys_eqv (K it) (K it')) S))) VNull.
Proof.
  intros H. unfold grouped_apply. set (L := combine (map K S) (map V S)).
  assert (L = map (fun x => (K x, V x)) S) as EL by (unfold L; rewrite combine_map_l, combine_self_map, map_map; reflexivity).
  assert (nth_error L j = Some (K it, V it)) as HL by (rewrite EL; apply (map_nth_error (fun x => (K x, V x))), H).
  pose proof (tag_vals_nth_error L 0 j _ HL) as HT. cbn [Nat.add] in HT.
  rewrite (nth_indep _ VNull (nth 0 (map (fun _ => VNull) (tag_vals 0 L)) VNull)) by (rewrite map_length, tag_vals_length; apply nth_error_Some; congruence).
  erewrite (nth_error_nth (map _ (tag_vals 0 L))); [|apply map_nth_error, HT]. cbn [fst snd].
  set (Q := fun kv : list val * val => keys_eqv (K it) (fst kv)).
  change (fun jkv : nat * (list val * val) => keys_eqv (K it) (fst (snd jkv))) with (fun jkv : nat * (list val * val) => Q (snd jkv)).
  rewrite (map_map (fun jkv : nat * (list val * val) => (fst jkv, snd (snd jkv))) snd). cbn [snd].
  rewrite (filter_tag_vals_snd Q L 0).
  pose proof (pos_of_tag_filter Q L 0 j (K it, V it) HL (keys_eqv_refl (K it))) as HP. cbn [Nat.add] in HP. rewrite HP.
  rewrite EL. rewrite firstn_map, !filter_map_comm, map_length, map_map. reflexivity.
Qed.

Lemma nth_error_filter_firstn {X} (P : X -> bool) (S : list X) : forall j x, nth_error S j = Some x -> P x = true ->
  nth_error (filter P S) (List.length (filter P (firstn j S))) = Some x.
Proof.
  induction S as [|y S IH]; intros j x H Px; [destruct j; discriminate|]. destruct j as [|j]; simpl in H.
  - inversion H; subst. simpl. rewrite Px. reflexivity.
  - simpl. destruct (P y); simpl; apply (IH j x H Px).
Qed.

(* the transform written per item: the window function over the item's group (in frame order), read at the item's tag *)
Lemma grouped_apply_lookup {X} (f : list val -> list val) (K : nat * X -> list val) (V : nat * X -> val) (S : list (nat * X)) :
  NoDup (map fst S) ->
  grouped_apply f (map K S) (map V S)
  = map (fun it => let G := filter (fun it' => keys_eqv (K it) (K it')) S in
                   lookup_pos (combine (map fst G) (f (map V G))) (fst it)) S.
Proof.
  intros N.
  assert (List.length (grouped_apply f (map K S) (map V S)) = List.length S) as LG
    by (rewrite grouped_apply_length, combine_length, !map_length, Nat.min_id; reflexivity).
  apply (nth_ext _ _ VNull VNull).
  - rewrite LG, map_length. reflexivity.
  - intros j Lj. rewrite LG in Lj.
    destruct (nth_error S j) as [it|] eqn:Hj; [|apply nth_error_None in Hj; lia].
    rewrite (grouped_apply_nth f K V S j it Hj).
    set (F := fun it0 : nat * X => let G := filter (fun it' => keys_eqv (K it0) (K it')) S in
                                   lookup_pos (combine (map fst G) (f (map V G))) (fst it0)).
    rewrite (nth_error_nth (map F S) j VNull (map_nth_error F j S Hj)). unfold F. cbv zeta.
    destruct it as [i x]. symmetry.
    apply (lookup_combine (filter (fun it' => keys_eqv (K (i, x)) (K it')) S) _ i _ x).
    + apply NoDup_map_filter, N.
    + apply nth_error_filter_firstn; [exact Hj|apply keys_eqv_refl].
Qed.

(* ------------------------------------------------------------------ the collection loop without constant arguments *)
Definition vcols_step (acc : list string) (ke : string * expr) : list string :=
  match win_shape (snd ke) with Some (_, Some (WCol c), _) => add_end acc c | _ => acc end.

Lemma wcollect_fold cs keys ops : forall cl nm res st,
  forallb (win_ok_b cs keys) ops = true ->
  fold_left (fun acc ke => s <- acc ;; wcollect s ke) ops (Some (mkws cl [] nm res)) = Some st ->
  st = mkws (fold_left vcols_step ops cl) [] nm res.
Proof.
  induction ops as [|ke ops IH]; intros cl nm res st Ok H; simpl in H; [inversion H; reflexivity|].
  cbn [forallb] in Ok. apply andb_true_iff in Ok. destruct Ok as [Ok1 Ok].
  unfold wcollect at 2 in H. unfold win_ok_b in Ok1. cbn [fold_left]. unfold vcols_step at 2.
  destruct (win_shape (snd ke)) as [[[fn [[c|v]|]] ex]|]; try discriminate; cbn [obind ws_cols ws_temps ws_names ws_res] in H.
  - unfold add_end. destruct (mem c cl); apply (IH _ _ _ _ Ok H).
  - apply (IH _ _ _ _ Ok H).
Qed.

Lemma vcols_prefix ops : forall cl, exists extra, fold_left vcols_step ops cl = cl ++ extra.
Proof.
  induction ops as [|ke ops IH]; intros cl; [exists []; rewrite app_nil_r; reflexivity|]. cbn [fold_left].
  unfold vcols_step at 2. destruct (win_shape (snd ke)) as [[[fn [[c|v]|]] ex]|]; try apply IH.
  unfold add_end. destruct (mem c cl); [apply IH|]. destruct (IH (cl ++ [c])) as [ex' E]. exists (c :: ex'). rewrite E, <- app_assoc. reflexivity.
Qed.
Lemma vcols_In ops : forall cl x, In x (fold_left vcols_step ops cl) <->
  In x cl \/ exists ke fn ex, In ke ops /\ win_shape (snd ke) = Some (fn, Some (WCol x), ex).
Proof.
  induction ops as [|ke ops IH]; intros cl x; cbn [fold_left].
  - split; [tauto|]. intros [I|[ke [fn [ex [[] _]]]]]. exact I.
  - rewrite IH. unfold vcols_step. split.
    + intros [I|[ke' [fn [ex [I E]]]]].
      * destruct (win_shape (snd ke)) as [[[fn [[c|v]|]] ex]|] eqn:Ew; try (left; exact I).
        apply In_add_end in I. destruct I as [I| ->]; [left; exact I|]. right. exists ke, fn, ex. split; [left; reflexivity|exact Ew].
      * right. exists ke', fn, ex. split; [right; exact I|exact E].
    + intros [I|[ke' [fn [ex [[<-|I] E]]]]].
      * left. destruct (win_shape (snd ke)) as [[[fn [[c|v]|]] ex]|]; try exact I. apply In_add_end. left. exact I.
      * left. rewrite E. apply In_add_end. right. reflexivity.
      * right. exists ke', fn, ex. split; assumption.
Qed.
Lemma vcols_nodup ops : forall cl, NoDup cl -> NoDup (fold_left vcols_step ops cl).
Proof.
  induction ops as [|ke ops IH]; intros cl N; [exact N|]. cbn [fold_left]. apply IH. unfold vcols_step.
  destruct (win_shape (snd ke)) as [[[fn [[c|v]|]] ex]|]; try exact N. apply NoDup_add_end, N.
Qed.

(* ------------------------------------------------------------------ sorted lists, prefixes of the sort key *)
Lemma SS_filter {X} (R : X -> X -> Prop) (P : X -> bool) l : StronglySorted R l -> StronglySorted R (filter P l).
Proof.
  induction 1 as [|x l S IH F]; simpl; [constructor|]. destruct (P x); [|exact IH]. constructor; [exact IH|].
  rewrite Forall_forall in *. intros y Iy. apply filter_In in Iy. apply F. tauto.
Qed.
Lemma SS_weaken_in {X} (R R' : X -> X -> Prop) l : StronglySorted R l -> (forall a b, In a l -> In b l -> R a b -> R' a b) -> StronglySorted R' l.
Proof.
  induction 1 as [|x l S IH F]; intros H; constructor.
  - apply IH. intros a b Ia Ib. apply H; right; assumption.
  - rewrite Forall_forall in *. intros y Iy. apply H; [left; reflexivity|right; exact Iy|apply F, Iy].
Qed.
Lemma SS_all {X} (R : X -> X -> Prop) l : (forall a b, R a b) -> StronglySorted R l.
Proof. intros H. induction l as [|x l IH]; constructor; [exact IH|]. apply Forall_forall. intros y _. apply H. Qed.

Lemma rle_app_eqv {I} (phi : I -> string -> val) k1 k2 a b :
  (forall c, In c (map fst k1) -> v_eqv (phi a c) (phi b c) = true) -> rle phi (k1 ++ k2) a b = rle phi k2 a b.
Proof.
  induction k1 as [|[c d] k1 IH]; intros H; [reflexivity|]. cbn [app rle]. rewrite (H c) by (left; reflexivity).
  apply IH. intros c0 I0. apply H. right. exact I0.
Qed.
Lemma rle_prefix {I} (phi : I -> string -> val) k1 k2 a b : rle phi (k1 ++ k2) a b = true -> rle phi k1 a b = true.
Proof.
  induction k1 as [|[c d] k1 IH]; [reflexivity|]. cbn [app rle]. destruct (v_eqv (phi a c) (phi b c)); [exact IH|tauto].
Qed.

Lemma keys_eqv_each (ks : list string) (f g : string -> val) :
  keys_eqv (map f ks) (map g ks) = true -> forall c, In c ks -> v_eqv (f c) (g c) = true.
Proof.
  induction ks as [|k ks IH]; intros E c I; [contradiction|]. cbn [map keys_eqv] in E. apply andb_true_iff in E. destruct E as [E1 E2].
  destruct I as [<-|I]; [exact E1|apply IH; assumption].
Qed.

(* numbers: cumcount() + 1 *)
Lemma qn_plus_one n : num2 Qplus (qn (inject_Z (Z.of_nat n))) vone = qn (inject_Z (Z.of_nat (S n))).
Proof.
  unfold num2, qn, vone, vnat. cbn [num_of]. f_equal. apply Qred_complete. rewrite Qred_correct.
  unfold inject_Z, Qplus, Qeq. cbn [Qnum Qden]. rewrite Nat2Z.inj_succ. lia.
Qed.
Lemma nth_number_from (l : list val) : forall i j, (j < List.length l)%nat -> nth j (number_from i l) VNull = qn (inject_Z (Z.of_nat (i + j))).
Proof.
  induction l as [|x l IH]; intros i j L; simpl in L; [lia|]. destruct j as [|j]; simpl.
  - rewrite Nat.add_0_r. reflexivity.
  - rewrite IH by lia. f_equal. f_equal. f_equal. lia.
Qed.
Lemma number_from_length (l : list val) i : List.length (number_from i l) = List.length l.
Proof. revert i. induction l as [|x l IH]; intros i; simpl; [reflexivity|]. rewrite IH. reflexivity. Qed.

Lemma map_fst_paired {A B} (f : A -> B) (l : list A) : map fst (map (fun c => (c, f c)) l) = l.
Proof. rewrite map_map. apply map_id. Qed.

(* a list sorted by (partition, order, further) columns is, inside each partition, sorted by the order columns *)
Lemma sorted_within_partitions (phi : nat * list val -> string -> val) cs part order extra rev S :
  (forall it c, In c (part ++ order) -> phi it c = get cs (snd it) c) ->
  StronglySorted (fun a b => rle phi (map (fun c => (c, mem c rev)) ((part ++ order) ++ extra)) a b = true) S ->
  forall k, StronglySorted (fun a b => row_le fl_pandas cs (map (fun c => (c, mem c rev)) order) (snd a) (snd b) = true)
              (filter (fun it => keys_eqv k (key_of cs part (snd it))) S).
Proof.
  intros Hphi SS k. eapply SS_weaken_in; [apply SS_filter, SS|]. intros a b Ia Ib Hab.
  apply filter_In in Ia. apply filter_In in Ib. destruct Ia as [_ Pa]. destruct Ib as [_ Pb].
  rewrite <- app_assoc, !map_app, rle_app_eqv in Hab.
  - apply rle_prefix in Hab. rewrite <- Hab.
    apply row_le_rle; intros c Ic; rewrite map_fst_paired in Ic; symmetry; apply Hphi, in_app_iff; right; exact Ic.
  - intros c Ic. rewrite map_fst_paired in Ic. rewrite !Hphi by (apply in_app_iff; left; exact Ic).
    apply (keys_eqv_each part (get cs (snd a)) (get cs (snd b))); [|exact Ic].
    rewrite keys_eqv_sym in Pa. apply (keys_eqv_trans _ _ _ Pa Pb).
Qed.

(* ------------------------------------------------------------------ the loop over the window terms *)
Section Apply.
  Variables (cs : list string) (S : list (nat * list val)) (K : nat * list val -> list val) (standin : string).
  Hypothesis NdS : NoDup (map fst S).

  Definition lk (f : list val -> list val) (V : nat * list val -> val) (it : nat * list val) : val :=
    let G := filter (fun it' => keys_eqv (K it) (K it')) S in lookup_pos (combine (map fst G) (f (map V G))) (fst it).

  Definition OUT (ke : string * expr) (it : nat * list val) : val :=
    match win_shape (snd ke) with
    | Some (fn, None, _) =>
        match strip_underscore fn with
        | Some z => if String.eqb z "row_number" || String.eqb z "count"
                    then num2 Qplus (lk (number_from 0) (fun _ => VNull) it) vone
                    else lk (win_fn fl_pandas (transform_op_map z) []) (fun _ => vone) it
        | None => VNull
        end
    | Some (fn, Some (WCol c), ex) => lk (win_fn fl_pandas (transform_op_map fn) ex) (fun it' => get cs (snd it') c) it
    | _ => VNull
    end.

  Lemma transform_lookup fn ex (V : nat * list val -> val) vs :
    pd_grouped_transform (map K S) (map V S) fn ex = Some vs -> vs = map (lk (win_fn fl_pandas fn ex) V) S.
  Proof.
    unfold pd_grouped_transform. destruct (_ && _); [|discriminate]. intros H. inversion H. apply grouped_apply_lookup, NdS.
  Qed.

  Lemma wapply_step sub phi ke sub' :
    descr sub S phi ->
    In standin (cols sub) -> (forall it, phi it standin = vone) ->
    (forall fn c ex, win_shape (snd ke) = Some (fn, Some (WCol c), ex) -> In c (cols sub) /\ forall it, phi it c = get cs (snd it) c) ->
    wapply (map K S) standin [] sub ke = Some sub' ->
    descr sub' S (upd phi (fst ke) (OUT ke)) /\ cols sub' = add_end (cols sub) (fst ke).
  Proof.
    intros D Ist Hst Hc. unfold wapply, OUT. destruct (win_shape (snd ke)) as [[[fn [[c|v]|]] ex]|] eqn:Ew; try discriminate.
    - (* fn(column, literals) *)
      destruct (Hc fn c ex eq_refl) as [Ic Hcv]. unfold pd_col. apply mem_In in Ic as Mc. rewrite Mc. cbn [obind].
      rewrite (descr_getcol _ _ _ c D Ic), (map_ext _ _ Hcv).
      destruct (pd_grouped_transform _ _ _ _) as [vs|] eqn:Et; cbn [obind]; [|discriminate].
      rewrite (transform_lookup _ _ _ _ Et). apply (descr_set_col _ _ _ _ _ _ D).
    - (* fn() *)
      destruct (strip_underscore fn) as [z|]; cbn [obind]; [|discriminate].
      destruct (String.eqb z "row_number" || String.eqb z "count").
      + unfold pd_grouped_cumcount. rewrite (map_map K (fun _ => VNull)).
        rewrite (grouped_apply_lookup (number_from 0) K (fun _ => VNull) S NdS), map_map.
        apply (descr_set_col _ (fun it => num2 Qplus (lk (number_from 0) (fun _ => VNull) it) vone) _ _ _ _ D).
      + destruct (String.eqb z "ngroup"); [discriminate|]. destruct (String.eqb z "size"); [|discriminate].
        unfold pd_col. apply mem_In in Ist as Ms. rewrite Ms. cbn [obind].
        rewrite (descr_getcol _ _ _ standin D Ist), (map_ext _ _ Hst).
        destruct (pd_grouped_transform _ _ _ _) as [vs|] eqn:Et; cbn [obind]; [|discriminate].
        rewrite (transform_lookup _ _ _ _ Et). apply (descr_set_col _ _ _ _ _ _ D).
  Qed.

  (* Through the loop the stand-in column stays constant, and the column c a later term reads still holds the input's values:
     no earlier term writes it, since c is no result name (not in keysall) or it is that term's own result name. *)
  Lemma wapply_fold ops keysall : forall sub phi sub',
    NoDup (map fst ops) -> (forall k, In k (map fst ops) -> In k keysall) ->
    descr sub S phi ->
    In standin (cols sub) -> ~ In standin keysall -> (forall it, phi it standin = vone) ->
    (forall ke fn c ex, In ke ops -> win_shape (snd ke) = Some (fn, Some (WCol c), ex) ->
        (~ In c keysall \/ c = fst ke) /\ In c (cols sub) /\ forall it, phi it c = get cs (snd it) c) ->
    fold_left (fun acc ke => s <- acc ;; wapply (map K S) standin [] s ke) ops (Some sub) = Some sub' ->
    exists phi', descr sub' S phi' /\ (forall ke it, In ke ops -> phi' it (fst ke) = OUT ke it) /\
                 (forall x it, ~ In x (map fst ops) -> phi' it x = phi it x).
  Proof.
    induction ops as [|ke ops IH]; intros sub phi sub' Nd Sub D Ist Nst Hst Hc H.
    - injection H as <-. exists phi. split; [exact D|]. split; [intros ke it []|reflexivity].
    - cbn [fold_left obind] in H. destruct (wapply (map K S) standin [] sub ke) as [sub1|] eqn:E1.
      2:{ exfalso. clear -H. induction ops as [|k o IHo]; simpl in H; [discriminate|apply IHo, H]. }
      cbn [map] in Nd. inversion Nd as [|? ? Nk Nt]; subst.
      destruct (wapply_step sub phi ke sub1 D Ist Hst) as [D1 C1]; [|exact E1|].
      { intros fn c ex Ew. apply (Hc ke fn c ex (or_introl eq_refl) Ew). }
      assert (forall x, In x (cols sub) -> In x (cols sub1)) as Inc by (intros x Ix; rewrite C1; apply In_add_end; left; exact Ix).
      destruct (IH sub1 _ sub' Nt (fun k I => Sub k (or_intror I)) D1 (Inc _ Ist) Nst) as [phi' [D' [Hout Hkeep]]]; [| |exact H|].
      + intros it. rewrite upd_other; [apply Hst|]. intros E. apply Nst, Sub. left. symmetry. exact E.
      + intros ke2 fn c ex I2 Ew. destruct (Hc ke2 fn c ex (or_intror I2) Ew) as [Hk [Ic Hv]].
        split; [exact Hk|]. split; [exact (Inc _ Ic)|]. intros it. rewrite upd_other; [apply Hv|]. intros E.
        destruct Hk as [Hk|Hk].
        * apply Hk, Sub. left. symmetry. exact E.
        * apply Nk. rewrite <- E, Hk. apply in_map, I2.
      + exists phi'. split; [exact D'|]. split.
        * intros ke' it [<-|I']; [|apply Hout, I']. rewrite (Hkeep _ _ Nk). apply upd_same.
        * intros x it Nx. rewrite Hkeep by (intros I'; apply Nx; right; exact I'). apply upd_other.
          intros E. apply Nx. left. symmetry. exact E.
  Qed.
End Apply.

(* ------------------------------------------------------------------ the value of one window term *)
Lemma all_consts_flat rest ex : all_consts rest = Some ex -> flat_map (fun x => match x with EConst v => [v] | _ => [] end) rest = ex.
Proof.
  revert ex. induction rest as [|a rest IH]; intros ex H; simpl in H; [inversion H; reflexivity|].
  destruct a as [c|v|o args]; try discriminate. destruct (all_consts rest) as [ex'|]; [|discriminate]. inversion H; subst. simpl. rewrite (IH ex' eq_refl). reflexivity.
Qed.
Lemma number_from_ext (l l' : list val) i : List.length l = List.length l' -> number_from i l = number_from i l'.
Proof. revert l' i. induction l as [|x l IH]; intros [|y l'] i L; simpl in *; try discriminate; [reflexivity|]. f_equal. apply IH. lia. Qed.
Lemma size_ext (vs vs' : list val) : List.length vs = List.length vs' -> win_fn fl_pandas "size" [] vs = win_fn fl_pandas "size" [] vs'.
Proof.
  intros L. rewrite !(win_fn_broadcast fl_pandas "size" [] _ eq_refl).
  replace (agg_fn fl_pandas "size" vs') with (agg_fn fl_pandas "size" vs); [apply map_const_len, L|].
  destruct vs, vs'; try discriminate L; [reflexivity|]. unfold agg_fn. rewrite L. reflexivity.
Qed.

Section Term.
  Variables (t : table) (w : window).
  Let cs := cols t.
  Let T0 := tag_from 0 (rows t).
  Variable S : list (nat * list val).
  Hypothesis PS : Permutation S T0.
  Let samepart (r0 : list val) (it' : nat * list val) : bool := keys_eqv (key_of cs (w_part w) r0) (key_of cs (w_part w) (snd it')).
  Hypothesis Ssorted : forall r0, StronglySorted (fun a b : nat * list val => row_le fl_pandas cs (okeys_of w) (snd a) (snd b) = true) (filter (samepart r0) S).
  Definition Gof (r0 : list val) : list (nat * list val) := filter (samepart r0) S.

  Lemma NoDup_tags : NoDup (map fst S).
  Proof. eapply Permutation_NoDup; [apply Permutation_map, Permutation_sym, PS|]. unfold T0. rewrite tag_from_fst. apply seq_NoDup. Qed.

  Lemma Gof_perm r0 : Permutation (map snd (Gof r0)) (part_rows cs (w_part w) (rows t) r0).
  Proof.
    unfold Gof, part_rows, samepart.
    rewrite <- (filter_map_comm (fun r2 => keys_eqv (key_of cs (w_part w) r0) (key_of cs (w_part w) r2)) snd S).
    apply perm_filter. rewrite <- (map_snd_tag (rows t) 0). apply Permutation_map, PS.
  Qed.

  Lemma Gof_sorted_part r0 : In r0 (rows t) -> window_total fl_pandas cs w (rows t) ->
    map snd (Gof r0) = sorted_part fl_pandas cs w (rows t) r0.
  Proof.
    intros Ir G. destruct (G r0 Ir) as [Nd Tot]. unfold sorted_part.
    apply (sorted_perm_unique (row_le fl_pandas cs (okeys_of w))).
    - apply (sorted_transfer (fun (it : nat * list val) (r1 : list val) => snd it = r1)
                             (fun a b : nat * list val => row_le fl_pandas cs (okeys_of w) (snd a) (snd b))
                             (row_le fl_pandas cs (okeys_of w)) (Gof r0) (map snd (Gof r0))).
      + intros a a' b b' Ea Eb. rewrite <- Ea, <- Eb. reflexivity.
      + generalize (Gof r0). intros l0. induction l0 as [|x l0 IH]; simpl; constructor; [reflexivity|exact IH].
      + apply (Ssorted r0).
    - apply stable_sort_sorted; [intros; apply row_le_total|intros; eapply row_le_trans; eassumption].
    - eapply perm_trans; [apply Gof_perm|]. apply Permutation_sym, stable_sort_perm.
    - intros a b Ia Ib. apply Tot; eapply Permutation_in; try eassumption; apply Gof_perm.
  Qed.

  (* the looked-up value of a term at the row with tag i, against the reference value at row i *)
  Lemma term_value fn extra (V : nat * list val -> val) (arg : option expr) i r :
    In (i, r) S ->
    (forall l : list (nat * list val), win_fn fl_pandas fn extra (map V l) = win_fn fl_pandas fn extra (map (arg_val fl_pandas cs arg) (map snd l))) ->
    (order_sensitive fn = true -> window_total fl_pandas cs w (rows t)) ->
    forall j', nth_error (sorted_part fl_pandas cs w (rows t) r) j' = Some r ->
    lookup_pos (combine (map fst (Gof r)) (win_fn fl_pandas fn extra (map V (Gof r)))) i
    = nth j' (win_fn fl_pandas fn extra (map (arg_val fl_pandas cs arg) (sorted_part fl_pandas cs w (rows t) r))) VNull.
  Proof.
    intros Ii HV Gd j' Hj'.
    assert (In r (rows t)) as Ir.
    { apply (Permutation_in _ PS) in Ii. unfold T0 in Ii. apply tag_from_In in Ii. exact Ii. }
    assert (In (i, r) (Gof r)) as IG by (apply filter_In; split; [exact Ii|unfold samepart; apply keys_eqv_refl]).
    destruct (In_nth_error _ _ IG) as [rank Hrank].
    rewrite (lookup_combine (Gof r) _ i rank r (NoDup_map_filter _ _ _ NoDup_tags) Hrank).
    rewrite (HV (Gof r)). destruct (order_sensitive fn) eqn:Os.
    - (* order-sensitive: the group IS the ordered partition of the reference semantics *)
      pose proof (Gd eq_refl) as G. rewrite (Gof_sorted_part r Ir G). f_equal.
      destruct (G r Ir) as [Nd _].
      assert (NoDup (sorted_part fl_pandas cs w (rows t) r)) as NdS.
      { unfold sorted_part. eapply Permutation_NoDup; [apply Permutation_sym, stable_sort_perm|exact Nd]. }
      apply (proj1 (NoDup_nth_error _) NdS); [apply nth_error_Some; rewrite <- (Gof_sorted_part r Ir G), (map_nth_error snd _ _ Hrank); discriminate|].
      rewrite Hj', <- (Gof_sorted_part r Ir G). apply (map_nth_error snd _ _ Hrank).
    - (* a group aggregate: one value for the whole group, whatever its order *)
      rewrite !(win_fn_broadcast fl_pandas fn extra _ Os).
      assert (Permutation (map snd (Gof r)) (sorted_part fl_pandas cs w (rows t) r)) as Pg.
      { eapply perm_trans; [apply Gof_perm|]. unfold sorted_part. apply Permutation_sym, stable_sort_perm. }
      rewrite (nth_map_const _ _ rank) by (rewrite map_length, map_length; apply nth_error_Some; congruence).
      rewrite (nth_map_const _ _ j') by (rewrite map_length; apply nth_error_Some; congruence).
      apply agg_fn_perm, Permutation_map, Pg.
  Qed.

  (* the groups of the executor (by the key K of the grouped frame) are the partitions of the window *)
  Variable K : nat * list val -> list val.
  Hypothesis HK : forall it it', keys_eqv (K it) (K it') = samepart (snd it) it'.

  Lemma lk_Gof f V it : lk S K f V it = lookup_pos (combine (map fst (Gof (snd it))) (f (map V (Gof (snd it))))) (fst it).
  Proof. unfold lk, Gof. rewrite (filter_ext _ _ (HK it)). reflexivity. Qed.

  (* cumcount() + 1 is the 1-based position in the ordered partition *)
  Lemma cumcount_value i r j' :
    In (i, r) S -> window_total fl_pandas cs w (rows t) -> nth_error (sorted_part fl_pandas cs w (rows t) r) j' = Some r ->
    num2 Qplus (lk S K (number_from 0) (fun _ => VNull) (i, r)) vone
    = nth j' (number_from 1 (map (arg_val fl_pandas cs None) (sorted_part fl_pandas cs w (rows t) r))) VNull.
  Proof.
    intros Ii G Hj'. rewrite lk_Gof. cbn [fst snd]. change (number_from 0) with (win_fn fl_pandas "cumcount" []).
    rewrite (term_value "cumcount" [] (fun _ => VNull) None i r Ii) with (j' := j');
      [|intros l; apply number_from_ext; rewrite !map_length; reflexivity|intros _; exact G|exact Hj'].
    assert (j' < List.length (sorted_part fl_pandas cs w (rows t) r))%nat as Lj by (apply nth_error_Some; congruence).
    change (win_fn fl_pandas "cumcount" []) with (number_from 0).
    rewrite !nth_number_from by (rewrite map_length; exact Lj). apply qn_plus_one.
  Qed.

  Lemma out_value cs0 keys ke i r :
    win_ok_b cs0 keys ke = true -> nth_error (rows t) i = Some r ->
    (expr_order_sensitive (snd ke) = true -> window_total fl_pandas cs w (rows t)) ->
    OUT cs S K ke (i, r) = lookup_pos (window_column fl_pandas w t (snd ke)) i.
  Proof.
    intros Ok Hi Gd. unfold OUT. unfold win_ok_b in Ok.
    assert (In (i, r) S) as Ii by (apply (Permutation_in _ (Permutation_sym PS)), (nth_error_In _ i), (tag_from_nth_error 0), Hi).
    destruct (snd ke) as [c0|v0|fn args] eqn:Ee; try discriminate.
    unfold expr_order_sensitive in Gd. destruct args as [|a rest]; cbn [win_shape win_parts] in *.
    - (* fn(): one of the three names win_ok_b accepts *)
      destruct (window_value_at fl_pandas w t (EOp fn []) fn None [] i r eq_refl Hi) as [j' [Hj' ->]].
      apply mem_In in Ok. destruct Ok as [<-|[<-|[<-|[]]]]; cbn [strip_underscore String.eqb orb Ascii.eqb Bool.eqb andb].
      + apply cumcount_value; [exact Ii|exact (Gd eq_refl)|exact Hj'].
      + apply cumcount_value; [exact Ii|exact (Gd eq_refl)|exact Hj'].
      + rewrite lk_Gof. cbn [fst snd transform_op_map String.eqb Ascii.eqb Bool.eqb].
        apply (term_value "size" [] (fun _ => vone) None i r Ii); [|discriminate|exact Hj'].
        intros l. apply size_ext. rewrite !map_length. reflexivity.
    - (* fn(column, literals) *)
      destruct a as [c|v|o args']; try discriminate; [|destruct (all_consts rest); discriminate Ok].
      destruct (all_consts rest) as [ex|] eqn:Ea; cbn [option_map] in *; [|discriminate].
      apply andb_true_iff in Ok. destruct Ok as [_ Nav]. apply negb_true_iff in Nav.
      unfold transform_op_map. rewrite Nav, lk_Gof.
      destruct (window_value_at fl_pandas w t (EOp fn (ECol c :: rest)) fn (Some (ECol c)) ex i r) as [j' [Hj' ->]];
        [cbn [win_parts]; rewrite (all_consts_flat _ _ Ea); reflexivity|exact Hi|].
      apply (term_value fn ex _ (Some (ECol c)) i r Ii); [|exact Gd|exact Hj'].
      intros l. rewrite map_map. reflexivity.
  Qed.
End Term.

(* ------------------------------------------------------------------ small facts used by the assembly *)
Lemma fold_add_end_nodup (a b : list string) : NoDup (a ++ b) -> fold_left add_end b a = a ++ b.
Proof.
  revert a. induction b as [|x b IH]; intros a N; simpl; [rewrite app_nil_r; reflexivity|].
  assert (~ In x a) as Nx. { intros I. apply NoDup_remove_2 in N. apply N. apply in_app_iff. left. exact I. }
  rewrite (add_end_new _ _ Nx). rewrite IH; [rewrite <- app_assoc; reflexivity|]. rewrite <- app_assoc. exact N.
Qed.
Lemma py_set_nodup (l : list string) : NoDup l -> py_set l = l.
Proof. apply (fold_add_end_nodup [] l). Qed.

Lemma get_map_fst {X} (H : string * X -> val) (l : list (string * X)) ke :
  NoDup (map fst l) -> In ke l -> get (map fst l) (map H l) (fst ke) = H ke.
Proof.
  induction l as [|x l IH]; intros N I; [contradiction|]. cbn [map] in *. inversion N as [|? ? Nx Nl]; subst. destruct I as [->|I].
  - apply get_cons_same.
  - rewrite get_cons_other; [apply IH; assumption|]. intros E. apply Nx. rewrite <- E. apply in_map. exact I.
Qed.

Lemma disjointb_not_in (a b : list string) x : disjointb a b = true -> In x b -> ~ In x a.
Proof. intros D Ib Ia. apply (proj1 (disjointb_spec _ _) D x Ia Ib). Qed.

Lemma vnat_cmp i j : (if v_eqv (vnat i) (vnat j) then true else v_le_dir (nulls_first fl_pandas false) false (vnat i) (vnat j)) = Nat.leb i j.
Proof.
  unfold vnat, v_eqv, v_le_dir, v_le, nulls_first. cbn [num_of f_nulls_first_asc fl_pandas].
  unfold Qeq_bool, Qle_bool, inject_Z. cbn [Qnum Qden]. rewrite !Z.mul_1_r.
  pose proof (Zeq_bool_if (Z.of_nat i) (Z.of_nat j)) as E.
  destruct (Zeq_bool (Z.of_nat i) (Z.of_nat j)); destruct (Z.leb_spec (Z.of_nat i) (Z.of_nat j));
    destruct (Nat.leb_spec i j); try reflexivity; lia.
Qed.

Lemma tag_from_sorted (rs : list (list val)) : forall n, StronglySorted (fun a b : nat * list val => Nat.leb (fst a) (fst b) = true) (tag_from n rs).
Proof.
  induction rs as [|r rs IH]; intros n; simpl; constructor; [apply IH|].
  apply Forall_forall. intros [i0 r0] I. apply tag_from_In_nth in I. destruct I as [j [E _]]. cbn [fst]. apply Nat.leb_le. lia.
Qed.

(* sorting by a column that holds the row numbers brings the rows back into their first order *)
Lemma sorted_by_index (phi : nat * list val -> string -> val) orig S rs :
  (forall it, phi it orig = vnat (fst it)) -> Permutation S (tag_from 0 rs) ->
  StronglySorted (fun a b => rle phi (pd_sort_keys [(orig, true)]) a b = true) S -> S = tag_from 0 rs.
Proof.
  intros Hp P SS. apply (sorted_perm_unique (fun a b : nat * list val => Nat.leb (fst a) (fst b))).
  - eapply SS_weaken_in; [exact SS|]. intros a b _ _. cbn [pd_sort_keys map fst snd negb rle]. rewrite !Hp, vnat_cmp. exact (fun H => H).
  - apply tag_from_sorted.
  - exact P.
  - intros [i r] [j r'] Ia Ib L1 L2. apply Nat.leb_le in L1. apply Nat.leb_le in L2. cbn [fst] in L1, L2.
    apply (Permutation_in _ P), tag_from_In_nth in Ia. apply (Permutation_in _ P), tag_from_In_nth in Ib.
    destruct Ia as [k [-> Hk]]. destruct Ib as [k' [-> Hk']]. assert (k = k') as <- by lia. congruence.
Qed.

Lemma combine_tagged (Q : list val -> nat * list val -> Prop) rs : forall rs' n,
  Forall2 Q rs' (tag_from n rs) -> Forall2 (fun p it => fst p = snd it /\ Q (snd p) it) (combine rs rs') (tag_from n rs).
Proof.
  induction rs as [|r rs IH]; intros rs' n F; cbn [tag_from] in F |- *; inversion F; subst; cbn [combine]; constructor.
  - split; [reflexivity|assumption].
  - apply IH. assumption.
Qed.

Lemma copy_out ops w t new x (phi : nat * list val -> string -> val) :
  width_ok t -> NoDup (map fst ops) -> descr new (tag_from 0 (rows t)) phi -> cols new = map fst ops ->
  add_columns t new = Some x ->
  width_ok x /\ same_set (cols x) (ext_cols (cols t) (map fst ops)) /\
  ((forall ke i r, In ke ops -> nth_error (rows t) i = Some r -> phi (i, r) (fst ke) = lookup_pos (window_column fl_pandas w t (snd ke)) i) ->
   tab_eqv x (sem_wextend fl_pandas ops w t)).
Proof.
  intros Wt Nk [Wn Fn] Cn Hadd.
  assert (nrows t = nrows new) as Ln by (unfold nrows; rewrite (Forall2_len _ _ _ Fn), tag_from_length; reflexivity).
  destruct (add_columns_spec t new x Wt Wn Ln Hadd) as [Sx [Wx Fx]].
  assert (same_set (cols x) (ext_cols (cols t) (map fst ops))) as Sxe.
  { intros c. rewrite (Sx c), Cn. unfold ext_cols. rewrite In_fold_add_end, in_app_iff. reflexivity. }
  split; [exact Wx|]. split; [exact Sxe|]. intros Hphi. split; [exact Sxe|].
  unfold sem_wextend. cbn [cols rows].
  set (wcols := map (fun ke : string * expr => (fst ke, window_column fl_pandas w t (snd ke))) ops).
  assert (Forall2 (fun ru it => forall c, get (cols x) ru c = if mem c (cols new) then phi it c else get (cols t) (snd it) c)
                  (rows x) (tag_from 0 (rows t))) as F.
  { eapply Forall2_trans; [|exact Fx|exact (combine_tagged _ _ _ _ Fn)]. intros ru p it H1 [E H2] c. rewrite (H1 c), E.
    destruct (mem c (cols new)) eqn:M; [apply H2, mem_In, M|reflexivity]. }
  rewrite <- (map_id (tag_from 0 (rows t))) in F. revert F. apply Forall2_change_r.
  intros ru [i r] Iit Hru c. cbn [fst snd] in Hru |- *. apply tag_from_In_nth in Iit. destruct Iit as [j [-> Hr]]. cbn [Nat.add] in Hru |- *.
  assert (List.length r = List.length (cols t)) as Lr by (unfold width_ok in Wt; rewrite Forall_forall in Wt; apply Wt; eapply nth_error_In; exact Hr).
  set (F := fun kc : string * list (nat * val) => lookup_pos (snd kc) j).
  destruct (fold_cells_inv F wcols r (cols t) Lr) as [_ Ec].
  assert (map fst wcols = map fst ops) as Ew by (unfold wcols; rewrite map_map; reflexivity).
  rewrite (Hru c), Cn, <- Ew, <- Ec. etransitivity; [|symmetry; apply (fold_get F wcols r (cols t) c Lr)].
  rewrite (last_assign_nodup F wcols c) by (rewrite Ew; exact Nk). destruct (mem c (map fst wcols)) eqn:Mc; [|reflexivity].
  rewrite Ew in Mc. apply mem_In, in_map_iff in Mc. destruct Mc as [ke [<- Ike]]. rewrite (Hphi ke _ r Ike Hr).
  symmetry. apply (get_map_fst F wcols (fst ke, window_column fl_pandas w t (snd ke))); [rewrite Ew; exact Nk|].
  unfold wcols. apply (in_map (fun ke0 : string * expr => (fst ke0, window_column fl_pandas w t (snd ke0)))), Ike.
Qed.

(* sort_values(by=col_list), skipped when there are no partition and no order columns: inside each partition the items
   end up in window order *)
Lemma sort_subframe srt cs part order extra rev sub1 sub2 (T : list (nat * list val)) phi :
  sorter_ok srt -> descr sub1 T phi -> (forall it c, In c (part ++ order) -> phi it c = get cs (snd it) c) ->
  (if Nat.ltb 0 (List.length (part ++ order))
   then option_map clean_copy (pd_sort_values_with srt (map (fun c => (c, negb (mem c rev))) ((part ++ order) ++ extra)) sub1)
   else Some sub1) = Some sub2 ->
  exists S, Permutation S T /\ descr sub2 S phi /\ cols sub2 = cols sub1 /\
    forall k, StronglySorted (fun a b => row_le fl_pandas cs (map (fun c => (c, mem c rev)) order) (snd a) (snd b) = true)
                (filter (fun it => keys_eqv k (key_of cs part (snd it))) S).
Proof.
  intros So D Hphi E. destruct (Nat.ltb 0 (List.length (part ++ order))) eqn:El.
  - destruct (pd_sort_values_with srt _ sub1) as [sub2'|] eqn:Es; [|discriminate]. injection E as <-.
    destruct (descr_sort srt _ _ _ _ _ So D Es) as [S [PS [SS [D2 C2]]]]. rewrite sort_keys_back in SS.
    exists S. split; [exact PS|]. split; [exact D2|]. split; [exact C2|].
    intros k. apply (sorted_within_partitions phi cs part order extra rev S Hphi SS).
  - injection E as <-. exists T. split; [apply Permutation_refl|]. split; [exact D|]. split; [reflexivity|].
    apply length_zero_iff_nil_b, app_eq_nil in El. destruct El as [_ ->].
    intros k. apply SS_all. intros a b. reflexivity.
Qed.

(* groupby(partition columns, or the constant stand-in column when there are none): the groups are the window's partitions *)
Lemma group_keys cs part standin sub (S : list (nat * list val)) phi :
  descr sub S phi -> In standin (cols sub) -> (forall c, In c part -> In c (cols sub)) ->
  (forall it, phi it standin = vone) -> (forall it c, In c part -> phi it c = get cs (snd it) c) ->
  exists K, pd_row_keys (match part with [] => [standin] | p :: pt => p :: pt end) sub = Some (map K S) /\
            forall it it', keys_eqv (K it) (K it') = keys_eqv (key_of cs part (snd it)) (key_of cs part (snd it')).
Proof.
  intros D Ist Ip Hs Hp. set (gk := match part with [] => [standin] | p :: pt => p :: pt end).
  assert (forall c, In c gk -> In c (cols sub)) as Igk by (unfold gk; destruct part; [intros c [<-|[]]; exact Ist|exact Ip]).
  exists (fun it => map (phi it) gk). split.
  - unfold pd_row_keys. rewrite (proj2 (subset_spec _ _) Igk), (descr_keys _ _ _ gk D Igk). reflexivity.
  - intros it it'. unfold gk. destruct part as [|p0 pt]; [cbn [map key_of]; rewrite !Hs; reflexivity|].
    unfold key_of. f_equal; apply map_ext_in; intros c Ic; apply Hp, Ic.
Qed.

(* ------------------------------------------------------------------ the windowed branch of _extend_step *)
Lemma win_ok_col cs keys ke fn c ex :
  win_ok_b cs keys ke = true -> win_shape (snd ke) = Some (fn, Some (WCol c), ex) -> In c cs /\ (~ In c keys \/ c = fst ke).
Proof.
  unfold win_ok_b. intros Ok E. rewrite E in Ok. apply andb_true_iff in Ok. destruct Ok as [Ok _].
  apply andb_true_iff in Ok. destruct Ok as [Mc Hk]. split; [apply mem_In, Mc|]. apply orb_true_iff in Hk.
  destruct Hk as [Hk|Hk]; [left; apply mem_false, negb_true_iff, Hk|right; apply String.eqb_eq, Hk].
Qed.

Theorem px_extend_windowed_eqv srt ops w t x cs0 :
  sorter_ok srt -> width_ok t -> same_set (cols t) cs0 -> (0 < nrows t)%nat ->
  nodup_names (map fst ops) = true -> ops <> [] ->
  disjointb (map fst ops) (w_part w ++ w_order w) = true -> subset (w_part w ++ w_order w) cs0 = true ->
  nodup_names (w_part w ++ w_order w) = true ->
  forallb (win_ok_b cs0 (map fst ops)) ops = true ->
  px_extend_windowed srt ops w t = Some x ->
  width_ok x /\ same_set (cols x) (ext_cols (cols t) (map fst ops)) /\
  ((ops_order_sensitive ops = true -> window_total fl_pandas (cols t) w (rows t)) -> tab_eqv x (sem_wextend fl_pandas ops w t)).
Proof.
  intros So Wt Sc _ Nk0 _ _ Sb Npo0 Ok. unfold px_extend_windowed.
  set (keys := map fst ops) in *. set (names0 := set_union (cols t) keys).
  set (standin := unused_column_name base_standin names0). set (names1 := names0 ++ [standin]).
  set (orig := unused_column_name base_orig_index names1). set (names2 := names1 ++ [orig]).
  pose proof (unused_column_name_fresh base_standin names0) as Fst. fold standin in Fst.
  pose proof (unused_column_name_fresh base_orig_index names1) as For. fold orig in For.
  clearbody standin orig.
  (* the scratch names are new: no column of t, no result name, and different from each other *)
  assert (forall c, In c (cols t) \/ In c keys -> c <> standin /\ c <> orig) as New.
  { intros c I. apply In_set_union in I. split; intros ->; [apply Fst, I|apply For, in_app_iff; left; exact I]. }
  assert (orig <> standin) as Nos by (intros E; apply For, in_app_iff; right; left; symmetry; exact E).
  assert (NoDup keys) as Nk by (apply nodup_names_sound; exact Nk0).
  assert (NoDup (w_part w ++ w_order w)) as Npo by (apply nodup_names_sound; exact Npo0).
  assert (forall c, In c (w_part w ++ w_order w) -> In c (cols t)) as Ipo by (intros c Ic; apply Sc, (proj1 (subset_spec _ _) Sb), Ic).
  pose proof (proj1 (forallb_forall _ _) Ok) as Oke.
  (* the sub-frame's columns *)
  set (cl0 := fold_left add_end (w_order w) (py_set (w_part w))).
  assert (cl0 = w_part w ++ w_order w) as Ecl0.
  { unfold cl0. rewrite (py_set_nodup _ (NoDup_app_l _ _ Npo)). apply fold_add_end_nodup, Npo. }
  destruct (fold_left _ ops (Some (mkws cl0 [] names2 t))) as [st|] eqn:Ew; cbn [obind]; [|discriminate].
  rewrite (wcollect_fold cs0 keys ops cl0 names2 t st Ok Ew). cbn [ws_cols ws_res ws_temps]. clear Ew st.
  set (vcl := fold_left vcols_step ops cl0).
  destruct (vcols_prefix ops cl0) as [extra Evcl]. fold vcl in Evcl. rewrite Ecl0 in Evcl.
  assert (forall c, In c vcl -> In c (cols t)) as Vin.
  { intros c Ic. apply vcols_In in Ic. destruct Ic as [Ic|[ke [fn [ex [Ike Esh]]]]]; [apply Ipo; rewrite <- Ecl0; exact Ic|].
    apply Sc, (win_ok_col _ _ _ _ _ _ (Oke ke Ike) Esh). }
  (* sub-frame: the selected columns and the original index *)
  set (T0 := tag_from 0 (rows t)).
  destruct (pd_select vcl t) as [sub0|] eqn:E0; cbn [obind]; [|discriminate]. unfold clean_copy, pd_reset_index.
  destruct (pd_set_col orig _ sub0) as [sub1|] eqn:E1; cbn [obind]; [|discriminate].
  destruct (index_subframe t vcl orig sub0 sub1 Wt) as [Ds1 Cs1]; [|exact E0|exact E1|].
  { intros I. exact (proj2 (New orig (or_introl (Vin _ I))) eq_refl). }
  fold T0 in Ds1. set (phi1 := upd _ orig _) in Ds1.
  assert (forall it c, In c (cols t) -> phi1 it c = get (cols t) (snd it) c) as P1.
  { intros it c Ic. unfold phi1. rewrite (upd_other _ _ _ _ _ (proj2 (New c (or_introl Ic)))). reflexivity. }
  (* the sort by partition, order and value columns *)
  destruct (if Nat.ltb 0 (List.length cl0) then _ else _) as [sub2|] eqn:E2; cbn [obind]; [|discriminate].
  rewrite Ecl0, Evcl in E2.
  destruct (sort_subframe srt (cols t) _ _ _ _ sub1 sub2 T0 phi1 So Ds1 (fun it c Ic => P1 it c (Ipo c Ic)) E2) as [S [PS [Ds2 [Cs2 SSp]]]].
  rewrite Cs1 in Cs2. clear E2.
  (* the stand-in column and the grouping *)
  pose proof (descr_set_scalar standin vone _ _ _ Ds2) as Ds3.
  set (sub3 := pd_set_scalar standin vone sub2) in *. set (phi3 := upd phi1 standin _) in Ds3.
  assert (forall it, phi3 it standin = vone) as P3s by (intros it; apply upd_same).
  assert (forall it, phi3 it orig = vnat (fst it)) as P3o by (intros it; unfold phi3, phi1; rewrite (upd_other _ _ _ _ _ Nos), upd_same; reflexivity).
  assert (forall it c, In c (cols t) -> phi3 it c = get (cols t) (snd it) c) as P3c.
  { intros it c Ic. unfold phi3. rewrite (upd_other _ _ _ _ _ (proj1 (New c (or_introl Ic)))). apply P1, Ic. }
  assert (forall c, In c vcl \/ c = standin -> In c (cols sub3)) as Is3.
  { intros c Ic. unfold sub3, pd_set_scalar. cbn [cols]. rewrite Cs2. apply In_add_end.
    destruct Ic as [Ic|Ic]; [left; apply in_app_iff; left; exact Ic|right; exact Ic]. }
  destruct (group_keys (cols t) (w_part w) standin sub3 S phi3 Ds3 (Is3 _ (or_intror eq_refl))) as [K [EK HK]]; [|exact P3s| |].
  { intros c Ic. apply Is3. left. rewrite Evcl. apply in_app_iff. left. apply in_app_iff. left. exact Ic. }
  { intros it c Ic. apply P3c, Ipo, in_app_iff. left. exact Ic. }
  rewrite EK. cbn [obind]. clear EK.
  (* the window terms *)
  destruct (fold_left _ ops (Some sub3)) as [sub4|] eqn:E4; cbn [obind]; [|discriminate].
  destruct (wapply_fold (cols t) S K standin (NoDup_tags t S PS) ops keys sub3 phi3 sub4 Nk (fun k I => I) Ds3 (Is3 _ (or_intror eq_refl)))
    as [phi4 [Ds4 [Hout Hkeep]]]; [|exact P3s| |exact E4|].
  { intros I. exact (proj1 (New standin (or_intror I)) eq_refl). }
  { intros ke fn c ex Ike Esh. destruct (win_ok_col _ _ _ _ _ _ (Oke ke Ike) Esh) as [Ic Hk].
    split; [exact Hk|]. split; [|intros it; apply P3c, Sc, Ic].
    apply Is3. left. apply vcols_In. right. exists ke, fn, ex. split; assumption. }
  clear E4.
  (* no stand-in columns for constants were created, nothing to delete; sort back by the original index *)
  cbn [fold_left obind].
  destruct (pd_sort_values_with srt [(orig, true)] sub4) as [sub5|] eqn:E5; cbn [obind]; [|discriminate].
  destruct (descr_sort srt _ _ _ _ _ So Ds4 E5) as [S' [PS' [SS' [Ds5 _]]]].
  assert (S' = T0) as ->.
  { apply (sorted_by_index phi4 orig); [|exact (perm_trans PS' PS)|exact SS'].
    intros it. rewrite Hkeep; [apply P3o|]. intros I. exact (proj2 (New orig (or_intror I)) eq_refl). }
  (* copy out *)
  destruct (pd_select keys sub5) as [sub6|] eqn:E6; cbn [obind]; [|discriminate].
  destruct (descr_select _ _ _ _ _ Ds5 E6) as [Ds6 Cs6].
  intros Hadd. destruct (copy_out ops w t sub6 x phi4 Wt Nk Ds6 Cs6 Hadd) as [Wx [Sx Ex]].
  split; [exact Wx|]. split; [exact Sx|]. intros Gd. apply Ex. intros ke i r Ike Hr. rewrite (Hout ke _ Ike).
  apply (out_value t w S PS (fun r0 => SSp (key_of (cols t) (w_part w) r0)) K HK cs0 keys ke i r (Oke ke Ike) Hr).
  intros Os. apply Gd. unfold ops_order_sensitive. apply existsb_exists. exists ke. split; assumption.
Qed.
