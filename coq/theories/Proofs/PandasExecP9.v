(* PEXEC, part 9: the unspecified row order of an INNER pandas.merge.
   px_join_with arr is the step as transcribed: pandas.merge may list the rows of an inner join in any order `arr` chooses.  For
   every rearrangement arr that is a permutation the merge returns the rows of pd_merge in some order, which is all that part 5
   asks of the merge; hence px_join_with arr refines sem_join. *)
From Coq Require Import List Bool String Permutation.
Import ListNotations.
From DA Require Import Base.PyRT Base.Val Model.Sem Model.PdPrim Model.PandasExec
  Proofs.SemBasicP Proofs.ComposeP5 Proofs.PandasExecP1 Proofs.PandasExecP5.
Local Open Scope string_scope.
Local Open Scope list_scope.

Definition arranger_ok (arr : arranger) : Prop := forall l, Permutation (arr l) l.
Lemma id_arranger_ok : arranger_ok id_arranger.
Proof. intros l. apply Permutation_refl. Qed.

Lemma pd_merge_with_perm arr : arranger_ok arr -> merge_upto_row_order (pd_merge_with arr).
Proof.
  intros A how l r lon ron sfx t2 H. unfold pd_merge_with in H. destruct (pd_merge how l r lon ron sfx) as [t1|]; [|discriminate].
  cbn [option_map] in H. inversion H; subst t2. exists t1. split; [reflexivity|]. split; [reflexivity|].
  cbn [rows]. unfold arrange. destruct how; try apply Permutation_refl. apply A.
Qed.

(* the join step as transcribed refines the reference join, for every arrangement of the inner rows *)
Theorem px_join_with_refines arr declared on_a on_b jt l r x :
  arranger_ok arr ->
  width_ok l -> width_ok r ->
  (forall c, In c on_a -> In c (cols l)) -> (forall c, In c on_b -> In c (cols r)) -> List.length on_a = List.length on_b ->
  same_set declared (cols l ++ filter (fun c => negb (mem c (cols l))) (cols r)) ->
  px_join_with arr declared on_a on_b jt l r = Some x -> refines x (sem_join false on_a on_b jt l r) /\ width_ok x.
Proof. intros A. apply px_join_gen_refines, pd_merge_with_perm, A. Qed.
