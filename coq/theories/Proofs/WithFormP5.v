(* The decidable condition cache_sound_dec (Model/CacheSound.v) implies cache_sound for EVERY engine, hence CTE elimination
   denotes the same table on every query that passes it. *)
From Coq Require Import List Bool String .
Import ListNotations.
From DA Require Import Base.PyRT Model.NearSql Model.WithForm Model.CacheSound Proofs.WithFormP1 Proofs.WithFormP2.

Lemma leqb_eq {A} (e : A -> A -> bool) : (forall x y, e x y = true -> x = y) -> forall a b, leqb e a b = true -> a = b.
Proof. intros He. induction a as [|x s IH]; intros [|y t] H; simpl in H; try discriminate; [reflexivity|].
  apply andb_true_iff in H. destruct H as [H1 H2]. f_equal; [apply He, H1|apply IH, H2]. Qed.
Lemma oeqb_eq {A} (e : A -> A -> bool) : (forall x y, e x y = true -> x = y) -> forall a b, oeqb e a b = true -> a = b.
Proof. intros He [x|] [y|] H; simpl in H; try discriminate; [f_equal; apply He, H|reflexivity]. Qed.
Lemma peqb_eq {A B} (e : A -> A -> bool) (f : B -> B -> bool) :
  (forall x y, e x y = true -> x = y) -> (forall x y, f x y = true -> x = y) -> forall a b, peqb e f a b = true -> a = b.
Proof. intros He Hf [a1 a2] [b1 b2] H. unfold peqb in H. simpl in H. apply andb_true_iff in H. destruct H as [H1 H2].
  f_equal; [apply He, H1|apply Hf, H2]. Qed.
Lemma terms_eqb_eq a b : terms_eqb a b = true -> a = b.
Proof. apply oeqb_eq, leqb_eq, peqb_eq; [intros x y; apply String.eqb_eq|apply oeqb_eq, String.eqb_eq]. Qed.
Lemma lseqb_eq a b : lseqb a b = true -> a = b.
Proof. apply leqb_eq, String.eqb_eq. Qed.
Lemma oseqb_eq a b : oseqb a b = true -> a = b.
Proof. apply oeqb_eq, String.eqb_eq. Qed.
Lemma ci_eqb_eq a b : ci_eqb a b = true -> a = b.
Proof. destruct a as [c f p], b as [c' f' p']. unfold ci_eqb. simpl. rewrite !andb_true_iff. intros [[H1 H2] H3].
  apply (oeqb_eq _ lseqb_eq) in H1. apply Bool.eqb_prop in H2. apply oseqb_eq in H3. subst. reflexivity. Qed.

Ltac split_andb H := repeat (let H' := fresh H in apply andb_true_iff in H; destruct H as [H H']).

Lemma same_table a b : same_mod_names a b = true ->
  is_table a = is_table b /\ ops_key a = ops_key b /\ (is_table a = true -> qname a = qname b).
Proof. destruct a, b; simpl; intros H; try discriminate; split_andb H;
  repeat match goal with
  | H : seqb _ _ = true |- _ => apply String.eqb_eq in H
  | H : oseqb _ _ = true |- _ => apply oseqb_eq in H
  end; subst; repeat split; try reflexivity; intros; try discriminate.
Qed.

Lemma ci_same_nontable s a b : is_table s = false -> ci_same s a b = true -> a = b.
Proof. unfold ci_same. intros ->. simpl. apply ci_eqb_eq. Qed.

Section P.
Variable T : Type.
Variable E : engine T.

Lemma operand_same r s s' ci ci' :
  same_mod_names s s' = true -> ci_same s ci ci' = true -> (forall cols, nsem E r s cols = nsem E r s' cols) ->
  csem E r (s, ci) = csem E r (s', ci') /\ cpub ci = cpub ci'.
Proof.
  intros Hs Hc IH. destruct (same_table _ _ Hs) as (It & _ & Qn). unfold csem, by_name, ci_same in *. cbn [fst snd]. rewrite <- It.
  destruct (is_table s && negb (cforce ci)) eqn:B.
  - apply andb_true_iff in Hc. destruct Hc as [Hf Hp]. apply Bool.eqb_prop in Hf. apply oseqb_eq in Hp.
    rewrite <- Hf, B. apply andb_true_iff in B. destruct B as [Its _]. rewrite (Qn Its). split; [reflexivity|exact Hp].
  - apply ci_eqb_eq in Hc. subst ci'. rewrite B. split; [apply IH|reflexivity].
Qed.

Lemma same_nsem a : forall b, same_mod_names a b = true -> forall (r : env T) cols, nsem E r a cols = nsem E r b cols.
Proof.
  induction a as [n t|n k|n t s IH ci sfx an mg dp k|n t s1 IH1 c1 j s2 IH2 c2 sfx an k|n p sfx an a0 k|n p s IH ci sfx an a0 k];
  intros b H r cols; destruct b; simpl in H; try discriminate; split_andb H.
  - apply String.eqb_eq in H. apply terms_eqb_eq in H0. subst. reflexivity.
  - apply String.eqb_eq in H. subst. reflexivity.
  - apply terms_eqb_eq in H. apply lseqb_eq in H1. subst.
    destruct (operand_same r _ _ _ _ H3 H2 (fun c => IH _ H3 r c)) as [Eo _]. simpl. f_equal. exact Eo.
  - apply terms_eqb_eq in H. apply String.eqb_eq in H4. apply lseqb_eq in H1. subst.
    destruct (operand_same r _ _ _ _ H6 H5 (fun c => IH1 _ H6 r c)) as [Eo1 Ep1].
    destruct (operand_same r _ _ _ _ H3 H2 (fun c => IH2 _ H3 r c)) as [Eo2 Ep2].
    simpl. rewrite Ep1, Ep2. f_equal; assumption.
  - apply lseqb_eq in H. apply lseqb_eq in H2. apply Bool.eqb_prop in H1. subst. reflexivity.
  - apply lseqb_eq in H. apply lseqb_eq in H2. apply Bool.eqb_prop in H1. subst.
    destruct (operand_same r _ _ _ _ H4 H3 (fun c => IH _ H4 r c)) as [Eo _]. simpl. f_equal. exact Eo.
Qed.
End P.

Lemma same_ckeys fl s s' ci ci' :
  same_mod_names s s' = true -> ci_same s ci ci' = true -> desc_keys fl s = desc_keys fl s' -> ckeys fl s ci = ckeys fl s' ci'.
Proof. intros H Hc D. destruct (same_table _ _ H) as (It & Ok & _). unfold ckeys, ckey. simpl. rewrite <- It.
  destruct (is_table s) eqn:Its; [reflexivity|]. rewrite (ci_same_nontable s ci ci' Its Hc), <- Ok, D. reflexivity. Qed.

Lemma same_desc_keys fl a : forall b, same_mod_names a b = true -> desc_keys fl a = desc_keys fl b.
Proof.
  induction a as [n t|n k|n t s IH ci sfx an mg dp k|n t s1 IH1 c1 j s2 IH2 c2 sfx an k|n p sfx an a0 k|n p s IH ci sfx an a0 k];
  intros b H; destruct b; simpl in H; try discriminate; split_andb H; try reflexivity.
  - rewrite !desc_keys_unary. apply same_ckeys; [exact H3|exact H2|apply IH, H3].
  - rewrite !desc_keys_binary. f_equal.
    + apply same_ckeys; [exact H6|exact H5|apply IH1, H6].
    + apply same_ckeys; [exact H3|exact H2|apply IH2, H3].
  - rewrite !desc_keys_raw1. apply same_ckeys; [exact H4|exact H3|apply IH, H4].
Qed.

Lemma conts_nontable q : forall c, In c (conts q) -> is_table (fst c) = false.
Proof. induction q as [n t|n k|n t s IH ci sfx an mg dp k|n t s1 IH1 c1 j s2 IH2 c2 sfx an k|n p sfx an a k|n p s IH ci sfx an a k];
  simpl; intros c I; try contradiction.
  - destruct (in_operand_conts _ _ _ I) as [[-> It]|J]; [exact It|apply IH, J].
  - apply in_app_iff in I. destruct I as [I|I]; destruct (in_operand_conts _ _ _ I) as [[-> It]|J];
      [exact It|apply IH1, J|exact It|apply IH2, J].
  - destruct (in_operand_conts _ _ _ I) as [[-> It]|J]; [exact It|apply IH, J].
Qed.

Theorem cache_sound_dec_sound (T : Type) (E : engine T) fl q : cache_sound_dec fl q = true -> cache_sound E fl q.
Proof.
  intros H c1 c2 k I1 I2 K1 K2. unfold cache_sound_dec in H. rewrite forallb_forall in H. specialize (H c1 I1).
  rewrite forallb_forall in H. specialize (H c2 I2). unfold pair_ok in H. rewrite K1, K2 in H.
  unfold seqb in H. rewrite String.eqb_refl in H. apply andb_true_iff in H. destruct H as [H Hn].
  apply andb_true_iff in H. destruct H as [Hs Hc]. apply (oeqb_eq _ lseqb_eq) in Hc.
  split; [|split].
  - intros r. pose proof (conts_nontable q _ I1) as T1. pose proof (conts_nontable q _ I2) as T2.
    destruct c1 as [s1 i1], c2 as [s2 i2]. cbn [fst snd] in *.
    rewrite (csem_nontable _ E r s1 i1 T1), (csem_nontable _ E r s2 i2 T2), Hc. apply same_nsem, Hs.
  - intros k'. rewrite (same_desc_keys fl _ _ Hs). tauto.
  - apply negb_true_iff, mem_false in Hn. exact Hn.
Qed.

(* CTE elimination denotes the same table on every query that passes the decidable condition, for every engine *)
Theorem cte_elim_preserves_dec (T : Type) (E : engine T) (fl : flags) (q : nearsql) (r : env T) :
  hygienic q = true -> cache_sound_dec fl q = true ->
  nsem_with E r (fst (to_with_form fl (Some []) q)) = nsem E r q None.
Proof. intros H D. apply cte_elim_preserves; [exact H|apply cache_sound_dec_sound, D]. Qed.
