(* Proofs about Model/Cache.v: cache keys, and the cache of private copies as a refinement of a map of values (C25). *)
From Coq Require Import List Bool Arith String Lia Permutation.
Import ListNotations.
From DA Require Import Base.PyRT Model.Cache.

Section P.
Context {F : Type} `{EqDec F} (hash : F -> string) (sort_keys : list string -> list string).
Hypothesis hash_inj : forall a b, hash a = hash b -> a = b.                    (* hash_data_frame separates different frames *)
Hypothesis sort_perm : forall l, Permutation (sort_keys l) l.                   (* list.sort: a permutation ... *)
Hypothesis sort_canon : forall l l', Permutation l l' -> sort_keys l = sort_keys l'.   (* ... that depends on the set of keys only *)
Notation make_key := (make_key hash sort_keys).
Notation c_step := (c_step hash sort_keys).
Notation a_step := (a_step hash sort_keys).

(* ---- auxiliary: looking a key up in the third component of a cache key *)
Lemma key_third_get (dm : pydict string F) k :
  dict_get (flat_map (fun k => match dict_get dm k with Some f => [(k, hash f)] | None => [] end)
                     (sort_keys (dict_keys dm))) k
  = option_map hash (dict_get dm k).
Proof.
  set (dh := map (fun kv : string * F => (fst kv, hash (snd kv))) dm).
  assert (forall ks, flat_map (fun k => match dict_get dm k with Some f => [(k, hash f)] | None => [] end) ks
                   = flat_map (fun k => match dict_get dh k with Some v => [(k, v)] | None => [] end) ks) as X.
  { intros ks. apply flat_map_ext. intros a. unfold dh. rewrite dict_get_map_val.
    destruct (dict_get dm a); reflexivity. }
  rewrite X, dict_get_restrict_list. unfold dh. rewrite dict_get_map_val.
  destruct (mem k (sort_keys (dict_keys dm))) eqn:M; [reflexivity|].
  apply mem_false in M.
  assert (~ In k (dict_keys dm)) as M'.
  { intros I. apply M. apply (Permutation_in k (Permutation_sym (sort_perm (dict_keys dm)))). exact I. }
  apply dict_get_None in M'. rewrite M'. reflexivity.
Qed.

(* data maps that differ anywhere never share a key *)
Lemma key_injective name sql name' sql' (dm dm' : pydict string F) :
  NoDup (dict_keys dm) -> NoDup (dict_keys dm') ->
  make_key name sql dm = make_key name' sql' dm' ->
  name = name' /\ sql = sql' /\ forall k, dict_get dm k = dict_get dm' k.
Proof.
  intros _ _ E. unfold Cache.make_key in E. injection E as En Es Et.
  split; [exact En|]. split; [exact Es|]. intros k.
  pose proof (key_third_get dm k) as A. pose proof (key_third_get dm' k) as B.
  rewrite Et in A. rewrite A in B.
  destruct (dict_get dm k) as [f|], (dict_get dm' k) as [f'|]; simpl in B; try congruence.
  injection B as B. apply hash_inj in B. congruence.
Qed.

(* equal data maps (as maps, whatever their insertion order) get the same key *)
Lemma key_deterministic name sql (dm dm' : pydict string F) :
  NoDup (dict_keys dm) -> NoDup (dict_keys dm') ->
  (forall k, dict_get dm k = dict_get dm' k) -> make_key name sql dm = make_key name sql dm'.
Proof.
  intros N N' E. unfold Cache.make_key. f_equal.
  assert (Permutation (dict_keys dm) (dict_keys dm')) as P.
  { apply NoDup_Permutation; try assumption. intros k.
    assert (forall d : pydict string F, In k (dict_keys d) <-> dict_get d k <> None) as X.
    { intros d. rewrite dict_get_None. destruct (in_dec eq_dec k (dict_keys d)); tauto. }
    rewrite !X, E. reflexivity. }
  rewrite (sort_canon _ _ P). apply flat_map_ext. intros k. rewrite E. reflexivity.
Qed.

(* ---- auxiliary: the simulation relation between the concrete and the abstract machine *)
Lemma set_nth_length {A} i (v : A) l : List.length (set_nth i v l) = List.length l.
Proof. revert i. induction l as [|x t IH]; intros [|i]; simpl; auto. Qed.

Lemma nth_error_set_nth_other {A} i j (v : A) l : i <> j -> nth_error (set_nth i v l) j = nth_error l j.
Proof. revert i j. induction l as [|x t IH]; intros [|i] [|j] N; simpl; auto; congruence. Qed.

Definition cell_ok (owned : list loc) (h : list F) (ol : option loc) (ov : option F) : Prop :=
  match ol, ov with
  | Some l, Some v => nth_error h l = Some v /\ ~ In l owned
  | None, None => True
  | _, _ => False
  end.

Definition R (owned : list loc) (cs : cstate) (s2 : astate) : Prop :=
  heap cs = aheap s2 /\
  (forall k, cell_ok owned (heap cs) (dict_get (cache cs) k) (dict_get (acache s2) k)) /\
  (forall l, In l owned -> l < List.length (heap cs)).

Lemma cell_app owned h x ol ov : cell_ok owned h ol ov -> cell_ok owned (h ++ [x]) ol ov.
Proof.
  destruct ol as [l|], ov as [v|]; simpl; auto. intros [E N]. split; [|exact N].
  rewrite nth_error_app1; [exact E|]. apply nth_error_Some. congruence.
Qed.

Lemma cell_own owned h n ol ov : List.length h <= n -> cell_ok owned h ol ov -> cell_ok (n :: owned) h ol ov.
Proof.
  destruct ol as [l|], ov as [v|]; simpl; auto. intros L [E N]. split; [exact E|].
  assert (l < List.length h) by (apply nth_error_Some; congruence).
  intros [e|i]; [lia|contradiction].
Qed.

Lemma cell_set_nth owned h l0 f ol ov : In l0 owned -> cell_ok owned h ol ov -> cell_ok owned (set_nth l0 f h) ol ov.
Proof.
  destruct ol as [l|], ov as [v|]; simpl; auto. intros I [E N]. split; [|exact N].
  rewrite nth_error_set_nth_other; [exact E|]. intros ->. contradiction.
Qed.

Lemma nth_error_snoc {A} (h : list A) x : nth_error (h ++ [x]) (List.length h) = Some x.
Proof. rewrite nth_error_app2 by lia. rewrite Nat.sub_diag. reflexivity. Qed.

(* growing the heap by a cell handed to the caller *)
Lemma R_alloc_owned owned h c d d' c2 x :
  R owned (mkc h c d) (mka h c2) ->
  R (List.length h :: owned) (mkc (h ++ [x]) c d') (mka (h ++ [x]) c2).
Proof.
  intros (_ & Hc & Ho). simpl in *. split; [reflexivity|]. simpl. split.
  - intros k. apply cell_app, cell_own; [lia|apply Hc].
  - intros l [<-|I]; rewrite app_length; simpl; [lia|]. specialize (Ho l I). lia.
Qed.

(* growing the heap by a private cell recorded in the cache *)
Lemma R_alloc_private owned h c d d' c2 x k :
  R owned (mkc h c d) (mka h c2) ->
  R owned (mkc (h ++ [x]) (dict_set c k (List.length h)) d') (mka (h ++ [x]) (dict_set c2 k x)).
Proof.
  intros (_ & Hc & Ho). simpl in *. split; [reflexivity|]. simpl. split.
  - intros k'. destruct (eq_dec k' k) as [->|n].
    + rewrite !dict_get_set_same. simpl. split; [apply nth_error_snoc|].
      intros I. specialize (Ho _ I). lia.
    + rewrite !dict_get_set_other by exact n. apply cell_app, Hc.
  - intros l I. rewrite app_length; simpl. specialize (Ho l I). lia.
Qed.

Lemma step_sim owned cs s2 o :
  R owned cs s2 -> mutates_only owned o = true ->
  snd (c_step cs o) = snd (a_step s2 o) /\
  R (match snd (c_step cs o) with RLoc l => l :: owned | _ => owned end) (fst (c_step cs o)) (fst (a_step s2 o)).
Proof.
  intros HR Hm. destruct cs as [h c d], s2 as [h2 c2].
  assert (h2 = h) as -> by (destruct HR as (E & _); simpl in E; congruence).
  pose proof HR as (_ & Hc & Ho). simpl in Hc, Ho.
  destruct o as [f|l f|name sql dm res|name sql dm|l]; unfold Cache.c_step, Cache.a_step; simpl heap; simpl aheap;
    simpl cache; simpl acache; simpl dirty.
  - simpl. split; [reflexivity|]. apply R_alloc_owned with (d := d). exact HR.
  - simpl in Hm. apply mem_In in Hm.
    destruct (Nat.ltb l (List.length h)); simpl; [|split; [reflexivity|exact HR]].
    split; [reflexivity|]. split; [reflexivity|]. simpl. split.
    + intros k. apply cell_set_nth; [exact Hm|apply Hc].
    + intros l0 I. rewrite set_nth_length. apply Ho, I.
  - destruct (resolve h dm) as [m|]; [|simpl; split; [reflexivity|exact HR]].
    destruct (nth_error h res) as [r|]; [|simpl; split; [reflexivity|exact HR]].
    pose proof (Hc (make_key name sql m)) as Hk. unfold cell_ok in Hk.
    destruct (dict_get c (make_key name sql m)) as [pl|], (dict_get c2 (make_key name sql m)) as [v|]; try contradiction.
    + destruct Hk as [E N]. rewrite E. destruct (eqb v r); simpl.
      * split; [reflexivity|exact HR].
      * split; [reflexivity|]. apply R_alloc_private with (d := d). exact HR.
    + simpl. split; [reflexivity|]. apply R_alloc_private with (d := d). exact HR.
  - destruct (resolve h dm) as [m|]; [|simpl; split; [reflexivity|exact HR]].
    pose proof (Hc (make_key name sql m)) as Hk. unfold cell_ok in Hk.
    destruct (dict_get c (make_key name sql m)) as [pl|], (dict_get c2 (make_key name sql m)) as [v|]; try contradiction.
    + destruct Hk as [E N]. rewrite E. simpl. split; [reflexivity|]. apply R_alloc_owned with (d := d). exact HR.
    + simpl. split; [reflexivity|exact HR].
  - destruct (nth_error h l); simpl; (split; [reflexivity|exact HR]).
Qed.

Lemma refine_gen ops : forall cs s2 owned,
  R owned cs s2 -> well_behaved hash sort_keys cs owned ops = true ->
  run_c hash sort_keys cs ops = run_a hash sort_keys s2 ops.
Proof.
  induction ops as [|o t IH]; intros cs s2 owned HR W; simpl in *; [reflexivity|].
  apply andb_true_iff in W as [Hm W].
  pose proof (step_sim owned cs s2 o HR Hm) as [Eo HR'].
  destruct (c_step cs o) as [cs' r]. destruct (a_step s2 o) as [s2' r'].
  simpl in *. subst r'. f_equal. eapply IH; eassumption.
Qed.

(* refinement: as long as the caller only mutates frames it was handed (results of CNew / CGet), the cache with
   private copies behaves exactly like a map from keys to frame VALUES: same outputs, operation by operation *)
Lemma cache_refines_value_map (ops : list cop) :
  well_behaved hash sort_keys c_init [] ops = true ->
  run_c hash sort_keys c_init ops = run_a hash sort_keys a_init ops.
Proof.
  intros W. apply (refine_gen ops c_init a_init []); [|exact W].
  split; [reflexivity|]. split; [intros k; exact I | intros l []].
Qed.

(* a lookup succeeds only after a store under an equal key, and returns (a copy of) the latest stored value *)
Lemma a_get_spec (s : astate) name sql dm m :
  resolve (aheap s) dm = Some m ->
  snd (a_step s (CGet name sql dm)) =
    match dict_get (acache s) (make_key name sql m) with Some r => RLoc (List.length (aheap s)) | None => RKeyError end
  /\ (forall r, dict_get (acache s) (make_key name sql m) = Some r ->
        nth_error (aheap (fst (a_step s (CGet name sql dm)))) (List.length (aheap s)) = Some r).
Proof.
  intros E. unfold Cache.a_step. rewrite E.
  destruct (dict_get (acache s) (make_key name sql m)) as [r|]; simpl.
  - split; [reflexivity|]. intros r0 [= <-]. apply nth_error_snoc.
  - split; [reflexivity|]. intros r0 [=].
Qed.

Lemma a_store_spec (s : astate) name sql dm res m r :
  resolve (aheap s) dm = Some m -> nth_error (aheap s) res = Some r ->
  dict_get (acache (fst (a_step s (CStore name sql dm res)))) (make_key name sql m) = Some r /\
  forall k, k <> make_key name sql m -> dict_get (acache (fst (a_step s (CStore name sql dm res)))) k = dict_get (acache s) k.
Proof.
  intros E E2. unfold Cache.a_step. rewrite E, E2.
  destruct (dict_get (acache s) (make_key name sql m)) as [prev|] eqn:G; simpl.
  - destruct (eqb prev r) eqn:Q; simpl.
    + apply (proj1 (eqb_true prev r)) in Q. subst prev. split; [exact G|reflexivity].
    + split; [apply dict_get_set_same | intros k n; apply dict_get_set_other, n].
  - split; [apply dict_get_set_same | intros k n; apply dict_get_set_other, n].
Qed.

(* mutating caller frames and reading never touch the abstract cache *)
Lemma a_cache_only_changed_by_store (s : astate) o :
  (forall name sql dm res, o <> CStore name sql dm res) -> acache (fst (a_step s o)) = acache s.
Proof.
  intros N. destruct o as [f|l f|name sql dm res|name sql dm|l]; simpl.
  - reflexivity.
  - destruct (Nat.ltb l (List.length (aheap s))); reflexivity.
  - exfalso. exact (N name sql dm res eq_refl).
  - destruct (resolve (aheap s) dm) as [m|]; [|reflexivity].
    destruct (dict_get (acache s) (make_key name sql m)); reflexivity.
  - destruct (nth_error (aheap s) l); reflexivity.
Qed.
End P.

