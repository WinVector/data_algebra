(* C16, part 3: the emulations of Model/JoinEmul.v.
   - a RIGHT join is the mirrored LEFT join (sources exchanged, key lists exchanged WITH them, shared columns coalesced
     second-source-first), up to the arrangement of columns and rows: for every key specification;
   - SQLite's _emit_right_join_as_left_join exchanges the sources but NOT the key lists: right for same-named keys,
     refuted for differently named keys that both tables carry;
   - a FULL join that does not coalesce its key columns (the Polars executor before c106ad7) leaves the keys of right-only
     rows NULL: refuted, right when every right row has a partner. *)
From Coq Require Import List Bool QArith String Permutation.
Import ListNotations.
From DA Require Import Base.PyRT Base.Val Model.Sem Model.JoinSpec Model.JoinEmul Proofs.SemBasicP Proofs.JoinP1 Proofs.JoinP2 Proofs.ListP Proofs.TabP.
Local Open Scope list_scope.

Section JoinRowsMaps.
  Context {A B C D : Type} (hit : A -> B -> bool) (g : C -> D).

  Lemma matched_rows_swap (mk : A -> B -> C) la lb :
    Permutation (matched_rows hit mk la lb) (matched_rows (fun y x => hit x y) (fun y x => mk x y) lb la).
  Proof. apply (flat_map_swap (fun x y => if hit x y then [mk x y] else [])). Qed.

  Lemma map_matched_rows (mk : A -> B -> C) la lb : map g (matched_rows hit mk la lb) = matched_rows hit (fun x y => g (mk x y)) la lb.
  Proof.
    unfold matched_rows. rewrite map_flat_map. apply flat_map_ext. intros x. rewrite map_flat_map.
    apply flat_map_ext. intros y. destruct (hit x y); reflexivity.
  Qed.

  Lemma map_unmatched_rows (mk : A -> C) la lb : map g (unmatched_rows hit mk la lb) = unmatched_rows hit (fun x => g (mk x)) la lb.
  Proof. unfold unmatched_rows. rewrite map_flat_map. apply flat_map_ext. intros x. destruct (existsb (hit x) lb); reflexivity. Qed.

  Lemma unmatched_rows_nil (mk : A -> C) la lb : filter (fun x => negb (existsb (hit x) lb)) la = [] -> unmatched_rows hit mk la lb = [].
  Proof. intros E. rewrite unmatched_rows_filter, E. reflexivity. Qed.
End JoinRowsMaps.

(* ---------- key matching is symmetric *)
Lemma keys_match_sym nm ka kb : keys_match nm ka kb = keys_match nm kb ka.
Proof.
  unfold keys_match. rewrite (keys_eqv_sym ka kb). destruct (keys_eqv kb ka) eqn:E; [|rewrite !andb_false_r; reflexivity].
  rewrite (keys_eqv_null_free kb ka E). reflexivity.
Qed.

(* ---------- re-reading a row of the mirrored join in the declared column order *)
Lemma In_swapped_cols ca cb c : In c (swapped_cols ca cb) <-> In c ca \/ In c cb.
Proof.
  unfold swapped_cols. rewrite !in_app_iff, !filter_In, !negb_true_iff. split.
  - intros [[H _]|[[H _]|[H _]]]; auto.
  - intros [H|H].
    + destruct (mem c cb) eqn:M; [|right; right; split; [exact H|reflexivity]].
      apply mem_In in M. left. split; [exact M|apply mem_In, H].
    + destruct (mem c ca) eqn:M; [left; split; [exact H|reflexivity]|right; left; split; [exact H|reflexivity]].
Qed.

Lemma reread_swapped ca cb ra rb :
  map (get (swapped_cols ca cb) (map (coalesce_cell ca cb ra rb) (swapped_cols ca cb))) (out_cols ca cb) = select_row ca cb ra rb.
Proof.
  rewrite select_row_coalesce. apply map_ext_in. intros c I. apply get_map_in.
  apply In_swapped_cols. apply In_out_cols in I. exact I.
Qed.

(* ---------- RIGHT join = mirrored LEFT join, for every key specification and both matching rules *)
Theorem right_join_is_mirrored_left_join nm on_a on_b a b :
  Permutation (reorder_rows (mirror_left_join nm on_a on_b a b) (out_cols (cols a) (cols b)))
              (rows (sem_join nm on_a on_b JRight a b)).
Proof.
  rewrite sem_join_unfold. unfold reorder_rows, mirror_left_join, join_rows. cbn [cols rows app].
  rewrite map_app. apply Permutation_app.
  - eapply perm_trans; [|apply matched_rows_swap]. apply Permutation_refl'.
    etransitivity; [apply map_matched_rows|]. apply matched_rows_ext_in.
    + intros rb ra _ _. apply keys_match_sym.
    + intros rb ra. apply reread_swapped.
  - apply Permutation_refl'. etransitivity; [apply map_unmatched_rows|]. apply unmatched_rows_ext_in.
    + intros rb ra _ _. apply keys_match_sym.
    + intros rb. apply reread_swapped.
Qed.

Lemma mirror_left_join_cols nm on_a on_b a b c :
  In c (cols (mirror_left_join nm on_a on_b a b)) <-> In c (out_cols (cols a) (cols b)).
Proof. unfold mirror_left_join. cbn [cols]. rewrite In_swapped_cols, In_out_cols. reflexivity. Qed.

(* ---------- SQLite: _emit_right_join_as_left_join *)
Lemma sqlite_right_emul_is_right_join on_a on_b a b :
  incl on_a (cols a) -> incl on_b (cols b) ->
  exists t, sqlite_right_emul on_a on_b a b = Some t
            /\ Permutation (reorder_rows t (out_cols (cols a) (cols b))) (rows (sem_join false on_a on_b JRight a b))
            /\ (forall c, In c (cols t) <-> In c (out_cols (cols a) (cols b))).
Proof.
  intros Ha Hb. unfold sqlite_right_emul.
  assert (subset on_a (cols a) = true) as Sa by (apply subset_spec; exact Ha).
  assert (subset on_b (cols b) = true) as Sb by (apply subset_spec; exact Hb).
  rewrite Sa, Sb. cbn [andb]. eexists. split; [reflexivity|]. split.
  - apply right_join_is_mirrored_left_join.
  - intros c. apply mirror_left_join_cols.
Qed.

Local Open Scope string_scope.
(* exchanging the sources WITHOUT exchanging the key lists (ON b.p = a.q instead of a.p = b.q) is not the RIGHT join *)
Definition right_witness_a : table := mktable ["p"; "q"; "x"] [[VNum 1; VNum 7; VNum 10]; [VNum 2; VNum 1; VNum 11]].
Definition right_witness_b : table := mktable ["p"; "q"; "y"] [[VNum 2; VNum 1; VNum 20]; [VNum 5; VNum 3; VNum 21]].
Lemma mirror_without_exchanging_key_lists_refuted :
  exists on_a on_b a b, List.length on_a = List.length on_b /\ incl on_a (cols a) /\ incl on_b (cols b) /\
    ~ Permutation (reorder_rows (mirror_left_join false on_b on_a a b) (out_cols (cols a) (cols b))) (sql_join_rows SRight (combine on_a on_b) a b).
Proof.
  exists ["p"], ["q"], right_witness_a, right_witness_b. split; [reflexivity|].
  split; [intros c [<-|[]]; left; reflexivity|]. split; [intros c [<-|[]]; right; left; reflexivity|].
  intros P. apply (Permutation_in [VNum 2; VNum 1; VNull; VNum 20]) in P.
  - vm_compute in P. destruct P as [P|[P|P]]; try discriminate. exact P.
  - vm_compute. left. reflexivity.
Qed.

(* ---------- a FULL join must coalesce its key columns too *)
(* a full join that keeps the two key columns apart and coalesces only the shared NON-key columns (what the Polars executor
   did before c106ad7): rows found only on the right keep NULL in the key columns *)
Local Close Scope string_scope.
Definition full_join_keys_not_coalesced (J : list string) (a b : table) : table :=
  let ca := cols a in let cb := cols b in
  let out := ca ++ filter (fun c => negb (mem c ca)) cb in
  let hit (ra rb : list val) := keys_match false (key_of ca J ra) (key_of cb J rb) in
  mktable out
    (rows (sem_join false J J JLeft a b)
     ++ flat_map (fun rb => if existsb (fun ra => hit ra rb) (rows a) then []
                            else [map (fun c => if mem c J then VNull else coalesce_cell ca cb None (Some rb) c) out]) (rows b)).

Lemma keys_not_coalesced_ok_when_every_right_row_matches J a b :
  unmatched_right (combine J J) a b = [] ->
  full_join_keys_not_coalesced J a b = sem_join false J J JFull a b.
Proof.
  intros U. unfold full_join_keys_not_coalesced. rewrite !(sem_join_is_spec J J _ a b eq_refl). cbv zeta.
  cbn [jt_of]. unfold sql_join_spec. cbn [rows]. rewrite full_join_rows, U. f_equal. f_equal.
  (* no right row is unmatched, so nothing is added, whatever would have been written *)
  apply unmatched_rows_nil. etransitivity; [|exact U]. apply filter_ext. intros rb. f_equal.
  apply existsb_ext_in. intros ra _. symmetry. apply on_holds_keys_match. reflexivity.
Qed.

Local Open Scope string_scope.
Definition pl_witness_a : table := mktable ["k"; "x"] [[VNum 1; VNum 10]].
Definition pl_witness_b : table := mktable ["k"; "y"] [[VNum 3; VNum 23]].
Lemma full_join_keys_not_coalesced_refuted :
  exists J a b, ~ Permutation (rows (full_join_keys_not_coalesced J a b)) (sql_join_rows SFull (combine J J) a b).
Proof.
  exists ["k"], pl_witness_a, pl_witness_b. intros P.
  apply (Permutation_in [VNull; VNull; VNum 23]) in P.
  - vm_compute in P. destruct P as [P|[P|P]]; try discriminate. exact P.
  - vm_compute. right. left. reflexivity.
Qed.
