(* C18, part 2: project over a permuted input.
   The groups of a project are the classes of key-equivalent rows; they do not depend on the row order, and each aggregate
   is permutation-invariant (PermP1).  The only order-dependent ingredient of Model/Sem.v is WHICH of several equivalent key
   values labels the group (the first one met): with `keys_exact` (equivalent key values are identical -- true whenever a key
   column holds one representation of each value) the result rows are a permutation, cell for cell. *)
From Coq Require Import List Bool String Permutation Sorted.
Import ListNotations.
From DA Require Import Base.PyRT Base.Val Model.Sem Proofs.SemBasicP Proofs.SemOrderP Proofs.PermP1 Proofs.ListP.
Local Open Scope list_scope.

(* equivalent group keys are identical: True / 1 / 1.0 do not occur side by side in one key column *)
Definition keys_exact (cs gb : list string) (rs : list (list val)) : Prop :=
  forall r1 r2, In r1 rs -> In r2 rs -> keys_eqv (key_of cs gb r1) (key_of cs gb r2) = true -> key_of cs gb r1 = key_of cs gb r2.

Lemma distinct_keys_nodup ks : NoDup (distinct_keys ks).
Proof.
  assert (forall l : list (list val), ForallOrdPairs (fun a b => keys_eqv a b = false) l -> NoDup l) as G.
  { induction 1 as [|a l Ha Hl IH]; constructor; [|exact IH].
    intros I. rewrite Forall_forall in Ha. specialize (Ha a I). rewrite keys_eqv_refl in Ha. discriminate. }
  apply G, distinct_keys_pairwise.
Qed.

Lemma distinct_keys_perm ks ks' :
  Permutation ks ks' -> (forall a b, In a ks -> In b ks -> keys_eqv a b = true -> a = b) ->
  Permutation (distinct_keys ks) (distinct_keys ks').
Proof.
  intros P X.
  assert (forall a b, In a ks' -> In b ks' -> keys_eqv a b = true -> a = b) as X'.
  { intros a b Ia Ib. apply X; eapply Permutation_in; try eassumption; apply Permutation_sym, P. }
  assert (forall l, (forall a b, In a l -> In b l -> keys_eqv a b = true -> a = b) -> forall k, In k (distinct_keys l) <-> In k l) as M.
  { intros l Xl k. split; [apply distinct_keys_sound|]. intros I.
    destruct (distinct_keys_complete l k I) as [k' [I' E]].
    rewrite (Xl k' k (distinct_keys_sound _ _ I') I E) in I'. exact I'. }
  apply NoDup_Permutation; try apply distinct_keys_nodup.
  intros k. rewrite (M ks X), (M ks' X'). split; intros I; eapply Permutation_in; try eassumption. apply Permutation_sym, P.
Qed.

Lemma project_perm fl ops gb t t' :
  cols t = cols t' -> Permutation (rows t) (rows t') -> keys_exact (cols t) gb (rows t) ->
  cols (sem_project fl ops gb t) = cols (sem_project fl ops gb t')
  /\ Permutation (rows (sem_project fl ops gb t)) (rows (sem_project fl ops gb t')).
Proof.
  intros C P X. unfold sem_project. cbn [cols rows]. rewrite <- C. split; [reflexivity|].
  set (f := fun rs (k : list val) => k ++ map (fun ke : string * expr => agg_value fl (cols t) (filter (fun r => keys_eqv k (key_of (cols t) gb r)) rs) (snd ke)) ops).
  change (Permutation (map (f (rows t)) match gb with [] => [[]] | _ :: _ => distinct_keys (map (key_of (cols t) gb) (rows t)) end)
                      (map (f (rows t')) match gb with [] => [[]] | _ :: _ => distinct_keys (map (key_of (cols t) gb) (rows t')) end)).
  assert (forall k, f (rows t) k = f (rows t') k) as E.
  { intros k. unfold f. f_equal. apply map_ext. intros ke. apply agg_value_perm, perm_filter, P. }
  rewrite (map_ext _ _ E). apply Permutation_map.
  destruct gb as [|g gb]; [apply Permutation_refl|].
  apply distinct_keys_perm; [apply Permutation_map, P|].
  intros a b Ia Ib Eab. apply in_map_iff in Ia, Ib. destruct Ia as [r1 [<- I1]], Ib as [r2 [<- I2]].
  apply X; assumption.
Qed.
