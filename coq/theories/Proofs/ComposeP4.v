(* C07 -- proofs about Model/Compose.v, part 4: when act_on accepts; witnesses showing that the hypotheses of the main
   theorems are needed, and that the forwarding of the tree before the C07 fixes breaks the property. *)
From Coq Require Import List Bool String QArith .
Import ListNotations.
From DA Require Import Base.PyRT Base.Val Model.Sem Proofs.SemBasicP Model.Compose Proofs.ComposeP Proofs.ComposeP2 Proofs.ComposeP3.
Local Open Scope string_scope.
Local Open Scope list_scope.

(* a >> b on a single-table pipeline b is defined exactly when b's tables are consistent and the column SETS agree *)
Lemma rshift_accepts_iff k a b cs :
  only_table k b -> dict_get (leaves b) k = Some cs ->
  rshift a b = if tables_consistent (leaves b) && set_eqb (column_names a) cs then Some (compose_at k a b) else None.
Proof.
  intros O D. unfold rshift. rewrite (act_on_single k b a O), D. unfold compose_at.
  destruct (tables_consistent (leaves b)); [|reflexivity]. destruct (set_eqb (column_names a) cs); reflexivity.
Qed.

(* ---------------------------------------------------------------- witnesses *)
Definition q (n : Z) : val := VNum (Qred (n # 1)).
Definition t_d : table := mktable ["x"; "g"] [[q 1; q 1]; [q 2; q 1]; [q 3; q 2]].
Definition env_d : env := [("d", t_d)].
Definition a_ext : op := OExtend (OTable "d" ["x"; "g"]) [("y", EOp "+" [ECol "x"; EConst (q 1)])] false (mkwin [] [] []).

(* 1. the boundary condition cannot be dropped: the replacement brings one column more than the leaf declares *)
Definition b_narrow : op := OSelectRows (OTable "e" ["x"; "g"]) (EOp ">" [ECol "x"; EConst (q 1)]).
Lemma boundary_needed :
  built_ok b_narrow = true /\
  sem_gen fl_spec (replace_leaves [("e", a_ext)] b_narrow) env_d <> sem_gen fl_spec b_narrow (override fl_spec env_d [("e", a_ext)]).
Proof. split; [reflexivity|]. vm_compute. discriminate. Qed.

(* 2. equal column SETS (all that act_on and DataOpArrow.act_on test) do not give equal tables: the column order of
      the composed pipeline is the replacement's, the column order of sequential application is the leaf's *)
Definition a_swapped : op := OSelectCols (OTable "d" ["x"; "g"]) ["g"; "x"].
Definition b_keep : op := OSelectRows (OTable "e" ["x"; "g"]) (EOp ">" [ECol "x"; EConst (q 1)]).
Lemma set_boundary_column_order :
  exists c, rshift a_swapped b_keep = Some c /\
            sem_gen fl_spec c env_d <> sem_gen fl_spec b_keep (env_set env_d "e" (sem_gen fl_spec a_swapped env_d)).
Proof. eexists. split; [vm_compute; reflexivity|]. vm_compute. discriminate. Qed.

(* 3. before the fix MapColumnsNode.replace_leaves forwarded only the remapping: the composed pipeline keeps column g *)
Definition b_mapdel : op := OMapCols (OTable "e" ["x"; "g"; "y"]) [("xx", "x")] ["g"].
Lemma map_columns_before_fix :
  built_ok b_mapdel = true /\ boundary_ok [("e", a_ext)] b_mapdel = true /\
  sem_gen fl_spec (replace_leaves_with fw_before_fixes [("e", a_ext)] b_mapdel) env_d
    <> sem_gen fl_spec b_mapdel (override fl_spec env_d [("e", a_ext)]).
Proof. split; [reflexivity|]. split; [reflexivity|]. vm_compute. discriminate. Qed.

(* 4. before the fix ExtendNode.replace_leaves forwarded partition_by=[] for a node built with partition_by=1: the
      rebuilt node is not windowed, and `_size()` is not evaluated over the whole table *)
Definition b_size1 : op := OExtend (OTable "e" ["x"; "g"; "y"]) [("n", EOp "_size" [])] true (mkwin [] [] []).
Lemma extend_partition_one_before_fix :
  built_ok b_size1 = true /\ boundary_ok [("e", a_ext)] b_size1 = true /\
  sem_gen fl_spec (replace_leaves_with fw_before_fixes [("e", a_ext)] b_size1) env_d
    <> sem_gen fl_spec b_size1 (override fl_spec env_d [("e", a_ext)]).
Proof. split; [reflexivity|]. split; [reflexivity|]. vm_compute. discriminate. Qed.

(* the same two inputs satisfy the property with the forwarding of the fixed code (instances of replace_leaves_sem) *)
Lemma map_columns_after_fix :
  sem_gen fl_spec (replace_leaves [("e", a_ext)] b_mapdel) env_d = sem_gen fl_spec b_mapdel (override fl_spec env_d [("e", a_ext)]).
Proof. apply replace_leaves_sem; reflexivity. Qed.
Lemma extend_partition_one_after_fix :
  sem_gen fl_spec (replace_leaves [("e", a_ext)] b_size1) env_d = sem_gen fl_spec b_size1 (override fl_spec env_d [("e", a_ext)]).
Proof. apply replace_leaves_sem; reflexivity. Qed.

(* ---------------------------------------------------------------- non-vacuity instances *)
Definition b_win : op :=
  OOrder (OExtend (OSelectRows (OTable "e" ["x"; "g"; "y"]) (EOp ">" [ECol "x"; EConst (q 0)]))
                  [("c", EOp "cumsum" [ECol "y"])] true (mkwin ["g"] ["x"] ["x"]))
         ["x"] ["x"] (Some 2%nat).
Definition c_join : op :=
  OJoin (OTable "f" ["x"; "g"; "y"; "c"]) (OProject (OTable "f" ["x"; "g"; "y"; "c"]) [("m", EOp "max" [ECol "c"])] ["g"]) ["g"] ["g"] JLeft.

Lemma example_hypotheses :
  built_ok b_win = true /\ leaf_declares "e" (column_names a_ext) b_win = true /\ nodupb (column_names a_ext) = true /\
  built_ok c_join = true /\ leaf_declares "f" (column_names (compose_at "e" a_ext b_win)) c_join = true /\
  (exists t, sem_gen fl_spec (compose_at "f" (compose_at "e" a_ext b_win) c_join) env_d = Some t /\ List.length (rows t) = 2%nat).
Proof. repeat split; try reflexivity. eexists. split; [vm_compute; reflexivity|reflexivity]. Qed.

Lemma example_arrows :
  exists a b c, data_op_arrow a_ext None = Some a /\ data_op_arrow b_win None = Some b /\ arrow_rshift a b = Some c /\
                dom c = ["x"; "g"] /\ cod c = ["c"; "g"; "x"; "y"] /\ column_names a_ext = a_incoming b.
Proof. eexists. eexists. eexists. repeat split; vm_compute; reflexivity. Qed.

Lemma example_rshift_assoc :
  only_table "e" b_win /\ only_table "f" c_join /\ leaves_nodup b_win = true /\
  exists r, obind (rshift a_ext b_win) (fun ab => rshift ab c_join) = Some r.
Proof.
  split; [intros n [<-|[]]; reflexivity|]. split; [intros n [<-|[<-|[]]]; reflexivity|]. split; [reflexivity|].
  eexists. vm_compute. reflexivity.
Qed.

(* ---------------------------------------------------------------- statements as used by Props/C07.v *)
Lemma composed_columns m p : built_ok p = true -> boundary_ok m p = true -> column_names (replace_leaves m p) = column_names p.
Proof. intros B1 B2. rewrite (replace_leaves_subst m p B1). apply subst_column_names. exact B2. Qed.

Lemma compose_assoc ka kb a b c : built_ok b = true -> built_ok c = true -> (ka = kb \/ ~ In ka (table_names c)) ->
  compose_at kb (compose_at ka a b) c = compose_at ka a (compose_at kb b c)
  /\ forall fl env, sem_gen fl (compose_at kb (compose_at ka a b) c) env = sem_gen fl (compose_at ka a (compose_at kb b c)) env.
Proof. intros Bb Bc H. pose proof (compose_assoc_tree ka kb a b c Bb Bc H) as E. split; [exact E|]. intros fl env. rewrite E. reflexivity. Qed.

Lemma without_boundary_refuted :
  exists fl m p env, built_ok p = true /\ sem_gen fl (replace_leaves m p) env <> sem_gen fl p (override fl env m).
Proof. exists fl_spec, [("e", a_ext)], b_narrow, env_d. exact boundary_needed. Qed.

Lemma set_boundary_refuted :
  exists fl a b c env, rshift a b = Some c /\ sem_gen fl c env <> sem_gen fl b (env_set env "e" (sem_gen fl a env)).
Proof. destruct set_boundary_column_order as [c [R N]]. exists fl_spec, a_swapped, b_keep, c, env_d. split; assumption. Qed.

Lemma map_columns_before_fix_refuted :
  exists fl m p env, built_ok p = true /\ boundary_ok m p = true /\
  sem_gen fl (replace_leaves_with fw_before_fixes m p) env <> sem_gen fl p (override fl env m).
Proof. exists fl_spec, [("e", a_ext)], b_mapdel, env_d. exact map_columns_before_fix. Qed.

Lemma extend_partition_one_before_fix_refuted :
  exists fl m p env, built_ok p = true /\ boundary_ok m p = true /\
  sem_gen fl (replace_leaves_with fw_before_fixes m p) env <> sem_gen fl p (override fl env m).
Proof. exists fl_spec, [("e", a_ext)], b_size1, env_d. exact extend_partition_one_before_fix. Qed.
