(* Witnesses.  The keys the code builds do NOT make the cache sound:
     (1) the SQL-level extend merge returns the inner step, changed in place, under the inner step's ops_key; a second use of
         the un-merged inner sub-pipeline has that very key and is replaced by the merged common table expression;
     (2) to_with_form_stub turns an ops_key of None (raw query steps: user SQL, record transforms) into the text "None":
         all such steps with the same column narrowing share one key.
   Both are exhibited on a small concrete engine (tables = lists of rows of integers) and replayed on the real code by the
   check (listed findings).  With the proposed repairs (flags code_repaired) both witnesses translate correctly. *)
From Coq Require Import List Bool String ZArith.
Import ListNotations.
From DA Require Import Base.PyRT Model.NearSql Model.WithForm Model.SqlMerge Proofs.WithFormP1 Proofs.WithFormP2.
Local Open Scope string_scope.
Local Open Scope list_scope.

(* ------------------------------------------------------------------ a small compositional engine *)
Definition row := list (string * Z).
Definition tab := list row.
Definition rget (r : row) (k : string) : Z := match dict_get r k with Some v => v | None => 0%Z end.
(* the two expressions of the witnesses *)
Definition toy_expr (e : string) (r : row) : Z :=
  if String.eqb e """c"" + 1" then (rget r "c" + 1)%Z
  else if String.eqb e "SUM(""a"") OVER ( ORDER BY ""b"" )" then rget r "a"       (* one-row tables: the running sum is the value *)
  else 0%Z.
Definition toy_term (tms : option terms) (k : string) (r : row) : Z :=
  match tms with
  | Some t => match dict_get t k with
              | Some (Some e) => if String.eqb e k then rget r k else toy_expr e r
              | _ => rget r k
              end
  | None => rget r k
  end.
Definition toy_cols (tms : option terms) (cols : option (list string)) (r : row) : list string :=
  match cols with Some c => c | None => match tms with Some t => map fst t | None => map fst r end end.
Definition toy_select (tms : option terms) (cols : option (list string)) (t : tab) : tab :=
  map (fun r => map (fun k => (k, toy_term tms k r)) (toy_cols tms cols r)) t.
Definition toy_raw0 (p : list string) : tab :=
  match p with
  | ["SELECT a AS p FROM d"] => [[("p", 1%Z)]]
  | ["SELECT c AS p FROM d"] => [[("p", 7%Z)]]
  | _ => []
  end.
Definition toy : engine tab :=
  mk_engine (fun cols t => match cols with [] => t | _ => toy_select None (Some cols) t end)
            (fun tms cols sfx t => toy_select tms cols t)
            (fun tms cols j sfx p1 p2 t1 t2 => toy_select tms cols (t1 ++ t2))          (* UNION ALL *)
            (fun p sfx a => toy_raw0 p)
            (fun p sfx a t => t).
Definition toy_db : env tab := fun n => if String.eqb n """d""" then [[("a", 1%Z); ("b", 4%Z); ("c", 7%Z)]] else [].

(* ------------------------------------------------------------------ witness 1: merged extend shared with its own prefix *)
(*   t2 = t.extend({'x': 'a.cumsum()'}, order_by=['b']);  t2.extend({'c': 'c + 1'}).concat_rows(t2)
     as generated with allow_extend_merges=False (names and keys shortened) *)
Definition w_cols := ["a"; "b"; "c"; "x"].
Definition w_inner (name : string) : nearsql :=
  NUnary name (Some [("a", None); ("b", None); ("c", None); ("x", Some "SUM(""a"") OVER ( ORDER BY ""b"" )")])
         (NTable """d""" (Some [("a", Some """a"""); ("b", Some """b"""); ("c", Some """c""")])) (mk_ci (Some ["a"; "b"; "c"]) false None)
         [] (Some "extend({'x': 'a.cumsum()'}, order_by=['b'])") true
         (Some [("a", ["a"]); ("b", ["b"]); ("c", ["c"]); ("x", ["a"; "b"])]) (Some "extend(t2, [a, b, c, x])").
Definition w_outer : nearsql :=
  NUnary """extend_1""" (Some [("a", None); ("b", None); ("x", None); ("c", Some """c"" + 1")])
         (w_inner """extend_0""") (mk_ci (Some w_cols) false None)
         [] (Some "extend({'c': 'c + 1'})") true
         (Some [("a", ["a"]); ("b", ["b"]); ("x", ["x"]); ("c", ["c"])]) (Some "extend(t3, [a, b, x, c])").
Definition w_unmerged : nearsql :=
  NBinary """concat_rows_3""" (Some [("a", None); ("b", None); ("c", None); ("x", None)])
          w_outer (mk_ci (Some w_cols) true None) "UNION ALL" (w_inner """extend_2""") (mk_ci (Some w_cols) true None)
          [] (Some "concat_rows(...)") (Some "concat(...)").

(* the generation with merges allowed, as the code stands and as repaired *)
Definition w_merged (fl : flags) : nearsql := match merge_tree fl w_unmerged with Some q => q | None => w_unmerged end.

Lemma w_merged_is_merged : exists tm dm,
  w_merged code_as_found =
  NBinary """concat_rows_3""" (Some [("a", None); ("b", None); ("c", None); ("x", None)])
    (NUnary """extend_0""" (Some tm) (NTable """d""" (Some [("a", Some """a"""); ("b", Some """b"""); ("c", Some """c""")]))
            (mk_ci (Some ["a"; "b"; "c"]) false None) [] (Some "extend({'x': 'a.cumsum()'}, order_by=['b']).extend({'c': 'c + 1'})")
            true (Some dm) (Some "extend(t2, [a, b, c, x])"))
    (mk_ci (Some w_cols) true None) "UNION ALL" (w_inner """extend_2""") (mk_ci (Some w_cols) true None)
    [] (Some "concat_rows(...)") (Some "concat(...)")
  /\ dict_get tm "c" = Some (Some """c"" + 1").
Proof. do 2 eexists. split; vm_compute; reflexivity. Qed.

Lemma w_hygienic fl : hygienic (w_merged fl) = true.
Proof. destruct fl as [[] [] [] []]; vm_compute; reflexivity. Qed.

(* the two operands of the UNION ALL have the same cache key and different meanings *)
Lemma w_keys_collide :
  exists c1 c2 k, In c1 (conts (w_merged code_as_found)) /\ In c2 (conts (w_merged code_as_found)) /\
    ckey code_as_found c1 = Some k /\ ckey code_as_found c2 = Some k /\ csem toy toy_db c1 <> csem toy toy_db c2.
Proof.
  eexists (_, _), (_, _), _. split; [|split; [|split; [|split]]].
  - vm_compute. left. reflexivity.
  - vm_compute. right. left. reflexivity.
  - vm_compute. reflexivity.
  - vm_compute. reflexivity.
  - vm_compute. discriminate.
Qed.

Lemma w_not_cache_sound : ~ cache_sound toy code_as_found (w_merged code_as_found).
Proof.
  intros H. destruct w_keys_collide as (c1 & c2 & k & I1 & I2 & K1 & K2 & D).
  destruct (H c1 c2 k I1 I2 K1 K2) as (E & _). exact (D (E toy_db)).
Qed.

(* CTE elimination changes the result: the second operand now also has c + 1 *)
Lemma w_cte_elim_wrong :
  nsem_with toy toy_db (fst (to_with_form code_as_found (Some []) (w_merged code_as_found)))
  <> nsem toy toy_db (w_merged code_as_found) None.
Proof. vm_compute. discriminate. Qed.
Lemma w_values :
  nsem toy toy_db (w_merged code_as_found) None
    = [[("a", 1); ("b", 4); ("c", 8); ("x", 1)]; [("a", 1); ("b", 4); ("c", 7); ("x", 1)]]%Z /\
  nsem_with toy toy_db (fst (to_with_form code_as_found (Some []) (w_merged code_as_found)))
    = [[("a", 1); ("b", 4); ("c", 8); ("x", 1)]; [("a", 1); ("b", 4); ("c", 8); ("x", 1)]]%Z /\
  nsem toy toy_db w_unmerged None = nsem toy toy_db (w_merged code_as_found) None.
Proof. vm_compute. repeat split. Qed.

(* with the merged step re-keyed (repair) the same pipeline translates correctly, and so does it without the cache *)
Lemma w_repaired_right :
  nsem_with toy toy_db (fst (to_with_form code_repaired (Some []) (w_merged code_repaired)))
  = nsem toy toy_db (w_merged code_repaired) None
  /\ nsem_with toy toy_db (fst (to_with_form code_as_found None (w_merged code_as_found)))
  = nsem toy toy_db (w_merged code_as_found) None.
Proof. vm_compute. split; reflexivity. Qed.

(* ------------------------------------------------------------------ witness 2: two raw query steps, ops_key None *)
Definition r_cols := ["p"].
Definition r_query : nearsql :=
  NBinary """concat_rows_0""" (Some [("p", None)])
          (NRaw0 """v1""" ["SELECT a AS p FROM d"] [] (Some "user supplied SQL") false None) (mk_ci (Some r_cols) true None)
          "UNION ALL"
          (NRaw0 """v2""" ["SELECT c AS p FROM d"] [] (Some "user supplied SQL") false None) (mk_ci (Some r_cols) true None)
          [] (Some "concat_rows(...)") (Some "concat(...)").

Lemma r_hygienic : hygienic r_query = true.
Proof. vm_compute. reflexivity. Qed.
Lemma r_keys_are_the_text_None :
  map (ckey code_as_found) (conts r_query) = [Some "None_['p']"; Some "None_['p']"]
  /\ map (ckey code_repaired) (conts r_query) = [None; None].
Proof. vm_compute. split; reflexivity. Qed.
Lemma r_cte_elim_wrong :
  nsem toy toy_db r_query None = [[("p", 1%Z)]; [("p", 7%Z)]] /\
  nsem_with toy toy_db (fst (to_with_form code_as_found (Some []) r_query)) = [[("p", 1%Z)]; [("p", 1%Z)]] /\
  nsem_with toy toy_db (fst (to_with_form code_repaired (Some []) r_query)) = [[("p", 1%Z)]; [("p", 7%Z)]].
Proof. vm_compute. repeat split. Qed.

Theorem cte_elim_preserves_refuted :
  exists (T : Type) (E : engine T) (q : nearsql) (r : env T),
    hygienic q = true /\ (exists u, merge_tree code_as_found u = Some q) /\
    nsem_with E r (fst (to_with_form code_as_found (Some []) q)) <> nsem E r q None.
Proof.
  exists tab, toy, (w_merged code_as_found), toy_db. split; [apply w_hygienic|]. split; [|apply w_cte_elim_wrong].
  exists w_unmerged. vm_compute. reflexivity.
Qed.

Theorem cte_elim_preserves_refuted_none_key :
  exists (T : Type) (E : engine T) (q : nearsql) (r : env T),
    hygienic q = true /\ nsem_with E r (fst (to_with_form code_as_found (Some []) q)) <> nsem E r q None.
Proof.
  exists tab, toy, r_query, toy_db. split; [apply r_hygienic|]. vm_compute. discriminate.
Qed.

(* ------------------------------------------------------------------ the guard is satisfiable: genuine reuse *)
(* two uses of ONE sub-pipeline (equal up to the generated names) under the same key: sound for EVERY engine *)
Definition g_sub (name : string) : nearsql :=
  NUnary name (Some [("a", None); ("y", Some """a"" + 1")]) (NTable """d""" None) (mk_ci (Some ["a"]) false None)
         [] None true (Some [("a", ["a"]); ("y", ["a"])]) (Some "extend(t, [a, y])").
Definition g_query : nearsql :=
  NBinary """natural_join_0""" (Some [("a", Some "COALESCE(l.a, r.a)"); ("y", Some "COALESCE(l.y, r.y)")])
          (g_sub """extend_1""") (mk_ci (Some ["a"; "y"]) false (Some "l")) "LEFT JOIN"
          (g_sub """extend_2""") (mk_ci (Some ["a"; "y"]) false (Some "r")) ["ON l.a = r.a"] None (Some "join(...)").

Lemma g_cache_sound (T : Type) (E : engine T) (fl : flags) : cache_sound E fl g_query.
Proof.
  intros c1 c2 k I1 I2 K1 K2. simpl in I1, I2.
  destruct I1 as [<-|[<-|[]]]; destruct I2 as [<-|[<-|[]]]; (split; [intros r; reflexivity|split; [intros k'; reflexivity|intros []]]).
Qed.
Lemma g_reuses :
  map fst (w_prev (fst (to_with_form code_as_found (Some []) g_query))) = ["""extend_1"""]
  /\ map fst (w_prev (fst (to_with_form code_as_found None g_query))) = ["""extend_1"""; """extend_2"""]
  /\ hygienic g_query = true.
Proof. vm_compute. repeat split. Qed.

(* ------------------------------------------------------------------ the guards of the merge theorem are satisfiable *)
(* columns are integers here; the one expression reads column c only, as its declared dependencies say *)
Definition m_tsem (e : string) (f : string -> option Z) : option Z :=
  if String.eqb e """c"" + 1" then option_map (fun v => (v + 1)%Z) (f "c") else None.
Definition m_terms : terms := [("a", None); ("b", None); ("x", None); ("c", Some """c"" + 1")].
Definition m_deps : depmap := [("a", ["a"]); ("b", ["b"]); ("x", ["x"]); ("c", ["c"])].

Lemma m_merge_happens :
  exists m, sql_merge code_as_found (w_inner """extend_0""") m_terms m_deps "extend({'c': 'c + 1'})" (Some "k") = MYes m.
Proof. eexists. vm_compute. reflexivity. Qed.
Lemma m_guards :
  NoDup (map fst m_deps) /\ (forall c, In c (map fst m_terms) -> In c (map fst m_deps)) /\
  deps_describe m_tsem m_terms m_deps /\
  (forall c d, In c (map fst m_terms) -> In d (deps_of m_deps c) -> In d w_cols).
Proof.
  split; [repeat constructor; simpl; intuition discriminate|]. split; [simpl; tauto|]. split.
  - intros k e G Ne f f' A. apply dict_get_In in G. destruct G as [G|[G|[G|[G|[]]]]]; try discriminate G.
    injection G as <- <-. unfold m_tsem. simpl. rewrite (A "c"); [reflexivity|]. vm_compute. left; reflexivity.
  - intros c d Ic Id. simpl in Ic. destruct Ic as [<-|[<-|[<-|[<-|[]]]]]; vm_compute in Id; vm_compute; intuition.
Qed.
