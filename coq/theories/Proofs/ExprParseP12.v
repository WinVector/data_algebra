(* Proofs/ExprParseP12.v -- C13, part 3: structural equality is equality; the round-trip record; leaves and
   collections. *)
From Coq Require Import List Bool String QArith Lia.
Import ListNotations.
From DA Require Import Model.PyExpr Model.ExprPrint Model.ExprParse Model.ExprAst Model.ExprRoundtrip
  Proofs.ExprParseP1 Proofs.ExprParseP2 Proofs.ExprParseP10.
Local Close Scope Q_scope.
Local Open Scope string_scope.
Local Open Scope bool_scope.
Local Open Scope list_scope.

(* ------------------------------------------------------------------ expr_eqb *)
Lemma Qeqb_s_eq a b : Qeqb_s a b = true -> a = b.
Proof. destruct a as [an ad], b as [bn bd]. unfold Qeqb_s. simpl. intros H. apply andb_prop in H as [H1 H2].
  apply Z.eqb_eq in H1. apply Pos.eqb_eq in H2. subst. reflexivity. Qed.

Lemma pval_eqb_eq a b : pval_eqb a b = true -> a = b.
Proof. destruct a, b; simpl; intros H; try discriminate H; try reflexivity.
  - apply Bool.eqb_prop in H. subst. reflexivity.
  - apply Z.eqb_eq in H. subst. reflexivity.
  - apply andb_prop in H as [H1 H2]. apply Bool.eqb_prop in H1. apply Qeqb_s_eq in H2. subst. reflexivity.
  - apply Bool.eqb_prop in H. subst. reflexivity.
  - apply String.eqb_eq in H. subst. reflexivity. Qed.

Lemma list_eqb_eq {A} (f : A -> A -> bool) (l1 : list A) :
  (forall x y, In x l1 -> f x y = true -> x = y) -> forall l2, list_eqb f l1 l2 = true -> l1 = l2.
Proof. induction l1 as [|x l1 IH]; intros Hf [|y l2] H; simpl in H; try discriminate H; [reflexivity|].
  apply andb_prop in H as [H1 H2]. f_equal; [apply Hf; [left; reflexivity|exact H1]|].
  apply IH; [intros a b Ha; apply Hf; right; exact Ha|exact H2]. Qed.

Fixpoint esize (e : expr) : nat :=
  match e with
  | EOp _ _ _ _ args => S (fold_right (fun a n => esize a + n) 0 args)
  | _ => 1
  end.
Lemma esize_arg op i m p args x : In x args -> esize x < esize (EOp op i m p args).
Proof. simpl. induction args as [|y args IH]; simpl; intros H; [destruct H|]. destruct H as [->|H]; [lia|]. specialize (IH H). lia. Qed.

Lemma expr_size_ind (Q : expr -> Prop) : (forall e, (forall x, esize x < esize e -> Q x) -> Q e) -> forall e, Q e.
Proof. intros H e. assert (A : forall n x, esize x < n -> Q x).
  { induction n as [|n IH]; intros x Hx; [lia|]. apply H. intros y Hy. apply IH. lia. }
  exact (A (S (esize e)) e (Nat.lt_succ_diag_r _)). Qed.

Lemma expr_eqb_eq : forall a b, expr_eqb a b = true -> a = b.
Proof. induction a as [a IH] using expr_size_ind. intros b H.
  destruct a as [x|x|x|x|o i m p xs], b as [y|y|y|y|o' i' m' p' ys]; simpl in H; try discriminate H.
  - apply String.eqb_eq in H. subst. reflexivity.
  - apply pval_eqb_eq in H. subst. reflexivity.
  - f_equal. apply (list_eqb_eq pval_eqb); [intros a b _; apply pval_eqb_eq|exact H].
  - f_equal. revert H. apply list_eqb_eq. intros [a1 a2] [b1 b2] _ E. simpl in E.
    apply andb_prop in E as [E1 E2]. apply pval_eqb_eq in E1. apply pval_eqb_eq in E2. subst. reflexivity.
  - apply andb_prop in H as [H Hxs]. apply andb_prop in H as [H Hp]. apply andb_prop in H as [H Hm]. apply andb_prop in H as [Ho Hi].
    apply String.eqb_eq in Ho. apply Bool.eqb_prop in Hi. apply Bool.eqb_prop in Hm. subst.
    assert (p = p').
    { destruct p as [l|], p' as [l'|]; simpl in Hp; try discriminate Hp; [|reflexivity]. f_equal.
      revert Hp. apply list_eqb_eq. intros [a1 a2] [b1 b2] _ E. simpl in E.
      apply andb_prop in E as [E1 E2]. apply String.eqb_eq in E1. apply pval_eqb_eq in E2. subst. reflexivity. }
    subst. f_equal. apply (list_eqb_eq expr_eqb xs); [|exact Hxs].
    intros a b Ha E. exact (IH a (esize_arg o' i' m' p' xs a Ha) b E). Qed.

Lemma res_expr_eqb_Ok r e : res_expr_eqb r (Ok e) = true -> r = Ok e.
Proof. destruct r as [x|]; simpl; [|discriminate]. intros H. apply expr_eqb_eq in H. subst. reflexivity. Qed.

Lemma Qeqb_s_refl q : Qeqb_s q q = true.
Proof. unfold Qeqb_s. rewrite Z.eqb_refl, Pos.eqb_refl. reflexivity. Qed.
Lemma pval_eqb_refl v : pval_eqb v v = true.
Proof. destruct v; simpl; try reflexivity.
  - apply Bool.eqb_reflx. - apply Z.eqb_refl. - rewrite Bool.eqb_reflx, Qeqb_s_refl. reflexivity.
  - apply Bool.eqb_reflx. - apply String.eqb_refl. Qed.
Lemma list_eqb_refl {A} (f : A -> A -> bool) l : (forall x, In x l -> f x x = true) -> list_eqb f l l = true.
Proof. induction l as [|x l IH]; intros H; [reflexivity|]. simpl. rewrite (H x (or_introl eq_refl)), IH; [reflexivity|].
  intros y Hy. apply H. right. exact Hy. Qed.
Lemma expr_eqb_refl : forall e, expr_eqb e e = true.
Proof. induction e as [e IH] using expr_size_ind. destruct e as [x|x|x|x|o i m p xs]; simpl.
  - apply String.eqb_refl.
  - apply pval_eqb_refl.
  - apply list_eqb_refl. intros; apply pval_eqb_refl.
  - apply list_eqb_refl. intros [a b] _. simpl. rewrite !pval_eqb_refl. reflexivity.
  - rewrite String.eqb_refl, !Bool.eqb_reflx. cbn [andb].
    assert (Hp : params_eqb_s p p = true).
    { destruct p as [l|]; [|reflexivity]. simpl. apply list_eqb_refl. intros [a b] _. simpl.
      rewrite String.eqb_refl, pval_eqb_refl. reflexivity. }
    rewrite Hp. cbn [andb]. apply list_eqb_refl. intros a Ha. exact (IH a (esize_arg o i m p xs a Ha)). Qed.
Lemma res_expr_eqb_refl r e : r = Ok e -> res_expr_eqb r (Ok e) = true.
Proof. intros ->. simpl. apply expr_eqb_refl. Qed.

(* ------------------------------------------------------------------ the statement proved for every printable e *)
Record rt_ok (c : cfg) (dd : list string) (e : expr) : Prop := mkrt {
  rt_unparse : forall want, unparse (dtree_of want e) = fst (to_py want e);
  rt_wfn : forall want, wfn (dtree_of want e) = true;
  rt_walk : forall want, walk c dd (strip (dtree_of want e)) = Ok e
}.

Lemma strip_par_when b d : strip (par_when b d) = strip d.
Proof. destruct b; reflexivity. Qed.
Lemma wfn_par_when b d : wfn (par_when b d) = wfn d.
Proof. destruct b; reflexivity. Qed.
Lemma unparse_par_when b d : unparse (par_when b d) = if b then paren (unparse d) else unparse d.
Proof. destruct b; reflexivity. Qed.

(* an operand constant is an atom: printed with a sign it is parenthesised *)
Lemma dlvl_operand_val v : dlvl (par_when (true && prints_with_sign v) (dval v)) = 12.
Proof. destruct (true && prints_with_sign v) eqn:N; [reflexivity|]. simpl par_when. apply dlvl_dval_signless.
  destruct v as [|b|z|neg m|neg|s]; simpl in *; try reflexivity; rewrite N; reflexivity. Qed.

(* as an operand (want_inline_parens) every expression prints as an atom *)
Lemma dlvl_operand e : dlvl (dtree_of true e) = 12.
Proof. destruct e as [n|v|vs|kvs|op i m p args]; try reflexivity; [apply dlvl_operand_val|].
  destruct args as [|a [|b more]]; cbn [dtree_of]; destruct i; try reflexivity; destruct m; reflexivity. Qed.

Lemma at_least_operand L e : L <= 12 -> at_least L (dtree_of true e) = true.
Proof. intros H. unfold at_least. rewrite dlvl_operand. apply Nat.leb_le. exact H. Qed.

Section RT.
Variables (c : cfg) (dd : list string).

(* ---- leaves *)
Lemma rt_col n : printable c dd (ECol n) = true -> rt_ok c dd (ECol n).
Proof. simpl. intros H. apply andb_prop in H as [Hm _]. constructor; try reflexivity.
  intros want. cbn [dtree_of strip]. rewrite walk_node_eq, (wn_var c "var"); [|simpl; tauto].
  cbn [map nth walk]. rewrite Hm. reflexivity. Qed.

Lemma rt_val v : printable c dd (EVal v) = true -> rt_ok c dd (EVal v).
Proof. simpl. intros H. apply negb_true_iff in H. constructor.
  - intros want. cbn [dtree_of to_py]. rewrite unparse_par_when, unparse_dval. destruct (want && prints_with_sign v); reflexivity.
  - intros want. cbn [dtree_of]. rewrite wfn_par_when. apply wfn_dval.
  - intros want. cbn [dtree_of]. rewrite strip_par_when. apply walk_dval. exact H. Qed.

Lemma all_ok_map_Ok {A B} (f : A -> res B) (g : A -> B) l : (forall x, In x l -> f x = Ok (g x)) -> all_ok (map f l) = Ok (map g l).
Proof. induction l as [|x l IH]; intros H; [reflexivity|]. cbn [map all_ok]. rewrite (H x (or_introl eq_refl)), IH; [reflexivity|].
  intros y Hy. apply H. right. exact Hy. Qed.

Lemma all_some_unwrap vs : all_some (map (fun e => match e with EVal v => Some v | _ => None end) (map EVal vs)) = Some vs.
Proof. induction vs as [|v vs IH]; [reflexivity|]. cbn [map all_some]. rewrite IH. reflexivity. Qed.

Lemma existsb_inf_false vs v : existsb is_inf vs = false -> In v vs -> is_inf v = false.
Proof. intros H Hv. destruct (is_inf v) eqn:E; [|reflexivity]. rewrite <- H. symmetry. apply existsb_exists. exists v. split; assumption. Qed.

Lemma rt_list vs : printable c dd (EList vs) = true -> rt_ok c dd (EList vs).
Proof. simpl. intros H. apply andb_prop in H as [H Hc]. apply andb_prop in H as [Hi Hn].
  apply negb_true_iff in Hi. apply negb_true_iff in Hn.
  assert (Hwalk : all_ok (map (walk c dd) (map strip (map dval vs))) = Ok (map EVal vs)).
  { rewrite !map_map. apply all_ok_map_Ok. intros v Hv. apply walk_dval. exact (existsb_inf_false _ _ Hi Hv). }
  constructor.
  - intros want. cbn [dtree_of to_py unparse open_tok close_tok]. rewrite commas_join, !map_map.
    cbn [fst]. change (open_tok BBrack) with (TSym "["). change (close_tok BBrack) with (TSym "]").
    rewrite (map_ext (fun x => unparse (dval x)) val_toks unparse_dval). reflexivity.
  - intros want. cbn [dtree_of wfn]. apply andb_true_intro. split.
    + rewrite forallb_forall. intros x Hx. apply in_map_iff in Hx as [v [<- _]]. apply wfn_dval.
    + destruct vs as [|v vs']; reflexivity.
  - intros want. cbn [dtree_of].
    destruct vs as [|v [|v2 vs]].
    + (* [] *)
      cbn [map strip]. rewrite walk_node_eq, wn_list. cbn [coll_items all_ok map all_some]. cbn [map] in Hc.
      rewrite Hn, Hc. reflexivity.
    + (* the lone item itself *)
      cbn [map strip]. destruct (strip_dval_kind v) as [d [cs [Ed Hd]]].
      assert (Hw : walk c dd (strip (dval v)) = Ok (EVal v)).
      { apply walk_dval. apply (existsb_inf_false [v] v Hi). left. reflexivity. }
      rewrite walk_node_eq, wn_list. rewrite Ed. cbn [coll_items]. rewrite Hd. cbn [map nth]. rewrite <- Ed, Hw.
      cbn [all_ok map all_some]. cbn [map] in Hc. rewrite Hn, Hc. reflexivity.
    + assert (H2 : all_ok (map (walk c dd) (strip (dval v) :: strip (dval v2) :: map strip (map dval vs)))
                   = Ok (map EVal (v :: v2 :: vs))) by exact Hwalk.
      change (strip (DColl BBrack (map dval (v :: v2 :: vs)) false))
        with (LNode "list" [LNode "tuplelist_comp" (strip (dval v) :: strip (dval v2) :: map strip (map dval vs))]).
      rewrite walk_node_eq, wn_list. cbn [coll_items]. change (mem_str "tuplelist_comp" ["tuplelist_comp"; "set_comp"]) with true.
      cbv iota. rewrite H2, all_some_unwrap, Hn, Hc. reflexivity. Qed.

End RT.
