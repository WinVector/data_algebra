(* PEXEC, part 4: _project_step (scratch column of ones, constant stand-in columns, groupby(dropna=False) + agg, reset_index,
   missing group columns on empty input, the closing keyed check) refines sem_project: same columns, and the rows of the
   reference semantics in SORTED key order (pandas sorts the groups; the reference semantics lists them by first occurrence). *)
From Coq Require Import List Bool Arith String Lia Permutation Sorted.
Import ListNotations.
From DA Require Import Base.PyRT Base.Val Model.Sem Model.PdPrim Model.PandasExec
  Proofs.SemBasicP Proofs.SemOrderP Proofs.ComposeP5 Proofs.PandasExecP1 Proofs.PandasExecP2 Proofs.PandasExecP3 Proofs.ListP Proofs.TabP.
Local Open Scope string_scope.
Local Open Scope list_scope.

(* ------------------------------------------------------------------ frames that carry extra (scratch) columns *)
(* t2 is t with more columns: same number of rows, every cell of t readable under its name *)
Definition extends_by (t t2 : table) : Prop :=
  width_ok t2 /\ (forall c, In c (cols t) -> In c (cols t2)) /\
  Forall2 (fun r2 r => forall c, In c (cols t) -> get (cols t2) r2 c = get (cols t) r c) (rows t2) (rows t).

Lemma extends_refl t : width_ok t -> extends_by t t.
Proof. intros W. split; [exact W|]. split; [auto|]. apply Forall2_refl. intros r c _. reflexivity. Qed.

Lemma extends_set_scalar t t2 name v : extends_by t t2 -> ~ In name (cols t) -> extends_by t (pd_set_scalar name v t2).
Proof.
  intros [W [I F]] N. split; [apply width_set_scalar, W|]. split.
  - intros c Ic. unfold pd_set_scalar. cbn [cols]. apply In_add_end. left. apply I, Ic.
  - eapply Forall2_trans; [|apply (set_scalar_row_eqv name v t2 W)|exact F].
    intros a b c Hab Hbc x Ix. cbn [cols pd_set_scalar]. rewrite (Hab x). destruct (eq_dec x name) as [->|ne]; [contradiction|]. apply Hbc, Ix.
Qed.

Lemma extends_rows_len t t2 : extends_by t t2 -> List.length (rows t2) = List.length (rows t).
Proof. intros [_ [_ F]]. apply (Forall2_len _ _ _ F). Qed.

Lemma extends_getcol t t2 c : extends_by t t2 -> In c (cols t) -> getcol t2 c = getcol t c.
Proof. intros [_ [_ F]] I. unfold getcol. eapply ColumnsUsedP1.F2_map_eq; [exact F|]. intros a b H. apply H, I. Qed.

Lemma extends_keys t t2 ks : extends_by t t2 -> (forall c, In c ks -> In c (cols t)) ->
  map (key_of (cols t2) ks) (rows t2) = map (key_of (cols t) ks) (rows t).
Proof.
  intros [_ [_ F]] S. eapply ColumnsUsedP1.F2_map_eq; [exact F|]. intros a b H. unfold key_of. apply map_ext_in. intros c Ic. apply H, S, Ic.
Qed.

(* a column holding one constant *)
Definition const_col (t2 : table) (name : string) (v : val) : Prop :=
  In name (cols t2) /\ Forall (fun r2 => get (cols t2) r2 name = v) (rows t2).

Lemma const_col_set_scalar t2 name v : width_ok t2 -> const_col (pd_set_scalar name v t2) name v.
Proof.
  intros W. split; [unfold pd_set_scalar; cbn [cols]; apply In_add_end; right; reflexivity|].
  pose proof (set_scalar_row_eqv name v t2 W) as F. cbn [cols pd_set_scalar] in *.
  revert F. generalize (rows (pd_set_scalar name v t2)). generalize (rows t2). intros l l' F.
  induction F as [|a b l' l H F IH]; constructor; [|exact IH]. rewrite (H name). destruct (eq_dec name name); [reflexivity|congruence].
Qed.
Lemma const_col_keep t2 name v name' v' : width_ok t2 -> name <> name' -> const_col t2 name v -> const_col (pd_set_scalar name' v' t2) name v.
Proof.
  intros W Ne [I F]. split; [unfold pd_set_scalar; cbn [cols]; apply In_add_end; left; exact I|].
  pose proof (set_scalar_row_eqv name' v' t2 W) as G. cbn [cols pd_set_scalar] in *.
  revert G F. generalize (rows (pd_set_scalar name' v' t2)). generalize (rows t2). intros l l' G.
  induction G as [|a b l' l H G IH]; intros F; constructor.
  - rewrite (H name). destruct (eq_dec name name'); [congruence|]. inversion F; assumption.
  - apply IH. inversion F; assumption.
Qed.
Lemma const_col_getcol t2 name v : const_col t2 name v -> getcol t2 name = map (fun _ => v) (rows t2).
Proof. intros [_ F]. unfold getcol. apply map_ext_in. intros r I. rewrite Forall_forall in F. apply F, I. Qed.

(* ------------------------------------------------------------------ the collection loop of _project_step *)
Definition pinv (base : list string) (t : table) (st : pstate) : Prop :=
  extends_by t (ps_res st) /\ (forall c, In c (cols (ps_res st)) -> In c (ps_names st)) /\
  (forall v name, In (v, name) (ps_temps st) -> const_col (ps_res st) name v /\ ~ In name (cols t) /\ ~ In name base) /\
  (forall c, In c base -> In c (ps_names st)) /\
  (forall c, In c (cols (ps_res st)) -> In c (cols t) \/ exists v, In (v, c) (ps_temps st)).

Lemma const_lookup_In v d name : const_lookup v d = Some name -> In (v, name) d.
Proof.
  induction d as [|[v' n] d IH]; simpl; [discriminate|]. destruct (eq_dec v v') as [->|ne]; intros H.
  - inversion H; subst. left. reflexivity.
  - right. apply IH, H.
Qed.

Lemma pcollect_cases st ke st' : pcollect st ke = Some st' ->
  st' = st \/
  exists v name, ~ In name (ps_names st) /\
    st' = mkps (ps_temps st ++ [(v, name)]) (ps_names st ++ [name]) (pd_set_scalar name v (ps_res st)).
Proof.
  unfold pcollect. destruct (agg_shape (snd ke)) as [[fn [[c|v]|]]|]; try discriminate; try (intros H; injection H as <-; left; reflexivity).
  destruct (const_lookup v (ps_temps st)); intros H; injection H as <-; [left; reflexivity|].
  right. eexists v, _. split; [apply unused_column_name_fresh|reflexivity].
Qed.

Lemma pcollect_inv base t st ke st' : pinv base t st -> (forall c, In c (cols t) -> In c (ps_names st)) ->
  pcollect st ke = Some st' -> pinv base t st' /\ (forall c, In c (ps_names st) -> In c (ps_names st')).
Proof.
  intros Iv Nt H. destruct (pcollect_cases _ _ _ H) as [->|[v [name [Fr ->]]]]; [split; [exact Iv|auto]|]. clear H.
  destruct Iv as [[W [I F]] [Nm [Tm [Bs Cs]]]].
  assert (~ In name (cols t)) as N1 by (intros J; apply Fr, Nt, J).
  split; [|intros c Ic; cbn [ps_names]; apply in_app_iff; left; exact Ic].
  split; [apply extends_set_scalar; [split; [exact W|split; assumption]|exact N1]|]. cbn [ps_res ps_names ps_temps]. split; [|split; [|split]].
  - intros c Ic. unfold pd_set_scalar in Ic. cbn [cols] in Ic. apply In_add_end in Ic. apply in_app_iff.
    destruct Ic as [Ic| ->]; [left; apply Nm, Ic|right; left; reflexivity].
  - intros v0 n0 I0. apply in_app_iff in I0. destruct I0 as [I0|[I0|[]]].
    + destruct (Tm _ _ I0) as [Cc [Nn Nb]]. split; [|split; assumption]. apply const_col_keep; [exact W| |exact Cc].
      intros ->. apply Fr, Nm, Cc.
    + injection I0 as <- <-. split; [apply const_col_set_scalar, W|]. split; [exact N1|]. intros Ib. apply Fr, Bs, Ib.
  - intros c Ic. apply in_app_iff. left. apply Bs, Ic.
  - intros c Ic. unfold pd_set_scalar in Ic. cbn [cols] in Ic. apply In_add_end in Ic. destruct Ic as [Ic| ->].
    + destruct (Cs c Ic) as [Ict|[v0 Iv]]; [left; exact Ict|right; exists v0; apply in_app_iff; left; exact Iv].
    + right. exists v. apply in_app_iff. right. left. reflexivity.
Qed.

Lemma pcollect_fold base t ops : forall st st', pinv base t st -> (forall c, In c (cols t) -> In c (ps_names st)) ->
  fold_left (fun acc ke => s <- acc ;; pcollect s ke) ops (Some st) = Some st' ->
  pinv base t st' /\ (forall c, In c (ps_names st) -> In c (ps_names st')).
Proof.
  induction ops as [|ke ops IH]; intros st st' Iv Nt H; simpl in H.
  - inversion H; subst. split; [exact Iv|auto].
  - destruct (pcollect st ke) as [st1|] eqn:E.
    + destruct (pcollect_inv _ _ _ _ _ Iv Nt E) as [Iv1 Inc]. cbn [obind] in H.
      destruct (IH _ _ Iv1 (fun c I => Inc c (Nt c I)) H) as [Iv' Inc']. split; [exact Iv'|]. intros c I. apply Inc', Inc, I.
    + cbn [obind] in H. exfalso. clear -H. induction ops as [|k o IHo]; simpl in H; [discriminate|apply IHo, H].
Qed.

(* ------------------------------------------------------------------ one aggregate *)
(* what the builders guarantee about a project (Model-level guard, see wf_op in Props/PEXEC.v):
   an argument column exists; the only zero-argument aggregate is _size() *)
Definition agg_ok (cs : list string) (e : expr) : Prop :=
  match agg_shape e with
  | Some (fn, Some (WCol c)) => In c cs
  | Some (fn, Some (WConst _)) => True
  | Some (fn, None) => fn = "_size"
  | None => True
  end.

Lemma filter_combine_keys {R} (K : R -> list val) (V : R -> val) (k : list val) (rs : list R) :
  map snd (filter (fun kv => keys_eqv k (fst kv)) (combine (map K rs) (map V rs))) = map V (filter (fun r => keys_eqv k (K r)) rs).
Proof. induction rs as [|r rs IH]; simpl; [reflexivity|]. destruct (keys_eqv k (K r)); simpl; rewrite IH; reflexivity. Qed.

Lemma agg_names_map fn : mem (transform_op_map fn) agg_names = true -> transform_op_map fn = fn.
Proof. unfold transform_op_map. destruct (String.eqb fn "any_value") eqn:E; [discriminate|reflexivity]. Qed.

(* the values an aggregate ranges over, per row of the ORIGINAL frame *)
Definition agg_arg (cs : list string) (e : expr) (r : list val) : val :=
  match agg_parts e with Some (_, Some a) => eval_expr fl_pandas cs r a | _ => VBool true end.

Lemma agg_value_arg cs grp e fn arg : agg_parts e = Some (fn, arg) -> agg_value fl_pandas cs grp e = agg_fn fl_pandas fn (map (agg_arg cs e) grp).
Proof. intros H. unfold agg_value, agg_arg. rewrite H. destruct arg; reflexivity. Qed.

Lemma agg_size_ones (l : list (list val)) : agg_fn fl_pandas "size" (map (fun _ => vone) l) = agg_fn fl_pandas "_size" (map (fun _ => VBool true) l).
Proof. destruct l; simpl; [reflexivity|]. rewrite !map_length. reflexivity. Qed.

Lemma map_const_len {A B C} (v : C) (l : list A) (m : list B) : List.length l = List.length m -> map (fun _ => v) l = map (fun _ => v) m.
Proof. revert m. induction l as [|a l IH]; intros [|b m] L; simpl in *; try discriminate; [reflexivity|]. f_equal. apply IH. lia. Qed.

(* which column of the frame an aggregate reads, and which pandas aggregate it runs on it: the argument column, the stand-in
   column of a constant argument, or the scratch column of ones for fn() *)
Definition agg_source (temps : list (val * string)) (T : string) (e : expr) : option (string * string) :=
  match agg_shape e with
  | None => None
  | Some (fn, Some (WCol c)) => Some (c, transform_op_map fn)
  | Some (fn, Some (WConst v)) => name <- const_lookup v temps ;; Some (name, transform_op_map fn)
  | Some (fn, None) => z <- strip_underscore fn ;; Some (T, transform_op_map z)
  end.

Lemma pagg_source rkeys temps T res ke :
  pagg rkeys temps T res ke
  = (src <- agg_source temps T (snd ke) ;; vals <- pd_col (fst src) res ;; x <- agg_on rkeys vals (snd src) ;; Some (fst ke, x)).
Proof.
  unfold pagg, agg_source. destruct (agg_shape (snd ke)) as [[fn [[c|v]|]]|]; try reflexivity.
  - destruct (const_lookup v temps); reflexivity.
  - destruct (strip_underscore fn); reflexivity.
Qed.

(* that column as a function of the ORIGINAL rows, and the aggregate over it as the reference value *)
Lemma agg_source_vals t res2 temps T e c fn' :
  extends_by t res2 -> const_col res2 T vone -> (forall v name, In (v, name) temps -> const_col res2 name v) ->
  agg_ok (cols t) e -> agg_source temps T e = Some (c, fn') ->
  exists V, getcol res2 c = map V (rows t) /\
            (mem fn' agg_names = true -> forall grp, agg_fn fl_pandas fn' (map V grp) = agg_value fl_pandas (cols t) grp e).
Proof.
  intros E CT CC Ok H. unfold agg_ok in Ok. unfold agg_source in H.
  destruct e as [c0|v0|o args]; [discriminate H|discriminate H|].
  destruct args as [|a [|b rest]]; [| |destruct a; discriminate H].
  - (* fn() *)
    cbn [agg_shape] in *. subst o. cbn in H. injection H as <- <-. rewrite (const_col_getcol _ _ _ CT).
    exists (fun _ => vone). split; [apply map_const_len, extends_rows_len, E|].
    intros _ grp. unfold agg_value. cbn [agg_parts]. apply agg_size_ones.
  - destruct a as [c1|v|o' args']; [| |discriminate H]; cbn [agg_shape] in *.
    + (* fn(column) *)
      injection H as <- <-. rewrite (extends_getcol _ _ _ E Ok).
      exists (fun r => get (cols t) r c1). split; [reflexivity|]. intros M grp. rewrite (agg_names_map _ M). reflexivity.
    + (* fn(constant) *)
      destruct (const_lookup v temps) as [name|] eqn:El; cbn [obind] in H; [|discriminate]. injection H as <- <-.
      rewrite (const_col_getcol _ _ _ (CC _ _ (const_lookup_In _ _ _ El))).
      exists (fun _ => v). split; [apply map_const_len, extends_rows_len, E|]. intros M grp. rewrite (agg_names_map _ M). reflexivity.
Qed.

Lemma agg_shape_fst e fn arg : agg_shape e = Some (fn, arg) -> True.
Proof. trivial. Qed.

(* pagg: the value handed to columns_to_frame_ for one output *)
Definition agg_groups (t : table) (gb : list string) (e : expr) (gk : list (list val)) : list val :=
  map (fun key => agg_value fl_pandas (cols t) (filter (fun r => keys_eqv key (key_of (cols t) gb r)) (rows t)) e) gk.

Lemma pagg_spec t gb res2 temps T rkeys ke k x :
  extends_by t res2 -> const_col res2 T vone -> (forall v name, In (v, name) temps -> const_col res2 name v) ->
  agg_ok (cols t) (snd ke) ->
  (rkeys = None \/ rkeys = Some (map (key_of (cols t) gb) (rows t))) ->
  pagg rkeys temps T res2 ke = Some (k, x) ->
  k = fst ke /\
  x = match rkeys with
      | None => CScalar (agg_value fl_pandas (cols t) (rows t) (snd ke))
      | Some rk => CGrouped (mkgs (pd_group_keys rk) (agg_groups t gb (snd ke) (pd_group_keys rk)))
      end.
Proof.
  intros E CT CC Ok Rk. rewrite pagg_source.
  destruct (agg_source temps T (snd ke)) as [[c fn']|] eqn:Es; cbn [obind fst snd]; [|discriminate].
  destruct (agg_source_vals t res2 temps T (snd ke) c fn' E CT CC Ok Es) as [V [EV HV]].
  destruct (pd_col c res2) as [vals|] eqn:Ec; cbn [obind]; [|discriminate]. apply pd_col_inv in Ec. destruct Ec as [-> _]. rewrite EV.
  destruct (agg_on rkeys (map V (rows t)) fn') as [x'|] eqn:Ea; cbn [obind]; [|discriminate].
  intros H. injection H as <- <-. split; [reflexivity|].
  destruct Rk as [->| ->]; cbn [agg_on] in Ea.
  - unfold pd_series_agg in Ea. destruct (mem fn' agg_names) eqn:M; [|discriminate]. injection Ea as <-. f_equal. apply HV. reflexivity.
  - unfold pd_grouped_agg in Ea. rewrite !map_length, Nat.eqb_refl in Ea. destruct (mem fn' agg_names) eqn:M; [|discriminate].
    cbn [andb option_map] in Ea. injection Ea as <-. f_equal. f_equal. unfold agg_groups. apply map_ext. intros key.
    rewrite filter_combine_keys. apply HV. reflexivity.
Qed.

(* ------------------------------------------------------------------ columns_to_frame_ on aggregate results *)
Lemma ctf_fold_scalars (kvs : list (string * val)) st :
  fold_left (fun (st : option (bool * option nat)) (kv : string * cval) =>
               st' <- st ;;
               match cval_len (snd kv) with
               | None => Some st'
               | Some ln => match snd st' with
                            | None => Some (false, Some ln)
                            | Some tr => if Nat.eqb tr ln then Some (false, Some tr) else None
                            end
               end) (map (fun kv => (fst kv, CScalar (snd kv))) kvs) (Some st) = Some st.
Proof. induction kvs as [|kv kvs IH]; simpl; [reflexivity|exact IH]. Qed.

Lemma ctf_scalars (kvs : list (string * val)) : kvs <> [] ->
  columns_to_frame (map (fun kv => (fst kv, CScalar (snd kv))) kvs) None = Some (mkxf None (mktable (map fst kvs) [map snd kvs])).
Proof.
  intros N. unfold columns_to_frame. rewrite map_length. destruct kvs as [|kv0 kvs0] eqn:E; [congruence|]. rewrite <- E. clear N.
  replace (Nat.ltb (List.length kvs) 1) with false by (rewrite E; reflexivity).
  rewrite ctf_fold_scalars. cbn [fst snd].
  rewrite map_map. cbn [fst snd promote option_map repeat].
  rewrite (all_some_map (fun kv : string * val => (fst kv, [snd kv]))). cbn [obind].
  unfold pd_frame_of_columns. replace (forallb _ _) with true.
  2:{ symmetry. apply forallb_forall. intros x I. apply in_map_iff in I. destruct I as [kv [<- _]]. reflexivity. }
  cbn [obind]. unfold clean_copy, pd_reset_index. f_equal. f_equal. f_equal; [rewrite map_map; reflexivity|].
  cbn [transpose_cols]. rewrite !map_map. reflexivity.
Qed.

Lemma ctf_fold_grouped gk (kvs : list (string * list val)) b :
  (forall kv, In kv kvs -> List.length (snd kv) = List.length gk) ->
  fold_left (fun (st : option (bool * option nat)) (kv : string * cval) =>
               st' <- st ;;
               match cval_len (snd kv) with
               | None => Some st'
               | Some ln => match snd st' with
                            | None => Some (false, Some ln)
                            | Some tr => if Nat.eqb tr ln then Some (false, Some tr) else None
                            end
               end) (map (fun kv => (fst kv, CGrouped (mkgs gk (snd kv)))) kvs) (Some (b, Some (List.length gk)))
  = Some (match kvs with [] => b | _ => false end, Some (List.length gk)).
Proof.
  revert b. induction kvs as [|kv kvs IH]; intros b H; simpl; [reflexivity|].
  rewrite (H kv (or_introl eq_refl)), Nat.eqb_refl. rewrite IH by (intros x I; apply H; right; exact I).
  destruct kvs; reflexivity.
Qed.

Lemma ctf_grouped gk (kvs : list (string * list val)) : kvs <> [] ->
  (forall kv, In kv kvs -> List.length (snd kv) = List.length gk) ->
  columns_to_frame (map (fun kv => (fst kv, CGrouped (mkgs gk (snd kv)))) kvs) None
  = Some (if Nat.eqb (List.length gk) 0 then mkxf None (pd_empty_frame (map fst kvs))
          else mkxf (Some gk) (mktable (map fst kvs) (transpose_cols (List.length gk) (map snd kvs)))).
Proof.
  intros N L. unfold columns_to_frame. rewrite map_length. destruct kvs as [|kv0 kvs0] eqn:E; [congruence|]. rewrite <- E in *. clear N.
  replace (Nat.ltb (List.length kvs) 1) with false by (rewrite E; reflexivity).
  assert (fold_left _ (map (fun kv => (fst kv, CGrouped (mkgs gk (snd kv)))) kvs) (Some (true, None)) = Some (false, Some (List.length gk))) as ->.
  { rewrite E at 1. cbn [map fold_left obind fst snd cval_len gs_vals]. rewrite (L kv0) by (rewrite E; left; reflexivity).
    rewrite ctf_fold_grouped by (intros x I; apply L; rewrite E; right; exact I). destruct kvs0; reflexivity. }
  cbn [fst snd]. destruct (List.length gk) as [|m] eqn:Em.
  - cbn [Nat.ltb Nat.leb Nat.eqb]. rewrite map_map. reflexivity.
  - cbn [Nat.ltb Nat.leb Nat.eqb]. rewrite map_map. cbn [fst snd].
    assert (all_some (map (fun x : string * list val => option_map (fun vs => (fst x, vs)) (promote (S m) (CGrouped (mkgs gk (snd x))))) kvs)
            = Some (map (fun x => (fst x, snd x)) kvs)) as ->.
    { rewrite <- all_some_map. apply all_some_ext. intros x I. cbn [promote gs_vals]. rewrite (L x I). try rewrite Em. rewrite Nat.eqb_refl. reflexivity. }
    cbn [obind]. unfold pd_frame_of_columns. replace (forallb _ _) with true.
    2:{ symmetry. apply forallb_forall. intros x I. apply in_map_iff in I. destruct I as [kv [<- I]]. cbn [snd]. rewrite (L kv I). try rewrite Em. apply Nat.eqb_refl. }
    cbn [obind]. f_equal. f_equal.
    + rewrite E. reflexivity.
    + f_equal; [rewrite map_map; reflexivity|]. rewrite map_map. reflexivity.
Qed.

Lemma all_some_Forall2 {X Y} (f : X -> option Y) l r : all_some (map f l) = Some r -> Forall2 (fun x y => f x = Some y) l r.
Proof.
  revert r. induction l as [|a l IH]; intros r H; simpl in H; [inversion H; constructor|].
  destruct (f a) as [y|] eqn:Ea; [|discriminate]. destruct (all_some (map f l)) as [r'|]; [|discriminate]. inversion H; subst.
  constructor; [exact Ea|apply IH; reflexivity].
Qed.
Lemma Forall2_map_fun {X Y} (g : X -> Y) l r : Forall2 (fun x y => y = g x) l r -> r = map g l.
Proof. induction 1 as [|x y l r H F IH]; simpl; [reflexivity|]. rewrite H, IH. reflexivity. Qed.

(* ------------------------------------------------------------------ _project_step *)
Lemma keys_le_total a b : keys_le a b = true \/ keys_le b a = true.
Proof.
  revert b. induction a as [|x a IH]; intros [|y b]; simpl; auto.
  rewrite (v_eqv_sym y x). destruct (v_eqv x y); [apply IH|apply v_le_dir_total].
Qed.

Lemma group_keys_perm rk : Permutation (pd_group_keys rk) (distinct_keys rk).
Proof. unfold pd_group_keys. apply stable_sort_perm. Qed.

Lemma transpose_row_app (gk : list (list val)) (cols_vals : list (list val)) :
  map (fun kr => fst kr ++ snd kr) (combine gk (transpose_cols (List.length gk) cols_vals))
  = map (fun ik => snd ik ++ map (fun vs => nth (fst ik) vs VNull) cols_vals) (combine (seq 0 (List.length gk)) gk).
Proof.
  rewrite transpose_rows. rewrite combine_map_r, map_map. cbn [fst snd].
  assert (forall (n : nat) (g : list (list val)), map (fun p : list val * nat => fst p ++ map (fun vs => nth (snd p) vs VNull) cols_vals) (combine g (seq n (List.length g)))
                      = map (fun ik : nat * list val => snd ik ++ map (fun vs => nth (fst ik) vs VNull) cols_vals) (combine (seq n (List.length g)) g)) as K.
  { intros n g. revert n. induction g as [|k g IH]; intros n; simpl; [reflexivity|]. rewrite IH. reflexivity. }
  apply K.
Qed.

Section Project.
  Variable q : pquirks.
  Variables (ops : list (string * expr)) (gb : list string) (t : table).
  Hypothesis Wt : width_ok t.
  Hypothesis Ngb : forall g, In g gb -> In g (cols t).
  Hypothesis Okops : forall ke, In ke ops -> agg_ok (cols t) (snd ke).

  Let names0 := set_union (cols t) (map fst ops).
  Let T := unused_column_name base_project_temp names0.
  Let names1 := names0 ++ [T].
  Let rk := map (key_of (cols t) gb) (rows t).

  Lemma T_fresh : ~ In T (cols t) /\ ~ In T (map fst ops).
  Proof.
    pose proof (unused_column_name_fresh base_project_temp names0) as F. fold T in F. unfold names0 in F.
    split; intros I; apply F; apply In_set_union; [left|right]; exact I.
  Qed.

  (* the frame just before grouping *)
  Lemma project_prepared st :
    fold_left (fun acc ke => s <- acc ;; pcollect s ke) ops (Some (mkps [] names1 t)) = Some st ->
    let res2 := pd_set_scalar T vone (ps_res st) in
    extends_by t res2 /\ const_col res2 T vone /\ (forall v name, In (v, name) (ps_temps st) -> const_col res2 name v).
  Proof.
    intros H. destruct T_fresh as [Tc Tk].
    assert (pinv names1 t (mkps [] names1 t)) as I0.
    { split; [apply extends_refl, Wt|]. cbn [ps_res ps_names ps_temps]. split; [intros c Ic; apply in_app_iff; left; apply In_set_union; left; exact Ic|].
      split; [intros v name []|]. split; [auto|]. intros c Ic. left. exact Ic. }
    assert (forall c, In c (cols t) -> In c (ps_names (mkps [] names1 t))) as Nt0.
    { intros c Ic. cbn [ps_names]. apply in_app_iff. left. apply In_set_union. left. exact Ic. }
    destruct (pcollect_fold names1 t ops _ st I0 Nt0 H) as [[E [Nm [Tm [Bs Cs]]]] _].
    assert (In T names1) as IT by (apply in_app_iff; right; left; reflexivity).
    destruct E as [W [Inc F]]. cbn zeta. split; [|split].
    - apply extends_set_scalar; [split; [exact W|split; assumption]|exact Tc].
    - apply const_col_set_scalar, W.
    - intros v name Iv. destruct (Tm v name Iv) as [Cc [_ Nb]]. apply const_col_keep; [exact W| |exact Cc]. intros ->. contradiction.
  Qed.
End Project.

Lemma fold_set_empty_cols (gs : list string) : forall t, rows t = [] ->
  fold_left (fun acc g => r <- acc ;; pd_set_col g [] r) gs (Some t) = Some (mktable (fold_left add_end gs (cols t)) []).
Proof.
  induction gs as [|g gs IH]; intros t E; simpl.
  - rewrite <- E. rewrite table_eta. reflexivity.
  - unfold pd_set_col at 2. unfold nrows. rewrite E. cbn [List.length Nat.eqb combine map obind]. rewrite IH by reflexivity. reflexivity.
Qed.

Lemma filter_all_rows (cs : list string) (rs : list (list val)) : filter (fun r => keys_eqv [] (key_of cs [] r)) rs = rs.
Proof. rewrite (filter_ext _ (fun _ => true)) by (intros r; reflexivity). apply filter_true. Qed.

Lemma set_diff_self_app (gb ks : list string) : set_diff (py_set gb) (gb ++ ks) = [].
Proof. unfold set_diff. apply filter_none. intros x I. apply (proj1 (In_py_set _ _)) in I. apply negb_false_iff, mem_In, in_app_iff. left. exact I. Qed.

(* res[g] = [] for the missing group columns: afterwards every group column is there *)
Lemma In_add_missing (gb ks : list string) x : In x (fold_left add_end (set_diff (py_set gb) ks) ks) <-> In x gb \/ In x ks.
Proof. rewrite In_fold_add_end, In_set_diff, In_py_set. destruct (in_dec string_dec x ks); tauto. Qed.

Lemma group_rows (gk : list (list val)) (nfs : list (string * (list val -> val))) :
  map (fun ik : nat * list val => snd ik ++ map (fun vs => nth (fst ik) vs VNull) (map (fun nf => map (snd nf) gk) nfs)) (combine (seq 0 (List.length gk)) gk)
  = map (fun k => k ++ map (fun nf => snd nf k) nfs) gk.
Proof.
  assert (forall n (g : list (list val)) (F : nat -> list val -> list val), (forall i k, nth_error g i = Some k -> F (n + i)%nat k = k ++ map (fun nf => snd nf k) nfs) ->
            map (fun ik => F (fst ik) (snd ik)) (combine (seq n (List.length g)) g) = map (fun k => k ++ map (fun nf => snd nf k) nfs) g) as K.
  { intros n g. revert n. induction g as [|k g IH]; intros n F H; simpl; [reflexivity|]. f_equal.
    - rewrite <- (H 0%nat k eq_refl), Nat.add_0_r. reflexivity.
    - apply IH. intros i k' Hi. rewrite <- (H (S i) k' Hi). f_equal. lia. }
  apply (K 0%nat gk (fun i k => k ++ map (fun vs => nth i vs VNull) (map (fun nf => map (snd nf) gk) nfs))).
  intros i k Hi. f_equal. rewrite map_map. apply map_ext. intros nf. cbn [Nat.add].
  rewrite (nth_indep _ VNull (snd nf k)) by (rewrite map_length; apply nth_error_Some; congruence).
  rewrite map_nth. rewrite (nth_error_nth _ _ _ Hi). reflexivity.
Qed.

Definition without (c : string) (t : table) : table := sem_select_cols (remove_elem c (cols t)) t.

Lemma without_eqv c t v :
  (forall x, In x (cols v) <-> In x (cols t) /\ x <> c) ->
  Forall2 (fun r r' => forall x, x <> c -> get (cols t) r x = get (cols v) r' x) (rows t) (rows v) ->
  tab_eqv (without c t) v.
Proof.
  intros S F. split; cbn [without cols rows sem_select_cols].
  - intros x. rewrite In_remove_elem. symmetry. apply S.
  - rewrite <- (map_id (rows v)). eapply ColumnsUsedP1.F2_map; [exact F|]. intros r r' R x. rewrite get_map_cols, mem_remove_elem.
    unfold eqb. destruct (eq_dec c x) as [<-|n].
    + rewrite andb_false_r. symmetry. apply get_absent. intros I. apply S in I. destruct I as [_ N]. apply N. reflexivity.
    + rewrite andb_true_r. rewrite <- (R x) by congruence. destruct (mem x (cols t)) eqn:M; [reflexivity|].
      symmetry. apply get_absent, mem_false, M.
Qed.

Lemma without_absent c t : ~ In c (cols t) -> tab_eqv t (without c t).
Proof.
  intros N. apply tab_eqv_sym, without_eqv.
  - intros x. split; [intros I; split; [exact I|intros ->; contradiction]|tauto].
  - apply Forall2_refl. intros r x _. reflexivity.
Qed.

(* columns_to_frame_, reset_index, the missing group columns of an empty result, the scratch column, the keyed check *)
Definition project_tail (q : pquirks) (gb : list string) (T : string) (cols' : list (string * cval)) : option table :=
  xf <- columns_to_frame cols' None ;;
  let drop := Nat.ltb (List.length gb) 1 || Nat.leb (nrows (xf_tab xf)) 0 in
  res <- (if drop then Some (xf_tab xf)
          else match xf_index xf with
               | Some gk => pd_reset_index_insert gb gk (xf_tab xf)
               | None => None
               end) ;;
  let missing_group_cols := set_diff (py_set gb) (cols res) in
  res <- (if Nat.ltb 0 (nrows res)
          then if Nat.eqb (List.length missing_group_cols) 0 then Some res else None
          else fold_left (fun acc g => r <- acc ;; pd_set_col g [] r) missing_group_cols (Some res)) ;;
  res <- (if mem T (cols res) then pd_del T res else Some res) ;;
  keyed <- table_is_keyed q gb res ;;
  if keyed then Some res else None.

Lemma keyed_check_inv q gb res u : (keyed <- table_is_keyed q gb res ;; (if keyed then Some res else None)) = Some u -> u = res.
Proof. destruct (table_is_keyed q gb res) as [[|]|]; cbn [obind]; intros H; inversion H. reflexivity. Qed.

Lemma project_tail_ungrouped q T (kvs : list (string * val)) u :
  kvs <> [] -> ~ In T (map fst kvs) ->
  project_tail q [] T (map (fun kv => (fst kv, CScalar (snd kv))) kvs) = Some u -> u = mktable (map fst kvs) [map snd kvs].
Proof.
  intros Nk NT. unfold project_tail. rewrite (ctf_scalars kvs Nk).
  cbn [obind xf_tab xf_index nrows rows cols List.length Nat.ltb Nat.leb orb py_set fold_left set_diff filter Nat.eqb].
  replace (mem T (map fst kvs)) with false by (symmetry; apply mem_false, NT). cbn [obind].
  unfold table_is_keyed, nrows. cbn [rows List.length Nat.ltb Nat.leb obind]. intros H. inversion H. reflexivity.
Qed.

(* grouping: one row per group key, the key in front; the scratch column, if it is among the outputs, is gone *)
Lemma project_tail_grouped q gb T (gk : list (list val)) (nfs : list (string * (list val -> val))) u :
  gb <> [] -> nfs <> [] -> (forall k, In k gk -> List.length k = List.length gb) ->
  project_tail q gb T (map (fun nf => (fst nf, CGrouped (mkgs gk (map (snd nf) gk)))) nfs) = Some u ->
  width_ok u /\ tab_eqv u (without T (mktable (gb ++ map fst nfs) (map (fun k => k ++ map (fun nf => snd nf k) nfs) gk))).
Proof.
  intros Ngb Nn Lgk. unfold project_tail.
  set (kvs := map (fun nf : string * (list val -> val) => (fst nf, map (snd nf) gk)) nfs).
  assert (map (fun nf : string * (list val -> val) => (fst nf, CGrouped (mkgs gk (map (snd nf) gk)))) nfs
          = map (fun kv => (fst kv, CGrouped (mkgs gk (snd kv)))) kvs) as -> by (unfold kvs; rewrite map_map; reflexivity).
  assert (map fst kvs = map fst nfs) as Ef by (unfold kvs; rewrite map_map; reflexivity).
  assert (map snd kvs = map (fun nf => map (snd nf) gk) nfs) as Es by (unfold kvs; rewrite map_map; reflexivity).
  rewrite (ctf_grouped gk kvs).
  2:{ unfold kvs. destruct nfs; [congruence|discriminate]. }
  2:{ intros kv I. unfold kvs in I. apply in_map_iff in I. destruct I as [nf [<- _]]. apply map_length. }
  cbn [obind]. replace (Nat.ltb (List.length gb) 1) with false by (destruct gb; [congruence|reflexivity]). cbn [orb].
  rewrite Ef. destruct (Nat.eqb (List.length gk) 0) eqn:Em.
  - (* no group at all: an empty frame, which receives the group columns it lacks *)
    apply Nat.eqb_eq, length_zero_iff_nil in Em. subst gk.
    cbn [xf_tab xf_index nrows rows pd_empty_frame List.length Nat.leb Nat.ltb obind cols map].
    rewrite fold_set_empty_cols by reflexivity. unfold pd_empty_frame. cbn [obind cols].
    set (cs3 := fold_left add_end (set_diff (py_set gb) (map fst nfs)) (map fst nfs)).
    assert (forall t0, rows t0 = [] -> (keyed <- table_is_keyed q gb t0 ;; (if keyed then Some t0 else None)) = Some u -> u = t0) as Kd
      by (intros t0 _; apply keyed_check_inv).
    assert (forall cs, (forall x, In x cs <-> In x cs3 /\ x <> T) -> u = mktable cs [] ->
              width_ok u /\ tab_eqv u (without T (mktable (gb ++ map fst nfs) []))) as Fin.
    { intros cs Hcs ->. split; [unfold width_ok; cbn [rows]; constructor|]. split; cbn [without cols rows sem_select_cols map]; [|constructor].
      intros x. rewrite In_remove_elem, in_app_iff, Hcs. unfold cs3. rewrite In_add_missing. reflexivity. }
    destruct (mem T cs3) eqn:MT.
    + unfold pd_del. cbn [cols]. rewrite MT. cbn [obind sem_select_cols cols rows map]. intros H. apply Kd in H; [|reflexivity].
      apply (Fin (remove_elem T cs3)); [intros x; apply In_remove_elem|exact H].
    + cbn [obind]. intros H. apply Kd in H; [|reflexivity]. apply (Fin cs3); [|exact H].
      intros x. split; [intros I; split; [exact I|intros ->; apply mem_false in MT; contradiction]|tauto].
  - (* one row per group, in sorted key order *)
    cbn [xf_tab xf_index]. unfold nrows at 1. cbn [rows]. rewrite transpose_cols_length.
    replace (Nat.leb (List.length gk) 0) with false by (symmetry; apply Nat.leb_gt; apply Nat.eqb_neq in Em; lia).
    unfold pd_reset_index_insert. destruct (_ && _ && _); cbn [obind]; [|discriminate].
    cbn [cols rows]. unfold nrows at 1. cbn [rows].
    rewrite (transpose_row_app gk (map snd kvs)), Es, group_rows.
    rewrite map_length.
    replace (Nat.ltb 0 (List.length gk)) with true by (symmetry; apply Nat.ltb_lt; apply Nat.eqb_neq in Em; lia).
    rewrite set_diff_self_app. cbn [List.length Nat.eqb obind].
    set (full := mktable (gb ++ map fst nfs) (map (fun k => k ++ map (fun nf : string * (list val -> val) => snd nf k) nfs) gk)).
    assert (width_ok full) as Wf.
    { unfold width_ok, full. cbn [cols rows]. apply Forall_forall. intros r I. apply in_map_iff in I. destruct I as [k [<- Ik]].
      rewrite !app_length, !map_length, (Lgk k Ik). reflexivity. }
    destruct (mem T (cols full)) eqn:MT; cbn [obind].
    + unfold pd_del. rewrite MT. cbn [obind]. intros H. apply keyed_check_inv in H. subst u. split; [apply width_select_cols|apply tab_eqv_refl].
    + intros H. apply keyed_check_inv in H. subst u. split; [exact Wf|apply without_absent, mem_false, MT].
Qed.

Section Values.
  Variables (t : table) (gb : list string) (res2 : table) (temps : list (val * string)) (T : string) (rkeys : option (list (list val))).
  Hypothesis E : extends_by t res2.
  Hypothesis CT : const_col res2 T vone.
  Hypothesis CC : forall v name, In (v, name) temps -> const_col res2 name v.
  Hypothesis Rk : rkeys = None \/ rkeys = Some (map (key_of (cols t) gb) (rows t)).

  Definition project_value (e : expr) : cval :=
    match rkeys with
    | None => CScalar (agg_value fl_pandas (cols t) (rows t) e)
    | Some rk => CGrouped (mkgs (pd_group_keys rk) (agg_groups t gb e (pd_group_keys rk)))
    end.

  Lemma project_values ops cols' :
    (forall ke, In ke ops -> agg_ok (cols t) (snd ke)) ->
    all_some (map (pagg rkeys temps T res2) ops) = Some cols' -> cols' = map (fun ke => (fst ke, project_value (snd ke))) ops.
  Proof.
    intros Ok H. apply all_some_Forall2 in H. apply Forall2_map_fun.
    induction H as [|ke [k x] l r Hy F IH]; constructor.
    - destruct (pagg_spec t gb res2 temps T rkeys ke k x E CT CC (Ok ke (or_introl eq_refl)) Rk Hy) as [-> ->]. reflexivity.
    - apply IH. intros ke' I. apply Ok. right. exact I.
  Qed.

  (* no output at all: the scratch column of ones is summed instead *)
  Lemma project_no_values cols' :
    (vals <- pd_col T res2 ;; x <- agg_on rkeys vals "sum" ;; Some [(T, x)]) = Some cols' ->
    exists x, cols' = [(T, x)] /\ agg_on rkeys (map (fun _ => vone) (rows t)) "sum" = Some x.
  Proof.
    destruct (pd_col T res2) as [vals|] eqn:Ec; cbn [obind]; [|discriminate]. apply pd_col_inv in Ec. destruct Ec as [-> _].
    rewrite (const_col_getcol _ _ _ CT), (map_const_len vone (rows res2) (rows t) (extends_rows_len _ _ E)).
    destruct (agg_on rkeys _ "sum") as [x|] eqn:Ea; cbn [obind]; [|discriminate]. intros H. inversion H; subst. exists x. split; reflexivity.
  Qed.
End Values.

(* ------------------------------------------------------------------ _project_step *)
Lemma px_project_refines q ops gb t u :
  width_ok t -> (forall g, In g gb -> In g (cols t)) -> (forall ke, In ke ops -> agg_ok (cols t) (snd ke)) ->
  (ops <> [] \/ gb <> []) ->      (* a node has at least one column (ViewRepresentation.__init__) *)
  px_project q ops gb t = Some u -> refines u (sem_project fl_pandas ops gb t) /\ width_ok u.
Proof.
  intros Wt Ngb Ok NE. unfold px_project.
  set (names0 := set_union (cols t) (map fst ops)). set (T := unused_column_name base_project_temp names0).
  destruct (fold_left _ ops (Some (mkps [] (names0 ++ [T]) t))) as [st|] eqn:Ef; cbn [obind]; [|discriminate].
  destruct (project_prepared ops t Wt st Ef) as [E [CT CC]]. fold names0 T in E, CT, CC.
  destruct (T_fresh ops t) as [Tc Tk]. fold names0 T in Tc, Tk. clearbody T. clearbody names0.
  set (res2 := pd_set_scalar T vone (ps_res st)) in *.
  set (rk := map (key_of (cols t) gb) (rows t)).
  assert ((match gb with [] => Some None | _ :: _ => option_map Some (pd_row_keys gb res2) end)
          = Some (match gb with [] => None | _ => Some rk end)) as ->.
  { destruct gb as [|g0 gb0]; [reflexivity|]. unfold pd_row_keys.
    replace (subset (g0 :: gb0) (cols res2)) with true by (symmetry; apply subset_spec; intros x I; apply E, Ngb, I).
    cbn [option_map]. rewrite (extends_keys _ _ _ E Ngb). reflexivity. }
  cbn [obind]. set (rkeys := match gb with [] => None | _ => Some rk end).
  assert (rkeys = None \/ rkeys = Some rk) as Rk by (unfold rkeys; destruct gb; [left|right]; reflexivity).
  destruct (match ops with [] => _ | _ :: _ => _ end) as [cols'|] eqn:Ecols; cbn [obind]; [|discriminate].
  change (project_tail q gb T cols' = Some u -> refines u (sem_project fl_pandas ops gb t) /\ width_ok u).
  destruct (list_eq_dec string_dec gb []) as [->|Ngb0].
  - (* ---- no grouping: one row *)
    assert (ops <> []) as No by (destruct NE as [C|C]; [exact C|congruence]).
    assert (cols' = map (fun kv => (fst kv, CScalar (snd kv))) (map (fun ke => (fst ke, agg_value fl_pandas (cols t) (rows t) (snd ke))) ops)) as ->.
    { destruct ops as [|op0 ops0]; [congruence|].
      rewrite (project_values t [] res2 (ps_temps st) T rkeys E CT CC Rk _ cols' Ok Ecols), map_map. reflexivity. }
    intros H. apply project_tail_ungrouped in H.
    + subst u. rewrite !map_map. cbn [fst snd].
      split; [|unfold width_ok; cbn [cols rows]; constructor; [rewrite !map_length; reflexivity|constructor]].
      unfold sem_project. cbn [app map]. rewrite filter_all_rows. apply refines_refl.
    + destruct ops; [congruence|discriminate].
    + rewrite map_map. exact Tk.
  - (* grouped: one row per group key, pandas lists them in sorted order *)
    assert (rkeys = Some rk) as Erk by (destruct Rk as [C|C]; [unfold rkeys in C; destruct gb; [congruence|discriminate]|exact C]).
    set (gk := pd_group_keys rk).
    set (grp := fun k : list val => filter (fun r => keys_eqv k (key_of (cols t) gb r)) (rows t)).
    set (semrow := fun k : list val => k ++ map (fun ke : string * expr => agg_value fl_pandas (cols t) (grp k) (snd ke)) ops).
    assert (Permutation (map semrow gk) (rows (sem_project fl_pandas ops gb t))) as Pm.
    { unfold sem_project. cbn [rows]. destruct gb; [congruence|]. apply Permutation_map, group_keys_perm. }
    assert (forall k, In k gk -> List.length k = List.length gb) as Lgk.
    { intros k I. apply (Permutation_in _ (group_keys_perm rk)) in I. apply distinct_keys_sound in I.
      unfold rk in I. apply in_map_iff in I. destruct I as [r [<- _]]. apply map_length. }
    (* the outputs as functions of the group key; without outputs, the sums of the scratch column *)
    assert (exists nfs : list (string * (list val -> val)), nfs <> [] /\
              cols' = map (fun nf => (fst nf, CGrouped (mkgs gk (map (snd nf) gk)))) nfs /\
              tab_eqv (without T (mktable (gb ++ map fst nfs) (map (fun k => k ++ map (fun nf => snd nf k) nfs) gk)))
                      (mktable (gb ++ map fst ops) (map semrow gk))) as [nfs [Nn [-> En]]].
    { destruct ops as [|op0 ops0].
      - destruct (project_no_values t res2 T rkeys E CT cols' Ecols) as [x [-> Ha]]. rewrite Erk in Ha. cbn [agg_on] in Ha.
        unfold pd_grouped_agg in Ha. destruct (_ && _); [|discriminate]. cbn [option_map] in Ha. inversion Ha; subst x. fold gk.
        eexists [(T, _)]. split; [discriminate|]. split; [reflexivity|]. cbn [map fst snd].
        apply without_eqv; cbn [cols rows].
        + intros x. rewrite !in_app_iff. cbn [In]. split; [intros [I|[]]; split; [left; exact I|intros ->; apply Tc, Ngb, I]|].
          intros [[I|[<-|[]]] N]; [left; exact I|congruence].
        + apply Forall2_map_same. intros k Ik x Nx. unfold semrow. cbn [map]. rewrite !app_nil_r.
          destruct (in_dec string_dec x gb) as [I|N].
          * apply get_app_l; [exact I|apply Lgk, Ik].
          * rewrite (get_app_r _ _ _ _ _ N (Lgk k Ik)), (get_absent gb k x N), (get_cons_other _ _ _ _ _ Nx). reflexivity.
      - set (ops := op0 :: ops0) in *.
        exists (map (fun ke => (fst ke, fun k => agg_value fl_pandas (cols t) (grp k) (snd ke))) ops).
        split; [discriminate|]. split.
        + rewrite (project_values t gb res2 (ps_temps st) T rkeys E CT CC Rk ops cols' Ok Ecols), map_map. unfold project_value. rewrite Erk. reflexivity.
        + assert (forall k, k ++ map (fun nf : string * (list val -> val) => snd nf k)
                                    (map (fun ke => (fst ke, fun k0 => agg_value fl_pandas (cols t) (grp k0) (snd ke))) ops) = semrow k) as Hs
            by (intros k; rewrite map_map; reflexivity).
          rewrite (map_ext _ _ Hs), map_map. cbn [fst]. apply tab_eqv_sym, without_absent. cbn [cols]. intros I. apply in_app_iff in I.
          destruct I as [I|I]; [apply Tc, Ngb, I|apply Tk, I]. }
    intros H. destruct (project_tail_grouped q gb T gk nfs u Ngb0 Nn Lgk H) as [Wu Eu]. split; [|exact Wu].
    exists (mktable (gb ++ map fst ops) (map semrow gk)). split; [eapply tab_eqv_trans; eassumption|].
    split; [unfold sem_project; cbn [cols]; reflexivity|exact Pm].
Qed.
