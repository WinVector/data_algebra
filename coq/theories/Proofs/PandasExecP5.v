(* PEXEC, part 5: _natural_join_step (suffix for the right copies, scratch key for an empty `on`, null-key marker, pandas.merge,
   the coalescing loop res.loc[is_null, c] = res.loc[is_null, c + suffix], dropping the suffixed and scratch columns) refines
   sem_join false (null keys match nothing: pandas.merge alone would pair them, the marker column keeps them apart): the reference
   columns, every cell COALESCE(left, right), rows up to a permutation.  The merge is any function returning pd_merge's rows in some order. *)
From Coq Require Import List Bool QArith String Lia Permutation Sorted.
Import ListNotations.
From DA Require Import Base.PyRT Base.Val Model.Sem Model.PdPrim Model.PandasExec
  Proofs.SemBasicP Proofs.SemOrderP Proofs.ComposeP5 Proofs.PandasExecP1 Proofs.PandasExecP2 Proofs.PandasExecP3 Proofs.PandasExecP4 Proofs.ListP Proofs.TabP.
Local Open Scope string_scope.
Local Open Scope list_scope.

(* ------------------------------------------------------------------ the pairs of rows a merge produces *)
Section Pairs.
  Context {A B : Type}.
  Variable m : A -> B -> bool.                              (* the match test *)
  Variables (lk : A -> list val) (rk : B -> list val).      (* the keys, used only to ORDER the rows of an outer merge *)
  Definition pair := (option A * option B)%type.

  Definition pairs_inner (la : list A) (lb : list B) : list pair :=
    flat_map (fun a => map (fun b => (Some a, Some b)) (filter (m a) lb)) la.
  Definition pairs_leftj (la : list A) (lb : list B) : list pair :=
    flat_map (fun a => match filter (m a) lb with [] => [(Some a, None)] | ms => map (fun b => (Some a, Some b)) ms end) la.
  Definition pairs_rightj (la : list A) (lb : list B) : list pair :=
    flat_map (fun b => match filter (fun a => m a b) la with [] => [(None, Some b)] | ms => map (fun a => (Some a, Some b)) ms end) lb.
  Definition pairs_right_only (la : list A) (lb : list B) : list pair :=
    flat_map (fun b => match filter (fun a => m a b) la with [] => [(None, Some b)] | _ => [] end) lb.
  Definition pairs_left_only (la : list A) (lb : list B) : list pair :=
    flat_map (fun a => match filter (m a) lb with [] => [(Some a, None)] | _ => [] end) la.
  Definition pair_key (p : pair) : list val :=
    match p with (Some a, _) => lk a | (None, Some b) => rk b | (None, None) => [] end.
  Definition gen_pairs (how : merge_how) (la : list A) (lb : list B) : list pair :=
    match how with
    | HInner => pairs_inner la lb
    | HLeft => pairs_leftj la lb
    | HRight => pairs_rightj la lb
    | HOuter => stable_sort (fun p q => keys_le (pair_key p) (pair_key q)) (pairs_leftj la lb ++ pairs_right_only la lb)
    end.
  (* the order in which the reference semantics lists them: matches, then unmatched left rows, then unmatched right rows *)
  Definition sem_pairs (how : merge_how) (la : list A) (lb : list B) : list pair :=
    pairs_inner la lb ++ (match how with HLeft | HOuter => pairs_left_only la lb | _ => [] end)
                      ++ (match how with HRight | HOuter => pairs_right_only la lb | _ => [] end).

  Lemma leftj_perm la lb : Permutation (pairs_leftj la lb) (pairs_inner la lb ++ pairs_left_only la lb).
  Proof.
    unfold pairs_leftj, pairs_inner, pairs_left_only. eapply perm_trans; [|apply perm_flat_map_app].
    apply perm_flat_map_ext. intros a _. destruct (filter (m a) lb); simpl; [apply Permutation_refl|rewrite app_nil_r; apply Permutation_refl].
  Qed.

  (* exchanging the two nested loops *)

  Lemma inner_as_nested la lb : pairs_inner la lb = flat_map (fun a => flat_map (fun b => if m a b then [(Some a, Some b)] else []) lb) la.
  Proof.
    unfold pairs_inner. apply flat_map_ext. intros a. induction lb as [|b lb IH]; simpl; [reflexivity|].
    destruct (m a b); simpl; rewrite IH; reflexivity.
  Qed.
  Lemma rightj_perm la lb : Permutation (pairs_rightj la lb) (pairs_inner la lb ++ pairs_right_only la lb).
  Proof.
    assert (Permutation (flat_map (fun b => map (fun a => (Some a, Some b)) (filter (fun a => m a b) la)) lb) (pairs_inner la lb)) as Pi.
    { rewrite inner_as_nested. eapply perm_trans; [|apply Permutation_sym, flat_map_swap].
      apply perm_flat_map_ext. intros b _. induction la as [|a la IH]; simpl; [constructor|].
      destruct (m a b); simpl; [constructor; exact IH|exact IH]. }
    eapply perm_trans; [|apply Permutation_app_tail, Pi]. unfold pairs_rightj, pairs_right_only.
    eapply perm_trans; [|apply perm_flat_map_app].
    apply perm_flat_map_ext. intros b _. destruct (filter (fun a => m a b) la); simpl; [apply Permutation_refl|rewrite app_nil_r; apply Permutation_refl].
  Qed.

  Lemma gen_pairs_perm how la lb : Permutation (gen_pairs how la lb) (sem_pairs how la lb).
  Proof.
    unfold gen_pairs, sem_pairs. destruct how.
    - rewrite !app_nil_r. apply Permutation_refl.
    - rewrite app_nil_r. apply leftj_perm.
    - cbn [app]. apply rightj_perm.
    - eapply perm_trans; [apply stable_sort_perm|]. rewrite app_assoc. apply Permutation_app_tail, leftj_perm.
  Qed.

  Lemma sem_pairs_In how la lb p : In p (sem_pairs how la lb) ->
    (exists a b, p = (Some a, Some b) /\ In a la /\ In b lb /\ m a b = true) \/
    (exists a, p = (Some a, None) /\ In a la) \/ (exists b, p = (None, Some b) /\ In b lb).
  Proof.
    unfold sem_pairs. rewrite !in_app_iff. intros [I|[I|I]].
    - left. apply in_flat_map in I. destruct I as [a [Ia I]]. apply in_map_iff in I. destruct I as [b [<- I]].
      apply filter_In in I. exists a, b. tauto.
    - right. left. assert (In p (pairs_left_only la lb)) as J by (destruct how; try contradiction; exact I).
      apply in_flat_map in J. destruct J as [a [Ia J]]. destruct (filter (m a) lb); [|contradiction].
      destruct J as [<-|[]]. exists a. split; [reflexivity|exact Ia].
    - right. right. assert (In p (pairs_right_only la lb)) as J by (destruct how; try contradiction; exact I).
      apply in_flat_map in J. destruct J as [b [Ib J]]. destruct (filter (fun a => m a b) la); [|contradiction].
      destruct J as [<-|[]]. exists b. split; [reflexivity|exact Ib].
  Qed.

  Lemma sem_pairs_matched how la lb a b : In (Some a, Some b) (sem_pairs how la lb) -> m a b = true.
  Proof.
    intros I. destruct (sem_pairs_In _ _ _ _ I) as [[a' [b' [E [_ [_ M]]]]]|[[a' [E _]]|[b' [E _]]]]; try discriminate E.
    injection E as -> ->. exact M.
  Qed.
  Lemma sem_pairs_from how la lb p : In p (sem_pairs how la lb) ->
    (forall a, fst p = Some a -> In a la) /\ (forall b, snd p = Some b -> In b lb) /\ (fst p <> None \/ snd p <> None).
  Proof.
    intros I. destruct (sem_pairs_In _ _ _ _ I) as [[a' [b' [-> [Ia [Ib _]]]]]|[[a' [-> Ia]]|[b' [-> Ib]]]]; cbn [fst snd].
    - split; [intros a E; injection E as <-; exact Ia|]. split; [intros b E; injection E as <-; exact Ib|left; discriminate].
    - split; [intros a E; injection E as <-; exact Ia|]. split; [intros b E; discriminate|left; discriminate].
    - split; [intros a E; discriminate|]. split; [intros b E; injection E as <-; exact Ib|right; discriminate].
  Qed.
End Pairs.

Arguments pair : clear implicits.

Lemma app3_eq {X} (a a' b b' c c' : list X) : a = a' -> b = b' -> c = c' -> a ++ b ++ c = a' ++ b' ++ c'.
Proof. intros -> -> ->. reflexivity. Qed.

(* sem_pairs depends only on the match test, on the listed rows *)
Lemma sem_pairs_ext_in {A B} (m m' : A -> B -> bool) how la lb :
  (forall a b, In a la -> In b lb -> m a b = m' a b) -> sem_pairs m how la lb = sem_pairs m' how la lb.
Proof.
  intros E. unfold sem_pairs, pairs_inner, pairs_left_only, pairs_right_only.
  assert (forall a, In a la -> filter (m a) lb = filter (m' a) lb) as F1 by (intros a Ia; apply filter_ext_in; intros b Ib; apply E; assumption).
  assert (forall b, In b lb -> filter (fun a => m a b) la = filter (fun a => m' a b) la) as F2 by (intros b Ib; apply filter_ext_in; intros a Ia; apply E; assumption).
  apply app3_eq.
  - apply flat_map_ext_in. intros a Ia. rewrite (F1 a Ia). reflexivity.
  - destruct how; try reflexivity; apply flat_map_ext_in; intros a Ia; rewrite (F1 a Ia); reflexivity.
  - destruct how; try reflexivity; apply flat_map_ext_in; intros b Ib; rewrite (F2 b Ib); reflexivity.
Qed.

Definition pmap {A B A' B'} (f : A -> A') (g : B -> B') (p : pair A B) : pair A' B' := (option_map f (fst p), option_map g (snd p)).

Lemma sem_pairs_map {A B A' B'} (f : A -> A') (g : B -> B') (m : A' -> B' -> bool) how la lb :
  sem_pairs m how (map f la) (map g lb) = map (pmap f g) (sem_pairs (fun a b => m (f a) (g b)) how la lb).
Proof.
  unfold sem_pairs. rewrite !map_app. apply app3_eq.
  - unfold pairs_inner. rewrite flat_map_map, map_flat_map. apply flat_map_ext. intros a.
    rewrite filter_map_comm, !map_map. reflexivity.
  - assert (pairs_left_only m (map f la) (map g lb) = map (pmap f g) (pairs_left_only (fun a b => m (f a) (g b)) la lb)) as E.
    { unfold pairs_left_only. rewrite flat_map_map, map_flat_map. apply flat_map_ext. intros a. rewrite filter_map_comm.
      destruct (filter _ lb); reflexivity. }
    destruct how; try reflexivity; exact E.
  - assert (pairs_right_only m (map f la) (map g lb) = map (pmap f g) (pairs_right_only (fun a b => m (f a) (g b)) la lb)) as E.
    { unfold pairs_right_only. rewrite flat_map_map, map_flat_map. apply flat_map_ext. intros b. rewrite filter_map_comm.
      destruct (filter _ la); reflexivity. }
    destruct how; try reflexivity; exact E.
Qed.

(* ------------------------------------------------------------------ sem_join in terms of pairs *)
Definition sem_mk (ca cb : list string) (p : pair (list val) (list val)) : list val :=
  map (fun c => let va := match fst p with Some r => if mem c ca then get ca r c else VNull | None => VNull end in
                let vb := match snd p with Some r => if mem c cb then get cb r c else VNull | None => VNull end in
                if is_null va then vb else va) (ca ++ filter (fun c => negb (mem c ca)) cb).

Lemma existsb_filter_nil {X} (f : X -> bool) l : existsb f l = false <-> filter f l = [].
Proof.
  induction l as [|x l IH]; simpl; [tauto|]. destruct (f x); simpl; [split; discriminate|exact IH].
Qed.

Definition join_match (nm : bool) (ca cb on_a on_b : list string) (ra rb : list val) : bool :=
  keys_match nm (key_of ca on_a ra) (key_of cb on_b rb).

(* the rows without partner: "no row of the other side passes the test" read off the list of those that do *)
Lemma unmatched_rows {X Y Z} (test : X -> Y -> bool) (one : X -> Z) (k : Z -> list val) xs ys :
  flat_map (fun x => if existsb (test x) ys then [] else [k (one x)]) xs
  = map k (flat_map (fun x => match filter (test x) ys with [] => [one x] | _ => [] end) xs).
Proof.
  rewrite map_flat_map. apply flat_map_ext. intros x. destruct (existsb (test x) ys) eqn:Ex.
  - destruct (filter (test x) ys) eqn:Ef; [|reflexivity]. apply existsb_filter_nil in Ef. congruence.
  - apply existsb_filter_nil in Ex. rewrite Ex. reflexivity.
Qed.

Lemma sem_join_as_pairs nm on_a on_b jt a b :
  sem_join nm on_a on_b jt a b
  = mktable (cols a ++ filter (fun c => negb (mem c (cols a))) (cols b))
            (map (sem_mk (cols a) (cols b)) (sem_pairs (join_match nm (cols a) (cols b) on_a on_b) (how_of jt) (rows a) (rows b))).
Proof.
  unfold sem_join. f_equal. unfold sem_pairs. rewrite !map_app. apply app3_eq.
  - rewrite inner_as_nested, map_flat_map. apply flat_map_ext. intros ra. rewrite map_flat_map. apply flat_map_ext. intros rb.
    unfold join_match. destruct (keys_match nm _ _); reflexivity.
  - destruct jt; cbn [how_of]; try reflexivity;
      apply (unmatched_rows (join_match nm (cols a) (cols b) on_a on_b) (fun ra => (Some ra, None)) (sem_mk (cols a) (cols b))).
  - destruct jt; cbn [how_of]; try reflexivity;
      apply (unmatched_rows (fun rb ra => join_match nm (cols a) (cols b) on_a on_b ra rb) (fun rb => (None, Some rb)) (sem_mk (cols a) (cols b))).
Qed.

Lemma merge_pairs_gen how L R lon ron :
  merge_pairs how L R lon ron
  = gen_pairs (fun ra rb => keys_eqv (key_of (cols L) lon ra) (key_of (cols R) ron rb)) (key_of (cols L) lon) (key_of (cols R) ron) how (rows L) (rows R).
Proof. destruct how; reflexivity. Qed.

(* ------------------------------------------------------------------ cells of a merged row *)
Lemma get_map_inj (ren : string -> string) (g : string -> val) l c :
  NoDup (map ren l) -> In c l -> get (map ren l) (map g l) (ren c) = g c.
Proof.
  induction l as [|x l IH]; intros N I; [contradiction|]. cbn [map] in *. inversion N as [|? ? Nx Nl]; subst.
  destruct I as [->|I].
  - apply get_cons_same.
  - rewrite get_cons_other; [apply IH; assumption|]. intros E. apply Nx. rewrite <- E. apply in_map. exact I.
Qed.

Lemma sapp_inj_l a b s : sapp a s = sapp b s -> a = b.
Proof.
  unfold sapp. revert b. induction a as [|x a IH]; intros b H.
  - destruct b as [|y b]; [reflexivity|]. exfalso. simpl in H. apply (f_equal String.length) in H. simpl in H.
    change (String.length s = S (String.length (String.append b s))) in H.
    pose proof (sapp_length b s) as L. unfold sapp in L. rewrite L in H. lia.
  - destruct b as [|y b].
    + exfalso. simpl in H. apply (f_equal String.length) in H. simpl in H. pose proof (sapp_length a s) as L. unfold sapp in L. rewrite L in H. lia.
    + simpl in H. inversion H; subst. f_equal. apply IH. assumption.
Qed.

Section Merge.
  Variables (L R : table) (lon ron : list string) (sfx : string).
  Hypothesis WL : width_ok L.
  Hypothesis WR : width_ok R.
  Let kept := merge_right_cols lon ron (cols R).
  Let ren := fun c => if mem c (cols L) then sapp c sfx else c.
  Let out := merge_cols (cols L) (cols R) lon ron sfx.
  Hypothesis Nout : NoDup out.

  Definition fL (p : pair (list val) (list val)) (c : string) : val :=
    match fst p with
    | Some ra => get (cols L) ra c
    | None => match snd p with
              | Some rb => if same_named_key lon ron c then get (cols R) rb c else VNull
              | None => VNull
              end
    end.
  Definition fR (p : pair (list val) (list val)) (c : string) : val :=
    match snd p with Some rb => get (cols R) rb c | None => VNull end.
  Definition g0 (p : pair (list val) (list val)) (x : string) : val := get out (merge_row (cols L) (cols R) lon ron p) x.

  Lemma out_eq : out = cols L ++ map ren kept.
  Proof. reflexivity. Qed.
  Lemma merge_row_eq p : merge_row (cols L) (cols R) lon ron p = map (fL p) (cols L) ++ map (fR p) kept.
  Proof. reflexivity. Qed.

  Lemma g0_left p x : In x (cols L) -> g0 p x = fL p x.
  Proof.
    intros I. unfold g0. rewrite out_eq, merge_row_eq. rewrite get_app_l; [|exact I|apply map_length].
    rewrite get_map_cols. apply mem_In in I. rewrite I. reflexivity.
  Qed.
  Lemma ren_not_left c : In c kept -> ~ In (ren c) (cols L).
  Proof.
    intros I J. rewrite out_eq in Nout. apply (NoDup_app_disj _ _ _ Nout J). apply in_map, I.
  Qed.
  Lemma g0_right p c : In c kept -> g0 p (ren c) = fR p c.
  Proof.
    intros I. unfold g0. rewrite out_eq, merge_row_eq. rewrite get_app_r; [|apply ren_not_left, I|apply map_length].
    apply get_map_inj; [|exact I]. rewrite out_eq in Nout. apply NoDup_app_r in Nout. exact Nout.
  Qed.
  Lemma merge_row_length p : List.length (merge_row (cols L) (cols R) lon ron p) = List.length out.
  Proof. rewrite out_eq, merge_row_eq, !app_length, !map_length. reflexivity. Qed.
End Merge.

(* ------------------------------------------------------------------ one round of the coalescing loop *)

Lemma coalesce_step {X} F (PP : list X) (val : X -> string -> val) c c2 F' :
  width_ok F -> Forall2 (fun rF p => forall x, In x (cols F) -> get (cols F) rF x = val p x) (rows F) PP ->
  (is_null <- pd_isnull c F ;; r <- pd_loc_set_from is_null c c2 F ;; pd_del c2 r) = Some F' ->
  In c (cols F) /\ In c2 (cols F) /\ width_ok F' /\ cols F' = remove_elem c2 (cols F) /\
  Forall2 (fun rF p => forall x, In x (cols F') -> get (cols F') rF x
                                  = if eq_dec x c then (if is_null (val p c) then val p c2 else val p c) else val p x) (rows F') PP.
Proof.
  intros W F2 H. unfold pd_isnull, pd_col in H. destruct (mem c (cols F)) eqn:Mc; cbn [option_map obind] in H; [|discriminate].
  unfold pd_loc_set_from in H. rewrite Mc in H. destruct (mem c2 (cols F)) eqn:Mc2; cbn [andb] in H; [|discriminate].
  unfold getcol, nrows in H. rewrite !map_length, Nat.eqb_refl in H. cbn [obind] in H.
  unfold pd_del in H. cbn [cols] in H. rewrite Mc2 in H. inversion H; subst F'. clear H.
  apply mem_In in Mc. apply mem_In in Mc2. split; [exact Mc|]. split; [exact Mc2|]. split; [apply width_select_cols|]. split; [reflexivity|].
  cbn [cols rows sem_select_cols]. rewrite (map_map (fun r => get (cols F) r c) is_null), combine_self_map, !map_map. cbn [fst snd].
  rewrite <- (map_id PP). unfold width_ok in W. revert W F2. generalize (rows F) as rs. intros rs W F2.
  induction F2 as [|rF p rs PP Hr F2 IH]; cbn [map]; constructor; [|apply IH; inversion W; assumption].
  intros x Ix. rewrite get_map_cols. apply mem_In in Ix as Mx. rewrite Mx. apply In_remove_elem in Ix. destruct Ix as [Ix Nx].
  assert (List.length rF = List.length (cols F)) as Lr by (inversion W; assumption).
  destruct (is_null (get (cols F) rF c)) eqn:En.
  - rewrite <- (add_end_old (cols F) c Mc) at 1. rewrite (set_cell_get _ _ _ _ _ Lr).
    rewrite <- (Hr c Mc), En. destruct (eq_dec x c); [apply Hr, Mc2|apply Hr, Ix].
  - rewrite <- (Hr c Mc), En. destruct (eq_dec x c) as [->|n]; [reflexivity|apply Hr, Ix].
Qed.

(* ------------------------------------------------------------------ the whole loop *)
Section Loop.
  Context {X : Type}.
  Variables (PP : list X) (g : X -> string -> val) (names : list string) (sfx : string) (cols0 : list string).

  (* the shared column x has a suffixed right copy (in the frame the loop starts from) *)
  Definition kb (x : string) : bool := mem (sapp x sfx) cols0.
  Definition coal (done : list string) (x : string) : bool := mem x done && kb x.
  Definition valD (done : list string) (p : X) (x : string) : val :=
    if coal done x then (if is_null (g p x) then g p (sapp x sfx) else g p x) else g p x.
  Definition dropped (done : list string) : list string := map (fun c => sapp c sfx) (filter kb done).
  Definition JInv (F : table) (done : list string) : Prop :=
    width_ok F /\ cols F = filter (fun x => negb (mem x (dropped done))) cols0 /\
    Forall2 (fun rF p => forall x, In x (cols F) -> get (cols F) rF x = valD done p x) (rows F) PP.

  Lemma jstep_none cs : fold_left (jstep sfx) cs None = None.
  Proof. induction cs as [|c cs IH]; simpl; [reflexivity|exact IH]. Qed.

  Lemma coalesce_fold cs : forall done F F',
    (forall c, In c (done ++ cs) -> In c names /\ ~ In (sapp c sfx) names) -> NoDup (done ++ cs) ->
    JInv F done -> fold_left (jstep sfx) cs (Some F) = Some F' -> JInv F' (rev cs ++ done).
  Proof.
    induction cs as [|c cs IH]; intros done F F' Hn Nd Inv H.
    - simpl in H. inversion H; subst. exact Inv.
    - cbn [fold_left] in H. cbn [rev]. rewrite <- app_assoc. cbn [app].
      assert (~ In c done) as Ncd. { intros I. apply NoDup_remove_2 in Nd. apply Nd. apply in_app_iff. left. exact I. }
      assert (forall c0, In c0 ((c :: done) ++ cs) -> In c0 names /\ ~ In (sapp c0 sfx) names) as Hn'.
      { intros c0 I. apply Hn. cbn [app] in I. destruct I as [<-|I]; [apply in_app_iff; right; left; reflexivity|].
        apply in_app_iff in I. apply in_app_iff. destruct I as [I|I]; [left; exact I|right; right; exact I]. }
      assert (NoDup ((c :: done) ++ cs)) as Nd'.
      { cbn [app]. constructor; [apply NoDup_remove_2 in Nd; exact Nd|apply NoDup_remove_1 in Nd; exact Nd]. }
      destruct Inv as [W [Cf Fr]].
      (* the test `(c + suffix) in res.columns` sees what the starting frame had: no earlier round dropped this copy *)
      assert (mem (sapp c sfx) (cols F) = kb c) as Ek.
      { rewrite Cf. unfold kb. destruct (mem (sapp c sfx) cols0) eqn:M0.
        - apply mem_In, filter_In. split; [apply mem_In, M0|]. apply negb_true_iff, mem_false. intros Id. unfold dropped in Id.
          apply in_map_iff in Id. destruct Id as [c' [E' I']]. apply filter_In in I'. destruct I' as [I' _]. apply sapp_inj_l in E'. subst c'. contradiction.
        - apply mem_false. intros I. apply filter_In in I. destruct I as [I _]. apply mem_In in I. congruence. }
      unfold jstep at 2 in H. cbn [obind] in H. rewrite Ek in H. destruct (kb c) eqn:Kc.
      + destruct (is_null0 <- pd_isnull c F ;; r <- pd_loc_set_from is_null0 c (sapp c sfx) F ;; pd_del (sapp c sfx) r) as [F1|] eqn:E1;
          [|rewrite jstep_none in H; discriminate].
        destruct (coalesce_step F PP (valD done) c (sapp c sfx) F1 W Fr E1) as [Ic [Ic2 [W1 [C1 F1r]]]].
        apply (IH (c :: done) F1 F' Hn' Nd'); [|exact H]. split; [exact W1|]. split.
        * rewrite C1, Cf. unfold remove_elem. rewrite filter_filter. apply filter_ext. intros x. unfold dropped. cbn [filter]. rewrite Kc. cbn [map mem].
          unfold eqb. destruct (eq_dec (sapp c sfx) x), (eq_dec x (sapp c sfx)); try congruence; cbn [negb]; [rewrite andb_false_r|rewrite andb_true_r]; reflexivity.
        * assert (In c names /\ ~ In (sapp c sfx) names) as [Icn Nc2] by (apply Hn; apply in_app_iff; right; left; reflexivity).
          assert (~ In (sapp c sfx) done) as N2d. { intros I. apply Nc2. apply (Hn (sapp c sfx)). apply in_app_iff. left. exact I. }
          eapply Forall2_weaken; [|exact F1r]. intros rF p Hr x Ix. rewrite (Hr x Ix). unfold valD, coal. cbn [mem].
          destruct (eq_dec x c) as [->|n].
          -- replace (mem c done) with false by (symmetry; apply mem_false, Ncd). rewrite Kc. cbn [andb].
             replace (mem (sapp c sfx) done) with false by (symmetry; apply mem_false, N2d). cbn [andb]. reflexivity.
          -- reflexivity.
      + (* no suffixed copy: nothing happens *)
        apply (IH (c :: done) F F' Hn' Nd'); [|exact H]. split; [exact W|]. split.
        * rewrite Cf. unfold dropped. cbn [filter]. rewrite Kc. reflexivity.
        * eapply Forall2_weaken; [|exact Fr]. intros rF p Hr x Ix. rewrite (Hr x Ix). unfold valD, coal. cbn [mem].
          destruct (eq_dec x c) as [->|n]; [rewrite Kc, !andb_false_r; reflexivity|reflexivity].
  Qed.
End Loop.

Lemma keys_eqv_null_at (ka kb : list val) i : keys_eqv ka kb = true -> is_null (nth i ka VNull) = true -> nth i kb VNull = VNull.
Proof.
  revert kb i. induction ka as [|x ka IH]; intros [|y kb] [|i] E N; simpl in *; try discriminate; try reflexivity.
  - apply andb_true_iff in E. destruct E as [E _]. destruct x; try discriminate. destruct y; try discriminate. reflexivity.
  - apply andb_true_iff in E. destruct E as [_ E]. apply (IH kb i E N).
Qed.

Definition sem_cell (ca cb : list string) (p : pair (list val) (list val)) (c : string) : val :=
  let va := match fst p with Some r => if mem c ca then get ca r c else VNull | None => VNull end in
  let vb := match snd p with Some r => if mem c cb then get cb r c else VNull | None => VNull end in
  if is_null va then vb else va.

Lemma key_pair_null cl cr on_a on_b ra rb c :
  In (c, c) (combine on_a on_b) -> keys_eqv (key_of cl on_a ra) (key_of cr on_b rb) = true ->
  is_null (get cl ra c) = true -> get cr rb c = VNull.
Proof.
  intros I E N. destruct (In_nth_error _ _ I) as [i Hi].
  assert (nth_error on_a i = Some c /\ nth_error on_b i = Some c) as [Ea Eb].
  { clear -Hi. revert on_b i Hi. induction on_a as [|a on_a IH]; intros [|b on_b] [|i] H; simpl in *; try discriminate.
    - inversion H; subst. split; reflexivity.
    - apply IH, H. }
  pose proof (keys_eqv_null_at _ _ i E) as K. unfold key_of in K.
  rewrite (nth_indep _ VNull (get cl ra "")) in K by (rewrite map_length; apply nth_error_Some; congruence).
  rewrite (map_nth (get cl ra)) in K. rewrite (nth_error_nth _ _ _ Ea) in K. specialize (K N).
  rewrite (nth_indep _ VNull (get cr rb "")) in K by (rewrite map_length; apply nth_error_Some; congruence).
  rewrite (map_nth (get cr rb)) in K. rewrite (nth_error_nth _ _ _ Eb) in K. exact K.
Qed.

Lemma Forall2_map_r {A B C} (P : A -> C -> Prop) (f : B -> C) l m : Forall2 P l (map f m) -> Forall2 (fun a b => P a (f b)) l m.
Proof. revert l. induction m as [|b m IH]; intros l F; simpl in F; inversion F; subst; constructor; auto. Qed.

(* ------------------------------------------------------------------ merge + deletions + loop against the reference join *)
(* The frames actually merged, L and R, are the two inputs possibly carrying one more key column each (the constant scratch key of an
   empty `on`, or the null-key marker); their rows are given per ITEM (an input row with its position), because the marker
   depends on the position. *)
Definition merge_upto_row_order (merge : merge_how -> table -> table -> list string -> list string -> string -> option table) : Prop :=
  forall how L R lon ron sfx t2, merge how L R lon ron sfx = Some t2 ->
    exists t1, pd_merge how L R lon ron sfx = Some t1 /\ cols t2 = cols t1 /\ Permutation (rows t2) (rows t1).

Lemma pd_merge_inv how L R lon ron sfx t : pd_merge how L R lon ron sfx = Some t ->
  nodup_names (merge_cols (cols L) (cols R) lon ron sfx) = true /\
  t = mktable (merge_cols (cols L) (cols R) lon ron sfx) (map (merge_row (cols L) (cols R) lon ron) (merge_pairs how L R lon ron)).
Proof.
  unfold pd_merge. destruct (_ && _ && _ && _); [|discriminate].
  destruct (nodup_names _); [|discriminate]. intros H. inversion H. split; reflexivity.
Qed.

Section Core.
  Context {IA IB : Type}.
  Variables (l r : table) (la : list IA) (lb : list IB) (rowA : IA -> list val) (rowB : IB -> list val).
  Variables (on_a on_b : list string) (how : merge_how) (sfx : string).
  Let cl := cols l.
  Let cr := cols r.
  Let common := set_inter cl cr.
  Let names := set_union cl cr.
  Let semout := cl ++ filter (fun c => negb (mem c cl)) cr.
  Hypothesis Hsfx : forall c, In c common -> ~ In (sapp c sfx) names.
  Hypothesis Ha : forall c, In c on_a -> In c cl.
  Hypothesis Hb : forall c, In c on_b -> In c cr.

  Variables (L R : table) (lon ron dels : list string) (extL : IA -> list val) (extR : IB -> list val).
  Hypothesis HcL : cols L = cl ++ dels.
  Hypothesis HcR : cols R = cr ++ dels.
  Hypothesis HrL : rows L = map extL la.
  Hypothesis HrR : rows R = map extR lb.
  Hypothesis HgL : forall a c, In a la -> In c cl -> get (cols L) (extL a) c = get cl (rowA a) c.
  Hypothesis HgR : forall b c, In b lb -> In c cr -> get (cols R) (extR b) c = get cr (rowB b) c.
  Hypothesis Hdel : forall s, In s dels -> ~ In s names.
  Hypothesis Hsn : forall c, same_named_key lon ron c = true <-> (In c dels \/ In (c, c) (combine on_a on_b)).
  Hypothesis Hmt : forall a b, In a la -> In b lb ->
    keys_eqv (key_of (cols L) lon (extL a)) (key_of (cols R) ron (extR b)) = join_match false cl cr on_a on_b (rowA a) (rowB b).
  (* the merge actually run: pd_merge up to the order of its rows *)
  Variable merge : merge_how -> table -> table -> list string -> list string -> string -> option table.
  Hypothesis Hmerge : merge_upto_row_order merge.

  Let kept := merge_right_cols lon ron (cols R).
  Let ren := fun c => if mem c (cols L) then sapp c sfx else c.
  Let out := merge_cols (cols L) (cols R) lon ron sfx.
  Let cols0 := filter (fun x => negb (mem x dels)) out.
  Let m0 := fun (a : IA) (b : IB) => join_match false cl cr on_a on_b (rowA a) (rowB b).
  Let SP0 := sem_pairs m0 how la lb.
  Let ext := pmap extL extR.
  Let rw := pmap rowA rowB.
  Let gg := g0 L R lon ron sfx.

  Lemma in_names_l c : In c cl -> In c names.  Proof. intros I. apply In_set_union. left. exact I. Qed.
  Lemma in_names_r c : In c cr -> In c names.  Proof. intros I. apply In_set_union. right. exact I. Qed.

  Lemma merge_pairs_perm : Permutation (merge_pairs how L R lon ron) (map ext SP0).
  Proof.
    rewrite merge_pairs_gen. eapply perm_trans; [apply gen_pairs_perm|]. rewrite HrL, HrR, sem_pairs_map.
    unfold ext, SP0. rewrite (sem_pairs_ext_in _ m0); [apply Permutation_refl|]. intros a b Ia Ib. apply Hmt; assumption.
  Qed.

  Lemma fL_ext p0 c : In p0 SP0 -> In c cl ->
    fL L R lon ron (ext p0) c = match fst p0 with
                                | Some a => get cl (rowA a) c
                                | None => match snd p0 with
                                          | Some b => if same_named_key lon ron c then get cr (rowB b) c else VNull
                                          | None => VNull
                                          end
                                end.
  Proof.
    intros I Ic. destruct (sem_pairs_from _ (fun _ => []) (fun _ => []) _ _ _ _ I) as [Fa [Fb _]]. unfold fL, ext, pmap. destruct p0 as [[a|] [b|]]; cbn [fst snd option_map].
    - apply HgL; [apply Fa; reflexivity|exact Ic].
    - apply HgL; [apply Fa; reflexivity|exact Ic].
    - destruct (same_named_key lon ron c) eqn:Sn; [|reflexivity]. apply HgR; [apply Fb; reflexivity|].
      apply Hsn in Sn. destruct Sn as [Sd|Sc]; [exfalso; apply (Hdel c Sd), in_names_l, Ic|]. apply Hb. eapply in_combine_r. exact Sc.
    - reflexivity.
  Qed.
  Lemma fR_ext p0 c : In p0 SP0 -> In c cr -> fR R (ext p0) c = match snd p0 with Some b => get cr (rowB b) c | None => VNull end.
  Proof.
    intros I Ic. destruct (sem_pairs_from _ (fun _ => []) (fun _ => []) _ _ _ _ I) as [_ [Fb _]]. unfold fR, ext, pmap. destruct p0 as [oa [b|]]; cbn [fst snd option_map]; [|reflexivity].
    apply HgR; [apply Fb; reflexivity|exact Ic].
  Qed.

  Lemma NoDup_cl : NoDup out -> NoDup cl.
  Proof. intros Nout. unfold out, merge_cols in Nout. rewrite HcL in Nout. apply NoDup_app_l, NoDup_app_l in Nout. exact Nout. Qed.

  Lemma not_same_named c : In c names -> ~ In (c, c) (combine on_a on_b) -> same_named_key lon ron c = false.
  Proof.
    intros In0 Nc. destruct (same_named_key lon ron c) eqn:Sn; [|reflexivity]. exfalso. apply Hsn in Sn. destruct Sn as [Sd|Sc]; [apply (Hdel c Sd In0)|exact (Nc Sc)].
  Qed.

  (* a shared column has a suffixed right copy unless it is a key pair with the same name on both sides *)
  Lemma shared_kept c : In c cl -> In c cr -> same_named_key lon ron c = false -> In c kept /\ ren c = sapp c sfx.
  Proof.
    intros Il Ir Sn. split.
    - unfold kept, merge_right_cols. apply filter_In. split; [rewrite HcR; apply in_app_iff; left; exact Ir|]. rewrite Sn. reflexivity.
    - unfold ren. replace (mem c (cols L)) with true; [reflexivity|]. symmetry. apply mem_In. rewrite HcL. apply in_app_iff. left. exact Il.
  Qed.
  Lemma right_only_kept c : ~ In c cl -> In c cr -> In c kept /\ ren c = c.
  Proof.
    intros Nl Ir. assert (~ In c dels) as Nd by (intros I; apply (Hdel c I), in_names_r, Ir). split.
    - unfold kept, merge_right_cols. apply filter_In. split; [rewrite HcR; apply in_app_iff; left; exact Ir|].
      apply negb_true_iff. apply not_same_named; [apply in_names_r, Ir|]. intros Sc. apply Nl, Ha. eapply in_combine_l. exact Sc.
    - unfold ren. replace (mem c (cols L)) with false; [reflexivity|]. symmetry. apply mem_false. rewrite HcL. intros I. apply in_app_iff in I. tauto.
  Qed.

  (* which shared columns the loop coalesces *)
  Lemma kb_common c : NoDup out -> In c common -> kb sfx cols0 c = negb (same_named_key lon ron c).
  Proof.
    intros Nout Ic. apply In_set_inter in Ic. destruct Ic as [Il Ir]. unfold kb, cols0.
    destruct (same_named_key lon ron c) eqn:Sn; cbn [negb].
    - (* folded into one key column by merge: no suffixed copy *)
      apply mem_false. intros I. apply filter_In in I. destruct I as [Io Nd]. apply negb_true_iff, mem_false in Nd.
      unfold out, merge_cols in Io. apply in_app_iff in Io. destruct Io as [Io|Io].
      + rewrite HcL in Io. apply in_app_iff in Io. destruct Io as [Io|Io]; [|contradiction].
        apply (Hsfx c); [apply In_set_inter; split; assumption|apply in_names_l, Io].
      + apply in_map_iff in Io. destruct Io as [c0 [E0 Ik]]. unfold merge_right_cols in Ik. apply filter_In in Ik. destruct Ik as [Ir0 Ns0].
        destruct (mem c0 (cols L)) eqn:M0.
        * apply sapp_inj_l in E0. subst c0. rewrite Sn in Ns0. discriminate.
        * subst c0. rewrite HcR in Ir0. apply in_app_iff in Ir0. destruct Ir0 as [Ir0|Id0].
          -- apply (Hsfx c); [apply In_set_inter; split; assumption|apply in_names_r, Ir0].
          -- apply negb_true_iff in Ns0. assert (same_named_key lon ron (sapp c sfx) = true) as T by (apply Hsn; left; exact Id0). congruence.
    - destruct (shared_kept c Il Ir Sn) as [Ik Er]. apply mem_In, filter_In. split.
      + unfold out, merge_cols. apply in_app_iff. right. fold kept. rewrite <- Er. apply in_map_iff. exists c. split; [reflexivity|exact Ik].
      + apply negb_true_iff, mem_false. intros Id.
        assert (In (sapp c sfx) (cols L)) as IL by (rewrite HcL; apply in_app_iff; right; exact Id).
        rewrite <- Er in IL. revert IL. apply (ren_not_left L R lon ron sfx Nout c Ik).
  Qed.

  (* ---- the value the loop leaves in column x, against the cell of the reference join *)
  Lemma final_cell p0 x : NoDup out -> In p0 SP0 -> In x semout ->
    valD gg sfx cols0 (rev common) (ext p0) x = sem_cell cl cr (rw p0) x.
  Proof.
    intros Nout I Ix. unfold valD, coal, gg.
    assert (mem x (rev common) = mem x common) as ->.
    { destruct (mem x common) eqn:M; [apply mem_In, in_rev; rewrite rev_involutive; apply mem_In, M|].
      apply mem_false. intros J. apply in_rev in J. apply mem_false in M. contradiction. }
    unfold semout in Ix. apply in_app_iff in Ix.
    destruct (sem_pairs_from _ (fun _ => []) (fun _ => []) _ _ _ _ I) as [Fa [Fb _]].
    destruct (in_dec string_dec x cl) as [Il|Nl].
    - (* a left column *)
      assert (In x (cols L)) as IL by (rewrite HcL; apply in_app_iff; left; exact Il).
      rewrite !(g0_left L R lon ron sfx _ x IL). rewrite (fL_ext p0 x I Il).
      destruct (in_dec string_dec x cr) as [Ir|Nr].
      + assert (In x common) as Ic by (apply In_set_inter; split; assumption).
        replace (mem x common) with true by (symmetry; apply mem_In, Ic). rewrite (kb_common x Nout Ic). cbn [andb].
        destruct (same_named_key lon ron x) eqn:Sn; cbn [negb].
        * (* a key with the same name on both sides *)
          assert (In (x, x) (combine on_a on_b)) as Ixx.
          { apply Hsn in Sn. destruct Sn as [Sd|Sc]; [exfalso; apply (Hdel x Sd), in_names_l, Il|exact Sc]. }
          unfold sem_cell, rw, pmap. apply mem_In in Il as Ml. apply mem_In in Ir as Mr. rewrite Ml, Mr.
          destruct p0 as [[a|] [b|]]; cbn [fst snd option_map].
          -- destruct (is_null (get cl (rowA a) x)) eqn:En; [|reflexivity].
             assert (m0 a b = true) as Mab by (apply (sem_pairs_matched _ (fun _ => []) (fun _ => []) _ _ _ _ _ I)).
             unfold m0, join_match, keys_match in Mab. apply andb_true_iff in Mab. destruct Mab as [_ Mab].
             rewrite (key_pair_null cl cr on_a on_b (rowA a) (rowB b) x Ixx Mab En).
             destruct (get cl (rowA a) x); try discriminate. reflexivity.
          -- destruct (is_null (get cl (rowA a) x)) eqn:En; [|reflexivity]. destruct (get cl (rowA a) x); try discriminate. reflexivity.
          -- reflexivity.
          -- reflexivity.
        * (* a shared column that is coalesced *)
          destruct (shared_kept x Il Ir Sn) as [Ik Er]. rewrite <- Er.
          rewrite (g0_right L R lon ron sfx Nout _ x Ik). rewrite (fR_ext p0 x I Ir).
          unfold sem_cell, rw, pmap. apply mem_In in Il as Ml. apply mem_In in Ir as Mr. rewrite Ml, Mr.
          destruct p0 as [[a|] [b|]]; cbn [fst snd option_map]; reflexivity.
      + (* only on the left *)
        replace (mem x common) with false by (symmetry; apply mem_false; intros J; apply In_set_inter in J; apply Nr, J). cbn [andb].
        rewrite (not_same_named x (in_names_l x Il)) by (intros Sc; apply Nr, Hb; eapply in_combine_r; exact Sc).
        unfold sem_cell, rw, pmap. apply mem_In in Il as Ml. rewrite Ml. replace (mem x cr) with false by (symmetry; apply mem_false, Nr).
        destruct p0 as [[a|] [b|]]; cbn [fst snd option_map]; try reflexivity; destruct (is_null (get cl (rowA a) x)) eqn:En; try reflexivity;
          destruct (get cl (rowA a) x); try discriminate; reflexivity.
    - (* only on the right *)
      destruct Ix as [Ix|Ix]; [contradiction|]. apply filter_In in Ix. destruct Ix as [Ir _].
      replace (mem x common) with false by (symmetry; apply mem_false; intros J; apply In_set_inter in J; apply Nl, J). cbn [andb].
      destruct (right_only_kept x Nl Ir) as [Ik Er]. pose proof (g0_right L R lon ron sfx Nout (ext p0) x Ik) as G. fold ren in G.
      rewrite Er in G. rewrite G, (fR_ext p0 x I Ir).
      unfold sem_cell, rw, pmap. replace (mem x cl) with false by (symmetry; apply mem_false, Nl). apply mem_In in Ir as Mr. rewrite Mr.
      destruct p0 as [[a|] [b|]]; cbn [fst snd option_map]; reflexivity.
  Qed.

  Lemma fold_del_length cs t t' : fold_left (fun acc c => r0 <- acc ;; pd_del c r0) cs (Some t) = Some t' -> width_ok t ->
    Forall2 (fun r' r0 => forall x, In x (cols t') -> get (cols t') r' x = get (cols t) r0 x) (rows t') (rows t).
  Proof.
    intros H W. destruct (fold_del_rows _ _ _ H W) as [_ [_ [_ F]]]. eapply Forall2_weaken; [|exact F].
    intros a b Hab x Ix. rewrite (Hab x). apply mem_In in Ix. rewrite Ix. reflexivity.
  Qed.

  (* the merged frame lists the pairs of pd_merge in some order PP *)
  Lemma core_refines x :
    (res0 <- merge how L R lon ron sfx ;;
     res1 <- fold_left (fun acc s => r0 <- acc ;; pd_del s r0) dels (Some res0) ;;
     res2 <- fold_left (jstep sfx) common (Some res1) ;; Some res2) = Some x ->
    refines x (mktable semout (map (fun p0 => sem_mk cl cr (rw p0)) SP0)) /\ width_ok x.
  Proof.
    destruct (merge how L R lon ron sfx) as [res0|] eqn:Em; cbn [obind]; [|discriminate].
    destruct (Hmerge _ _ _ _ _ _ _ Em) as [t1 [E1 [C0 P0]]]. destruct (pd_merge_inv _ _ _ _ _ _ _ E1) as [Nd ->]. clear E1 Em.
    fold out in Nd, C0. cbn [cols rows] in C0, P0.
    destruct (Permutation_map_inv _ _ P0) as [PP [R0 HPP]]. apply Permutation_sym in HPP.
    assert (res0 = mktable out (map (merge_row (cols L) (cols R) lon ron) PP)) as -> by (rewrite <- C0, <- R0; symmetry; apply table_eta).
    clear C0 R0 P0.
    assert (NoDup out) as Nout by (apply nodup_names_sound, Nd).
    set (res0 := mktable out (map (merge_row (cols L) (cols R) lon ron) PP)).
    assert (width_ok res0) as W0.
    { unfold width_ok, res0. cbn [cols rows]. apply Forall_forall. intros r0 I. apply in_map_iff in I. destruct I as [p [<- _]].
      apply (merge_row_length L R lon ron sfx). }
    destruct (fold_left _ dels (Some res0)) as [res1|] eqn:Ed; cbn [obind]; [|discriminate].
    destruct (fold_del_rows _ _ _ Ed W0) as [C1 [W1 [L1 _]]]. pose proof (fold_del_length _ _ _ Ed W0) as F1. cbn [cols rows] in C1, F1.
    fold cols0 in C1. destruct (fold_left (jstep sfx) common (Some res1)) as [x'|] eqn:Hf; cbn [obind]; [|discriminate].
    intros Hx. injection Hx as ->.
    assert (JInv PP gg sfx cols0 res1 []) as J0.
    { split; [exact W1|]. split; [rewrite C1; unfold dropped; cbn [filter map mem negb]; rewrite filter_true; reflexivity|].
      unfold res0 in F1. cbn [rows cols] in F1. apply Forall2_map_r in F1. eapply Forall2_weaken; [|exact F1].
      intros a p Hap x0 Ix0. rewrite (Hap x0 Ix0). unfold valD, coal. cbn [mem andb]. reflexivity. }
    assert (NoDup common) as Nc by (apply NoDup_filter, (NoDup_cl Nout)).
    assert (forall c, In c ([] ++ common) -> In c names /\ ~ In (sapp c sfx) names) as Hn.
    { intros c Ic. cbn [app] in Ic. split; [|apply Hsfx, Ic]. apply In_set_inter in Ic. apply in_names_l. tauto. }
    pose proof (coalesce_fold PP gg names sfx cols0 common [] res1 x Hn Nc J0 Hf) as [Wx [Cx Fx]]. rewrite app_nil_r in Cx, Fx.
    split; [|exact Wx].
    (* columns of the result *)
    assert (forall c, In c (dropped sfx cols0 (rev common)) <-> exists c0, In c0 common /\ same_named_key lon ron c0 = false /\ c = sapp c0 sfx) as Dr.
    { intros c. unfold dropped. rewrite in_map_iff. split.
      - intros [c0 [E0 I0]]. apply filter_In in I0. destruct I0 as [I0 K0]. apply (proj2 (in_rev _ _)) in I0.
        rewrite (kb_common c0 Nout I0) in K0. apply negb_true_iff in K0. exists c0. split; [exact I0|]. split; [exact K0|symmetry; exact E0].
      - intros [c0 [I0 [K0 E0]]]. exists c0. split; [symmetry; exact E0|]. apply filter_In. split; [apply (proj1 (in_rev _ _)), I0|].
        rewrite (kb_common c0 Nout I0), K0. reflexivity. }
    assert (forall c, In c semout -> In c (cols x)) as Sub.
    { intros c Ic. assert (In c names) as Icn.
      { unfold semout in Ic. apply in_app_iff in Ic. destruct Ic as [Ic|Ic]; [apply in_names_l, Ic|apply filter_In in Ic; apply in_names_r; tauto]. }
      rewrite Cx. apply filter_In. split.
      - unfold cols0. apply filter_In. split.
        + unfold semout in Ic. apply in_app_iff in Ic. unfold out, merge_cols. destruct Ic as [Ic|Ic].
          * apply in_app_iff. left. rewrite HcL. apply in_app_iff. left. exact Ic.
          * apply filter_In in Ic. destruct Ic as [Ir Nl]. apply negb_true_iff, mem_false in Nl. destruct (right_only_kept c Nl Ir) as [Ik Er].
            apply in_app_iff. right. fold kept. rewrite <- Er. apply in_map_iff. exists c. split; [reflexivity|exact Ik].
        + apply negb_true_iff, mem_false. intros Id. apply (Hdel c Id Icn).
      - apply negb_true_iff, mem_false. intros Id. apply Dr in Id. destruct Id as [c0 [I0 [_ E0]]]. apply (Hsfx c0 I0). rewrite <- E0. exact Icn. }
    assert (forall c, In c (cols x) -> In c semout) as Sup.
    { intros c Ic. rewrite Cx in Ic. apply filter_In in Ic. destruct Ic as [Ic Nd0]. unfold cols0 in Ic. apply filter_In in Ic. destruct Ic as [Io Ndel].
      apply negb_true_iff, mem_false in Ndel. apply negb_true_iff, mem_false in Nd0.
      unfold out, merge_cols in Io. apply in_app_iff in Io. unfold semout. apply in_app_iff. destruct Io as [Io|Io].
      - rewrite HcL in Io. apply in_app_iff in Io. destruct Io as [Io|Io]; [left; exact Io|contradiction].
      - apply in_map_iff in Io. destruct Io as [c0 [E0 Ik]]. unfold merge_right_cols in Ik. apply filter_In in Ik. destruct Ik as [Ir0 Nsn].
        rewrite HcR in Ir0. apply in_app_iff in Ir0. apply negb_true_iff in Nsn.
        destruct Ir0 as [Ir0|Id0]; [|exfalso; assert (same_named_key lon ron c0 = true) as T by (apply Hsn; left; exact Id0); congruence].
        destruct (in_dec string_dec c0 cl) as [Il0|Nl0].
        + (* a shared column with a suffixed copy: the loop dropped it *)
          exfalso. apply Nd0. apply Dr. exists c0. split; [apply In_set_inter; split; assumption|]. split; [exact Nsn|].
          rewrite <- E0. replace (mem c0 (cols L)) with true; [reflexivity|]. symmetry. apply mem_In. rewrite HcL. apply in_app_iff. left. exact Il0.
        + right. assert (mem c0 (cols L) = false) as Mf.
          { apply mem_false. rewrite HcL. intros I. apply in_app_iff in I. destruct I as [I|I]; [contradiction|apply (Hdel c0 I), in_names_r, Ir0]. }
          rewrite Mf in E0. subst c. apply filter_In. split; [exact Ir0|]. apply negb_true_iff, mem_false, Nl0. }
    (* the rows *)
    exists (mktable semout (map (fun p => map (fun c => valD gg sfx cols0 (rev common) p c) semout) PP)). split; [|split].
    - split; cbn [cols rows]; [intros c; split; [apply Sup|apply Sub]|].
      rewrite <- (map_id (rows x)). revert Fx. generalize (rows x) as rs. generalize PP as pp. intros pp rs Fx.
      induction Fx as [|a p rs pp Hap Fx IH]; cbn [map]; constructor; [|exact IH].
      intros c. rewrite (get_map_cols (fun c0 => valD gg sfx cols0 (rev common) p c0)). destruct (mem c semout) eqn:M.
      + apply Hap. apply Sub. apply mem_In, M.
      + apply get_absent. intros Ic. apply Sup in Ic. apply mem_In in Ic. congruence.
    - reflexivity.
    - cbn [rows]. eapply perm_trans; [apply Permutation_map, (perm_trans HPP merge_pairs_perm)|]. rewrite map_map.
      assert (map (fun x0 => map (fun c => valD gg sfx cols0 (rev common) (ext x0) c) semout) SP0 = map (fun p0 => sem_mk cl cr (rw p0)) SP0) as ->; [|apply Permutation_refl].
      apply map_ext_in. intros p0 I0. unfold sem_mk. apply map_ext_in. intros c Ic. apply (final_cell p0 c Nout I0 Ic).
  Qed.
End Core.

(* ------------------------------------------------------------------ _natural_join_step *)
Lemma same_named_spec lon ron c : same_named_key lon ron c = true <-> In (c, c) (combine lon ron).
Proof.
  unfold same_named_key. rewrite existsb_exists. split.
  - intros [[a b] [I E]]. cbn [fst snd] in E. apply andb_true_iff in E. destruct E as [E1 E2].
    apply String.eqb_eq in E1. apply String.eqb_eq in E2. subst. exact I.
  - intros I. exists (c, c). split; [exact I|]. cbn [fst snd]. rewrite String.eqb_refl. reflexivity.
Qed.

Lemma combine_marker {X} (G : nat * bool -> X) (f : list val -> bool) (rs : list (list val)) : forall n,
  combine rs (map G (combine (seq n (List.length rs)) (map f rs))) = map (fun it => (snd it, G (fst it, f (snd it)))) (tag_from n rs).
Proof. induction rs as [|r rs IH]; intros n; simpl; [reflexivity|]. rewrite IH. reflexivity. Qed.

Lemma keys_eqv_snoc ka kb x y : List.length ka = List.length kb -> keys_eqv (ka ++ [x]) (kb ++ [y]) = keys_eqv ka kb && v_eqv x y.
Proof.
  revert kb. induction ka as [|a ka IH]; intros [|b kb] L; simpl in L; try discriminate; simpl.
  - rewrite andb_true_r. reflexivity.
  - rewrite IH by lia. rewrite andb_assoc. reflexivity.
Qed.
Lemma marker_eqv (nl nr : bool) i j :
  v_eqv (if nl then vint (Z.of_nat (S i)) else vint 0) (if nr then vint (- Z.of_nat (S j)) else vint 0) = negb nl && negb nr.
Proof.
  unfold vint, v_eqv. destruct nl, nr; cbn [num_of negb andb].
  - apply not_true_iff_false. intros E. apply Qeq_bool_iff in E. unfold Qeq, inject_Z in E. cbn [Qnum Qden] in E. lia.
  - apply not_true_iff_false. intros E. apply Qeq_bool_iff in E. unfold Qeq, inject_Z in E. cbn [Qnum Qden] in E. lia.
  - apply not_true_iff_false. intros E. apply Qeq_bool_iff in E. unfold Qeq, inject_Z in E. cbn [Qnum Qden] in E. lia.
  - reflexivity.
Qed.

Lemma key_of_snoc cs ks (r : list val) n v : List.length r = List.length cs -> (forall c, In c ks -> In c cs) -> ~ In n cs ->
  key_of (cs ++ [n]) (ks ++ [n]) (r ++ [v]) = key_of cs ks r ++ [v].
Proof.
  intros L S N. unfold key_of. rewrite map_app. f_equal.
  - apply map_ext_in. intros c Ic. apply get_app_l; [apply S, Ic|exact L].
  - cbn [map]. rewrite (get_app_r _ _ _ _ _ N L). unfold get. cbn [index_of]. destruct (eq_dec n n); [reflexivity|congruence].
Qed.

Lemma existsb_id_true (l : list bool) : existsb (fun b => b) l = true <-> In true l.
Proof. rewrite existsb_exists. split; [intros [b [I E]]; subst; exact I|intros I; exists true; split; [exact I|reflexivity]]. Qed.

(* The constant scratch key of an empty `on` and the null-key marker are the same situation: a column of a new name n is appended
   to both frames and to both key lists, and is deleted after the merge.  The values vl / vr are chosen such that the longer keys
   match exactly where the reference join matches the original ones. *)
Section KeyCol.
  Context {IA IB : Type}.
  Variables (l r : table) (la : list IA) (lb : list IB) (rowA : IA -> list val) (rowB : IB -> list val).
  Variables (on_a on_b : list string) (how : merge_how) (sfx : string).
  Let cl := cols l.
  Let cr := cols r.
  Hypothesis Hsfx : forall c, In c (set_inter cl cr) -> ~ In (sapp c sfx) (set_union cl cr).
  Hypothesis Ha : forall c, In c on_a -> In c cl.
  Hypothesis Hb : forall c, In c on_b -> In c cr.
  Hypothesis Hlen : List.length on_a = List.length on_b.
  Hypothesis LA : forall a, In a la -> List.length (rowA a) = List.length cl.
  Hypothesis LB : forall b, In b lb -> List.length (rowB b) = List.length cr.
  Variables (n : string) (vl : IA -> val) (vr : IB -> val) (L R : table).
  Hypothesis Hn : ~ In n (set_union cl cr).
  Hypothesis HcL : cols L = cl ++ [n].
  Hypothesis HcR : cols R = cr ++ [n].
  Hypothesis HrL : rows L = map (fun a => rowA a ++ [vl a]) la.
  Hypothesis HrR : rows R = map (fun b => rowB b ++ [vr b]) lb.
  Hypothesis Hv : forall a b, In a la -> In b lb ->
    keys_eqv (key_of cl on_a (rowA a)) (key_of cr on_b (rowB b)) && v_eqv (vl a) (vr b) = join_match false cl cr on_a on_b (rowA a) (rowB b).
  Variable merge : merge_how -> table -> table -> list string -> list string -> string -> option table.
  Hypothesis Hmerge : merge_upto_row_order merge.

  Lemma keycol_refines x :
    (res0 <- merge how L R (on_a ++ [n]) (on_b ++ [n]) sfx ;; res1 <- pd_del n res0 ;;
     res2 <- fold_left (jstep sfx) (set_inter cl cr) (Some res1) ;; Some res2) = Some x ->
    refines x (mktable (cl ++ filter (fun c => negb (mem c cl)) cr)
                       (map (fun p0 => sem_mk cl cr (pmap rowA rowB p0))
                            (sem_pairs (fun a b => join_match false cl cr on_a on_b (rowA a) (rowB b)) how la lb))) /\ width_ok x.
  Proof.
    assert (~ In n cl) as Nl by (intros I; apply Hn, In_set_union; left; exact I).
    assert (~ In n cr) as Nr by (intros I; apply Hn, In_set_union; right; exact I).
    intros H.
    apply (core_refines l r la lb rowA rowB on_a on_b how sfx Hsfx Ha Hb L R (on_a ++ [n]) (on_b ++ [n]) [n]
             (fun a => rowA a ++ [vl a]) (fun b => rowB b ++ [vr b]) HcL HcR HrL HrR) with (merge := merge).
    - intros a c Ia Ic. rewrite HcL. apply get_app_l; [exact Ic|apply LA, Ia].
    - intros b c Ib Ic. rewrite HcR. apply get_app_l; [exact Ic|apply LB, Ib].
    - intros s [<-|[]]. exact Hn.
    - intros c. rewrite same_named_spec. rewrite combine_app by exact Hlen. cbn [combine]. rewrite in_app_iff. cbn [In].
      split; [intros [I|[E|[]]]; [right; exact I|inversion E; left; left; reflexivity]|].
      intros [[->|[]]|I]; [right; left; reflexivity|left; exact I].
    - intros a b Ia Ib. rewrite HcL, HcR, (key_of_snoc _ _ _ _ _ (LA a Ia) Ha Nl), (key_of_snoc _ _ _ _ _ (LB b Ib) Hb Nr).
      rewrite keys_eqv_snoc by (unfold key_of; rewrite !map_length; exact Hlen). apply Hv; assumption.
    - exact Hmerge.
    - exact H.
  Qed.
End KeyCol.

Lemma sem_join_tagged on_a on_b jt l r :
  sem_join false on_a on_b jt l r
  = mktable (cols l ++ filter (fun c => negb (mem c (cols l))) (cols r))
            (map (fun p0 => sem_mk (cols l) (cols r) (pmap (@snd nat (list val)) (@snd nat (list val)) p0))
                 (sem_pairs (fun a b : nat * list val => join_match false (cols l) (cols r) on_a on_b (snd a) (snd b)) (how_of jt)
                            (tag_from 0 (rows l)) (tag_from 0 (rows r)))).
Proof.
  rewrite sem_join_as_pairs. f_equal.
  rewrite <- (map_map (pmap (@snd nat (list val)) (@snd nat (list val))) (sem_mk (cols l) (cols r))), <- sem_pairs_map, !map_snd_tag. reflexivity.
Qed.

(* the step with any merge that returns the rows of pd_merge in some order (pandas.merge promises no more for an inner join) *)
Theorem px_join_gen_refines merge declared on_a on_b jt l r x :
  merge_upto_row_order merge -> width_ok l -> width_ok r ->
  (forall c, In c on_a -> In c (cols l)) -> (forall c, In c on_b -> In c (cols r)) -> List.length on_a = List.length on_b ->
  same_set declared (cols l ++ filter (fun c => negb (mem c (cols l))) (cols r)) ->
  px_join_gen merge declared on_a on_b jt l r = Some x -> refines x (sem_join false on_a on_b jt l r) /\ width_ok x.
Proof.
  intros Hm Wl Wr Ha Hb Hlen Sd. unfold px_join_gen.
  destruct (Nat.eqb (nrows l) 0 && Nat.eqb (nrows r) 0) eqn:E0.
  - (* both sides empty *)
    rewrite sem_join_as_pairs.
    intros H. inversion H; subst x. apply andb_true_iff in E0. destruct E0 as [El Er]. apply Nat.eqb_eq in El, Er. unfold nrows in El, Er.
    apply length_zero_iff_nil in El. apply length_zero_iff_nil in Er. rewrite El, Er.
    split; [|unfold width_ok, pd_empty_frame; cbn [rows]; constructor].
    apply refines_of_eqv. unfold pd_empty_frame. split; cbn [cols rows]; [exact Sd|].
    destruct jt; cbn; constructor.
  - rewrite sem_join_tagged.
    set (common := set_inter (cols l) (cols r)). set (names := set_union (cols l) (cols r)). set (sfx := right_suffix common names).
    assert (forall c, In c common -> ~ In (sapp c sfx) names) as Hsfx by (intros c Ic; apply right_suffix_fresh, Ic).
    set (la := tag_from 0 (rows l)). set (lb := tag_from 0 (rows r)).
    assert (rows l = map snd la) as Hla by (unfold la; rewrite map_snd_tag; reflexivity).
    assert (rows r = map snd lb) as Hlb by (unfold lb; rewrite map_snd_tag; reflexivity).
    assert (forall a, In a la -> List.length (snd a) = List.length (cols l)) as Lla.
    { intros a Ia. unfold width_ok in Wl. rewrite Forall_forall in Wl. apply Wl. unfold la in Ia. apply tag_from_In in Ia. exact Ia. }
    assert (forall b, In b lb -> List.length (snd b) = List.length (cols r)) as Llb.
    { intros b Ib. unfold width_ok in Wr. rewrite Forall_forall in Wr. apply Wr. unfold lb in Ib. apply tag_from_In in Ib. exact Ib. }
    destruct on_a as [|a0 on_a'] eqn:Ea.
    + (* ---- empty `on`: a constant scratch key in both frames; no key is null, so no marker *)
      destruct on_b as [|b0 on_b']; [|discriminate]. set (S := unused_column_name base_merge_col names).
      pose proof (unused_column_name_fresh base_merge_col names) as FS. fold S in FS.
      assert (~ In S (cols l)) as Sl by (intros I; apply FS, In_set_union; left; exact I).
      assert (~ In S (cols r)) as Sr by (intros I; apply FS, In_set_union; right; exact I).
      cbv beta iota zeta.
      assert (forall t0, ~ In S (cols t0) -> width_ok t0 ->
                pd_isnull_any [S] (pd_set_scalar S vone t0) = Some (map (fun _ => false) (rows t0))) as Nn.
      { intros t0 St W0. unfold pd_isnull_any, pd_set_scalar. cbn [cols rows].
        replace (subset [S] (add_end (cols t0) S)) with true by (symmetry; apply subset_spec; intros c [<-|[]]; apply In_add_end; right; reflexivity).
        f_equal. rewrite map_map. apply map_ext_in. intros r0 I0. rewrite (add_end_new _ _ St), (set_cell_new _ _ _ _ St). cbn [key_of map existsb].
        unfold width_ok in W0. rewrite Forall_forall in W0. rewrite (get_app_r _ _ _ _ _ St (W0 r0 I0)).
        unfold get. cbn [index_of]. destruct (eq_dec S S); [reflexivity|congruence]. }
      rewrite (Nn l Sl Wl), (Nn r Sr Wr). cbn [obind].
      assert (forall (rs : list (list val)), existsb (fun b : bool => b) (map (fun _ => false) rs) = false) as Ef
        by (intros rs; induction rs; simpl; [reflexivity|assumption]).
      rewrite (Ef (rows l)). cbn [andb obind]. unfold clean_copy, pd_reset_index.
      intros H.
      apply (keycol_refines l r la lb (@snd nat (list val)) (@snd nat (list val)) [] [] (how_of jt) sfx Hsfx Ha Hb eq_refl Lla Llb
               S (fun _ => vone) (fun _ => vone) (pd_set_scalar S vone l) (pd_set_scalar S vone r) FS) with (merge := merge).
      * unfold pd_set_scalar. cbn [cols]. apply add_end_new, Sl.
      * unfold pd_set_scalar. cbn [cols]. apply add_end_new, Sr.
      * unfold pd_set_scalar. cbn [rows]. rewrite Hla, map_map. apply map_ext. intros a. apply set_cell_new, Sl.
      * unfold pd_set_scalar. cbn [rows]. rewrite Hlb, map_map. apply map_ext. intros b. apply set_cell_new, Sr.
      * intros a b _ _. reflexivity.
      * exact Hm.
      * exact H.
    + (* ---- keyed join *)
      cbv beta iota zeta. rewrite <- Ea in *. clear Ea a0 on_a'.
      set (ka := key_of (cols l) on_a). set (kb' := key_of (cols r) on_b).
      unfold pd_isnull_any.
      replace (subset on_a (cols l)) with true by (symmetry; apply subset_spec; exact Ha).
      replace (subset on_b (cols r)) with true by (symmetry; apply subset_spec; exact Hb). cbn [obind].
      fold ka kb'.
      set (nl := map (fun r0 => existsb is_null (ka r0)) (rows l)). set (nr := map (fun r0 => existsb is_null (kb' r0)) (rows r)).
      destruct (existsb (fun b : bool => b) nl && existsb (fun b : bool => b) nr) eqn:Eany.
      * (* both sides have a row with a null key: the marker column joins the keys *)
        set (N := unused_column_name base_null_key names).
        pose proof (unused_column_name_fresh base_null_key names) as FN. fold N in FN.
        assert (~ In N (cols l)) as Nl by (intros I; apply FN, In_set_union; left; exact I).
        assert (~ In N (cols r)) as Nr by (intros I; apply FN, In_set_union; right; exact I).
        destruct (pd_set_col N (marker_left nl) l) as [L|] eqn:EL; cbn [obind]; [|discriminate].
        destruct (pd_set_col N (marker_right nr) r) as [R|] eqn:ER; cbn [obind]; [|discriminate].
        destruct (pd_set_col_inv _ _ _ _ EL) as [_ [CL RL]]. destruct (pd_set_col_inv _ _ _ _ ER) as [_ [CR RR]].
        rewrite (add_end_new _ _ Nl) in CL. rewrite (add_end_new _ _ Nr) in CR.
        set (ml := fun a : nat * list val => if existsb is_null (ka (snd a)) then vint (Z.of_nat (Datatypes.S (fst a))) else vint 0).
        set (mr := fun b : nat * list val => if existsb is_null (kb' (snd b)) then vint (- Z.of_nat (Datatypes.S (fst b))) else vint 0).
        unfold clean_copy, pd_reset_index. intros H.
        apply (keycol_refines l r la lb (@snd nat (list val)) (@snd nat (list val)) on_a on_b (how_of jt) sfx Hsfx Ha Hb Hlen Lla Llb
                 N ml mr L R FN CL CR) with (merge := merge).
        -- rewrite RL. unfold marker_left, nl. rewrite map_length.
           rewrite (combine_marker (fun ib : nat * bool => if snd ib then vint (Z.of_nat (Datatypes.S (fst ib))) else vint 0) (fun r0 => existsb is_null (ka r0)) (rows l) 0).
           rewrite map_map. apply map_ext. intros a. apply set_cell_new, Nl.
        -- rewrite RR. unfold marker_right, nr. rewrite map_length.
           rewrite (combine_marker (fun ib : nat * bool => if snd ib then vint (- Z.of_nat (Datatypes.S (fst ib))) else vint 0) (fun r0 => existsb is_null (kb' r0)) (rows r) 0).
           rewrite map_map. apply map_ext. intros b. apply set_cell_new, Nr.
        -- (* equivalent keys are null together, and then the two markers differ *)
           intros a b _ _. unfold ml, mr. rewrite marker_eqv. unfold join_match, keys_match. cbn [orb]. fold ka kb'.
           destruct (keys_eqv (ka (snd a)) (kb' (snd b))) eqn:Ek; [|rewrite andb_false_r; reflexivity].
           rewrite <- (keys_eqv_null_same _ _ Ek). destruct (existsb is_null (ka (snd a))); reflexivity.
        -- exact Hm.
        -- exact H.
      * (* at most one side has null keys: pandas' "null matches null" never fires *)
        cbn [obind]. unfold clean_copy, pd_reset_index. intros H.
        apply (core_refines l r la lb (@snd nat (list val)) (@snd nat (list val)) on_a on_b (how_of jt) sfx Hsfx Ha Hb
                 l r on_a on_b [] (@snd nat (list val)) (@snd nat (list val))) with (merge := merge).
        -- rewrite app_nil_r. reflexivity.
        -- rewrite app_nil_r. reflexivity.
        -- exact Hla.
        -- exact Hlb.
        -- reflexivity.
        -- reflexivity.
        -- intros s [].
        -- intros c. rewrite same_named_spec. cbn [In]. tauto.
        -- intros a b Ia Ib. unfold join_match, keys_match. cbn [orb]. fold ka kb'.
           destruct (keys_eqv (ka (snd a)) (kb' (snd b))) eqn:Ek; [|rewrite andb_false_r; reflexivity].
           destruct (existsb is_null (ka (snd a))) eqn:En; [|reflexivity]. exfalso.
           assert (existsb is_null (kb' (snd b)) = true) as En' by (rewrite <- (keys_eqv_null_same _ _ Ek); exact En).
           assert (existsb (fun b0 : bool => b0) nl = true) as T1.
           { apply existsb_id_true. unfold nl. apply in_map_iff. exists (snd a). split; [exact En|]. unfold la in Ia. apply tag_from_In in Ia. exact Ia. }
           assert (existsb (fun b0 : bool => b0) nr = true) as T2.
           { apply existsb_id_true. unfold nr. apply in_map_iff. exists (snd b). split; [exact En'|]. unfold lb in Ib. apply tag_from_In in Ib. exact Ib. }
           rewrite T1, T2 in Eany. discriminate.
        -- exact Hm.
        -- exact H.
Qed.
