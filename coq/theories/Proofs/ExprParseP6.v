(* Proofs/ExprParseP6.v -- C13, part 2: every well-formed AST, flattened, is parsed back by the level parsers:
   `good d`, constructor by constructor, then for every well-formed AST by induction on its size. *)
From Coq Require Import List Bool String Arith Lia.
Import ListNotations.
From DA Require Import Model.PyExpr Model.ExprParse Model.ExprAst Proofs.ExprParseP1 Proofs.ExprParseP5.
Local Open Scope string_scope.
Local Open Scope bool_scope.
Local Open Scope list_scope.

Fixpoint dsize (d : dtree) : nat :=
  match d with
  | DPar x | DNot x | DFactor _ x | DAttr x _ => S (dsize x)
  | DChain _ d0 rest => S (dsize d0 + fold_right (fun p n => dsize (snd p) + n) 0 rest)
  | DPower b e => S (dsize b + dsize e)
  | DCall f args _ => S (dsize f + fold_right (fun a n => dsize a + n) 0 args)
  | DColl _ items _ => S (fold_right (fun a n => dsize a + n) 0 items)
  | DDict items _ => S (fold_right (fun kv n => dsize (fst kv) + dsize (snd kv) + n) 0 items)
  | _ => 1
  end.

Lemma dtree_size_ind (Q : dtree -> Prop) : (forall d, (forall x, dsize x < dsize d -> Q x) -> Q d) -> forall d, Q d.
Proof. intros H d. assert (A : forall n x, dsize x < n -> Q x).
  { induction n as [|n IH]; intros x Hx; [lia|]. apply H. intros y Hy. apply IH. lia. }
  exact (A (S (dsize d)) d (Nat.lt_succ_diag_r _)). Qed.

Lemma dsize_chain L d0 (rest : list (string * dtree)) p : In p rest -> dsize (snd p) < dsize (DChain L d0 rest).
Proof. simpl. induction rest as [|q rest IH]; simpl; intros H; [destruct H|]. destruct H as [->|H]; [lia|]. specialize (IH H). lia. Qed.
Lemma dsize_items (items : list dtree) x : In x items -> dsize x <= fold_right (fun a n => dsize a + n) 0 items.
Proof. induction items as [|q items IH]; simpl; intros H; [destruct H|]. destruct H as [->|H]; [lia|]. specialize (IH H). lia. Qed.
Lemma dsize_call f args tr x : In x args -> dsize x < dsize (DCall f args tr).
Proof. intros H. apply dsize_items in H. simpl. lia. Qed.
Lemma dsize_coll k items tr x : In x items -> dsize x < dsize (DColl k items tr).
Proof. intros H. apply dsize_items in H. simpl. lia. Qed.
Lemma dsize_dict (items : list (dtree * dtree)) tr kv : In kv items ->
  dsize (fst kv) < dsize (DDict items tr) /\ dsize (snd kv) < dsize (DDict items tr).
Proof. simpl. induction items as [|q items IH]; simpl; intros H; [destruct H|]. destruct H as [->|H]; [lia|]. specialize (IH H). lia. Qed.

Lemma at_least_le L d : at_least L d = true -> L <= dlvl d.
Proof. unfold at_least. apply Nat.leb_le. Qed.

Lemma wfn_chain L d0 rest : wfn (DChain L d0 rest) = true ->
  is_chain_level L = true /\ rest <> [] /\ S L <= dlvl d0 /\ wfn d0 = true
  /\ forall p, In p rest -> is_binop_at L (fst p) = true /\ S L <= dlvl (snd p) /\ wfn (snd p) = true.
Proof. simpl. intros W. apply andb_prop in W as [W Hrest]. apply andb_prop in W as [W W0]. apply andb_prop in W as [W Hl0].
  apply andb_prop in W as [Hcl Hne]. rewrite forallb_forall in Hrest.
  split; [exact Hcl|split; [destruct rest; [discriminate Hne|discriminate]|split; [exact (at_least_le _ _ Hl0)|split; [exact W0|]]]].
  intros p Hp. specialize (Hrest p Hp). apply andb_prop in Hrest as [Hr Hw]. apply andb_prop in Hr as [Ho Hl].
  split; [exact Ho|split; [exact (at_least_le _ _ Hl)|exact Hw]]. Qed.

Lemma wfn_power b e : wfn (DPower b e) = true -> 12 <= dlvl b /\ wfn b = true /\ 10 <= dlvl e /\ wfn e = true.
Proof. simpl. intros W. apply andb_prop in W as [W We]. apply andb_prop in W as [W Hle]. apply andb_prop in W as [Hlb Wb].
  split; [exact (at_least_le _ _ Hlb)|split; [exact Wb|split; [exact (at_least_le _ _ Hle)|exact We]]]. Qed.

Lemma wfn_call f args tr : wfn (DCall f args tr) = true ->
  12 <= dlvl f /\ wfn f = true /\ (forall x, In x args -> wfn x = true) /\ (tr = true -> args <> []).
Proof. simpl. intros W. apply andb_prop in W as [W Htr]. apply andb_prop in W as [W Hargs]. apply andb_prop in W as [Hl Wf].
  rewrite forallb_forall in Hargs.
  split; [exact (at_least_le _ _ Hl)|split; [exact Wf|split; [exact Hargs|]]]. intros -> ->. discriminate Htr. Qed.

(* ------------------------------------------------------------------ what holds of every well-formed AST *)
Definition no_punct (e : elem) : bool :=
  match e with ETok t => negb (sym_is t "," || sym_is t ":") | _ => true end.

Record good (d : dtree) : Prop := mkgood {
  g_prev : forall p, prev_after p (flat d) = true;
  g_clean : clean (dlvl d) (flat d);
  g_parse : forall L, L <= dlvl d -> plvl L (flat d) = Some (strip d);
  g_punct : forallb no_punct (flat d) = true
}.

Lemma dlvl_le12 d : wfn d = true -> dlvl d <= 12.
Proof. destruct d; simpl; try lia. intros H. repeat (apply andb_prop in H as [H _]).
  destruct L as [|[|[|[|[|[|[|[|[|[|L]]]]]]]]]]; simpl in H; try discriminate H; lia. Qed.

(* the parse at every level follows from the parse at the node's own level *)
Lemma good_of d : wfn d = true ->
  (forall p, prev_after p (flat d) = true) -> clean (dlvl d) (flat d) ->
  plvl (dlvl d) (flat d) = Some (strip d) -> forallb no_punct (flat d) = true -> good d.
Proof. intros W H1 H2 H3 H4. constructor; try assumption.
  intros L HL. rewrite (plvl_descend (dlvl d) (flat d)) with (k := dlvl d - L); [exact H3|exact H2|apply dlvl_le12; exact W|lia]. Qed.

Lemma good_nonempty d : good d -> flat d <> [].
Proof. intros G E. pose proof (g_prev d G false) as H. rewrite E in H. discriminate H. Qed.

Lemma head_sym_app a b : a <> [] -> head_sym (a ++ b) = head_sym a.
Proof. destruct a; [congruence|reflexivity]. Qed.

Lemma clean_mono M M' es : M <= M' -> clean M' es -> clean M es.
Proof. intros Hle [Hb [Hn Hu]].
  split; [exact (binpos_ok_mono _ _ _ _ Hle Hb)|split; [intros H; apply Hn; lia|intros H; apply Hu; lia]]. Qed.

(* what follows a non-empty clean text only has to keep the operators in binary position high enough *)
Lemma clean_app M a b : clean M a -> a <> [] -> binpos_ok M (prev_after false a) b = true -> clean M (a ++ b).
Proof. intros [Hb [Hn Hu]] Hne Hbb. split; [rewrite binpos_ok_app, Hb, Hbb; reflexivity|].
  rewrite (head_sym_app a b Hne). split; assumption. Qed.

(* ------------------------------------------------------------------ operator tokens *)
Lemma binlvl_not_const s l : binlvl s = Some l -> mem_str s ["None"; "True"; "False"] = false.
Proof. intros H. destruct (mem_str s ["None"; "True"; "False"]) eqn:M; [|reflexivity].
  apply mem_str_In in M. simpl in M. destruct M as [<-|[<-|[<-|[]]]]; discriminate H. Qed.

Lemma binop_not_operand L s : is_binop_at L s = true -> is_operand_end (ETok (TSym s)) = false.
Proof. intros H. apply is_binop_at_lvl in H. simpl. exact (binlvl_not_const _ _ H). Qed.

Lemma binop_no_punct L s : is_binop_at L s = true -> no_punct (ETok (TSym s)) = true.
Proof. intros H. apply is_binop_at_lvl in H. simpl.
  destruct (s ==s ",") eqn:E1; [apply String.eqb_eq in E1; subst; discriminate H|].
  destruct (s ==s ":") eqn:E2; [apply String.eqb_eq in E2; subst; discriminate H|]. reflexivity. Qed.

Lemma uop_cases s : is_uop s = true -> s = "+" \/ s = "-" \/ s = "~".
Proof. intros H. apply mem_str_In in H. simpl in H. intuition. Qed.

Lemma flat_map_pairs (rest : list (string * dtree)) :
  flat_map (fun p => ETok (TSym (fst p)) :: flat (snd p)) rest
  = flat_map (fun q : string * list elem => ETok (TSym (fst q)) :: snd q) (map (fun p => (fst p, flat (snd p))) rest).
Proof. induction rest as [|p rest IH]; simpl; [reflexivity|]. rewrite IH. reflexivity. Qed.

Lemma chain_prev (rest : list (string * dtree)) q :
  (forall p, In p rest -> forall q', prev_after q' (flat (snd p)) = true) -> rest <> [] ->
  prev_after q (flat_map (fun p => ETok (TSym (fst p)) :: flat (snd p)) rest) = true.
Proof. revert q. induction rest as [|p rest IH]; intros q H Hne; [congruence|].
  cbn [flat_map]. rewrite <- app_comm_cons, prev_after_cons, prev_after_app.
  destruct rest as [|p' rest'].
  - simpl. apply H. left. reflexivity.
  - apply IH; [intros x Hx; apply H; right; exact Hx|discriminate]. Qed.

Lemma chain_binpos L (rest : list (string * dtree)) :
  (forall p, In p rest -> is_binop_at L (fst p) = true /\ binpos_ok L false (flat (snd p)) = true
                          /\ prev_after false (flat (snd p)) = true) ->
  binpos_ok L true (flat_map (fun p => ETok (TSym (fst p)) :: flat (snd p)) rest) = true.
Proof. induction rest as [|p rest IH]; intros H; [reflexivity|].
  destruct (H p (or_introl eq_refl)) as [Hop [Hb Hp]].
  cbn [flat_map]. rewrite <- app_comm_cons. cbn [binpos_ok]. rewrite binpos_ok_app.
  rewrite (binop_not_operand _ _ Hop), Hb, Hp. rewrite IH; [|intros x Hx; apply H; right; exact Hx].
  rewrite !andb_true_r. unfold bin_ok. rewrite (is_binop_at_lvl _ _ Hop). apply Nat.leb_refl. Qed.

Lemma chain_punct L (rest : list (string * dtree)) :
  (forall p, In p rest -> is_binop_at L (fst p) = true /\ forallb no_punct (flat (snd p)) = true) ->
  forallb no_punct (flat_map (fun p => ETok (TSym (fst p)) :: flat (snd p)) rest) = true.
Proof. induction rest as [|p rest IH]; intros H; [reflexivity|].
  destruct (H p (or_introl eq_refl)) as [Hop Hb].
  cbn [flat_map]. rewrite <- app_comm_cons. cbn [forallb]. rewrite forallb_app, Hb, (binop_no_punct _ _ Hop).
  rewrite IH; [reflexivity|intros x Hx; apply H; right; exact Hx]. Qed.

Lemma plvl_chain L : is_chain_level L = true ->
  plvl L = p_level (level_name L) (level_keeps L) L (plvl (S L)).
Proof. destruct L as [|[|[|[|[|[|[|[|[|[|L]]]]]]]]]]; simpl; intros H; try discriminate H; reflexivity. Qed.

(* ------------------------------------------------------------------ not, unary operators, power *)
Lemma wrap_nots_S n t : wrap_nots (S n) t = LNode "not" [wrap_nots n t].
Proof. reflexivity. Qed.

Lemma p_not_test_not es t : p_not_test es = Some t -> p_not_test (ETok (TSym "not") :: es) = Some (LNode "not" [t]).
Proof. unfold p_not_test. cbn [strip_nots]. change ("not" ==s "not") with true. cbv iota.
  destruct (strip_nots es) as [n b]. destruct (p_comparison b) as [x|]; simpl; [|discriminate].
  intros H. inversion H. reflexivity. Qed.

Lemma p_factor_segs_uop op s more : is_uop op = true ->
  p_factor_segs (ETok (TSym op) :: s) more
  = option_map (fun t => LNode "factor" [LTok (TSym op); t]) (p_factor_segs s more).
Proof. intros Hu. destruct more as [|[s1 x1] more']; cbn [p_factor_segs strip_uops]; rewrite Hu;
  destruct (strip_uops s) as [ops b]; destruct (p_atom_expr b) as [bt|]; try reflexivity.
  destruct (p_factor_segs x1 more') as [e|]; reflexivity. Qed.

Lemma p_factor_uop op es t : is_uop op = true -> p_factor es = Some t ->
  p_factor (ETok (TSym op) :: es) = Some (LNode "factor" [LTok (TSym op); t]).
Proof. intros Hu. unfold p_factor. cbn [split_go]. cbn [andb].
  assert (Ho : is_operand_end (ETok (TSym op)) = false).
  { destruct (uop_cases _ Hu) as [ -> | [ -> | -> ] ]; reflexivity. }
  rewrite Ho. destruct (split_go 11 false es) as [p rest]. rewrite (p_factor_segs_uop _ _ _ Hu).
  intros H. rewrite H. reflexivity. Qed.

Lemma trailers_app_n : forall n r0 a t r, List.length r0 <= n -> trailers a r0 = Some t -> trailers a (r0 ++ r) = trailers t r.
Proof. induction n as [|n IH]; intros r0 a t r Hl H.
  - destruct r0; [|simpl in Hl; lia]. simpl in H. inversion H. reflexivity.
  - destruct r0 as [|e r0]; [simpl in H; inversion H; reflexivity|].
    simpl in Hl. destruct e as [tk|k items tr].
    + destruct tk as [s|nn|m|s|d|b ty]; try discriminate H.
      destruct r0 as [|e2 r0]; [discriminate H|]. destruct e2 as [[nm| | | | |]|]; try discriminate H.
      cbn [trailers app] in *. destruct (d ==s "."); [|discriminate H]. apply IH; [simpl in Hl; lia|exact H].
    + destruct k; try discriminate H. destruct items as [|g items].
      * cbn [trailers app] in *. apply IH; [lia|exact H].
      * cbn [trailers app] in *. destruct (tests_of (g :: items)); [|discriminate H]. apply IH; [lia|exact H]. Qed.

Lemma p_atom_expr_app es t r : p_atom_expr es = Some t -> p_atom_expr (es ++ r) = trailers t r.
Proof. destruct es as [|e r0]; [discriminate|]. cbn [p_atom_expr app]. destruct (atom e) as [a|]; [|discriminate].
  apply (trailers_app_n (List.length r0)). lia. Qed.

Lemma tests_of_map (items : list dtree) : tests_of (map (fun a => GTest (strip a)) items) = Some (map strip items).
Proof. unfold tests_of. induction items as [|x items IH]; simpl; [reflexivity|]. rewrite IH. reflexivity. Qed.

Lemma kvs_of_map (items : list (dtree * dtree)) :
  kvs_of (map (fun kv => GKV (strip (fst kv)) (strip (snd kv))) items)
  = Some (map (fun kv => LNode "key_value" [strip (fst kv); strip (snd kv)]) items).
Proof. unfold kvs_of. induction items as [|x items IH]; simpl; [reflexivity|]. rewrite IH. reflexivity. Qed.

Lemma tests_of_cons t l : tests_of (GTest t :: l) = match tests_of l with Some ts => Some (t :: ts) | None => None end.
Proof. reflexivity. Qed.
Lemma kvs_of_cons k v l :
  kvs_of (GKV k v :: l) = match kvs_of l with Some ts => Some (LNode "key_value" [k; v] :: ts) | None => None end.
Proof. reflexivity. Qed.

Ltac atom_tac W :=
  apply good_of;
  [ try reflexivity; exact W | intros p; reflexivity
  | split; [reflexivity|split; [intros _; simpl; discriminate|]];
    let s0 := fresh "s" in let H0 := fresh "H" in
    intros _ s0 H0; simpl in H0; try discriminate H0; inversion H0; reflexivity
  | try reflexivity | reflexivity ].

Lemma good_name s : good (DName s).
Proof. assert (W : wfn (DName s) = true) by reflexivity. atom_tac W. Qed.

Lemma good_num t : wfn (DNum t) = true -> good (DNum t).
Proof. intros W. destruct t as [s|n|m|s|s|b ty]; simpl in W; try discriminate W.
  - atom_tac W.
  - atom_tac W.
  - subst b. assert (W : wfn (DNum (TOther true ty)) = true) by reflexivity. atom_tac W. Qed.

Lemma good_str t : wfn (DStr t) = true -> good (DStr t).
Proof. intros W. destruct t as [s|n|m|s|s|b ty]; simpl in W; try discriminate W.
  - atom_tac W.
  - destruct b; [discriminate W|]. assert (W' : wfn (DStr (TOther false ty)) = true) by reflexivity. atom_tac W'. Qed.

Lemma good_const k : wfn (DConst k) = true -> good (DConst k).
Proof. intros W. pose proof W as W'. cbn [wfn] in W'. apply mem_str_In in W'. simpl in W'.
  destruct W' as [<-|[<-|[<-|[]]]]; atom_tac W. Qed.

Lemma good_par x : wfn (DPar x) = true -> good (DPar x).
Proof. intros W. atom_tac W. Qed.

Lemma good_coll k items tr : wfn (DColl k items tr) = true -> good (DColl k items tr).
Proof. intros W. atom_tac W.
  change (p_atom_expr [EGrp k (map (fun a => GTest (strip a)) items) tr] = Some (strip (DColl k items tr))).
  simpl in W. apply andb_prop in W as [_ W].
  destruct k, items as [|x [|y items]]; cbn [p_atom_expr atom map strip trailers]; try discriminate W;
    rewrite ?tests_of_cons, ?tests_of_map; try reflexivity.
  - subst tr. reflexivity.
  - destruct tr; reflexivity. Qed.

Lemma good_dict items tr : wfn (DDict items tr) = true -> good (DDict items tr).
Proof. intros W. atom_tac W.
  change (p_atom_expr [EGrp BBrace (map (fun kv => GKV (strip (fst kv)) (strip (snd kv))) items) tr] = Some (strip (DDict items tr))).
  destruct items as [|kv items]; cbn [p_atom_expr atom map strip trailers]; [reflexivity|].
  rewrite kvs_of_cons, kvs_of_map. reflexivity. Qed.

Lemma good_not x : wfn (DNot x) = true -> good x -> good (DNot x).
Proof. intros W G. pose proof W as W'. simpl in W'. apply andb_prop in W' as [Hl Wx]. apply at_least_le in Hl.
  apply good_of; try exact W.
  - intros p. cbn [flat]. rewrite prev_after_cons. apply (g_prev x G).
  - split; [|split; simpl; lia]. cbn [flat dlvl binpos_ok]. simpl bin_ok.
    exact (proj1 (clean_mono 2 _ _ Hl (g_clean x G))).
  - cbn [flat dlvl plvl]. apply p_not_test_not. exact (g_parse x G 2 Hl).
  - cbn [flat forallb]. exact (g_punct x G). Qed.

Lemma good_factor op x : wfn (DFactor op x) = true -> good x -> good (DFactor op x).
Proof. intros W G. pose proof W as W'. simpl in W'. apply andb_prop in W' as [W' Wx]. apply andb_prop in W' as [Hu Hl].
  apply at_least_le in Hl.
  assert (Ho : is_operand_end (ETok (TSym op)) = false).
  { destruct (uop_cases _ Hu) as [ -> | [ -> | -> ] ]; reflexivity. }
  apply good_of; try exact W.
  - intros p. cbn [flat]. rewrite prev_after_cons, Ho. apply (g_prev x G).
  - split; [|split; [|simpl; lia]].
    + cbn [flat dlvl binpos_ok]. rewrite Ho. simpl bin_ok. exact (proj1 (clean_mono 10 _ _ Hl (g_clean x G))).
    + intros _ H. simpl in H. inversion H; subst op. discriminate Hu.
  - cbn [flat dlvl plvl]. apply (p_factor_uop _ _ _ Hu). exact (g_parse x G 10 Hl).
  - cbn [flat forallb]. rewrite (g_punct x G).
    destruct (uop_cases _ Hu) as [ -> | [ -> | -> ] ]; reflexivity. Qed.

Lemma good_power b e : wfn (DPower b e) = true -> good b -> good e -> good (DPower b e).
Proof. intros W Gb Ge. destruct (wfn_power b e W) as [Hlb [_ [Hle _]]].
  pose proof (clean_mono 12 _ _ Hlb (g_clean b Gb)) as Cb.
  assert (Be : binpos_ok 11 false (flat e) = true).
  { apply binpos_ok_10_11. exact (proj1 (clean_mono 10 _ _ Hle (g_clean e Ge))). }
  apply good_of; try exact W.
  - intros p. cbn [flat]. rewrite prev_after_app, prev_after_cons. apply (g_prev e Ge).
  - cbn [flat dlvl]. apply clean_app; [exact (clean_mono 11 12 _ ltac:(lia) Cb)|exact (good_nonempty b Gb)|].
    rewrite (g_prev b Gb). cbn [binpos_ok]. change (is_operand_end (ETok (TSym "**"))) with false. rewrite Be. reflexivity.
  - cbn [flat dlvl plvl]. unfold p_factor.
    rewrite (split_app 11 12 ltac:(lia) _ _ _ (proj1 Cb)), (g_prev b Gb), (split_op 11 "**" _ eq_refl).
    pose proof (g_parse e Ge 10 Hle) as Pe. cbn [plvl] in Pe. unfold p_factor in Pe.
    destruct (split_go 11 false (flat e)) as [p1 rest]. rewrite app_nil_r. cbn [p_factor_segs].
    rewrite (strip_uops_none (flat b)); [|apply Cb; lia].
    pose proof (g_parse b Gb 12 Hlb) as Pb. cbn [plvl] in Pb. rewrite Pb, Pe. reflexivity.
  - cbn [flat]. rewrite forallb_app. cbn [forallb]. rewrite (g_punct b Gb), (g_punct e Ge). reflexivity. Qed.

Lemma good_call f args tr : wfn (DCall f args tr) = true -> good f -> good (DCall f args tr).
Proof. intros W G. destruct (wfn_call f args tr W) as [Hl _].
  apply good_of; try exact W.
  - intros p. cbn [flat]. rewrite prev_after_app. reflexivity.
  - cbn [flat dlvl]. apply clean_app; [exact (clean_mono 12 _ _ Hl (g_clean f G))|exact (good_nonempty f G)|reflexivity].
  - cbn [flat dlvl plvl]. pose proof (g_parse f G 12 Hl) as Pf. cbn [plvl] in Pf.
    rewrite (p_atom_expr_app _ _ _ Pf). destruct args as [|a args]; [reflexivity|].
    cbn [map trailers]. change (GTest (strip a) :: map (fun a0 => GTest (strip a0)) args) with (map (fun a0 => GTest (strip a0)) (a :: args)).
    rewrite tests_of_map. reflexivity.
  - cbn [flat]. rewrite forallb_app, (g_punct f G). reflexivity. Qed.

Lemma good_attr o n : wfn (DAttr o n) = true -> good o -> good (DAttr o n).
Proof. intros W G. pose proof W as W'. simpl in W'. apply andb_prop in W' as [Hl Wo]. apply at_least_le in Hl.
  apply good_of; try exact W.
  - intros p. cbn [flat]. rewrite prev_after_app. reflexivity.
  - cbn [flat dlvl]. apply clean_app; [exact (clean_mono 12 _ _ Hl (g_clean o G))|exact (good_nonempty o G)|].
    rewrite (g_prev o G). reflexivity.
  - cbn [flat dlvl plvl]. pose proof (g_parse o G 12 Hl) as Po. cbn [plvl] in Po.
    rewrite (p_atom_expr_app _ _ _ Po). reflexivity.
  - cbn [flat]. rewrite forallb_app, (g_punct o G). reflexivity. Qed.

Lemma good_chain L d0 rest : wfn (DChain L d0 rest) = true -> good d0 ->
  (forall p, In p rest -> good (snd p)) -> good (DChain L d0 rest).
Proof. intros W G0 Gr. destruct (wfn_chain L d0 rest W) as [Hcl [Hne [Hl0 [_ Hr]]]].
  assert (HL9 : L <= 9). { destruct L as [|[|[|[|[|[|[|[|[|[|L]]]]]]]]]]; simpl in Hcl; try discriminate Hcl; lia. }
  (* every operand, seen from level S L *)
  assert (Hops : forall p, In p rest -> is_binop_at L (fst p) = true /\ binpos_ok (S L) false (flat (snd p)) = true
                                       /\ prev_after false (flat (snd p)) = true).
  { intros p Hp. destruct (Hr p Hp) as [Ho [Hl _]].
    split; [exact Ho|split; [exact (proj1 (clean_mono (S L) _ _ Hl (g_clean _ (Gr p Hp))))|apply (g_prev _ (Gr p Hp))]]. }
  pose proof (clean_mono (S L) _ _ Hl0 (g_clean d0 G0)) as C0.
  apply good_of; try exact W.
  - intros p. cbn [flat]. rewrite prev_after_app. apply chain_prev; [|exact Hne].
    intros q Hq q'. apply (g_prev _ (Gr q Hq)).
  - cbn [flat dlvl]. apply clean_app; [exact (clean_mono L (S L) _ ltac:(lia) C0)|exact (good_nonempty d0 G0)|].
    rewrite (g_prev d0 G0). apply chain_binpos. intros q Hq. destruct (Hops q Hq) as [Ho [Hb Hp]].
    split; [exact Ho|split; [exact (binpos_ok_mono L (S L) _ _ ltac:(lia) Hb)|exact Hp]].
  - cbn [flat dlvl]. rewrite (plvl_chain L Hcl), flat_map_pairs. cbn [strip].
    apply p_level_join.
    + apply split_join; [exact (proj1 C0)|apply (g_prev d0 G0)|].
      apply Forall_forall. intros q Hq. apply in_map_iff in Hq as [p [<- Hp]]. exact (Hops p Hp).
    + exact (g_parse d0 G0 (S L) Hl0).
    + clear - Hr Gr. induction rest as [|p rest IH]; [constructor|]. cbn [map]. constructor.
      * cbn [fst snd]. split; [reflexivity|]. apply (g_parse _ (Gr p (or_introl eq_refl))). apply (Hr p (or_introl eq_refl)).
      * apply IH; intros q Hq; [apply Gr|apply Hr]; right; exact Hq.
  - cbn [flat]. rewrite forallb_app, (g_punct d0 G0). apply (chain_punct L).
    intros q Hq. split; [apply (Hr q Hq)|exact (g_punct _ (Gr q Hq))]. Qed.

Theorem wf_good : forall d, wfn d = true -> good d.
Proof. induction d as [d IH] using dtree_size_ind. intros W.
  destruct d as [x|s|t|t|k|L d0 rest|x|op x|b e|f args tr|o nm|k items tr|items tr].
  - apply good_par. exact W.
  - apply good_name.
  - apply good_num. exact W.
  - apply good_str. exact W.
  - apply good_const. exact W.
  - destruct (wfn_chain L d0 rest W) as [_ [_ [_ [W0 Hr]]]].
    apply good_chain; [exact W|apply IH; [simpl; lia|exact W0]|].
    intros p Hp. apply IH; [exact (dsize_chain L d0 rest p Hp)|apply (Hr p Hp)].
  - pose proof W as W'. simpl in W'. apply andb_prop in W' as [_ Wx].
    apply good_not; [exact W|apply IH; [simpl; lia|exact Wx]].
  - pose proof W as W'. simpl in W'. apply andb_prop in W' as [_ Wx].
    apply good_factor; [exact W|apply IH; [simpl; lia|exact Wx]].
  - destruct (wfn_power b e W) as [_ [Wb [_ We]]].
    apply good_power; [exact W|apply IH; [simpl; lia|exact Wb]|apply IH; [simpl; lia|exact We]].
  - destruct (wfn_call f args tr W) as [_ [Wf _]].
    apply good_call; [exact W|apply IH; [simpl; lia|exact Wf]].
  - pose proof W as W'. simpl in W'. apply andb_prop in W' as [_ Wo].
    apply good_attr; [exact W|apply IH; [simpl; lia|exact Wo]].
  - apply good_coll. exact W.
  - apply good_dict. exact W. Qed.
