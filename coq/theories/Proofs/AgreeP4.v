(* C01 / C02, part 4: concrete witnesses (vm_compute).
   - for every convention in which the models of Pandas and SQLite (PostgreSQL) differ: a pipeline and tables on which the two
     models return different tables, on which exactly that convention matters, and the causes Model/SemStrict.v names for it;
   - non-vacuity: a non-trivial pipeline over tables WITH nulls, duplicates and ties that is insensitive. *)
From Coq Require Import List Bool QArith String.
Import ListNotations.
From DA Require Import Base.PyRT Base.Val Model.Sem Model.SemStrict.
Local Open Scope string_scope.
Local Open Scope list_scope.

Definition zv (z : Z) : val := VNum (inject_Z z).
Definition half : val := VNum (1 # 2).
Definition w_d1 : table :=
  mktable ["k"; "a"; "b"; "u"]
    [[zv 1; zv 1; VNull; zv 0]; [zv 1; VNull; zv 2; zv 1]; [zv 2; zv 3; zv 1; zv 2]; [VNull; VNull; VNull; zv 3]; [VNull; zv 5; half; zv 4]].
Definition w_d2 : table := mktable ["k"; "c"] [[zv 1; zv 10]; [VNull; zv 20]; [zv 3; zv 30]].
(* nb : a boolean column with a null (for and / or without any comparison) *)
Definition w_d3 : table := mktable ["a"; "nb"; "u"] [[zv 1; VNull; zv 0]; [VNull; VBool true; zv 1]; [zv 2; VBool false; zv 2]].
Definition w_env : env := [("d1", w_d1); ("d2", w_d2); ("d3", w_d3)].
Definition T1 : op := OTable "d1" ["k"; "a"; "b"; "u"].
Definition T2 : op := OTable "d2" ["k"; "c"].
Definition T3 : op := OTable "d3" ["a"; "nb"; "u"].
Definition nowin : window := mkwin [] [] [].

Definition w_cmp : op := OExtend T1 [("x", EOp ">" [ECol "a"; EConst (zv 1)])] false nowin.
Definition w_ne_filter : op := OSelectRows T1 (EOp "!=" [ECol "a"; EConst (zv 1)]).
Definition w_logic : op := OExtend T3 [("x", EOp "if_else" [EOp "or" [EOp "is_null" [ECol "a"]; ECol "nb"]; EConst (zv 1); EConst (zv 0)])] false nowin.
Definition w_minmax : op := OExtend T1 [("x", EOp "maximum" [ECol "a"; ECol "b"])] false nowin.
Definition w_fminmax : op := OExtend T1 [("x", EOp "fmax" [ECol "a"; ECol "b"])] false nowin.
Definition w_empty_agg : op := OProject (OSelectRows T1 (EOp "==" [ECol "u"; EConst (zv 3)])) [("s", EOp "sum" [ECol "a"])] ["k"].
Definition w_running : op := OExtend T1 [("x", EOp "cumsum" [ECol "a"])] true (mkwin [] ["u"] []).
Definition w_sort_asc : op := OOrder T1 ["a"; "u"] [] (Some 2%nat).
Definition w_sort_desc : op := OOrder T1 ["a"; "u"] ["a"] (Some 2%nat).
Definition w_window_order : op := OExtend T1 [("x", EOp "_row_number" [])] true (mkwin [] ["a"; "u"] []).
Definition w_join : op := OJoin T1 T2 ["k"] ["k"] JInner.
Definition w_final_order : op := OOrder T1 ["a"; "u"] [] None.

(* (causes along Pandas, conventions of SQLite that matter when adopted alone, do the two models agree as multisets?) *)
Definition verdict (fl2 : flavor) (p : op) : list nat * list nat * bool :=
  (map cause_code (causes fl_pandas p w_env), map field_code (effective_fields false fl_pandas fl2 p w_env),
   tables_agree false (sem_gen fl_pandas p w_env) (sem_gen fl2 p w_env)).

Lemma w_cmp_ok : verdict fl_sqlite w_cmp = ([1; 1]%nat, [1]%nat, false).              Proof. vm_compute. reflexivity. Qed.
Lemma w_ne_filter_ok : verdict fl_sqlite w_ne_filter = ([2; 2]%nat, [1]%nat, false).  Proof. vm_compute. reflexivity. Qed.
Lemma w_logic_ok : verdict fl_sqlite w_logic = ([3]%nat, [2]%nat, false).             Proof. vm_compute. reflexivity. Qed.
(* maximum / minimum / fmax / fmin: since /repo 9699787 the SQL templates follow Pandas (fl_sqlite, fl_postgres): the cause is
   met, no convention of SQLite matters, the models agree; since /repo 73dee51 the same holds for Polars (fl_polars).  Only a
   hypothetical backend that ignored a null operand (the field set by hand) would still differ: that is why the cause stays in
   the hypothesis of the agreement theorems, which quantify over EVERY flavour. *)
Lemma w_minmax_ok : verdict fl_sqlite w_minmax = ([4; 4; 4]%nat, []%nat, true).       Proof. vm_compute. reflexivity. Qed.
Lemma w_fminmax_ok : verdict fl_sqlite w_fminmax = ([5; 5; 5]%nat, []%nat, true).     Proof. vm_compute. reflexivity. Qed.
Lemma w_minmax_polars : verdict fl_polars w_minmax = ([4; 4; 4]%nat, []%nat, true).    Proof. vm_compute. reflexivity. Qed.
Lemma w_minmax_postgres : verdict fl_postgres w_minmax = ([4; 4; 4]%nat, []%nat, true). Proof. vm_compute. reflexivity. Qed.
Definition fl_ignoring_minmax : flavor := set_field FMinMax true fl_pandas.
Lemma w_minmax_hypothetical : verdict fl_ignoring_minmax w_minmax = ([4; 4; 4]%nat, [3]%nat, false). Proof. vm_compute. reflexivity. Qed.
Lemma w_empty_agg_ok : verdict fl_sqlite w_empty_agg = ([6]%nat, [5]%nat, false).     Proof. vm_compute. reflexivity. Qed.
Lemma w_running_ok : verdict fl_sqlite w_running = ([7]%nat, [6]%nat, false).         Proof. vm_compute. reflexivity. Qed.
Lemma w_sort_asc_ok : verdict fl_sqlite w_sort_asc = ([8]%nat, [7]%nat, false).       Proof. vm_compute. reflexivity. Qed.
Lemma w_window_order_ok : verdict fl_sqlite w_window_order = ([8]%nat, [7]%nat, false). Proof. vm_compute. reflexivity. Qed.
(* null join keys on both sides: since /repo af27aca the Pandas executor no longer pairs null keys (fl_pandas), so the four named
   flavours agree; a backend that paired them (what pandas.merge does, the field set by hand) would differ *)
Lemma w_join_ok : verdict fl_sqlite w_join = ([10]%nat, []%nat, true).                  Proof. vm_compute. reflexivity. Qed.
Lemma w_join_postgres : verdict fl_postgres w_join = ([10]%nat, []%nat, true).          Proof. vm_compute. reflexivity. Qed.
Lemma w_join_polars : verdict fl_polars w_join = ([10]%nat, []%nat, true).              Proof. vm_compute. reflexivity. Qed.
Definition fl_matching_null_keys : flavor := set_field FJoinNull true fl_pandas.
Lemma w_join_hypothetical : verdict fl_matching_null_keys w_join = ([10]%nat, [9]%nat, false). Proof. vm_compute. reflexivity. Qed.
(* a FULL join with null keys on one side only: every named flavour keeps the null-key rows *)
Definition w_full_join : op := OJoin T1 (OSelectRows T2 (EOp ">" [ECol "k"; EConst (zv 0)])) ["k"] ["k"] JFull.
Lemma w_full_join_ok : verdict fl_sqlite w_full_join = ([]%nat, []%nat, true) /\ insensitive w_full_join w_env = true
                       /\ option_map (fun t => List.length (rows t)) (sem_strict w_full_join w_env) = Some 6%nat.
Proof. vm_compute. repeat split; reflexivity. Qed.
(* PostgreSQL: nulls LAST ascending (as Pandas), FIRST descending (unlike Pandas and SQLite) *)
Lemma w_sort_asc_pg : verdict fl_postgres w_sort_asc = ([8]%nat, []%nat, true).       Proof. vm_compute. reflexivity. Qed.
Lemma w_sort_desc_pg : verdict fl_postgres w_sort_desc = ([8]%nat, [8]%nat, false).   Proof. vm_compute. reflexivity. Qed.
Lemma w_sort_desc_sqlite : verdict fl_sqlite w_sort_desc = ([8]%nat, []%nat, true).   Proof. vm_compute. reflexivity. Qed.

(* a final order_rows without limit over a key with nulls: same multiset, different row order *)
Lemma w_final_order_ok :
  tables_agree false (sem_gen fl_pandas w_final_order w_env) (sem_gen fl_sqlite w_final_order w_env) = true
  /\ tables_agree true (sem_gen fl_pandas w_final_order w_env) (sem_gen fl_sqlite w_final_order w_env) = false
  /\ insensitive_bag w_final_order w_env = true /\ insensitive w_final_order w_env = false.
Proof. vm_compute. repeat split; reflexivity. Qed.

(* ---------- the same facts in the form Props/C01.v states them *)
Definition differ_with_causes (fl2 : flavor) (codes : list nat) : Prop :=
  exists (p : op) (e : env), tables_agree false (sem_gen fl_pandas p e) (sem_gen fl2 p e) = false /\ map cause_code (causes fl_pandas p e) = codes.
Lemma w_cmp_refuted : differ_with_causes fl_sqlite [1; 1]%nat.
Proof. exists w_cmp, w_env. vm_compute. split; reflexivity. Qed.
Lemma w_ne_filter_refuted : differ_with_causes fl_sqlite [2; 2]%nat.
Proof. exists w_ne_filter, w_env. vm_compute. split; reflexivity. Qed.
Lemma w_logic_refuted : differ_with_causes fl_sqlite [3]%nat.
Proof. exists w_logic, w_env. vm_compute. split; reflexivity. Qed.
Lemma w_minmax_some_flavour_refuted : exists fl : flavor, differ_with_causes fl [4; 4; 4]%nat.
Proof. exists fl_ignoring_minmax, w_minmax, w_env. vm_compute. split; reflexivity. Qed.
Lemma w_empty_agg_refuted : differ_with_causes fl_sqlite [6]%nat.
Proof. exists w_empty_agg, w_env. vm_compute. split; reflexivity. Qed.
Lemma w_running_refuted : differ_with_causes fl_sqlite [7]%nat.
Proof. exists w_running, w_env. vm_compute. split; reflexivity. Qed.
Lemma w_sort_asc_refuted : differ_with_causes fl_sqlite [8]%nat.
Proof. exists w_sort_asc, w_env. vm_compute. split; reflexivity. Qed.
Lemma w_window_order_refuted : differ_with_causes fl_sqlite [8]%nat.
Proof. exists w_window_order, w_env. vm_compute. split; reflexivity. Qed.
Lemma w_join_some_flavour_refuted : exists fl : flavor, differ_with_causes fl [10]%nat.
Proof. exists fl_matching_null_keys, w_join, w_env. vm_compute. split; reflexivity. Qed.
Lemma w_sort_desc_pg_refuted : differ_with_causes fl_postgres [8]%nat.
Proof. exists w_sort_desc, w_env. vm_compute. split; reflexivity. Qed.
Lemma w_final_order_refuted :
  exists (p : op) (e : env), tables_agree true (sem_gen fl_pandas p e) (sem_gen fl_sqlite p e) = false
                             /\ tables_agree false (sem_gen fl_pandas p e) (sem_gen fl_sqlite p e) = true
                             /\ insensitive_bag p e = true.
Proof. exists w_final_order, w_env. vm_compute. repeat split; reflexivity. Qed.

(* ---------- non-vacuity *)
(* d1 LEFT JOIN d2 (null keys on the left only), a row filter whose comparison meets nulls, a per-group aggregate,
   a running sum over a total order, an order_rows with limit: no convention is reached *)
Definition nv_pipeline : op :=
  OOrder
    (OExtend
       (OProject
          (OSelectRows (OJoin T1 (OSelectRows T2 (EOp ">" [ECol "c"; EConst (zv 5)])) ["k"] ["k"] JLeft)
                       (EOp "and" [EOp ">" [ECol "a"; EConst (zv 0)]; EOp "<=" [ECol "u"; EConst (zv 4)]]))
          [("s", EOp "sum" [ECol "a"]); ("n", EOp "_size" []); ("m", EOp "max" [ECol "c"])] ["k"])
       [("r", EOp "cumsum" [ECol "s"])] true (mkwin [] ["s"] []))
    ["r"] ["r"] (Some 2%nat).
Definition nv_env : env :=
  [("d1", w_d1); ("d2", mktable ["k"; "c"] [[zv 1; zv 10]; [zv 3; zv 30]; [zv 1; zv 10]])].
Lemma nv_insensitive : insensitive nv_pipeline nv_env = true.
Proof. vm_compute. reflexivity. Qed.
Lemma nv_result : option_map rows (sem_strict nv_pipeline nv_env) = Some [[VNull; zv 5; zv 1; VNull; zv 10]; [zv 2; zv 3; zv 1; VNull; zv 5]].
Proof. vm_compute. reflexivity. Qed.
