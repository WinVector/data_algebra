(* Proofs/PipePrintP4.v -- C12, token level: the shift-reduce parser of Model/PipePrintSyn.v reads back the layout of
   EVERY well-formed syntax tree:

     Theorem parse_flatten : forall s, wf_syn s = true -> parse_py (flatten s) = Some s.

   Route: (1) a nested induction principle for `syn`; (2) `els_of s`, the elements a tree contributes to the piece it
   stands in; (3) single steps of the scanner; (4) `mk_chain (els_of s) = Some s`; (5) one generic lemma about
   comma-separated item lists for the four bracket kinds (Section Items); (6) the scanning lemma `scan_all`: scanning
   `flatten s` from an EMPTY piece leaves `rev (els_of s)` on the piece and nothing else changed; (7) the end-of-input
   test and the theorem. *)
From Coq Require Import List Bool String NArith Arith .
Import ListNotations.
From DA Require Import Model.PipePrintStr Model.PipePrintSyn.
Local Open Scope string_scope.
Local Open Scope bool_scope.
Local Open Scope list_scope.

(* ------------------------------------------------------------------ 1. nested induction *)
(* a proof for the component g of every element, collected; a Fixpoint, so that the recursion through lists below is
   seen to be structural *)
Section ForallAll.
  Context {A B : Type} (g : A -> B) (P : B -> Prop) (f : forall y, P y).
  Fixpoint Forall_all (l : list A) : Forall (fun a => P (g a)) l :=
    match l with
    | [] => Forall_nil _
    | x :: t => Forall_cons x (f (g x)) (Forall_all t)
    end.
End ForallAll.

Section SynInd.
  Variable P : syn -> Prop.
  Hypothesis HAtom : forall t, P (SAtom t).
  Hypothesis HList : forall xs, Forall P xs -> P (SList xs).
  Hypothesis HTuple : forall xs, Forall P xs -> P (STuple xs).
  Hypothesis HDict : forall tr kvs, Forall (fun kv => P (fst kv)) kvs -> Forall (fun kv => P (snd kv)) kvs -> P (SDict tr kvs).
  Hypothesis HPar : forall x, P x -> P (SPar x).
  Hypothesis HCall : forall path args, Forall (fun a => P (snd a)) args -> P (SCall path args).
  Hypothesis HMeth : forall recv m args, P recv -> Forall (fun a => P (snd a)) args -> P (SMeth recv m args).

  Fixpoint syn_nested_ind (s : syn) : P s :=
    match s with
    | SAtom t => HAtom t
    | SList xs => HList xs (Forall_all (fun x => x) P syn_nested_ind xs)
    | STuple xs => HTuple xs (Forall_all (fun x => x) P syn_nested_ind xs)
    | SDict tr kvs => HDict tr kvs (Forall_all fst P syn_nested_ind kvs) (Forall_all snd P syn_nested_ind kvs)
    | SPar x => HPar x (syn_nested_ind x)
    | SCall path args => HCall path args (Forall_all snd P syn_nested_ind args)
    | SMeth recv m args => HMeth recv m args (syn_nested_ind recv) (Forall_all snd P syn_nested_ind args)
    end.
End SynInd.

(* ------------------------------------------------------------------ 2. vocabulary *)
Definition sep : list ptok := [TkSym ","].

(* the layout of one argument / one dict entry *)
Definition farg (a : option string * syn) : list ptok :=
  match fst a with
  | Some k => TkName k :: TkSym "=" :: flatten (snd a)
  | None => flatten (snd a)
  end.
Definition fkv (kv : syn * syn) : list ptok := flatten (fst kv) ++ TkSym ":" :: flatten (snd kv).
Definition dict_tail (tr : bool) (kvs : list (syn * syn)) : list ptok :=
  if tr && negb (match kvs with [] => true | _ => false end) then [TkSym ","] else [].

(* ("." NAME)* *)
Fixpoint dot_path (p : list string) : list ptok :=
  match p with
  | [] => []
  | n :: more => TkSym "." :: TkName n :: dot_path more
  end.

(* the elements a tree contributes to the piece it stands in *)
Fixpoint els_of (s : syn) : list el :=
  match s with
  | SAtom t => [ETok t]
  | SCall path args => map ETok (path_toks path) ++ [EArgs args]
  | SMeth recv m args => els_of recv ++ [ETok (TkSym "."); ETok (TkName m); EArgs args]
  | _ => [ESyn s]
  end.

Lemma flatten_list : forall xs, flatten (SList xs) = TkSym "[" :: tjoin sep (map flatten xs) ++ [TkSym "]"].
Proof. reflexivity. Qed.
Lemma flatten_tuple : forall xs, flatten (STuple xs) = TkSym "(" :: tjoin sep (map flatten xs) ++ [TkSym ")"].
Proof. reflexivity. Qed.
Lemma flatten_dict : forall tr kvs,
  flatten (SDict tr kvs) = TkSym "{" :: tjoin sep (map fkv kvs) ++ dict_tail tr kvs ++ [TkSym "}"].
Proof. reflexivity. Qed.
Lemma flatten_par : forall x, flatten (SPar x) = TkSym "(" :: flatten x ++ [TkSym ")"].
Proof. reflexivity. Qed.
Lemma flatten_call : forall path args,
  flatten (SCall path args) = path_toks path ++ TkSym "(" :: tjoin sep (map farg args) ++ [TkSym ")"].
Proof. reflexivity. Qed.
Lemma flatten_meth : forall recv m args,
  flatten (SMeth recv m args)
  = flatten recv ++ TkSym "." :: TkName m :: TkSym "(" :: tjoin sep (map farg args) ++ [TkSym ")"].
Proof. reflexivity. Qed.

Lemma wf_atom : forall t, wf_syn (SAtom t) = atom_ok t.
Proof. reflexivity. Qed.
Lemma wf_list : forall xs, wf_syn (SList xs) = forallb wf_syn xs.
Proof. reflexivity. Qed.
Lemma wf_tuple : forall xs, wf_syn (STuple xs) = Nat.leb 2 (List.length xs) && forallb wf_syn xs.
Proof. reflexivity. Qed.
Lemma wf_dict : forall tr kvs,
  wf_syn (SDict tr kvs)
  = forallb (fun kv => wf_syn (fst kv) && wf_syn (snd kv)) kvs
    && (negb tr || negb (match kvs with [] => true | _ => false end)).
Proof. reflexivity. Qed.
Lemma wf_par : forall x, wf_syn (SPar x) = wf_syn x.
Proof. reflexivity. Qed.
Lemma wf_call : forall path args,
  wf_syn (SCall path args)
  = nonempty_path path && forallb (fun n => negb (is_const_name n)) path && forallb (fun a => wf_syn (snd a)) args.
Proof. reflexivity. Qed.
Lemma wf_meth : forall recv m args,
  wf_syn (SMeth recv m args)
  = recv_ok recv && negb (is_const_name m) && wf_syn recv && forallb (fun a => wf_syn (snd a)) args.
Proof. reflexivity. Qed.

Lemma path_toks_cons : forall p n, path_toks (n :: p) = TkName n :: dot_path p.
Proof.
  induction p as [|m p IH]; intro n.
  - reflexivity.
  - change (path_toks (n :: m :: p)) with (TkName n :: TkSym "." :: path_toks (m :: p)).
    rewrite IH. reflexivity.
Qed.

(* layouts followed by the rest of the input, right-nested *)
Lemma list_layout : forall xs rest,
  flatten (SList xs) ++ rest = TkSym "[" :: tjoin sep (map flatten xs) ++ TkSym "]" :: rest.
Proof. intros. rewrite flatten_list. cbn [app]. rewrite <- app_assoc. reflexivity. Qed.
Lemma tuple_layout : forall xs rest,
  flatten (STuple xs) ++ rest = TkSym "(" :: tjoin sep (map flatten xs) ++ TkSym ")" :: rest.
Proof. intros. rewrite flatten_tuple. cbn [app]. rewrite <- app_assoc. reflexivity. Qed.
Lemma par_layout : forall x rest,
  flatten (SPar x) ++ rest = TkSym "(" :: tjoin sep (map flatten [x]) ++ TkSym ")" :: rest.
Proof. intros. rewrite flatten_par. cbn [app map tjoin]. rewrite <- app_assoc. reflexivity. Qed.
Lemma dict_layout : forall tr kvs rest,
  flatten (SDict tr kvs) ++ rest = TkSym "{" :: tjoin sep (map fkv kvs) ++ dict_tail tr kvs ++ TkSym "}" :: rest.
Proof. intros. rewrite flatten_dict. cbn [app]. rewrite <- !app_assoc. reflexivity. Qed.
Lemma call_layout : forall n p args rest,
  flatten (SCall (n :: p) args) ++ rest
  = TkName n :: dot_path p ++ TkSym "(" :: tjoin sep (map farg args) ++ TkSym ")" :: rest.
Proof.
  intros. rewrite flatten_call, path_toks_cons. cbn [app]. rewrite <- app_assoc. cbn [app].
  rewrite <- app_assoc. reflexivity.
Qed.
Lemma meth_layout : forall recv m args rest,
  flatten (SMeth recv m args) ++ rest
  = flatten recv ++ TkSym "." :: TkName m :: TkSym "(" :: tjoin sep (map farg args) ++ TkSym ")" :: rest.
Proof.
  intros. rewrite flatten_meth. rewrite <- app_assoc. cbn [app]. rewrite <- app_assoc. reflexivity.
Qed.

(* ------------------------------------------------------------------ 3. single steps of the scanner *)
Lemma pscan_name : forall n ts cur stack,
  pscan (TkName n :: ts) cur stack = pscan ts (push_el (ETok (TkName n)) cur) stack.
Proof. reflexivity. Qed.
Lemma pscan_int : forall n ts cur stack,
  pscan (TkInt n :: ts) cur stack = pscan ts (push_el (ETok (TkInt n)) cur) stack.
Proof. reflexivity. Qed.
Lemma pscan_str : forall l ts cur stack,
  pscan (TkStr l :: ts) cur stack = pscan ts (push_el (ETok (TkStr l)) cur) stack.
Proof. reflexivity. Qed.
Lemma pscan_dot : forall ts cur stack,
  pscan (TkSym "." :: ts) cur stack = pscan ts (push_el (ETok (TkSym ".")) cur) stack.
Proof. reflexivity. Qed.
Lemma pscan_lparen : forall ts cur stack,
  pscan (TkSym "(" :: ts) cur stack
  = pscan ts (new_frame (if head_is_callee cur then BCall else BParen)) (cur :: stack).
Proof. reflexivity. Qed.
Lemma pscan_lbrack : forall ts cur stack,
  pscan (TkSym "[" :: ts) cur stack = pscan ts (new_frame BList) (cur :: stack).
Proof. reflexivity. Qed.
Lemma pscan_lbrace : forall ts cur stack,
  pscan (TkSym "{" :: ts) cur stack = pscan ts (new_frame BDict) (cur :: stack).
Proof. reflexivity. Qed.
Lemma pscan_comma : forall ts cur p st,
  pscan (TkSym "," :: ts) cur (p :: st)
  = match add_item cur with
    | Some f => pscan ts (mkfr (fk f) (fitems f) true PNo []) (p :: st)
    | None => None
    end.
Proof. reflexivity. Qed.
Lemma pscan_colon : forall ts its c piece stack,
  pscan (TkSym ":" :: ts) (mkfr BDict its c PNo piece) stack
  = match mk_chain (rev piece) with
    | Some k => pscan ts (mkfr BDict its c (PKey k) []) stack
    | None => None
    end.
Proof. reflexivity. Qed.
Lemma pscan_eq : forall ts its c k stack,
  pscan (TkSym "=" :: ts) (mkfr BCall its c PNo [ETok (TkName k)]) stack
  = pscan ts (mkfr BCall its c (PKw k) []) stack.
Proof. reflexivity. Qed.
Definition do_close (s : string) (ts : list ptok) (cur parent : frame) (st : list frame) : option syn :=
  if closes (fk cur) s then
    match close_frame cur with
    | Some e => pscan ts (push_el e parent) st
    | None => None
    end
  else None.
Lemma pscan_rparen : forall ts cur parent st,
  pscan (TkSym ")" :: ts) cur (parent :: st) = do_close ")" ts cur parent st.
Proof. reflexivity. Qed.
Lemma pscan_rbrack : forall ts cur parent st,
  pscan (TkSym "]" :: ts) cur (parent :: st) = do_close "]" ts cur parent st.
Proof. reflexivity. Qed.
Lemma pscan_rbrace : forall ts cur parent st,
  pscan (TkSym "}" :: ts) cur (parent :: st) = do_close "}" ts cur parent st.
Proof. reflexivity. Qed.
Lemma pscan_end : forall k piece,
  pscan [] (mkfr k [] false PNo piece) [] = mk_chain (rev piece).
Proof. reflexivity. Qed.

Lemma do_close_ok : forall s ts cur parent st e,
  closes (fk cur) s = true -> close_frame cur = Some e ->
  do_close s ts cur parent st = pscan ts (push_el e parent) st.
Proof. intros s ts cur parent st e H1 H2. unfold do_close. rewrite H1, H2. reflexivity. Qed.

Local Opaque pscan.

(* ------------------------------------------------------------------ 4. the chain evaluator on els_of *)
Lemma path_go_dot : forall p acc a r,
  path_go acc (map ETok (dot_path p) ++ EArgs a :: r) = trailers (SCall (rev acc ++ p) a) r.
Proof.
  induction p as [|m p IH]; intros acc a r.
  - cbn [dot_path map app path_go]. rewrite app_nil_r. reflexivity.
  - cbn [dot_path map app path_go]. change (ksym_is (TkSym ".") ".") with true. cbv iota.
    rewrite IH. cbn [rev]. rewrite <- app_assoc. reflexivity.
Qed.

Lemma mk_chain_els_app : forall s, wf_syn s = true -> recv_ok s = true ->
  forall r, mk_chain (els_of s ++ r) = trailers s r.
Proof.
  induction s as [t|xs|xs|tr kvs|x IH|path args|recv IH m args]; intros Hwf Hr r; try reflexivity.
  - discriminate Hr.
  - rewrite wf_call in Hwf. destruct path as [|n p]; [discriminate Hwf|].
    apply andb_prop in Hwf. destruct Hwf as [Hwf _]. apply andb_prop in Hwf. destruct Hwf as [_ Hp].
    cbn [forallb] in Hp. apply andb_prop in Hp. destruct Hp as [Hn _].
    apply negb_true_iff in Hn.
    cbn [els_of]. rewrite path_toks_cons. cbn [map app]. unfold mk_chain. rewrite Hn.
    rewrite <- app_assoc. cbn [app]. rewrite path_go_dot. reflexivity.
  - rewrite wf_meth in Hwf.
    apply andb_prop in Hwf. destruct Hwf as [Hwf _]. apply andb_prop in Hwf. destruct Hwf as [Hwf Hwr].
    apply andb_prop in Hwf. destruct Hwf as [Hro _].
    cbn [els_of]. rewrite <- app_assoc. rewrite IH by assumption. reflexivity.
Qed.

Lemma mk_chain_els : forall s, wf_syn s = true -> mk_chain (els_of s) = Some s.
Proof.
  intros s Hwf. destruct s as [t|xs|xs|tr kvs|x|path args|recv m args]; try reflexivity.
  - rewrite wf_atom in Hwf. destruct t as [n|n|l|y]; try reflexivity.
    + cbn [atom_ok] in Hwf. cbn [els_of]. unfold mk_chain. rewrite Hwf. reflexivity.
    + discriminate Hwf.
  - rewrite <- (app_nil_r (els_of (SCall path args))). rewrite mk_chain_els_app by (assumption || reflexivity).
    reflexivity.
  - rewrite <- (app_nil_r (els_of (SMeth recv m args))). rewrite mk_chain_els_app by (assumption || reflexivity).
    reflexivity.
Qed.

Lemma rev_els_call : forall n p args,
  rev (els_of (SCall (n :: p) args)) = EArgs args :: rev (map ETok (dot_path p)) ++ [ETok (TkName n)].
Proof. intros. cbn [els_of]. rewrite path_toks_cons. rewrite rev_app_distr. reflexivity. Qed.
Lemma rev_els_meth : forall recv m args,
  rev (els_of (SMeth recv m args)) = EArgs args :: ETok (TkName m) :: ETok (TkSym ".") :: rev (els_of recv).
Proof. intros. cbn [els_of]. rewrite rev_app_distr. reflexivity. Qed.

Lemma els_rev_cons : forall s, exists e l, rev (els_of s) = e :: l.
Proof.
  intros s. destruct s as [t|xs|xs|tr kvs|x|path args|recv m args]; try (eexists; eexists; reflexivity).
  - cbn [els_of]. rewrite rev_app_distr. eexists; eexists; reflexivity.
  - rewrite rev_els_meth. eexists; eexists; reflexivity.
Qed.

Lemma piece_nonempty : forall x k its c pd, piece_empty (mkfr k its c pd (rev (els_of x))) = false.
Proof.
  intros x k its c pd. destruct (els_rev_cons x) as [e [l H]]. unfold piece_empty. cbn [fpiece]. rewrite H.
  reflexivity.
Qed.

(* ------------------------------------------------------------------ 5. comma-separated items, generically *)
Section Items.
  Variable A : Type.
  Variable k : bk.
  Variable lay : A -> list ptok.        (* the layout of one item *)
  Variable pnd : A -> pend.             (* what is pending when the item's last piece is complete *)
  Variable pc : A -> list el.           (* that last piece *)
  Variable it : A -> item.              (* the item it becomes *)

  Definition item_spec (a : A) : Prop :=
    (forall its c rest stack,
        pscan (lay a ++ rest) (mkfr k its c PNo []) stack = pscan rest (mkfr k its c (pnd a) (pc a)) stack)
    /\ (forall its c, add_item (mkfr k its c (pnd a) (pc a)) = Some (mkfr k (it a :: its) c PNo []))
    /\ (forall its c, piece_empty (mkfr k its c (pnd a) (pc a)) = false).

  (* the frame just before the closing bracket (or the trailing comma): the last item still on the piece *)
  Fixpoint final_frame (its : list item) (c : bool) (a : A) (more : list A) : frame :=
    match more with
    | [] => mkfr k its c (pnd a) (pc a)
    | b :: more' => final_frame (it a :: its) true b more'
    end.
  Definition final_comma (c : bool) (more : list A) : bool := match more with [] => c | _ => true end.

  Lemma scan_items : forall more a its c rest p st,
    Forall item_spec (a :: more) ->
    pscan (tjoin sep (map lay (a :: more)) ++ rest) (mkfr k its c PNo []) (p :: st)
    = pscan rest (final_frame its c a more) (p :: st).
  Proof.
    induction more as [|b more IH]; intros a its c rest p st HF.
    - inversion HF as [|? ? [H1 _] _]; subst. cbn [map tjoin final_frame]. apply H1.
    - inversion HF as [|? ? [H1 [H2 _]] HF']; subst.
      change (tjoin sep (map lay (a :: b :: more))) with (lay a ++ sep ++ tjoin sep (map lay (b :: more))).
      rewrite <- app_assoc. rewrite H1. unfold sep at 1. cbn [app].
      rewrite pscan_comma, H2. cbn [fk fitems].
      rewrite IH by assumption. reflexivity.
  Qed.

  Lemma final_add : forall more a its c,
    Forall item_spec (a :: more) ->
    add_item (final_frame its c a more)
    = Some (mkfr k (rev (map it (a :: more)) ++ its) (final_comma c more) PNo []).
  Proof.
    induction more as [|b more IH]; intros a its c HF.
    - inversion HF as [|? ? [_ [H2 _]] _]; subst. cbn [final_frame]. rewrite H2. reflexivity.
    - inversion HF as [|? ? _ HF']; subst. cbn [final_frame]. rewrite IH by assumption.
      f_equal. f_equal.
      + cbn [map rev]. rewrite <- !app_assoc. reflexivity.
      + destruct more; reflexivity.
  Qed.

  Lemma final_nonempty : forall more a its c,
    Forall item_spec (a :: more) -> piece_empty (final_frame its c a more) = false.
  Proof.
    induction more as [|b more IH]; intros a its c HF.
    - inversion HF as [|? ? [_ [_ H3]] _]; subst. apply H3.
    - inversion HF as [|? ? _ HF']; subst. cbn [final_frame]. apply IH. assumption.
  Qed.

  Lemma final_fk : forall more a its c, fk (final_frame its c a more) = k.
  Proof. induction more as [|b more IH]; intros; cbn [final_frame]; [reflexivity|apply IH]. Qed.

  (* the closing bracket after the last item: the piece becomes an item, and the items the value of the bracket *)
  Lemma close_items : forall more a s ts parent st, Forall item_spec (a :: more) -> closes k s = true ->
    do_close s ts (final_frame [] false a more) parent st
    = match match k with
            | BCall => option_map EArgs (arg_items (map it (a :: more)))
            | BList => option_map (fun xs => ESyn (SList xs)) (pos_items (map it (a :: more)))
            | BDict => option_map (fun kvs => ESyn (SDict false kvs)) (kv_items (map it (a :: more)))
            | BParen => match pos_items (map it (a :: more)) with
                        | Some [x] => Some (ESyn (if final_comma false more then STuple [x] else SPar x))
                        | Some xs => Some (ESyn (STuple xs))
                        | None => None
                        end
            end with
      | Some e => pscan ts (push_el e parent) st
      | None => None
      end.
  Proof.
    intros more a s ts parent st HF Hs. unfold do_close, close_frame.
    rewrite final_fk, Hs, (final_nonempty _ _ _ _ HF), (final_add _ _ _ _ HF). cbn [fk fitems fcomma].
    rewrite app_nil_r, rev_involutive. destruct k; try reflexivity.
    destruct (pos_items (map it (a :: more))) as [[|x [|y xs]]|]; try reflexivity. destruct (final_comma false more); reflexivity.
  Qed.
End Items.

Lemma close_dict_trailing : forall its,
  close_frame (mkfr BDict its true PNo [])
  = option_map (fun kvs => ESyn (SDict true kvs)) (kv_items (rev its)).
Proof. reflexivity. Qed.

Lemma pos_items_map : forall xs, pos_items (map IPos xs) = Some xs.
Proof. induction xs as [|x xs IH]; [reflexivity|]. cbn [map pos_items]. rewrite IH. reflexivity. Qed.
Lemma kv_items_map : forall kvs, kv_items (map (fun kv => IKV (fst kv) (snd kv)) kvs) = Some kvs.
Proof.
  induction kvs as [|[k v] kvs IH]; [reflexivity|]. cbn [map kv_items fst snd]. rewrite IH. reflexivity.
Qed.

Definition arg_pend (a : option string * syn) : pend :=
  match fst a with Some kw => PKw kw | None => PNo end.
Definition arg_item (a : option string * syn) : item :=
  match fst a with Some kw => IKw kw (snd a) | None => IPos (snd a) end.

Lemma arg_items_map : forall args, arg_items (map arg_item args) = Some args.
Proof.
  induction args as [|[[kw|] x] args IH]; [reflexivity| |];
    cbn [map arg_items arg_item fst snd]; rewrite IH; reflexivity.
Qed.

(* ------------------------------------------------------------------ 6. the scanning lemma *)
Definition scan_ok (s : syn) : Prop :=
  wf_syn s = true ->
  forall rest k its c pd stack,
    pscan (flatten s ++ rest) (mkfr k its c pd []) stack
    = pscan rest (mkfr k its c pd (rev (els_of s))) stack.

Definition pos_spec (k : bk) : syn -> Prop :=
  item_spec syn k flatten (fun _ => PNo) (fun x => rev (els_of x)) IPos.
Definition arg_spec : option string * syn -> Prop :=
  item_spec (option string * syn) BCall farg arg_pend (fun a => rev (els_of (snd a))) arg_item.
Definition kv_spec : syn * syn -> Prop :=
  item_spec (syn * syn) BDict fkv (fun kv => PKey (fst kv)) (fun kv => rev (els_of (snd kv)))
    (fun kv => IKV (fst kv) (snd kv)).

Lemma pos_spec_of : forall k, k = BParen \/ k = BList -> forall x, scan_ok x -> wf_syn x = true -> pos_spec k x.
Proof.
  intros k Hk x Hs Hwf. unfold pos_spec, item_spec. repeat split.
  - intros. apply Hs. assumption.
  - intros its c. unfold add_item. cbn [fpiece fk fpend fitems fcomma]. rewrite rev_involutive.
    rewrite mk_chain_els by assumption. destruct Hk; subst k; reflexivity.
  - intros. apply piece_nonempty.
Qed.

Lemma arg_spec_of : forall a, scan_ok (snd a) -> wf_syn (snd a) = true -> arg_spec a.
Proof.
  intros [o x] Hs Hwf. cbn [snd] in *. unfold arg_spec, item_spec. repeat split.
  - intros its c rest stack. destruct o as [kw|]; unfold farg, arg_pend; cbn [fst snd app].
    + rewrite pscan_name. unfold push_el. cbn [fk fitems fcomma fpend fpiece].
      rewrite pscan_eq. apply Hs. assumption.
    + apply Hs. assumption.
  - intros its c. unfold add_item. cbn [fpiece fk fpend fitems fcomma snd]. rewrite rev_involutive.
    rewrite mk_chain_els by assumption. destruct o; reflexivity.
  - intros. apply piece_nonempty.
Qed.

Lemma kv_spec_of : forall kv,
  scan_ok (fst kv) /\ scan_ok (snd kv) -> wf_syn (fst kv) && wf_syn (snd kv) = true -> kv_spec kv.
Proof.
  intros [x v] [Hsx Hsv] Hw. apply andb_prop in Hw as [Hwx Hwv]. cbn [fst snd] in *. unfold kv_spec, item_spec. repeat split.
  - intros its c rest stack. unfold fkv. cbn [fst snd]. rewrite <- app_assoc. cbn [app].
    rewrite Hsx by assumption. rewrite pscan_colon. rewrite rev_involutive.
    rewrite mk_chain_els by assumption. apply Hsv. assumption.
  - intros its c. unfold add_item. cbn [fpiece fk fpend fitems fcomma fst snd]. rewrite rev_involutive.
    rewrite mk_chain_els by assumption. reflexivity.
  - intros. apply piece_nonempty.
Qed.

Lemma Forall_wf {A} (Q R : A -> Prop) (w : A -> bool) (l : list A) :
  (forall a, Q a -> w a = true -> R a) -> Forall Q l -> forallb w l = true -> Forall R l.
Proof. rewrite !Forall_forall, forallb_forall. intros H HQ Hw a Ha. apply H; [apply HQ|apply Hw]; exact Ha. Qed.

(* --- the four brackets *)
Lemma scan_list_bracket : forall xs, Forall (pos_spec BList) xs ->
  forall rest k its c pd stack,
    pscan (TkSym "[" :: tjoin sep (map flatten xs) ++ TkSym "]" :: rest) (mkfr k its c pd []) stack
    = pscan rest (mkfr k its c pd [ESyn (SList xs)]) stack.
Proof.
  intros xs HF rest k its c pd stack. rewrite pscan_lbrack. unfold new_frame.
  destruct xs as [|a more].
  - cbn [map tjoin app]. rewrite pscan_rbrack. reflexivity.
  - unfold pos_spec in HF. rewrite (scan_items _ _ _ _ _ _ more a [] false _ _ _ HF).
    rewrite pscan_rbrack, (close_items _ _ _ _ _ _ more a "]" _ _ _ HF eq_refl), pos_items_map. reflexivity.
Qed.

Lemma scan_paren_bracket : forall a more, Forall (pos_spec BParen) (a :: more) ->
  forall rest k its c pd stack,
    pscan (TkSym "(" :: tjoin sep (map flatten (a :: more)) ++ TkSym ")" :: rest) (mkfr k its c pd []) stack
    = pscan rest (mkfr k its c pd [ESyn (match more with [] => SPar a | _ => STuple (a :: more) end)]) stack.
Proof.
  intros a more HF rest k its c pd stack. rewrite pscan_lparen.
  change (head_is_callee (mkfr k its c pd [])) with false. cbv iota. unfold new_frame.
  unfold pos_spec in HF. rewrite (scan_items _ _ _ _ _ _ more a [] false _ _ _ HF).
  rewrite pscan_rparen, (close_items _ _ _ _ _ _ more a ")" _ _ _ HF eq_refl), pos_items_map. destruct more; reflexivity.
Qed.

Lemma scan_args_bracket : forall args, Forall arg_spec args ->
  forall rest parent stack,
    pscan (tjoin sep (map farg args) ++ TkSym ")" :: rest) (mkfr BCall [] false PNo []) (parent :: stack)
    = pscan rest (push_el (EArgs args) parent) stack.
Proof.
  intros args HF rest parent stack. destruct args as [|a more].
  - cbn [map tjoin app]. rewrite pscan_rparen. reflexivity.
  - unfold arg_spec in HF. rewrite (scan_items _ _ _ _ _ _ more a [] false _ _ _ HF).
    rewrite pscan_rparen, (close_items _ _ _ _ _ _ more a ")" _ _ _ HF eq_refl), arg_items_map. reflexivity.
Qed.

Lemma scan_dict_bracket : forall tr kvs, Forall kv_spec kvs ->
  negb tr || negb (match kvs with [] => true | _ => false end) = true ->
  forall rest k its c pd stack,
    pscan (TkSym "{" :: tjoin sep (map fkv kvs) ++ dict_tail tr kvs ++ TkSym "}" :: rest) (mkfr k its c pd []) stack
    = pscan rest (mkfr k its c pd [ESyn (SDict tr kvs)]) stack.
Proof.
  intros tr kvs HF Htr rest k its c pd stack. rewrite pscan_lbrace. unfold new_frame.
  destruct kvs as [|a more].
  - destruct tr; [discriminate Htr|]. cbn [map tjoin app dict_tail andb]. rewrite pscan_rbrace. reflexivity.
  - unfold kv_spec in HF. rewrite (scan_items _ _ _ _ _ _ more a [] false _ _ _ HF).
    destruct tr; unfold dict_tail; cbn [andb negb app].
    + rewrite pscan_comma, (final_add _ _ _ _ _ _ _ _ [] false HF). cbn [fk fitems]. rewrite pscan_rbrace.
      rewrite (do_close_ok _ _ _ _ _ (ESyn (SDict true (a :: more)))); [reflexivity|reflexivity|].
      rewrite close_dict_trailing. rewrite app_nil_r, rev_involutive, kv_items_map. reflexivity.
    + rewrite pscan_rbrace, (close_items _ _ _ _ _ _ more a "}" _ _ _ HF eq_refl), kv_items_map. reflexivity.
Qed.

(* --- dotted paths *)
Lemma scan_dots : forall p rest k its c pd piece stack,
  pscan (dot_path p ++ rest) (mkfr k its c pd piece) stack
  = pscan rest (mkfr k its c pd (rev (map ETok (dot_path p)) ++ piece)) stack.
Proof.
  induction p as [|m p IH]; intros rest k its c pd piece stack.
  - reflexivity.
  - cbn [dot_path app]. rewrite pscan_dot, pscan_name. unfold push_el. cbn [fk fitems fcomma fpend fpiece].
    rewrite IH. cbn [map rev]. rewrite <- !app_assoc. reflexivity.
Qed.

Lemma head_callee_path : forall p n k its c pd piece,
  is_const_name n = false -> forallb (fun n => negb (is_const_name n)) p = true ->
  head_is_callee (mkfr k its c pd (rev (map ETok (dot_path p)) ++ ETok (TkName n) :: piece)) = true.
Proof.
  induction p as [|m p IH]; intros n k its c pd piece Hn Hp.
  - unfold head_is_callee. cbn [dot_path map rev app fpiece]. rewrite Hn. reflexivity.
  - cbn [forallb] in Hp. apply andb_prop in Hp. destruct Hp as [Hm Hp]. apply negb_true_iff in Hm.
    cbn [dot_path map rev]. rewrite <- !app_assoc. cbn [app]. apply IH; assumption.
Qed.

(* --- every tree *)
Lemma scan_all : forall s, scan_ok s.
Proof.
  apply syn_nested_ind; unfold scan_ok.
  - (* atom *)
    intros t Hwf rest k its c pd stack. rewrite wf_atom in Hwf.
    change (flatten (SAtom t) ++ rest) with (t :: rest).
    destruct t as [n|n|l|y]; [rewrite pscan_name|rewrite pscan_int|rewrite pscan_str|discriminate Hwf]; reflexivity.
  - (* list *)
    intros xs HF Hwf rest k its c pd stack. rewrite wf_list in Hwf. rewrite list_layout.
    apply scan_list_bracket. exact (Forall_wf _ _ _ xs (pos_spec_of BList (or_intror eq_refl)) HF Hwf).
  - (* tuple *)
    intros xs HF Hwf rest k its c pd stack. rewrite wf_tuple in Hwf.
    apply andb_prop in Hwf. destruct Hwf as [Hlen Hwf]. rewrite tuple_layout.
    destruct xs as [|a [|b more]]; [discriminate Hlen|discriminate Hlen|].
    apply (scan_paren_bracket a (b :: more)). exact (Forall_wf _ _ _ _ (pos_spec_of BParen (or_introl eq_refl)) HF Hwf).
  - (* dict *)
    intros tr kvs HFk HFv Hwf rest k its c pd stack. rewrite wf_dict in Hwf.
    apply andb_prop in Hwf. destruct Hwf as [Hwf Htr]. rewrite dict_layout.
    apply scan_dict_bracket; [exact (Forall_wf _ _ _ kvs kv_spec_of (Forall_and HFk HFv) Hwf)|assumption].
  - (* parenthesised *)
    intros x Hx Hwf rest k its c pd stack. rewrite wf_par in Hwf. rewrite par_layout.
    apply (scan_paren_bracket x []). constructor; [|constructor].
    apply pos_spec_of; auto.
  - (* call *)
    intros path args HF Hwf rest k its c pd stack. rewrite wf_call in Hwf.
    destruct path as [|n p]; [discriminate Hwf|].
    apply andb_prop in Hwf. destruct Hwf as [Hwf Hwa]. apply andb_prop in Hwf. destruct Hwf as [_ Hp].
    cbn [forallb] in Hp. apply andb_prop in Hp. destruct Hp as [Hn Hp]. apply negb_true_iff in Hn.
    rewrite call_layout. rewrite pscan_name. unfold push_el. cbn [fk fitems fcomma fpend fpiece].
    rewrite scan_dots. rewrite pscan_lparen. rewrite head_callee_path by assumption. unfold new_frame.
    rewrite scan_args_bracket by exact (Forall_wf _ _ _ args arg_spec_of HF Hwa).
    unfold push_el. cbn [fk fitems fcomma fpend fpiece]. rewrite rev_els_call. reflexivity.
  - (* method call *)
    intros recv m args Hrecv HF Hwf rest k its c pd stack. rewrite wf_meth in Hwf.
    apply andb_prop in Hwf. destruct Hwf as [Hwf Hwa]. apply andb_prop in Hwf. destruct Hwf as [Hwf Hwr].
    apply andb_prop in Hwf. destruct Hwf as [_ Hm]. apply negb_true_iff in Hm.
    rewrite meth_layout. rewrite Hrecv by assumption.
    rewrite pscan_dot, pscan_name, pscan_lparen. unfold push_el. cbn [fk fitems fcomma fpend fpiece].
    unfold head_is_callee. cbn [fpiece]. rewrite Hm. cbn [negb]. unfold new_frame.
    rewrite scan_args_bracket by exact (Forall_wf _ _ _ args arg_spec_of HF Hwa).
    unfold push_el. cbn [fk fitems fcomma fpend fpiece]. rewrite rev_els_meth. reflexivity.
Qed.

(* ------------------------------------------------------------------ 7. the theorem *)
Theorem parse_flatten : forall s : syn, wf_syn s = true -> parse_py (flatten s) = Some s.
Proof.
  intros s Hwf. unfold parse_py, new_frame. rewrite <- (app_nil_r (flatten s)).
  rewrite (scan_all s Hwf). rewrite pscan_end. rewrite rev_involutive. apply mk_chain_els. assumption.
Qed.

(* concrete trees, by computation *)
Example parse_flatten_ex1 :
  let s := SMeth (SCall ["data_algebra"; "TableDescription"]
                    [(Some "table_name", SAtom (TkStr "'d'"));
                     (Some "column_names", SList [SAtom (TkStr "'x'"); SAtom (TkStr "'y'")])])
             "extend" [(None, SDict true [(SAtom (TkStr "'z'"), SAtom (TkStr "'x + 1'"))]);
                       (Some "partition_by", STuple [SAtom (TkInt 1); SPar (SAtom (TkName "None"))])] in
  wf_syn s = true /\ parse_py (flatten s) = Some s.
Proof. vm_compute. split; reflexivity. Qed.

Print Assumptions parse_flatten.
