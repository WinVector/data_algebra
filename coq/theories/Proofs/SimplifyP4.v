(* C06, part 4: one builder step.  For every step x and every prefix p, the pipeline the builder returns (Model/Simplify.build_step:
   order_rows skipped, select_columns collapsed, extends merged, nothing-to-do exits) denotes the table obtained by applying x to
   the MATERIALISED result of the prefix (apply_sem) -- the same column set and the same rows as a multiset (tab_sim), provided
   x is not sensitive to the row order of its input (C18's premise, step_insensitive) and is a step the builder validated
   (step_valid), on a prefix the builder built (prefix_ok). *)
From Coq Require Import List Bool String .
Import ListNotations.
From DA Require Import Base.PyRT Base.Val Model.Sem Model.PermGuard Model.Extend Model.MergeGuard Model.Simplify Gen.G_MergeOps
  Proofs.MergeOpsP Proofs.MergeGuardP Proofs.SemBasicP Proofs.SemOrderP Proofs.PermP2 Proofs.PermP3 Proofs.PermP4 Proofs.ComposeP5
  Proofs.SimplifyP1 Proofs.SimplifyP2 Proofs.SimplifyP3 Proofs.TabP Proofs.ListP.
Local Open Scope list_scope.

(* ------------------------------------------------------------------ the unsimplified call is the step on the materialised prefix *)
Lemma sem_unsimplified iw fl e p x : sem_gen fl (build_unsimplified iw p x) e = obind (sem_gen fl p e) (apply_sem iw fl e x).
Proof.
  destruct x; cbn [build_unsimplified mk_extend sem_gen apply_sem]; destruct (sem_gen fl p e) as [t|]; cbn [obind option_map]; try reflexivity.
  cbn [apply_sem]. match goal with |- context[if ?c then _ else _] => destruct c end; reflexivity.
Qed.

Lemma run_steps_none iw fl e xs : run_steps iw fl e None xs = None.
Proof. induction xs as [|x t IH]; [reflexivity|exact IH]. Qed.

Lemma sem_build_plain iw fl e xs : forall p, sem_gen fl (build_plain iw p xs) e = run_steps iw fl e (sem_gen fl p e) xs.
Proof.
  induction xs as [|x t IH]; intros p; [reflexivity|]. cbn [build_plain run_steps fold_left].
  change (fold_left (build_unsimplified iw) t (build_unsimplified iw p x)) with (build_plain iw (build_unsimplified iw p x) t).
  rewrite IH, sem_unsimplified. reflexivity.
Qed.

(* ------------------------------------------------------------------ the window bookkeeping of a merged node *)
Definition iwp (iw : list string) (e : expr) : bool := match e with EOp o _ => mem o iw | _ => false end.
Lemma implies_values iw ops : implies iw ops = implies_windowed (iwp iw) ops.
Proof. unfold implies, implies_windowed, dict_values. induction ops as [|ke t IH]; simpl; [reflexivity|]. rewrite IH. reflexivity. Qed.

Lemma merged_node_same iw (o1 o2 m : list (string * expr)) a self :
  NoDup (map fst o1) -> NoDup (map fst o2) -> try_to_merge_ops gcu o1 o2 = Some m ->
  merge_guard (implies iw o2) a self = true -> (implies iw o1 = true -> n_windowed self = true) ->
  node_of (implies iw o2) a = self /\ node_of (implies iw m) a = self.
Proof.
  intros N1 N2 H G C. pose proof (guard_same_window _ _ _ G) as S. split; [exact S|].
  destruct (merge_implies cols_used (iwp iw) o1 o2 m N1 N2 H) as [Up Down]. rewrite <- !implies_values in Up, Down.
  rewrite <- S. unfold node_of. f_equal.
  destruct (implies iw m) eqn:Im, (implies iw o2) eqn:I2; try reflexivity.
  - destruct (Down eq_refl) as [I1|I1]; [|rewrite <- implies_values, I2 in I1; discriminate I1]. specialize (C I1). rewrite <- S in C. cbn [n_windowed node_of] in C.
    cbn [orb] in *. rewrite C. reflexivity.
  - discriminate (Up eq_refl).
Qed.

Lemma mkwin_eta w : mkwin (w_part w) (w_order w) (w_rev w) = w.
Proof. destruct w; reflexivity. Qed.

(* ------------------------------------------------------------------ the prefix invariant (depends on iw through the windowed flag) *)
Fixpoint prefix_ok (iw : list string) (p : op) : Prop :=
  match p with
  | OTable _ _ => True
  | OExtend s ops wd w =>
      NoDup (map fst ops) /\ (forall k, In k (map fst ops) -> ~ In k (w_part w ++ w_order w)) /\ (implies iw ops = true -> wd = true) /\ prefix_ok iw s
  | OSelectCols s cs => (forall c, In c cs -> In c (column_names s)) /\ prefix_ok iw s
  | OProject s _ _ | OSelectRows s _ | ODropCols s _ | ORename s _ | OMapCols s _ _ | OOrder s _ _ _ => prefix_ok iw s
  | OJoin a _ _ _ _ | OConcat a _ _ _ _ => prefix_ok iw a
  end.

(* ------------------------------------------------------------------ nothing-to-do exits *)

Lemma extend_nil fl t : sem_extend fl [] t = t.
Proof. unfold sem_extend, extend_row. cbn [map fst fold_left ext_cols]. rewrite map_id. apply table_eta. Qed.
Lemma wextend_nil fl w t : sem_wextend fl [] w t = t.
Proof.
  unfold sem_wextend. cbn [map fst fold_left ext_cols].
  rewrite (map_ext (fun ir : nat * list val => fst (snd ir, cols t)) snd) by reflexivity. rewrite tag_from_snd. apply table_eta.
Qed.
Lemma drop_nil_eqv t : tab_eqv t (sem_drop_cols [] t).
Proof. unfold sem_drop_cols. rewrite filter_all by reflexivity. apply select_all_eqv, same_set_refl. Qed.
Lemma rename_nil t : sem_rename [] t = t.
Proof. unfold sem_rename. rewrite (map_ext (rename_col []) (fun c => c)) by reflexivity. rewrite map_id. apply table_eta. Qed.
Lemma order_nil fl rev t : sem_order fl [] rev None t = t.
Proof. unfold sem_order. cbn [map]. rewrite stable_sort_true by reflexivity. apply table_eta. Qed.

(* a call that returns the prefix changes nothing but, for the empty drop, the order of the columns *)
Lemma no_op_sem iw fl e x r : no_op x = true -> exists r', apply_sem iw fl e x r = Some r' /\ tab_eqv r r'.
Proof.
  destruct x; cbn [no_op apply_sem]; intros N; try discriminate N; eexists; (split; [reflexivity|]).
  - destruct ops; [|discriminate N]. destruct (n_windowed _); [rewrite wextend_nil|rewrite extend_nil]; apply tab_eqv_refl.
  - destruct cs; [|discriminate N]. apply drop_nil_eqv.
  - destruct m; [|discriminate N]. rewrite rename_nil. apply tab_eqv_refl.
  - destruct m; [|discriminate N]. cbn [map_remap map_dels flat_map]. rewrite rename_nil. apply drop_nil_eqv.
  - destruct cs; [|discriminate N]. destruct lim; [discriminate N|]. rewrite order_nil. apply tab_eqv_refl.
Qed.

Section OneStep.
  Variables (iw : list string) (fl : flavor) (e : env) (r : table).
  Hypothesis Wr : width_ok r.

  (* the prefix denotes a table equivalent to r *)
  Definition denotes (p : op) : Prop := exists t, sem_gen fl p e = Some t /\ tab_sim t r.

  Lemma unsimplified_sound x p : denotes p -> step_valid x (cols r) -> step_insensitive iw fl x r ->
    otab_sim (sem_gen fl (build_unsimplified iw p x) e) (apply_sem iw fl e x r).
  Proof.
    intros [t [E S]] V I. rewrite sem_unsimplified, E. cbn [obind].
    apply sim_apply; [eapply sem_rows_width, E|exact Wr|exact S|exact V|exact I].
  Qed.

  (* a TOTAL order_rows: the same rows in the same order *)
  Lemma order_sound_total cs rev lim p : no_op (SOrder cs rev lim) = false ->
    total_on fl (cols r) (map (fun c => (c, mem c rev)) cs) (rows r) -> denotes p ->
    otab_eqv (sem_gen fl (build_step iw p (SOrder cs rev lim)) e) (Some (sem_order fl cs rev lim r)).
  Proof.
    intros N G D. destruct (sim_unorder fl e r p D) as [t [E S]]. rewrite build_step_unorder by (reflexivity || exact N).
    cbn [build_unsimplified sem_gen]. rewrite E. cbn [option_map otab_eqv]. apply sim_order_total; assumption.
  Qed.

  (* ---------------------------------------------------------------- select_columns *)
  Lemma select_plain_sound cs q : denotes q -> otab_sim (sem_gen fl (OSelectCols q cs) e) (Some (sem_select_cols cs r)).
  Proof. intros [t [E S]]. cbn [sem_gen]. rewrite E. cbn [option_map otab_sim]. apply sim_select_cols, S. Qed.

  Lemma mk_select_sem q cs : sem_gen fl (mk_select q cs) e = sem_gen fl (OSelectCols q cs) e \/ exists s cs1, q = OSelectCols s cs1.
  Proof. destruct q; try (left; reflexivity). right. eexists. eexists. reflexivity. Qed.

  Lemma select_cols_sound cs tup : forall p r0, width_ok r0 -> (forall c, In c cs -> In c (cols r0)) -> prefix_ok iw p ->
    (exists t, sem_gen fl p e = Some t /\ tab_sim t r0) ->
    otab_sim (sem_gen fl (build_select_cols p cs tup) e) (Some (sem_select_cols cs r0)).
  Proof.
    assert (forall p r0, (exists t, sem_gen fl p e = Some t /\ tab_sim t r0) -> otab_sim (sem_gen fl (OSelectCols p cs) e) (Some (sem_select_cols cs r0))) as Plain.
    { intros p r0 [t [E S]]. cbn [sem_gen]. rewrite E. cbn [option_map otab_sim]. apply sim_select_cols, S. }
    assert (forall p r0, (forall c, In c cs -> In c (cols r0)) -> (exists t, sem_gen fl p e = Some t /\ tab_sim t r0) ->
            eqb cs (declared_names p) = true -> otab_sim (sem_gen fl p e) (Some (sem_select_cols cs r0))) as Noop.
    { intros p r0 Sub [t [E S]] Q. apply (proj1 (eqb_true _ _)) in Q. rewrite E. cbn [otab_sim].
      eapply tab_sim_trans; [|apply sim_select_cols, S]. apply tab_sim_of_eqv, select_all_eqv.
      rewrite Q, (sem_cols _ _ _ _ E). apply declared_names_same_set. }
    induction p as [n cs0|s IH ops wd w|s IH ops gb|s IH x|s IH cs1|s IH ds|s IH m|s IH m dels|s IH cs0 rev lim|a IHa b IHb on_a on_b jt|a IHa b IHb idc an bn];
      intros r0 W0 Sub OK D; cbn [build_select_cols];
      (destruct (tup && eqb cs (declared_names _)) eqn:Q; [apply andb_true_iff in Q; destruct Q as [_ Q]; apply (Noop _ r0 Sub D Q)|]); clear Q;
      try (cbn [mk_select]; apply Plain, D).
    - (* select over select *)
      destruct D as [t [E S]]. cbn [sem_gen] in E. destruct (sem_gen fl s e) as [t0|] eqn:E0; [|discriminate]. cbn [option_map] in E. inversion E; subst t.
      destruct OK as [Sub1 OK]. pose proof (tab_sim_cols _ _ S) as Sc. cbn [cols sem_select_cols] in Sc.
      assert (forall c, In c cs -> In c cs1) as In1 by (intros c Ic; apply Sc, Sub, Ic).
      eapply otab_sim_trans.
      + apply (IH t0); [eapply sem_rows_width, E0| |exact OK|exists t0; split; [reflexivity|apply tab_sim_refl]].
        intros c Ic. rewrite (sem_cols _ _ _ _ E0). apply Sub1, In1, Ic.
      + cbn [otab_sim]. rewrite <- (select_select cs1 cs t0 In1). apply sim_select_cols, S.
    - (* select over drop *)
      destruct D as [t [E S]]. cbn [sem_gen] in E. destruct (sem_gen fl s e) as [t0|] eqn:E0; [|discriminate]. cbn [option_map] in E. inversion E; subst t.
      pose proof (tab_sim_cols _ _ S) as Sc. unfold sem_drop_cols in Sc. cbn [cols sem_select_cols] in Sc.
      assert (forall c, In c cs -> In c (cols t0) /\ ~ In c ds) as In1.
      { intros c Ic. apply Sub, Sc, filter_In in Ic. destruct Ic as [I1 I2]. apply negb_true_iff, mem_false in I2. tauto. }
      eapply otab_sim_trans.
      + apply (IH t0); [eapply sem_rows_width, E0| |exact OK|exists t0; split; [reflexivity|apply tab_sim_refl]].
        intros c Ic. apply In1, Ic.
      + cbn [otab_sim]. rewrite <- (select_drop ds cs t0) by (intros c Ic _; apply In1, Ic). apply sim_select_cols, S.
    - (* order_rows *)
      destruct lim as [n|]; [cbn [mk_select]; apply Plain, D|].
      apply IH; [exact W0|exact Sub|exact OK|eapply sim_under_order, D].
  Qed.

  (* ---------------------------------------------------------------- extend *)
  Section ExtendStep.
    Variables (ops : list (string * expr)) (one : bool) (part order rev : list string).
    Let x := SExtend ops one part order rev.
    Let a := wargs_of one part order rev.
    Hypothesis V : step_valid x (cols r).
    Hypothesis Ins : step_insensitive iw fl x r.

    Lemma extend_sound : forall p, prefix_ok iw p -> denotes p -> otab_sim (sem_gen fl (build_extend iw p ops a) e) (apply_sem iw fl e x r).
    Proof.
      assert (forall p, denotes p -> otab_sim (sem_gen fl (mk_extend iw p ops a) e) (apply_sem iw fl e x r)) as Plain
        by (intros p D; exact (unsimplified_sound x p D V Ins)).
      induction p as [nm cs0|s IH o1 wd1 w1|s IH ops0 gb|s IH x0|s IH cs1|s IH ds|s IH m|s IH m dels|s IH cs0 rev0 lim|pa IHa b IHb on_a on_b jt|pa IHa b IHb idc an bn];
        intros OK D; cbn [build_extend]; try (apply Plain, D).
      - (* extend over extend: the merged node has the window of both, and denotes what the two extends denote in turn *)
        destruct (merge_guard (implies iw ops) a (mkwnode wd1 (w_part w1) (w_order w1) (w_rev w1))) eqn:G; [|apply Plain, D].
        destruct (try_to_merge_ops gcu o1 ops) as [m|] eqn:M; [|apply Plain, D].
        destruct OK as (N1 & D1 & C1 & OKs). destruct V as [Nk _].
        destruct (merged_node_same iw o1 ops m a _ N1 Nk M G C1) as [S2 Sm].
        destruct D as [t [E S]]. cbn [sem_gen] in E. destruct (sem_gen fl s e) as [t0|] eqn:E0; [|discriminate]. cbn [option_map] in E. inversion E; subst t. clear E.
        pose proof (sem_rows_width _ _ _ _ E0) as W0.
        unfold mk_extend. rewrite Sm. cbn [n_windowed n_part n_order n_rev]. rewrite mkwin_eta. cbn [sem_gen]. rewrite E0. cbn [option_map].
        pose proof Ins as I. unfold x in I |- *. cbn [apply_sem step_insensitive] in I |- *.
        change (mkwargs one part order rev) with a in I. change (wargs_of one part order rev) with a. rewrite S2 in I |- *.
        cbn [n_windowed n_part n_order n_rev otab_sim] in I |- *. rewrite mkwin_eta in I |- *.
        destruct wd1.
        + eapply tab_sim_trans; [apply tab_sim_of_eqv, (merge_sem_wextend o1 ops m N1 Nk M fl w1 t0 W0 D1)|].
          apply sim_wextend; [apply width_wextend, W0|exact Wr| |exact S]. intros Se. apply I; [reflexivity|exact Se].
        + eapply tab_sim_trans; [apply tab_sim_of_eqv, (merge_sem_extend o1 ops m N1 Nk M fl t0 W0)|].
          apply sim_extend; [apply width_extend, W0|exact Wr|exact S].
      - (* order_rows *)
        destruct lim as [k|]; [apply Plain, D|]. apply IH; [exact OK|apply (sim_under_order _ _ _ _ _ _ D)].
    Qed.
  End ExtendStep.
End OneStep.

(* ------------------------------------------------------------------ one builder step = the step on the materialised prefix *)
Theorem build_step_sound iw fl e x p t r :
  sem_gen fl p e = Some t -> tab_sim t r -> width_ok r -> prefix_ok iw p -> step_valid x (cols r) -> step_insensitive iw fl x r ->
  otab_sim (sem_gen fl (build_step iw p x) e) (apply_sem iw fl e x r).
Proof.
  intros E S W OK V I.
  assert (denotes fl e r p) as D by (exists t; split; assumption).
  destruct (no_op x) eqn:N.
  - rewrite (build_step_no_op iw p x N), E. destruct (no_op_sem iw fl e x r N) as [r' [-> Q]]. cbn [otab_sim].
    eapply tab_sim_trans; [exact S|apply tab_sim_of_eqv, Q].
  - destruct (skipping x) eqn:K.
    + rewrite (build_step_unorder iw p x K N). apply unsimplified_sound; [exact W|apply sim_unorder, D|exact V|exact I].
    + destruct x; try discriminate K; cbn [no_op] in N; cbn [build_step].
      * rewrite N. apply extend_sound; assumption.
      * apply (select_cols_sound iw fl e cs as_tuple p r W V OK D).
Qed.

(* a prefix that does not evaluate (a table is missing) stays that way *)
Lemma mk_extend_none iw fl e p ops a : sem_gen fl p e = None -> sem_gen fl (mk_extend iw p ops a) e = None.
Proof. intros E. unfold mk_extend. cbn [sem_gen]. rewrite E. reflexivity. Qed.
Lemma mk_select_none fl e p cs : sem_gen fl p e = None -> sem_gen fl (mk_select p cs) e = None.
Proof.
  intros E. assert (sem_gen fl (OSelectCols p cs) e = None) as G by (cbn [sem_gen]; rewrite E; reflexivity).
  destruct p; try exact G. cbn [mk_select sem_gen] in *. destruct (sem_gen fl p e); [discriminate E|reflexivity].
Qed.
Lemma build_step_none iw fl e x p : sem_gen fl p e = None -> sem_gen fl (build_step iw p x) e = None.
Proof.
  intros E. destruct (no_op x) eqn:N; [rewrite build_step_no_op; assumption|]. destruct (skipping x) eqn:K.
  - rewrite (build_step_unorder iw p x K N), sem_unsimplified, (none_unorder fl e p E). reflexivity.
  - destruct x; try discriminate K; cbn [no_op] in N; cbn [build_step]; [rewrite N|]; revert E;
      induction p as [nm cs0|s IH o1 wd1 w1|s IH ops0 gb|s IH x|s IH cs1|s IH ds|s IH m|s IH m dels|s IH cs0 rev0 lim|pa IHa b IHb on_a on_b jt|pa IHa b IHb idc an bn];
      intros E.
    all: cbn [build_extend build_select_cols]; try (apply mk_extend_none, E).
    all: try (destruct (as_tuple && eqb cs (declared_names _)); [exact E|]); try (apply mk_select_none, E).
    + assert (sem_gen fl s e = None) as E0 by (cbn [sem_gen] in E; destruct (sem_gen fl s e); [discriminate E|reflexivity]).
      destruct (merge_guard _ _ _); [|apply mk_extend_none, E].
      destruct (try_to_merge_ops _ _ _); [apply mk_extend_none, E0|apply mk_extend_none, E].
    + destruct lim; [apply mk_extend_none, E|]. apply IH. eapply none_under_order, E.
    + apply IH. cbn [sem_gen] in E. destruct (sem_gen fl s e); [discriminate|reflexivity].
    + apply IH. cbn [sem_gen] in E. destruct (sem_gen fl s e); [discriminate|reflexivity].
    + destruct lim; [apply mk_select_none, E|]. apply IH. eapply none_under_order, E.
Qed.
