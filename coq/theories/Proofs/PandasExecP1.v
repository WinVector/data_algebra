(* PEXEC, part 1: the refinement relation, scratch-name freshness, and what each primitive model of Model/PdPrim.v does to
   the columns, the row widths and the cells read BY NAME. *)
From Coq Require Import List Bool Arith String Lia Permutation Sorted.
Import ListNotations.
From DA Require Import Base.PyRT Base.Val Model.Sem Model.PdPrim Model.PandasExec Proofs.SemBasicP Proofs.SemOrderP Proofs.ComposeP5 Proofs.TabP Proofs.ListP.
Local Open Scope string_scope.
Local Open Scope list_scope.

(* ------------------------------------------------------------------ the relation "same table up to column order and row order" *)
(* t refines t' : some table v has the cells of t row for row (tab_eqv: same column SET, every row the same function from names to
   values) and the columns of t' with a permutation of the rows of t' *)
Definition refines (t t' : table) : Prop :=
  exists v, tab_eqv t v /\ cols v = cols t' /\ Permutation (rows v) (rows t').

Lemma Forall2_sym {A B} (R : A -> B -> Prop) (R' : B -> A -> Prop) l1 l2 : (forall a b, R a b -> R' b a) -> Forall2 R l1 l2 -> Forall2 R' l2 l1.
Proof. intros H F. induction F; constructor; auto. Qed.

Lemma tab_eqv_sym t u : tab_eqv t u -> tab_eqv u t.
Proof. intros [S F]. split; [apply same_set_sym, S|]. eapply Forall2_sym; [|exact F]. intros a b R c. symmetry. apply R. Qed.

(* a permutation on one side of a Forall2 can be moved to the other side *)
Lemma Forall2_perm_l {A B} (R : A -> B -> Prop) l1 l1' l2 :
  Permutation l1 l1' -> Forall2 R l1 l2 -> exists l2', Permutation l2 l2' /\ Forall2 R l1' l2'.
Proof.
  intros P. revert l2. induction P as [|x l l' P IH|x y l|l l' l'' P1 IH1 P2 IH2]; intros l2 F.
  - inversion F; subst. exists []. split; constructor.
  - inversion F as [|? b ? l2t Rxb Ft]; subst. destruct (IH _ Ft) as [m [Pm Fm]].
    exists (b :: m). split; [apply perm_skip, Pm|constructor; assumption].
  - inversion F as [|? b ? l2t Ryb Ft]; subst. inversion Ft as [|? c ? l2u Rxc Fu]; subst.
    exists (c :: b :: l2u). split; [apply perm_swap|repeat constructor; assumption].
  - destruct (IH1 _ F) as [m [Pm Fm]]. destruct (IH2 _ Fm) as [m' [Pm' Fm']].
    exists m'. split; [eapply perm_trans; eassumption|exact Fm'].
Qed.

Lemma Forall2_nth_error {A B} (R : A -> B -> Prop) l l' i a : Forall2 R l l' -> nth_error l i = Some a -> exists a', nth_error l' i = Some a' /\ R a a'.
Proof.
  intros F. revert i. induction F as [|x y l l' Rxy F IH]; intros [|i] H; simpl in *; try discriminate.
  - inversion H; subst. exists y. split; [reflexivity|exact Rxy].
  - apply IH, H.
Qed.
Lemma Forall2_In_l {A B} (R : A -> B -> Prop) l l' a : Forall2 R l l' -> In a l -> exists a', In a' l' /\ R a a'.
Proof.
  intros F I. destruct (In_nth_error _ _ I) as [i Hi]. destruct (Forall2_nth_error _ _ _ _ _ F Hi) as [a' [Ha' Ra]].
  exists a'. split; [eapply nth_error_In; eassumption|exact Ra].
Qed.

Lemma refines_refl t : refines t t.
Proof. exists t. split; [apply tab_eqv_refl|]. split; [reflexivity|apply Permutation_refl]. Qed.
Lemma refines_of_eqv t u : tab_eqv t u -> refines t u.
Proof. intros E. exists u. split; [exact E|]. split; [reflexivity|apply Permutation_refl]. Qed.

Lemma refines_trans t u w : refines t u -> refines u w -> refines t w.
Proof.
  intros [v [E1 [C1 P1]]] [v' [E2 [C2 P2]]].
  (* v has the rows of u permuted; transport u ~ v' along that permutation *)
  destruct E2 as [S2 F2].
  destruct (Forall2_perm_l _ _ _ _ (Permutation_sym P1) F2) as [m [Pm Fm]].
  exists (mktable (cols v') m). split; [|split].
  - eapply tab_eqv_trans; [exact E1|]. split; cbn [cols rows]; [rewrite C1; exact S2|]. rewrite C1. exact Fm.
  - exact C2.
  - cbn [rows]. eapply perm_trans; [apply Permutation_sym, Pm|exact P2].
Qed.

Lemma Forall2_len {A B} (R : A -> B -> Prop) l1 l2 : Forall2 R l1 l2 -> List.length l1 = List.length l2.
Proof. induction 1; simpl; congruence. Qed.
Lemma refines_same_set t u : refines t u -> same_set (cols t) (cols u).
Proof. intros [v [[S _] [C _]]]. rewrite <- C. exact S. Qed.
Lemma refines_row_count t u : refines t u -> List.length (rows t) = List.length (rows u).
Proof. intros [v [[_ F] [_ P]]]. rewrite (Forall2_len _ _ _ F). apply Permutation_length, P. Qed.

(* ------------------------------------------------------------------ sorting routines *)
Definition sorter_ok (srt : sorter) : Prop :=
  forall (le : list val -> list val -> bool) l,
    (forall a b, le a b = true \/ le b a = true) -> (forall a b c, le a b = true -> le b c = true -> le a c = true) ->
    Permutation (srt le l) l /\ StronglySorted (fun a b => le a b = true) (srt le l).
Lemma stable_sorter_ok : sorter_ok stable_sorter.
Proof. intros le l T R. split; [apply stable_sort_perm|apply stable_sort_sorted; assumption]. Qed.

Lemma sorted_transfer {A B} (R : A -> B -> Prop) (le : A -> A -> bool) (le' : B -> B -> bool) l l' :
  (forall a a' b b', R a a' -> R b b' -> le a b = le' a' b') -> Forall2 R l l' ->
  StronglySorted (fun a b => le a b = true) l -> StronglySorted (fun a b => le' a b = true) l'.
Proof.
  intros H F. induction F as [|a a' l l' Ra F IH]; intros S; [constructor|]. inversion S as [|? ? St Fa]; subst.
  constructor; [apply IH, St|]. clear IH St S. induction F as [|b b' l l' Rb F IH]; constructor.
  - inversion Fa; subst. rewrite <- (H _ _ _ _ Ra Rb). assumption.
  - apply IH. inversion Fa; assumption.
Qed.

Lemma nodup_names_sound l : nodup_names l = true -> NoDup l.
Proof.
  induction l as [|x t IH]; simpl; intros H; [constructor|]. apply andb_true_iff in H. destruct H as [N H].
  constructor; [apply mem_false, negb_true_iff, N|apply IH, H].
Qed.

(* ------------------------------------------------------------------ scratch names never capture *)
Fixpoint prefixed (n : nat) (s : string) : string := match n with O => s | S k => prefixed k (sapp "_" s) end.
Lemma prefixed_length n s : String.length (prefixed n s) = (n + String.length s)%nat.
Proof. revert s. induction n as [|n IH]; intros s; simpl; [reflexivity|]. rewrite IH. simpl. lia. Qed.

Lemma unused_from_spec fuel name taken :
  (exists j, (j < fuel)%nat /\ ~ In (prefixed j name) taken) -> ~ In (unused_from fuel name taken) taken.
Proof.
  revert name. induction fuel as [|k IH]; intros name [j [Lj Nj]]; [lia|].
  simpl. destruct (mem name taken) eqn:M.
  - apply IH. destruct j as [|j]; [simpl in Nj; apply mem_In in M; contradiction|].
    exists j. split; [lia|exact Nj].
  - apply mem_false. exact M.
Qed.

Lemma NoDup_prefixed name n : NoDup (map (fun j => prefixed j name) (seq 0 n)).
Proof.
  apply FinFun.Injective_map_NoDup; [|apply seq_NoDup].
  intros a b E. apply (f_equal String.length) in E. rewrite !prefixed_length in E. lia.
Qed.

(* _unused_column_name returns a name that is none of the names in use: no user column is overwritten, dropped or captured *)
Lemma unused_column_name_fresh base taken : ~ In (unused_column_name base taken) taken.
Proof.
  unfold unused_column_name. apply unused_from_spec.
  destruct (Exists_dec (fun j => ~ In (prefixed j base) taken) (seq 0 (S (List.length taken)))) as [E|N].
  - intros j. destruct (in_dec string_dec (prefixed j base) taken); [right; tauto|left; assumption].
  - apply Exists_exists in E. destruct E as [j [Ij Nj]]. apply in_seq in Ij. exists j. split; [lia|exact Nj].
  - exfalso.
    assert (incl (map (fun j => prefixed j base) (seq 0 (S (List.length taken)))) taken) as I.
    { intros x Ix. apply in_map_iff in Ix. destruct Ix as [j [<- Ij]].
      destruct (in_dec string_dec (prefixed j base) taken) as [i|n]; [exact i|].
      exfalso. apply N. apply Exists_exists. exists j. split; assumption. }
    pose proof (NoDup_incl_length (NoDup_prefixed base (S (List.length taken))) I) as L.
    rewrite map_length, seq_length in L. lia.
Qed.

Lemma sapp_length a b : String.length (sapp a b) = (String.length a + String.length b)%nat.
Proof. unfold sapp. induction a as [|c a IH]; simpl; [reflexivity|]. rewrite IH. reflexivity. Qed.

Lemma fold_max_ge (l : list nat) : forall a x, (In x l \/ x <= a)%nat -> (x <= fold_left Nat.max l a)%nat.
Proof.
  induction l as [|y t IH]; intros a x H; simpl.
  - destruct H as [[]|H]; exact H.
  - apply IH. destruct H as [[->|I]|H]; [right; lia|left; exact I|right; lia].
Qed.
Lemma max_len_ge names x : In x names -> (String.length x <= max_len names)%nat.
Proof. intros I. unfold max_len. apply fold_max_ge. left. apply in_map. exact I. Qed.

(* the suffix given to the right copies: no suffixed shared name is a name in use *)
Lemma suffix_from_spec fuel sfx common names :
  (max_len names < fuel + String.length sfx)%nat ->
  forall c, In c common -> ~ In (sapp c (suffix_from fuel sfx common names)) names.
Proof.
  revert sfx. induction fuel as [|k IH]; intros sfx L c Ic I.
  - simpl in I. apply max_len_ge in I. rewrite sapp_length in I. lia.
  - simpl in I. destruct (existsb (fun c0 => mem (sapp c0 sfx) names) common) eqn:E.
    + revert I. apply IH; [|exact Ic]. rewrite sapp_length. simpl. lia.
    + assert (existsb (fun c0 => mem (sapp c0 sfx) names) common = true) as E'; [|congruence].
      apply existsb_exists. exists c. split; [exact Ic|]. apply mem_In. exact I.
Qed.
Lemma right_suffix_fresh common names c : In c common -> ~ In (sapp c (right_suffix common names)) names.
Proof. intros I. apply suffix_from_spec; [lia|exact I]. Qed.

(* ------------------------------------------------------------------ reading rows by name *)
Lemma mem_true_In (x : string) l : mem x l = true -> In x l.
Proof. apply mem_In. Qed.

(* a row of a well-shaped table is determined by its cells *)

(* ------------------------------------------------------------------ the primitives: columns, widths, cells *)
Lemma width_set_scalar c v t : width_ok t -> width_ok (pd_set_scalar c v t).
Proof.
  unfold width_ok, pd_set_scalar. cbn [cols rows]. intros W. apply Forall_forall. intros r I. apply in_map_iff in I.
  destruct I as [r0 [<- I0]]. apply set_cell_length. rewrite Forall_forall in W. apply W, I0.
Qed.
Lemma rows_set_scalar c v t : List.length (rows (pd_set_scalar c v t)) = List.length (rows t).
Proof. unfold pd_set_scalar. cbn [rows]. apply map_length. Qed.

Lemma set_scalar_row_eqv c v t :
  width_ok t ->
  Forall2 (fun r' r => forall x, get (add_end (cols t) c) r' x = if eq_dec x c then v else get (cols t) r x)
          (rows (pd_set_scalar c v t)) (rows t).
Proof.
  intros W. unfold pd_set_scalar. cbn [rows]. unfold width_ok in W. induction W as [|r rs L W IH]; simpl; constructor; [|exact IH].
  intros x. apply set_cell_get. exact L.
Qed.

Lemma pd_set_col_inv c vs t u : pd_set_col c vs t = Some u ->
  List.length vs = List.length (rows t) /\ cols u = add_end (cols t) c /\
  rows u = map (fun rv => set_cell (cols t) (fst rv) c (snd rv)) (combine (rows t) vs).
Proof.
  unfold pd_set_col, nrows. destruct (Nat.eqb (List.length vs) (List.length (rows t))) eqn:E; [|discriminate].
  intros H. inversion H; subst. apply Nat.eqb_eq in E. cbn [cols rows]. auto.
Qed.
Lemma width_set_col c vs t u : width_ok t -> pd_set_col c vs t = Some u -> width_ok u.
Proof.
  intros W H. destruct (pd_set_col_inv _ _ _ _ H) as [L [C R]]. unfold width_ok. rewrite C, R.
  apply Forall_forall. intros r I. apply in_map_iff in I. destruct I as [[r0 v0] [<- I0]]. cbn [fst snd].
  apply set_cell_length. apply in_combine_l in I0. unfold width_ok in W. rewrite Forall_forall in W. apply W, I0.
Qed.
Lemma set_col_rows c vs t u : width_ok t -> pd_set_col c vs t = Some u ->
  forall i r, nth_error (rows t) i = Some r ->
    exists r', nth_error (rows u) i = Some r' /\
               forall x, get (cols u) r' x = if eq_dec x c then nth i vs VNull else get (cols t) r x.
Proof.
  intros W H i r Hi. destruct (pd_set_col_inv _ _ _ _ H) as [L [C R]].
  assert (nth_error (combine (rows t) vs) i = Some (r, nth i vs VNull)) as Hc.
  { clear H C R W. revert i vs L Hi. generalize (rows t) as rs. induction rs as [|a rs IH]; intros i vs L Hi; [destruct i; discriminate|].
    destruct vs as [|v vs]; [discriminate|]. destruct i as [|i]; simpl in *; [inversion Hi; reflexivity|]. apply IH; [lia|exact Hi]. }
  exists (set_cell (cols t) r c (nth i vs VNull)). split.
  - rewrite R. rewrite (map_nth_error _ _ _ Hc). reflexivity.
  - intros x. rewrite C. apply set_cell_get. unfold width_ok in W. rewrite Forall_forall in W. apply W. eapply nth_error_In; eassumption.
Qed.

Lemma pd_select_inv cs t u : pd_select cs t = Some u -> u = sem_select_cols cs t /\ (forall c, In c cs -> In c (cols t)).
Proof.
  unfold pd_select. destruct (subset cs (cols t)) eqn:E; [|discriminate]. intros H. inversion H. split; [reflexivity|].
  apply subset_spec. exact E.
Qed.
Lemma pd_del_inv c t u : pd_del c t = Some u -> u = sem_select_cols (remove_elem c (cols t)) t /\ In c (cols t).
Proof. unfold pd_del. destruct (mem c (cols t)) eqn:E; [|discriminate]. intros H. inversion H. split; [reflexivity|]. apply mem_In, E. Qed.
Lemma pd_col_inv c t vs : pd_col c t = Some vs -> vs = getcol t c /\ In c (cols t).
Proof. unfold pd_col. destruct (mem c (cols t)) eqn:E; [|discriminate]. intros H. inversion H. split; [reflexivity|]. apply mem_In, E. Qed.

Lemma width_select cs t : width_ok (sem_select_cols cs t).
Proof. apply width_select_cols. Qed.

Lemma mem_remove_elem (x c : string) l : mem x (remove_elem c l) = mem x l && negb (eqb c x).
Proof.
  destruct (mem x (remove_elem c l)) eqn:E.
  - apply mem_In, In_remove_elem in E. destruct E as [I N]. apply mem_In in I. rewrite I. unfold eqb. destruct (eq_dec c x); [congruence|reflexivity].
  - destruct (mem x l) eqn:I; [|reflexivity]. unfold eqb. destruct (eq_dec c x) as [->|n]; [reflexivity|].
    exfalso. apply mem_false in E. apply E. apply In_remove_elem. split; [apply mem_In, I|congruence].
Qed.

(* deleting a column leaves every other cell in place *)
Lemma del_tab_eqv c t : ~ In c (cols t) -> forall t0, tab_eqv t0 t -> tab_eqv (sem_select_cols (remove_elem c (cols t0)) t0) t.
Proof.
  intros N t0 [S F]. split; cbn [cols rows sem_select_cols].
  - intros x. rewrite In_remove_elem, (S x). split; [tauto|]. intros I. split; [exact I|]. intros ->. contradiction.
  - rewrite <- (map_id (rows t)). eapply ColumnsUsedP1.F2_map; [exact F|]. intros r0 r R x. rewrite get_map_cols, mem_remove_elem.
    unfold eqb. destruct (eq_dec c x) as [<-|n].
    + rewrite andb_false_r. symmetry. apply get_absent. exact N.
    + rewrite andb_true_r. destruct (mem x (cols t0)) eqn:M; [apply R|].
      apply mem_false in M. rewrite <- (R x). symmetry. apply get_absent. exact M.
Qed.
