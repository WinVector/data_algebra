(* SQLGEN, part 13: extend_to_near_sql returning the merged sub-query: it delivers the outer extend's table, and
   stays a step later extends may merge into -- for any outer step and any class of non-aggregate terms (merged_delivers_P),
   then for the un-windowed extend. *)
From Coq Require Import List Bool String.
Import ListNotations.
From DA Require Import Base.PyRT Base.Val Model.Sem Proofs.SemBasicP Model.ColumnsUsed Proofs.ColumnsUsedP1 Proofs.ColumnsUsedP2
  Proofs.ColumnsUsedP4 Model.SqlGen Model.SqlSem Proofs.SqlGenP1 Proofs.SqlGenP2 Proofs.SqlGenP3 Proofs.SqlGenP4
  Proofs.SqlGenP11 Proofs.SqlGenP12 Proofs.ListP.
Local Open Scope list_scope.

Section MergedDict.
Context {V : Type}.
Variables (W nt : list string) (f : string -> V) (d0 : pydict string V).
Let md := filter (fun kv : string * V => mem (fst kv) W) (fold_left (fun acc k => dict_set acc k (f k)) nt d0).

Lemma dict_get_filter_out (p : string -> bool) (d : pydict string V) k : p k = false -> dict_get (filter (fun kv => p (fst kv)) d) k = None.
Proof.
  intros P. induction d as [|[a v] t IH]; [reflexivity|]. simpl. destruct (p a) eqn:Pa; simpl; [|exact IH].
  destruct (eq_dec k a) as [->|n]; [congruence|exact IH].
Qed.

Lemma dict_get_md k : NoDup nt ->
  dict_get md k = if mem k W then (if mem k nt then Some (f k) else dict_get d0 k) else None.
Proof.
  intros N. unfold md. destruct (mem k W) eqn:MW.
  - rewrite (dict_get_filter_key (fun c => mem c W)) by exact MW. destruct (mem k nt) eqn:M.
    + apply mem_In in M. pose proof (dict_get_fold_set_in (fun c : string => c) f nt d0 k) as G. rewrite map_id in G. exact (G N M).
    + apply mem_false in M. apply (dict_get_fold_set_notin (fun c : string => c) f nt d0 k). rewrite map_id. exact M.
  - apply (dict_get_filter_out (fun c => mem c W)). exact MW.
Qed.

Lemma nodup_keys_md : NoDup (map fst d0) -> NoDup (map fst md).
Proof.
  intros N. unfold md. apply NoDup_map_filter. change (map fst ?d) with (dict_keys d).
  rewrite (keys_fold_set (fun c : string => c) f). apply NoDup_fold_add_end. exact N.
Qed.

Lemma in_keys_md k : NoDup nt -> (In k (map fst md) <-> In k W /\ (In k nt \/ In k (map fst d0))).
Proof.
  intros N. change (map fst md) with (dict_keys md). split.
  - intros I. destruct (dict_get md k) as [v|] eqn:G; [|apply dict_get_None in G; contradiction].
    rewrite (dict_get_md k N) in G. destruct (mem k W) eqn:MW; [|discriminate]. apply mem_In in MW. split; [exact MW|].
    destruct (mem k nt) eqn:M; [left; apply mem_In, M|right]. apply dict_get_Some_keys in G. exact G.
  - intros [IW Ik]. destruct (dict_get md k) as [v|] eqn:G; [apply dict_get_Some_keys in G; exact G|]. exfalso.
    rewrite (dict_get_md k N) in G. apply mem_In in IW. rewrite IW in G. destruct (mem k nt) eqn:M; [discriminate|].
    apply mem_false in M. destruct Ik as [Ik|Ik]; [contradiction|]. apply dict_get_None in G. contradiction.
Qed.
End MergedDict.

Lemma is_nil_true {A} (l : list A) : is_nil l = true -> l = [].
Proof. destruct l; [reflexivity|discriminate]. Qed.

Section Merged.
Variable fl : flavor.
Variable e : env.

(* extend_to_near_sql returning the merged sub-query, for ANY outer step (terms tms, declared dependencies deps) that, built as
   a fresh step over sub, would deliver T, and any class P of non-aggregate terms both steps are in *)
Lemma merged_delivers_P (P : tterm -> Prop) n ts s0 ci ds su S nm (tms : terms) (deps : depmap) dpx u T :
  let sub := TUnary n (Some ts) s0 ci SfxNone true (Some ds) in
  let our_nt := non_trivial_terms deps tms in
  P TmPass -> (forall t, P t -> is_agg_term t = false) ->
  Delivers fl e sub su S -> merge_okP P ts ds -> NoDup su ->
  merge_okP P tms deps -> map fst tms = map fst deps ->
  Delivers fl e (TUnary nm (Some tms) sub (mk_tci (Some su) false None) SfxNone true dpx) u T ->
  (forall k, In k u -> incl (item_cols (k, term_of tms k)) su) ->
  u <> [] -> List.length (rows T) = List.length (rows S) ->
  contention our_nt (needs deps our_nt) (non_trivial_terms ds ts) (needs ds (non_trivial_terms ds ts)) = [] ->
  Delivers fl e (TUnary n (Some (merged_terms our_nt tms deps ts)) s0 ci SfxNone true (Some (merged_deps our_nt tms deps ds))) u T
  /\ merge_okP P (merged_terms our_nt tms deps ts) (merged_deps our_nt tms deps ds).
Proof.
  intros sub our_nt HP0 HPa D [NLs [SCs [NDs [IKs [NDds DDs]]]]] Nsu [NLo [SCo [NDo [IKo [NDdo DDo]]]]] Ekeys DF Hloc NEu LT Hcont.
  assert (NoDup our_nt) as Nour by (apply NoDup_non_trivial, NDdo).
  assert (incl u (map fst tms)) as IuK by (exact (dv_incl _ _ _ _ _ DF)).
  assert (forall kt, In kt ts -> is_agg_term (snd kt) = false) as As by (intros kt I; apply HPa, SCs, I).
  assert (forall kt, In kt tms -> is_agg_term (snd kt) = false) as Ao by (intros kt I; apply HPa, SCo, I).
  (* the input of both steps *)
  destruct (dv_nil _ _ _ _ _ D) as [R0 [ER0 _]]. unfold sub in ER0. rewrite qsem_unary in ER0.
  destruct (csem fl e s0 ci) as [X|] eqn:EX; [|discriminate]. clear R0 ER0.
  (* asked for nothing, the inner step writes all its terms *)
  set (su' := if is_nil su then map fst ts else su).
  assert (su' <> []) as NEs'. { unfold su'. destruct (is_nil su) eqn:E0; [|intros X0; rewrite X0 in E0; discriminate]. intros X0. apply NLs. destruct ts; [reflexivity|discriminate]. }
  assert (incl su su') as Isu' by (unfold su'; destruct (is_nil su) eqn:E0; [rewrite (is_nil_true su E0); intros x []|apply incl_refl]).
  assert (incl su' (map fst ts)) as Isuts. { unfold su'. destruct (is_nil su); [apply incl_refl|]. exact (dv_incl _ _ _ _ _ D). }
  assert (qsem fl e sub (Some su) = sql_select fl true (Some ts) (Some su') SfxNone X) as EY.
  { unfold sub. rewrite qsem_unary, EX. unfold su'. destruct (is_nil su) eqn:E0; [rewrite (is_nil_true su E0); apply sql_select_keys_eq, select_keys_own_nil, NLs|reflexivity]. }
  assert (NoDup su') as Nsu' by (unfold su'; destruct (is_nil su); [exact NDs|exact Nsu]).
  pose proof (rowwise_select fl true ts su' SfxNone X (rowwise_nonagg ts As) NEs') as ESel.
  match type of ESel with _ = Some ?y => set (Y := y) in * end.
  assert (List.length (rows X) = List.length (rows S)) as LX.
  { destruct (dv_sel _ _ _ _ _ D su' NEs' Nsu' Isuts) as [R [Q1 [Q2 _]]]. unfold sub in Q1. rewrite qsem_unary, EX, ESel in Q1. injection Q1 as <-.
    rewrite <- (sel_nil_inv _ _ Q2). unfold Y. cbn [rows sfx_rows]. rewrite map_length, tag_from_length. reflexivity. }
  (* exactness through the composition *)
  assert (forall K, K <> [] -> NoDup K -> incl K u ->
            sql_select fl true (Some (merged_terms our_nt tms deps ts)) (Some K) SfxNone X = Some (sel K T)) as Exact.
  { intros K NK NDK IK.
    refine (eq_trans (merge_compose_nonagg fl ts tms ds deps su' K X As Ao NDds NDdo NDo NDs IKs Ekeys DDo Hcont NEs' Isuts NK
               (fun k Ik => IuK k (IK k Ik)) (fun k Ik c Hc => Isu' c (Hloc k (IK k Ik) c Hc)) Y ESel) _).
    destruct (dv_sel _ _ _ _ _ DF K NK NDK (fun k Ik => IuK k (IK k Ik))) as [R [Q1 [_ [Q3 _]]]].
    rewrite qsem_unary in Q1. unfold csem in Q1. cbn [by_name sub tc_cols] in Q1. change (TUnary n (Some ts) s0 ci SfxNone true (Some ds)) with sub in Q1.
    rewrite EY in Q1. rewrite ESel in Q1. rewrite Q1. f_equal. apply Q3, IK. }
  set (tm := merged_terms our_nt tms deps ts). set (dm := merged_deps our_nt tms deps ds).
  assert (forall k, dict_get tm k = if mem k (map fst tms ++ map fst deps) then (if mem k our_nt then Some (term_of tms k) else dict_get ts k) else None) as Gtm
      by (intros k; apply (dict_get_md (map fst tms ++ map fst deps) our_nt (fun c => term_of tms c) ts k Nour)).
  assert (forall k, dict_get dm k = if mem k (map fst tms ++ map fst deps) then (if mem k our_nt then Some (deps_of deps k) else dict_get ds k) else None) as Gdm
      by (intros k; apply (dict_get_md (map fst tms ++ map fst deps) our_nt (fun c => deps_of deps c) ds k Nour)).
  assert (NoDup (map fst tm)) as NDtm by (apply (nodup_keys_md (map fst tms ++ map fst deps) our_nt (fun c => term_of tms c) ts NDs)).
  assert (NoDup (map fst dm)) as NDdm by (apply (nodup_keys_md (map fst tms ++ map fst deps) our_nt (fun c => deps_of deps c) ds NDds)).
  assert (forall k, In k our_nt -> In k (map fst tms)) as Iour.
  { intros k Ik. destruct (non_trivial_in deps tms k Ik) as [vi [t [_ [G _]]]]. apply dict_get_Some_keys in G. exact G. }
  assert (forall kt, In kt tm -> P (snd kt)) as SCtm by (apply merged_terms_all; assumption).
  assert (incl u (map fst tm)) as IuKm.
  { intros k Ik. apply (in_keys_md (map fst tms ++ map fst deps) our_nt (fun c => term_of tms c) ts k Nour). split; [apply in_app_iff; left; apply IuK, Ik|].
    destruct (in_dec string_dec k our_nt) as [i|ni]; [left; exact i|right].
    (* trivial in the outer step: a passed column, which the inner step supplies *)
    pose proof (IuK k Ik) as Ikt. rewrite Ekeys in Ikt. apply in_map_iff in Ikt. destruct Ikt as [[k' vi] [Ek Id]]. cbn [fst] in Ek. subst k'.
    destruct (dict_get tms k) as [t|] eqn:G; [|apply dict_get_None in G; destruct (G (IuK k Ik))].
    destruct (non_trivial_not deps tms k vi t Id G ni) as [_ [_ T0]].
    assert (term_of tms k = t) as ET by (unfold term_of; rewrite G; reflexivity).
    pose proof (Hloc k Ik) as HL. rewrite ET in HL. apply Isuts, Isu'. destruct t; try discriminate; apply HL; left; reflexivity. }
  assert (tm <> []) as NLtm.
  { intros X0. destruct u as [|k0 u']; [congruence|]. specialize (IuKm k0 (or_introl eq_refl)). rewrite X0 in IuKm. destruct IuKm. }
  split.
  - apply (unary_rowwise fl e n tm s0 ci SfxNone true (Some dm) X u T EX NLtm NDtm); [|exact IuKm|exact (dv_cols _ _ _ _ _ DF)| |exact Exact].
    + apply rowwise_nonagg. intros kt I. apply HPa, SCtm, I.
    + cbn [sfx_rows]. rewrite LX. symmetry. exact LT.
  - split; [exact NLtm|]. split; [exact SCtm|]. split; [exact NDtm|]. split; [|split; [exact NDdm|]].
    + intros k Ik. apply (in_keys_md (map fst tms ++ map fst deps) our_nt (fun c => term_of tms c) ts k Nour) in Ik. destruct Ik as [IW Ik].
      apply (in_keys_md (map fst tms ++ map fst deps) our_nt (fun c => deps_of deps c) ds k Nour). split; [exact IW|]. destruct Ik as [Ik|Ik]; [left; exact Ik|right; apply IKs, Ik].
    + intros k t I. apply (dict_get_NoDup_In tm k t NDtm) in I. rewrite Gtm in I. unfold deps_of. rewrite Gdm.
      destruct (mem k (map fst tms ++ map fst deps)); [|discriminate]. destruct (mem k our_nt) eqn:M.
      * injection I as <-. apply mem_In in M. pose proof (Iour k M) as Ikt. unfold term_of.
        destruct (dict_get tms k) as [t0|] eqn:G; [|apply dict_get_None in G; contradiction]. apply dict_get_In in G. exact (DDo k t0 G).
      * apply dict_get_In in I. exact (DDs k t I).
Qed.

(* the un-windowed extend merged into the step below, for any class P that holds the terms it writes *)
Lemma merged_extend_P (P : tterm -> Prop) s ops n ts s0 ci ds u S :
  let p := OExtend s ops false no_window in
  let su := cfs1 p u in
  let subops := sub_ops u ops in
  let origcols := filter (fun k => negb (mem k (map fst subops))) u in
  let tms := ext_terms TmExpr origcols subops in
  let deps := ext_deps [] origcols subops in
  let our_nt := non_trivial_terms deps tms in
  let sub := TUnary n (Some ts) s0 ci SfxNone true (Some ds) in
  P TmPass -> (forall x, P (TmExpr x)) -> (forall t, P t -> is_agg_term t = false) ->
  builder_ok p = true -> sem_gen fl s e = Some S -> NoDup u -> incl u (column_names p) -> subops <> [] ->
  Delivers fl e sub su S -> merge_okP P ts ds ->
  contention our_nt (needs deps our_nt) (non_trivial_terms ds ts) (needs ds (non_trivial_terms ds ts)) = [] ->
  Delivers fl e (TUnary n (Some (merged_terms our_nt tms deps ts)) s0 ci SfxNone true (Some (merged_deps our_nt tms deps ds))) u (sem_extend fl ops S)
  /\ merge_okP P (merged_terms our_nt tms deps ts) (merged_deps our_nt tms deps ds).
Proof.
  intros p su subops origcols tms deps our_nt sub HP0 HPe HPa BO ES Nu Iu NSub D MOKs Hcont.
  destruct (bok_extend_full _ _ _ _ BO) as [BOs [Ic Nk]]. pose proof (builder_ok_nodup s BOs) as Ns.
  assert (NoDup su) as Nsu. { unfold su, cfs1, p. simpl. destruct (sub_ops u ops); [exact Ns|apply NoDup_filter, Ns]. }
  destruct (ext_split u ops Nu Nk) as [No [Nsub [Dj _]]].
  destruct (extend_deps_ok P origcols subops No Nsub Dj NSub HP0 HPe) as [MOKo Ekeys].
  (* the step extend_to_near_sql would have built had it not merged *)
  assert (Delivers fl e (TUnary (mkvn "extend" 0) (Some tms) sub (mk_tci (Some su) false None) SfxNone true (Some deps)) u (sem_extend fl ops S)) as DF.
  { pose proof (node_extend fl e s ops sub u S (mkvn "extend" 0) (Some deps) BO ES Nu Iu NSub Nsu (cfs1_incl p s u BO eq_refl Iu) D) as DF.
    change (Delivers fl e (TUnary (mkvn "extend" 0) (norm tms) sub (mk_tci (Some su) false None) SfxNone true (Some deps)) u (sem_extend fl ops S)) in DF.
    rewrite (norm_nonempty tms (ext_terms_nonempty TmExpr origcols subops NSub)) in DF. exact DF. }
  apply (merged_delivers_P P n ts s0 ci ds su S (mkvn "extend" 0) tms deps (Some deps) u (sem_extend fl ops S) HP0 HPa D MOKs Nsu MOKo Ekeys DF);
    [exact (extend_loc s ops u BO Iu)|exact (sub_ops_nonempty u ops NSub)|apply extend_row_count|exact Hcont].
Qed.

Lemma merged_delivers s ops n ts s0 ci ds u S :
  let p := OExtend s ops false no_window in
  let su := cfs1 p u in
  let subops := sub_ops u ops in
  let origcols := filter (fun k => negb (mem k (map fst subops))) u in
  let tms : terms := pass_terms origcols ++ map (fun ke => (fst ke, TmExpr (snd ke))) subops in
  let deps : depmap := map (fun k => (k, [k])) origcols ++ map (fun ke => (fst ke, set_union (py_set (cols_used (snd ke))) [])) subops in
  let our_nt := non_trivial_terms deps tms in
  let sub := TUnary n (Some ts) s0 ci SfxNone true (Some ds) in
  builder_ok p = true -> sem_gen fl s e = Some S -> NoDup u -> incl u (column_names p) -> subops <> [] ->
  Delivers fl e sub su S -> merge_ok ts ds ->
  contention our_nt (needs deps our_nt) (non_trivial_terms ds ts) (needs ds (non_trivial_terms ds ts)) = [] ->
  Delivers fl e (TUnary n (Some (merged_terms our_nt tms deps ts)) s0 ci SfxNone true (Some (merged_deps our_nt tms deps ds))) u (sem_extend fl ops S)
  /\ merge_ok (merged_terms our_nt tms deps ts) (merged_deps our_nt tms deps ds).
Proof.
  intros p su subops origcols tms deps our_nt sub.
  exact (merged_extend_P (fun t => scalar_term t = true) s ops n ts s0 ci ds u S eq_refl (fun x => eq_refl) (fun t H => proj1 (scalar_flags t H))).
Qed.

End Merged.
