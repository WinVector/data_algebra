(* C03, part 1: the result monad, the expression translation of Model/PolarsExec.v against the Pandas-flavoured scalar
   semantics of Model/Sem.v, and order-independence of the aggregates. *)
From Coq Require Import List Bool QArith Qreduction String Permutation.
Import ListNotations.
From DA Require Import Base.PyRT Base.PyStr Base.Val Model.Sem Model.PolarsExec Proofs.SemOrderP Proofs.PermP1 Proofs.TabP Proofs.ListP.
Local Open Scope string_scope.
Local Open Scope list_scope.

(* ------------------------------------------------------------------ res *)
Lemma rbind_ok {A B} (x : res A) (f : A -> res B) y : rbind x f = Ok y -> exists a, x = Ok a /\ f a = Ok y.
Proof. destruct x; simpl; intros H; try discriminate. eauto. Qed.

Lemma nodupb_NoDup l : nodupb l = true -> NoDup l.
Proof.
  induction l as [|x t IH]; simpl; intros H; [constructor|].
  apply andb_true_iff in H. destruct H as [H1 H2]. constructor; [|auto].
  apply negb_true_iff in H1. apply mem_false in H1. exact H1.
Qed.

Lemma pl_select_ok cs t t2 : pl_select cs t = Ok t2 ->
  t2 = sem_select_cols cs t /\ NoDup cs /\ (forall c, In c cs -> In c (cols t)).
Proof.
  unfold pl_select. destruct (forallb _ cs && nodupb cs) eqn:E; [|discriminate]. intros H. inversion H; subst.
  apply andb_true_iff in E. destruct E as [E1 E2]. split; [reflexivity|]. split; [apply nodupb_NoDup, E2|].
  intros c I. rewrite forallb_forall in E1. apply mem_In. apply E1. exact I.
Qed.

Fixpoint tr_list (one : string) (ext : bool) (l : list expr) : res (list plx) :=
  match l with [] => Ok [] | a :: t => rbind (tr_expr one ext a) (fun x => rbind (tr_list one ext t) (fun xs => Ok (x :: xs))) end.
Lemma tr_expr_op one ext op args : tr_expr one ext (EOp op args) = rbind (tr_list one ext args) (impl one ext op).
Proof. cbn [tr_expr]. f_equal. induction args as [|a t IH]; simpl; [reflexivity|]. rewrite IH. reflexivity. Qed.
Lemma expr_vocab_op op args : expr_vocab (EOp op args) = scalar_vocab op (List.length args) && forallb expr_vocab args.
Proof. reflexivity. Qed.
Lemma expr_nulls_ok_op sens cs r op args :
  expr_nulls_ok sens cs r (EOp op args) =
  forallb (expr_nulls_ok sens cs r) args && (if sens op then forallb (fun a => negb (is_null (eval_expr fl_pandas cs r a))) args else true).
Proof. reflexivity. Qed.
Lemma expr_cols_op op args : expr_cols (EOp op args) = flat_map expr_cols args.
Proof. reflexivity. Qed.
Lemma expr_nodes_op op args : expr_nodes (EOp op args) = (op, List.length args) :: flat_map expr_nodes args.
Proof. reflexivity. Qed.

(* ------------------------------------------------------------------ scalar facts *)

Lemma neg_as_sub v : num2 Qminus (qn (inject_Z 0)) v = match num_of v with Some x => qn (Qopp x) | None => VNull end.
Proof.
  unfold num2. cbn [num_of qn]. destruct (num_of v) as [x|]; [|reflexivity].
  apply qn_ext. rewrite Qred_correct. unfold inject_Z. ring.
Qed.

Lemma pl_cmp_nonnull c a b : is_null a = false -> is_null b = false -> pl_cmp c a b = compare_vals fl_pandas c a b.
Proof. destruct a, b; simpl; intros; try discriminate; reflexivity. Qed.
(* maximum / minimum after 73dee51: missing if any operand is missing, else the horizontal maximum / minimum *)
Lemma missing_if_any_eq f a b :
  pl_when (or3 (VBool (is_null a)) (VBool (is_null b))) VNull (ignore_null2 f a b) = num2 f a b.
Proof. destruct a as [|[]| | |], b as [|[]| | |]; reflexivity. Qed.
Lemma is_bad_as_or v : or3 (or3 (VBool (is_null v)) (pl_nan_like v)) (pl_nan_like v) = VBool (is_null v).
Proof. destruct v; reflexivity. Qed.

(* ------------------------------------------------------------------ the expression translation is sound *)
Definition nulls_ok3 (cs : list string) (r : list val) (e : expr) : Prop :=
  expr_nulls_ok is_cmp_op cs r e = true /\ expr_nulls_ok is_logic_op cs r e = true.

Definition expr_agrees (e : expr) : Prop :=
  exists x, (forall one ext, tr_expr one ext e = Ok x) /\
            forall cs rs i, nulls_ok3 cs (nth i rs []) e -> plx_at cs rs i x = eval_expr fl_pandas cs (nth i rs []) e.

Lemma nulls_ok3_args cs r op args : nulls_ok3 cs r (EOp op args) -> Forall (nulls_ok3 cs r) args.
Proof.
  unfold nulls_ok3. rewrite !expr_nulls_ok_op. intros [H1 H2].
  apply andb_true_iff in H1, H2. destruct H1 as [H1 _], H2 as [H2 _].
  rewrite forallb_forall in H1, H2. apply Forall_forall. intros a I. auto.
Qed.

Lemma nulls_ok3_sens cs r op args : nulls_ok3 cs r (EOp op args) ->
  (is_cmp_op op || is_logic_op op = true) -> Forall (fun a => is_null (eval_expr fl_pandas cs r a) = false) args.
Proof.
  unfold nulls_ok3. rewrite !expr_nulls_ok_op. intros [H1 H2] S.
  apply andb_true_iff in H1, H2. destruct H1 as [_ H1], H2 as [_ H2].
  apply Forall_forall. intros a I. apply negb_true_iff.
  destruct (is_cmp_op op); [rewrite forallb_forall in H1; auto|].
  destruct (is_logic_op op); [rewrite forallb_forall in H2; auto|]. discriminate.
Qed.

(* H : mem x [s1; ..; sn] = true.  One goal per element, with x replaced by it: the alternatives of In are taken apart,
   no string is compared. *)
Ltac mem_cases H := apply mem_In in H; cbn [In] in H; repeat (destruct H as [<-|H]); try (exfalso; exact H).

Lemma Forall_pair {A} (P : A -> Prop) a b : Forall P [a; b] -> P a /\ P b.
Proof. intros H. inversion H as [|? ? Ha H']. inversion H'. auto. Qed.

(* the method table: for a method of the vocabulary, the Polars expression that impl builds computes the reference operator
   on the values of the arguments; for comparisons and and / or, when no argument is null *)
Lemma impl_sound op xs : scalar_vocab op (List.length xs) = true ->
  exists x, (forall one ext, impl one ext op xs = Ok x) /\
    forall cs rs i, (is_cmp_op op || is_logic_op op = true -> Forall (fun v => is_null v = false) (map (plx_at cs rs i) xs)) ->
      plx_at cs rs i x = scalar_op fl_pandas op (map (plx_at cs rs i) xs).
Proof.
  destruct xs as [|x [|y [|z [|w rest]]]]; cbn [List.length scalar_vocab]; intros V; try discriminate; mem_cases V.
  all: eexists; (split; [intros one ext; reflexivity|]); intros cs rs i N.
  all: cbn [map plx_at lit_int missing_if_any_missing any_null fold_left] in *; try reflexivity.
  (* unary - and is_bad *)
  1: apply neg_as_sub.
  1: apply is_bad_as_or.
  (* == != < <= > >=, and, or *)
  1-8: destruct (Forall_pair _ _ _ (N eq_refl)) as [Nx Ny].
  1-6: apply pl_cmp_nonnull; assumption.
  1: apply and3_nonnull; assumption.
  1: apply or3_nonnull; assumption.
  (* maximum, minimum *)
  all: apply missing_if_any_eq.
Qed.

Lemma args_agree args : Forall expr_agrees args ->
  exists xs, List.length xs = List.length args /\ (forall one ext, tr_list one ext args = Ok xs) /\
    forall cs rs i, Forall (nulls_ok3 cs (nth i rs [])) args ->
      map (plx_at cs rs i) xs = map (eval_expr fl_pandas cs (nth i rs [])) args.
Proof.
  induction 1 as [|a t [x [T E]] _ [xs [L [Ts Es]]]].
  - exists []. repeat split; reflexivity.
  - exists (x :: xs). split; [cbn [List.length]; rewrite L; reflexivity|]. split.
    + intros one ext. cbn [tr_list]. rewrite T, Ts. reflexivity.
    + intros cs rs i G. apply Forall_cons_iff in G. cbn [map]. rewrite E, Es by tauto. reflexivity.
Qed.

Lemma tr_expr_sound e : expr_vocab e = true -> expr_agrees e.
Proof.
  induction e as [c|v|op args IH] using expr_ind2; intros V.
  - exists (PCol c). split; [reflexivity|]. intros; reflexivity.
  - exists (PLit v). split; [reflexivity|]. intros; reflexivity.
  - rewrite expr_vocab_op in V. apply andb_true_iff in V. destruct V as [V1 V2].
    destruct (args_agree args) as [xs [L [T E]]].
    { rewrite Forall_forall in IH. apply Forall_forall. intros a I. apply IH; [exact I|]. rewrite forallb_forall in V2. auto. }
    rewrite <- L in V1. destruct (impl_sound op xs V1) as [x [Tx Ex]].
    exists x. split; [intros one ext; rewrite tr_expr_op, T; apply Tx|].
    intros cs rs i G. pose proof (E cs rs i (nulls_ok3_args _ _ _ _ G)) as EA.
    rewrite eval_expr_EOp, <- EA. apply Ex.
    intros S. rewrite EA. apply Forall_map. exact (nulls_ok3_sens _ _ _ _ G S).
Qed.

(* ------------------------------------------------------------------ sums and aggregates do not depend on the order of the values *)

(* P : Permutation l l'.  The lists are both empty (first goal) or both non-empty, x :: t and x' :: t' (second goal). *)
Ltac perm_nil P l l' :=
  destruct l as [|x t], l' as [|x' t']; [|apply Permutation_nil in P; discriminate|apply Permutation_sym, Permutation_nil in P; discriminate|].

Lemma mean_perm l l' : Permutation l l' ->
  match l with [] => VNull | _ => qn (Qdiv (qsum l) (inject_Z (Z.of_nat (List.length l)))) end =
  match l' with [] => VNull | _ => qn (Qdiv (qsum l') (inject_Z (Z.of_nat (List.length l')))) end.
Proof.
  intros P. perm_nil P l l'; [reflexivity|].
  apply qn_ext. rewrite (qsum_perm _ _ P), (Permutation_length P). reflexivity.
Qed.

Lemma sum_branch l : match l with [] => qn 0 | _ => qn (qsum l) end = qn (qsum l).
Proof. destruct l; reflexivity. Qed.

