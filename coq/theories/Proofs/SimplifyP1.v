(* C06, part 1: the relation "same table up to the order of the columns and the order of the rows" (tab_sim) and the fact that
   every operator of Model/Sem.v respects it -- under C18's premise where the operator is sensitive to the row order
   (window_total / keys_exact / total_on, asked of ONE of the two tables).
   tab_sim t r: the same column set, and the rows of t are, up to a permutation, the rows of r read as functions from column
   names to values.  Built from C07's tab_eqv (column order; Proofs/ComposeP5.v) and C18's permutation lemmas (SemOrderP, PermP2-4). *)
From Coq Require Import List Bool String Permutation.
Import ListNotations.
From DA Require Import Base.PyRT Base.Val Model.Sem Model.PermGuard Proofs.SemBasicP Proofs.SemOrderP Proofs.PermP2 Proofs.PermP3 Proofs.PermP4 Proofs.ComposeP5 Proofs.ListP.
Local Open Scope list_scope.

Lemma Forall2_perm_l {A B} (R : A -> B -> Prop) (l1' l1 : list A) :
  Permutation l1' l1 -> forall l2, Forall2 R l1 l2 -> exists l2', Permutation l2' l2 /\ Forall2 R l1' l2'.
Proof.
  intros P l2 F. destruct (Permutation_Forall2 (Permutation_sym P) F) as [l2' [P' F']].
  exists l2'. split; [apply Permutation_sym, P'|exact F'].
Qed.

Lemma width_perm (t t' : table) : cols t' = cols t -> Permutation (rows t') (rows t) -> width_ok t -> width_ok t'.
Proof.
  unfold width_ok. intros C P W. rewrite C. rewrite Forall_forall in *. intros r I. apply W. eapply Permutation_in; eassumption.
Qed.

Lemma tab_eqv_trans t1 t2 t3 : tab_eqv t1 t2 -> tab_eqv t2 t3 -> tab_eqv t1 t3.
Proof. exact (ComposeP5.tab_eqv_trans t1 t2 t3). Qed.

(* ------------------------------------------------------------------ tab_sim *)
Definition tab_sim (t r : table) : Prop :=
  same_set (cols t) (cols r) /\ exists l, Permutation l (rows r) /\ Forall2 (row_eqv (cols t) (cols r)) (rows t) l.
Definition otab_sim (o1 o2 : option table) : Prop :=
  match o1, o2 with Some a, Some b => tab_sim a b | None, None => True | _, _ => False end.

Lemma tab_sim_intro t r r' : tab_eqv t r' -> cols r' = cols r -> Permutation (rows r') (rows r) -> tab_sim t r.
Proof. intros [S F] C P. rewrite C in *. split; [exact S|]. exists (rows r'). split; assumption. Qed.

Lemma tab_sim_elim t r : tab_sim t r -> exists r', tab_eqv t r' /\ cols r' = cols r /\ Permutation (rows r') (rows r).
Proof. intros [S [l [P F]]]. exists (mktable (cols r) l). split; [split; assumption|]. split; [reflexivity|exact P]. Qed.

Lemma tab_sim_of_eqv t r : tab_eqv t r -> tab_sim t r.
Proof. intros E. eapply tab_sim_intro; [exact E|reflexivity|apply Permutation_refl]. Qed.
Lemma tab_sim_of_perm t r : cols t = cols r -> Permutation (rows t) (rows r) -> tab_sim t r.
Proof. intros C P. apply (tab_sim_intro t r t); [apply tab_eqv_refl|exact C|exact P]. Qed.
Lemma tab_sim_refl t : tab_sim t t.
Proof. apply tab_sim_of_eqv, tab_eqv_refl. Qed.
Lemma otab_sim_refl o : otab_sim o o.
Proof. destruct o; simpl; [apply tab_sim_refl|exact I]. Qed.

Lemma tab_sim_trans t1 t2 t3 : tab_sim t1 t2 -> tab_sim t2 t3 -> tab_sim t1 t3.
Proof.
  intros [S1 [l2 [P2 F1]]] [S2 [l3 [P3 F2]]].
  destruct (Forall2_perm_l _ _ _ P2 _ F2) as [m [Pm Fm]].
  split; [eapply same_set_trans; eassumption|]. exists m. split; [eapply perm_trans; eassumption|].
  eapply Forall2_trans; [|exact F1|exact Fm]. intros a b c R1 R2 x. rewrite (R1 x). apply R2.
Qed.
Lemma otab_sim_trans o1 o2 o3 : otab_sim o1 o2 -> otab_sim o2 o3 -> otab_sim o1 o3.
Proof. destruct o1, o2, o3; simpl; try tauto. apply tab_sim_trans. Qed.

Lemma tab_sim_cols t r : tab_sim t r -> same_set (cols t) (cols r).
Proof. intros [S _]. exact S. Qed.
Lemma tab_sim_length t r : tab_sim t r -> List.length (rows t) = List.length (rows r).
Proof.
  intros [_ [l [P F]]]. rewrite <- (Permutation_length P). clear P. induction F as [|a b l1 l2 _ _ IH]; simpl; [reflexivity|]. rewrite IH. reflexivity.
Qed.

(* ------------------------------------------------------------------ every operator respects tab_sim *)
Lemma sim_select_cols cs t r : tab_sim t r -> tab_sim (sem_select_cols cs t) (sem_select_cols cs r).
Proof.
  intros H. destruct (tab_sim_elim _ _ H) as [r' [E [C P]]].
  apply (tab_sim_intro _ _ (sem_select_cols cs r')); [apply select_cols_eqv; [apply same_set_refl|exact E]|reflexivity|].
  apply select_cols_perm; assumption.
Qed.

Lemma sim_drop_cols ds t r : tab_sim t r -> tab_sim (sem_drop_cols ds t) (sem_drop_cols ds r).
Proof.
  intros H. destruct (tab_sim_elim _ _ H) as [r' [E [C P]]].
  apply (tab_sim_intro _ _ (sem_drop_cols ds r')); [apply drop_cols_eqv, E| |].
  - unfold sem_drop_cols. cbn [cols sem_select_cols]. rewrite C. reflexivity.
  - unfold sem_drop_cols. rewrite C. apply select_cols_perm; assumption.
Qed.

Lemma sim_select_rows fl x t r : tab_sim t r -> tab_sim (sem_select_rows fl x t) (sem_select_rows fl x r).
Proof.
  intros H. destruct (tab_sim_elim _ _ H) as [r' [E [C P]]].
  apply (tab_sim_intro _ _ (sem_select_rows fl x r')); [apply select_rows_eqv, E|exact C|].
  apply select_rows_perm; assumption.
Qed.

Lemma sim_rename m t r : inj_on (rename_col m) (cols r) -> tab_sim t r -> tab_sim (sem_rename m t) (sem_rename m r).
Proof.
  intros J H. destruct (tab_sim_elim _ _ H) as [r' [E [C P]]].
  apply (tab_sim_intro _ _ (sem_rename m r')); [apply rename_eqv; [rewrite C; exact J|exact E]| |].
  - cbn [cols sem_rename]. rewrite C. reflexivity.
  - exact P.
Qed.

Lemma sim_extend fl ops t r : width_ok t -> width_ok r -> tab_sim t r -> tab_sim (sem_extend fl ops t) (sem_extend fl ops r).
Proof.
  intros Wt Wr H. destruct (tab_sim_elim _ _ H) as [r' [E [C P]]].
  assert (width_ok r') as Wr' by (eapply width_perm; eassumption).
  destruct (extend_perm fl ops r' r C P) as [C2 P2].
  apply (tab_sim_intro _ _ (sem_extend fl ops r')); [apply extend_eqv; assumption|exact C2|exact P2].
Qed.

Lemma window_total_perm fl cs w rs rs' : Permutation rs rs' -> window_total fl cs w rs -> window_total fl cs w rs'.
Proof.
  intros P T r I. assert (In r rs) as I0 by (eapply Permutation_in; [apply Permutation_sym, P|exact I]).
  destruct (T r I0) as [N O]. pose proof (part_rows_perm cs (w_part w) rs rs' r P) as PP. split.
  - eapply Permutation_NoDup; eassumption.
  - intros r1 r2 I1 I2. apply O; eapply Permutation_in; try eassumption; apply Permutation_sym, PP.
Qed.

Lemma sim_wextend fl ops w t r : width_ok t -> width_ok r ->
  (ops_order_sensitive ops = true -> window_total fl (cols r) w (rows r)) ->
  tab_sim t r -> tab_sim (sem_wextend fl ops w t) (sem_wextend fl ops w r).
Proof.
  intros Wt Wr G H. destruct (tab_sim_elim _ _ H) as [r' [E [C P]]].
  assert (width_ok r') as Wr' by (eapply width_perm; eassumption).
  destruct (wextend_perm fl ops w r' r C P) as [C2 P2].
  { intros S. rewrite C. eapply window_total_perm; [apply Permutation_sym, P|apply G, S]. }
  apply (tab_sim_intro _ _ (sem_wextend fl ops w r')); [apply wextend_eqv; assumption|exact C2|exact P2].
Qed.

Lemma keys_exact_perm cs gb rs rs' : Permutation rs rs' -> keys_exact cs gb rs -> keys_exact cs gb rs'.
Proof. intros P X r1 r2 I1 I2. apply X; eapply Permutation_in; try eassumption; apply Permutation_sym, P. Qed.

Lemma sim_project fl ops gb t r : keys_exact (cols r) gb (rows r) -> tab_sim t r -> tab_sim (sem_project fl ops gb t) (sem_project fl ops gb r).
Proof.
  intros X H. destruct (tab_sim_elim _ _ H) as [r' [E [C P]]].
  rewrite (project_eqv fl ops gb t r' E).
  destruct (project_perm fl ops gb r' r C P) as [C2 P2].
  { rewrite C. eapply keys_exact_perm; [apply Permutation_sym, P|exact X]. }
  apply tab_sim_of_perm; assumption.
Qed.

Lemma total_on_perm fl cs keys rs rs' : Permutation rs rs' -> total_on fl cs keys rs -> total_on fl cs keys rs'.
Proof. intros P T r1 r2 I1 I2. apply T; eapply Permutation_in; try eassumption; apply Permutation_sym, P. Qed.

Lemma sim_order fl cs rev lim t r :
  (lim <> None -> total_on fl (cols r) (map (fun c => (c, mem c rev)) cs) (rows r)) ->
  tab_sim t r -> tab_sim (sem_order fl cs rev lim t) (sem_order fl cs rev lim r).
Proof.
  intros G H. destruct (tab_sim_elim _ _ H) as [r' [E [C P]]].
  apply (tab_sim_intro _ _ (sem_order fl cs rev lim r')); [apply order_eqv, E|exact C|].
  apply order_perm; [exact C|exact P|]. intros N. rewrite C. eapply total_on_perm; [apply Permutation_sym, P|apply G, N].
Qed.

(* with a total order the two ordered tables have the same rows IN THE SAME ORDER *)
Lemma sim_order_total fl cs rev lim t r :
  total_on fl (cols r) (map (fun c => (c, mem c rev)) cs) (rows r) ->
  tab_sim t r -> tab_eqv (sem_order fl cs rev lim t) (sem_order fl cs rev lim r).
Proof.
  intros G H. destruct (tab_sim_elim _ _ H) as [r' [E [C P]]].
  rewrite (order_rows_input_order_irrelevant fl cs rev lim r r'); [apply order_eqv, E|symmetry; exact C|apply Permutation_sym, P|exact G].
Qed.

Lemma sim_join nm on_a on_b jt t r b : tab_sim t r -> tab_sim (sem_join nm on_a on_b jt t b) (sem_join nm on_a on_b jt r b).
Proof.
  intros H. destruct (tab_sim_elim _ _ H) as [r' [E [C P]]].
  apply (tab_sim_intro _ _ (sem_join nm on_a on_b jt r' b)); [apply join_eqv; [exact E|apply tab_eqv_refl]| |].
  - unfold sem_join. cbn [cols]. rewrite C. reflexivity.
  - apply join_perm; [exact C|reflexivity|exact P|apply Permutation_refl].
Qed.

Lemma sim_concat idc an bn t r b : width_ok t -> width_ok r -> tab_sim t r -> tab_sim (sem_concat idc an bn t b) (sem_concat idc an bn r b).
Proof.
  intros Wt Wr H. destruct (tab_sim_elim _ _ H) as [r' [E [C P]]].
  assert (width_ok r') as Wr' by (eapply width_perm; eassumption).
  apply (tab_sim_intro _ _ (sem_concat idc an bn r' b)); [apply concat_eqv; [assumption|assumption|exact E|apply tab_eqv_refl]| |].
  - unfold sem_concat. rewrite C. destruct idc; reflexivity.
  - apply concat_perm; [exact C|reflexivity|exact P|apply Permutation_refl].
Qed.
