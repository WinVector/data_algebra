(* C10, part 2: the agreement relation between a table and its pruned / perturbed twin, and one lemma per operator:
   if the sources agree on the columns the node asks for, the results agree on the columns asked of the node. *)
From Coq Require Import List Bool String .
Import ListNotations.
From DA Require Import Base.PyRT Base.Val Model.Sem Proofs.SemBasicP Model.ColumnsUsed Proofs.ColumnsUsedP1 Proofs.TabP Proofs.ListP.
Local Open Scope list_scope.

(* rows r (of a table with columns cs) and r' (columns cs') carry the same value in every column of u *)
Definition rowrel (u cs cs' : list string) (r r' : list val) : Prop := forall c, In c u -> get cs r c = get cs' r' c.

(* T' (the pruned / narrowed / perturbed twin) against T on the columns u:
   T' has no column T lacks, has every column of u that T has, has as many rows, and row by row the same cells in u *)
Definition agree (u : list string) (T T' : table) : Prop :=
  incl (cols T') (cols T) /\ (forall c, In c u -> In c (cols T) -> In c (cols T')) /\
  Forall2 (rowrel u (cols T) (cols T')) (rows T) (rows T').

Lemma agree_mono u u' T T' : incl u u' -> agree u' T T' -> agree u T T'.
Proof.
  intros I [A [B C]]. split; [exact A|]. split.
  - intros c Hc. apply B. apply I. exact Hc.
  - eapply F2_weaken; [exact C|]. intros r r' H c Hc. apply H. apply I. exact Hc.
Qed.

(* a column the source lacks reads as null on both sides; a column it has is read from the agreed part *)
Lemma src_get us S S' r r' x :
  incl (cols S') (cols S) -> rowrel us (cols S) (cols S') r r' -> (In x (cols S) -> In x us) ->
  get (cols S) r x = get (cols S') r' x.
Proof.
  intros I R H. destruct (in_dec string_dec x (cols S)) as [i|n]; [apply R, H, i|].
  rewrite !get_absent; [reflexivity| |exact n]. intros i. apply n, I, i.
Qed.

(* agreement on every column: the same column set, and row by row the same cell under every name *)
Lemma agree_all_columns T T' : agree (cols T) T T' ->
  (forall c, In c (cols T) <-> In c (cols T')) /\
  Forall2 (fun r r' => forall c, get (cols T) r c = get (cols T') r' c) (rows T) (rows T').
Proof.
  intros [A [B C]]. split.
  - intros c. split; [intros I; apply B; assumption|apply A].
  - eapply F2_weaken; [exact C|]. intros r r' R c. apply (src_get (cols T) T T'); [exact A|exact R|tauto].
Qed.

Lemma F2_with_widths (R : list val -> list val -> Prop) (T T' : table) :
  width_ok T -> width_ok T' -> Forall2 R (rows T) (rows T') ->
  Forall2 (fun r r' => List.length r = List.length (cols T) /\ List.length r' = List.length (cols T') /\ R r r') (rows T) (rows T').
Proof.
  unfold width_ok. intros W W' H. induction H as [|x y l l' Rxy _ IH]; [constructor|].
  inversion W; inversion W'; subst. constructor; auto.
Qed.

Lemma key_of_local cs cs' ks r r' : (forall x, In x ks -> get cs r x = get cs' r' x) -> key_of cs ks r = key_of cs' ks r'.
Proof. intros H. unfold key_of. apply map_ext_in. exact H. Qed.

Lemma row_le_local fl cs cs' keys r1 r2 r1' r2' :
  (forall x, In x (map fst keys) -> get cs r1 x = get cs' r1' x) ->
  (forall x, In x (map fst keys) -> get cs r2 x = get cs' r2' x) ->
  row_le fl cs keys r1 r2 = row_le fl cs' keys r1' r2'.
Proof.
  induction keys as [|[c d] t IH]; intros H1 H2; simpl; [reflexivity|].
  rewrite (H1 c (or_introl eq_refl)), (H2 c (or_introl eq_refl)).
  rewrite IH; [reflexivity| |]; intros x I; [apply H1|apply H2]; right; exact I.
Qed.

(* ------------------------------------------------------------------ table description *)
Lemma agree_table u U cs (keep : string -> bool) t t' :
  incl u cs -> incl u U -> (forall c, In c u -> keep c = true) ->
  Forall2 (rowrel U (cols t) (cols t')) (rows t) (rows t') ->
  agree u (sem_select_cols cs t) (sem_select_cols (filter keep cs) t').
Proof.
  intros Iu IU K H. unfold agree, sem_select_cols. cbn [cols rows]. split; [|split].
  - intros c Hc. apply filter_In in Hc. tauto.
  - intros c Hc Hcs. apply filter_In. split; [exact Hcs|apply K, Hc].
  - eapply F2_map; [exact H|]. intros r r' R c Hc. rewrite !get_map_cols.
    assert (mem c cs = true) as M1 by (apply mem_In, Iu, Hc).
    assert (mem c (filter keep cs) = true) as M2 by (apply mem_In, filter_In; split; [apply Iu, Hc|apply K, Hc]).
    rewrite M1, M2. apply R, IU, Hc.
Qed.

(* ------------------------------------------------------------------ extend *)

Lemma last_for_not_key {X} c (l : list (string * X)) : ~ In c (map fst l) -> last_for c l = None.
Proof.
  intros N. destruct (last_for c l) as [ke|] eqn:E; [|reflexivity]. exfalso. apply N.
  destruct (last_for_In _ _ _ E) as [I <-]. apply in_map. exact I.
Qed.

(* what an extend needs for the columns u: for an assigned column the columns of its (last) expression, for any other
   column the column itself -- in both cases only where the source has the column at all *)
Definition extend_needs (ops : list (string * expr)) (u us cs : list string) : Prop :=
  forall c, In c u ->
    match last_for c ops with
    | Some ke => forall x, In x (cols_used (snd ke)) -> In x cs -> In x us
    | None => In c cs -> In c us
    end.

Lemma agree_ext_cols (ops : list (string * expr)) u us S S' :
  agree us S S' -> extend_needs ops u us (cols S) ->
  incl (ext_cols (cols S') (map fst ops)) (ext_cols (cols S) (map fst ops)) /\
  (forall c, In c u -> In c (ext_cols (cols S) (map fst ops)) -> In c (ext_cols (cols S') (map fst ops))).
Proof.
  intros [A [B _]] N. split.
  - intros c Hc. apply In_ext_cols in Hc. apply In_ext_cols. destruct Hc; [left; apply A|right]; assumption.
  - intros c Hu Hc. apply In_ext_cols in Hc. apply In_ext_cols.
    destruct (in_dec string_dec c (map fst ops)) as [i|n]; [right; exact i|]. left.
    destruct Hc as [Hc|Hc]; [|contradiction]. specialize (N c Hu). rewrite (last_for_not_key c ops n) in N.
    apply B; [apply N, Hc|exact Hc].
Qed.

Lemma agree_extend fl ops u us S S' :
  width_ok S -> width_ok S' -> agree us S S' -> extend_needs ops u us (cols S) ->
  agree u (sem_extend fl ops S) (sem_extend fl ops S').
Proof.
  intros W W' Ag N. destruct (agree_ext_cols ops u us S S' Ag N) as [I P]. destruct Ag as [A [B C]].
  unfold agree, sem_extend. cbn [cols rows]. split; [exact I|]. split; [exact P|].
  eapply F2_map; [apply (F2_with_widths _ S S' W W' C)|]. cbv beta. intros r r' [L [L' R]] c Hc.
  unfold extend_row. rewrite !fold_cells_get_full by assumption. specialize (N c Hc).
  destruct (last_for c ops) as [ke|].
  - apply eval_expr_local. intros x Hx. apply (src_get us S S'); [exact A|exact R|apply N, Hx].
  - apply (src_get us S S'); [exact A|exact R|exact N].
Qed.

(* ------------------------------------------------------------------ windowed extend *)
Lemma win_parts_arg_cols e o a extra : win_parts e = Some (o, Some a, extra) -> incl (cols_used a) (cols_used e).
Proof.
  destruct e as [c|v|o' [|a' rest]]; simpl; try discriminate. intros [= _ <- _]. intros x I. apply in_app_iff. left. exact I.
Qed.

Lemma window_column_local fl w e cs cs' rs rs' :
  Forall2 (fun r r' => forall x, In x (w_part w ++ w_order w ++ cols_used e) -> get cs r x = get cs' r' x) rs rs' ->
  window_column fl w (mktable cs rs) e = window_column fl w (mktable cs' rs') e.
Proof.
  intros H. unfold window_column. cbn [cols rows].
  assert (map (fun r => key_of cs (w_part w) r) rs = map (fun r => key_of cs' (w_part w) r) rs') as EK.
  { eapply F2_map_eq; [exact H|]. cbv beta. intros r r' R. apply key_of_local. intros x I. apply R. apply in_app_iff. left. exact I. }
  rewrite EK. apply flat_map_ext. intros k.
  set (Rt := fun (a b : nat * list val) => fst a = fst b /\
                (forall x, In x (w_part w ++ w_order w ++ cols_used e) -> get cs (snd a) x = get cs' (snd b) x)).
  assert (Forall2 Rt (tag_from 0 rs) (tag_from 0 rs')) as HT.
  { exact (@F2_tag_from (fun r r' => forall x, In x (w_part w ++ w_order w ++ cols_used e) -> get cs r x = get cs' r' x) 0 rs rs' H). }
  assert (Forall2 Rt (filter (fun ir => keys_eqv k (key_of cs (w_part w) (snd ir))) (tag_from 0 rs))
                     (filter (fun ir => keys_eqv k (key_of cs' (w_part w) (snd ir))) (tag_from 0 rs'))) as HF.
  { eapply F2_filter; [exact HT|]. intros a b [_ R]. cbv beta. f_equal. apply key_of_local. intros x I. apply R. apply in_app_iff. left. exact I. }
  match goal with |- context [stable_sort ?le ?l] => set (le1 := le); set (l1 := l) in * end.
  match goal with |- context [stable_sort ?le (filter ?f (tag_from 0 rs'))] => set (le2 := le); set (l2 := filter f (tag_from 0 rs')) in * end.
  assert (Forall2 Rt (stable_sort le1 l1) (stable_sort le2 l2)) as HS.
  { apply F2_stable_sort; [|exact HF]. intros a b c d [_ R1] [_ R2]. unfold le1, le2. apply row_le_local.
    - intros x I. apply R1. rewrite map_map in I. simpl in I. rewrite map_id in I. apply in_app_iff. right. apply in_app_iff. left. exact I.
    - intros x I. apply R2. rewrite map_map in I. simpl in I. rewrite map_id in I. apply in_app_iff. right. apply in_app_iff. left. exact I. }
  assert (map fst (stable_sort le1 l1) = map fst (stable_sort le2 l2)) as EF.
  { eapply F2_map_eq; [exact HS|]. intros a b [E _]. exact E. }
  destruct (win_parts e) as [[[o arg] extra]|] eqn:WP.
  - rewrite EF. f_equal. f_equal. eapply F2_map_eq; [exact HS|]. intros a b [_ R]. cbv beta.
    destruct arg as [a0|]; [|reflexivity]. apply eval_expr_local. intros x I. apply R.
    apply in_app_iff. right. apply in_app_iff. right. eapply win_parts_arg_cols; eassumption.
  - eapply F2_map_eq; [exact HS|]. intros a b [E _]. cbv beta. rewrite E. reflexivity.
Qed.

(* a windowed extend additionally reads its partition and order columns *)
Definition wextend_needs (ops : list (string * expr)) (w : window) (u us cs : list string) : Prop :=
  forall c, In c u ->
    match last_for c ops with
    | Some ke => forall x, In x (w_part w ++ w_order w ++ cols_used (snd ke)) -> In x cs -> In x us
    | None => In c cs -> In c us
    end.

Lemma wextend_get fl ops w T i r c :
  List.length r = List.length (cols T) ->
  get (ext_cols (cols T) (map fst ops))
      (fst (fold_left (fun (acc : list val * list string) (kc : string * list (nat * val)) =>
                         let '(row, ccs) := acc in (set_cell ccs row (fst kc) (lookup_pos (snd kc) i), add_end ccs (fst kc)))
                      (map (fun ke => (fst ke, window_column fl w T (snd ke))) ops) (r, cols T))) c
  = match last_for c ops with Some ke => lookup_pos (window_column fl w T (snd ke)) i | None => get (cols T) r c end.
Proof.
  intros L.
  pose proof (fold_cells_get_full (fun kc : string * list (nat * val) => lookup_pos (snd kc) i)
                (map (fun ke => (fst ke, window_column fl w T (snd ke))) ops) r (cols T) c L) as G.
  rewrite (map_fst_tagged (fun ke => window_column fl w T (snd ke))) in G.
  rewrite (last_for_map c (fun ke => window_column fl w T (snd ke))) in G.
  rewrite G. destruct (last_for c ops); reflexivity.
Qed.

Lemma agree_wextend fl ops w u us S S' :
  width_ok S -> width_ok S' -> agree us S S' -> wextend_needs ops w u us (cols S) ->
  agree u (sem_wextend fl ops w S) (sem_wextend fl ops w S').
Proof.
  intros W W' Ag N.
  assert (extend_needs ops u us (cols S)) as N0.
  { intros c Hc. specialize (N c Hc). destruct (last_for c ops); [|exact N]. intros x Hx. apply N. apply in_app_iff. right. apply in_app_iff. right. exact Hx. }
  destruct (agree_ext_cols ops u us S S' Ag N0) as [I P]. destruct Ag as [A [B C]].
  unfold agree, sem_wextend. cbn [cols rows]. split; [exact I|]. split; [exact P|].
  pose proof (F2_with_widths _ S S' W W' C) as CW.
  eapply F2_map; [apply (@F2_tag_from _ 0 _ _ CW)|]. cbv beta. intros [i r] [i' r'] [Ei [L [L' R]]] c Hc. simpl in Ei. subst i'. simpl in L, L', R.
  cbn [fst snd]. rewrite (wextend_get fl ops w S i r c L), (wextend_get fl ops w S' i r' c L').
  specialize (N c Hc). destruct (last_for c ops) as [ke|].
  - f_equal. destruct S as [cs rs], S' as [cs' rs']. cbn [cols rows] in *. apply window_column_local.
    eapply F2_weaken; [exact C|]. cbv beta. intros q q' Rq x Hx.
    apply (src_get us (mktable cs rs) (mktable cs' rs')); [exact A|exact Rq|apply N, Hx].
  - apply (src_get us S S'); [exact A|exact R|exact N].
Qed.

(* ------------------------------------------------------------------ project *)
Lemma get_keyed_row (gb : list string) {X} (ops : list (string * X)) (g g' : string * X -> val) (k : list val) c :
  List.length k = List.length gb ->
  (forall ke, In ke ops -> fst ke = c -> g ke = g' ke) ->
  get (gb ++ map fst ops) (k ++ map g ops) c = get (gb ++ map fst ops) (k ++ map g' ops) c.
Proof.
  intros L E. destruct (in_dec string_dec c gb) as [i|n].
  - rewrite !get_app_l by assumption. reflexivity.
  - rewrite !get_app_r by assumption. clear L n k.
    unfold get. induction ops as [|a t IH]; simpl; [reflexivity|].
    destruct (eq_dec c (fst a)) as [e|ne]; simpl.
    + apply E; [left; reflexivity|symmetry; exact e].
    + assert (forall ke, In ke t -> fst ke = c -> g ke = g' ke) as E' by (intros ke I; apply E; right; exact I).
      specialize (IH E'). destruct (index_of c (map fst t)); simpl; exact IH.
Qed.

Lemma agg_parts_arg_cols e o a : agg_parts e = Some (o, Some a) -> incl (cols_used a) (cols_used e).
Proof.
  destruct e as [c|v|o' [|a' [|b rest]]]; simpl; try discriminate. intros [= _ <-]. intros x I. apply in_app_iff. left. exact I.
Qed.

Lemma agg_value_local fl cs cs' grp grp' e :
  Forall2 (fun r r' => forall x, In x (cols_used e) -> get cs r x = get cs' r' x) grp grp' ->
  agg_value fl cs grp e = agg_value fl cs' grp' e.
Proof.
  intros H. unfold agg_value. destruct (agg_parts e) as [[o arg]|] eqn:AP; [|reflexivity]. f_equal.
  eapply F2_map_eq; [exact H|]. cbv beta. intros r r' R. destruct arg as [a|]; [|reflexivity].
  apply eval_expr_local. intros x I. apply R. eapply agg_parts_arg_cols; eassumption.
Qed.

Lemma agree_project fl ops gb u us S S' :
  agree us S S' ->
  (forall x, In x gb -> In x (cols S) -> In x us) ->
  (forall ke x, In ke ops -> In (fst ke) u -> In x (cols_used (snd ke)) -> In x (cols S) -> In x us) ->
  agree u (sem_project fl ops gb S) (sem_project fl ops gb S').
Proof.
  intros [A [B C]] Hg Ho. unfold agree, sem_project. cbn [cols rows].
  split; [apply incl_refl|]. split; [tauto|].
  assert (forall r r', rowrel us (cols S) (cols S') r r' -> key_of (cols S) gb r = key_of (cols S') gb r') as KE.
  { intros r r' R. apply key_of_local. intros x I. apply (src_get us S S'); [exact A|exact R|apply Hg, I]. }
  assert (map (key_of (cols S) gb) (rows S) = map (key_of (cols S') gb) (rows S')) as EK by (eapply F2_map_eq; [exact C|exact KE]).
  rewrite EK. set (groups := match gb with [] => [[]] | _ => distinct_keys (map (key_of (cols S') gb) (rows S')) end).
  assert (forall k, In k groups -> List.length k = List.length gb) as LK.
  { intros k I. unfold groups in I. destruct gb as [|g0 gb']; [destruct I as [<-|[]]; reflexivity|].
    apply distinct_keys_sound in I. apply in_map_iff in I. destruct I as [r0 [<- _]]. apply map_length. }
  apply Forall2_map_same. intros k Ik c Hc.
  apply get_keyed_row; [apply LK, Ik|]. intros ke Ike Ek. apply agg_value_local.
  assert (Forall2 (rowrel us (cols S) (cols S'))
            (filter (fun r => keys_eqv k (key_of (cols S) gb r)) (rows S))
            (filter (fun r => keys_eqv k (key_of (cols S') gb r)) (rows S'))) as HF.
  { eapply F2_filter; [exact C|]. intros r r' R. cbv beta. rewrite (KE r r' R). reflexivity. }
  eapply F2_weaken; [exact HF|]. intros r r' R x Hx. apply (src_get us S S'); [exact A|exact R|].
  apply (Ho ke x Ike); [rewrite Ek; exact Hc|exact Hx].
Qed.
