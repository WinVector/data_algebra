(* C15, part B: the windowed extend step.  pexec_wextend with scratch names outside the user's names = plain_wextend. *)
From Coq Require Import List Bool Arith String Lia FinFun.
Import ListNotations.
From DA Require Import Base.PyRT Model.ScratchNames Proofs.ScratchP1 Proofs.ListP.
Local Open Scope list_scope.

Definition wext_user (ops : list sop) (part order rev : list string) : list string :=
  part ++ order ++ rev ++ flat_map (fun o => so_key o :: arg_cols (so_arg o)) ops.

Record good_wextend (sn : pnames) (u : list string) : Prop := mkgw {
  gw_oi : ~ In (n_orig_index sn) u;
  gw_tg : ~ In (n_temp_g sn) u;
  gw_tmp : forall i, ~ In (n_ext_tmp sn i) u;
  gw_oi_tg : n_orig_index sn <> n_temp_g sn;
  gw_tmp_oi : forall i, n_ext_tmp sn i <> n_orig_index sn;
  gw_tmp_tg : forall i, n_ext_tmp sn i <> n_temp_g sn;
  gw_inj : forall i j, n_ext_tmp sn i = n_ext_tmp sn j -> i = j }.

Lemma fmapc_id {A} (f : frame A) : fmapc (fun a => a) f = f.
Proof. unfold fmapc. induction f as [|[k a] t IH]; simpl; [reflexivity|]. rewrite IH. reflexivity. Qed.

Section Frames2.
  Context {A : Type}.
  Implicit Types f g : frame A.

  Lemma fselect_erase S g cs :
    (forall c, In c cs -> In c S -> fget g c <> None) -> fselect g (filter (fun c => negb (mem c S)) cs) = option_map (erase S) (fselect g cs).
  Proof.
    induction cs as [|c t IH]; simpl; intros H; [reflexivity|]. specialize (IH (fun c0 I => H c0 (or_intror I))).
    destruct (mem c S) eqn:M; simpl; rewrite IH.
    - destruct (fget g c) as [a|] eqn:Ec; [|exfalso; apply (H c (or_introl eq_refl)); [apply mem_In, M|exact Ec]].
      destruct (fselect g t) as [r|]; simpl; [|reflexivity]. unfold erase at 2. simpl. rewrite M. reflexivity.
    - destruct (fget g c) as [a|]; [|reflexivity]. destruct (fselect g t) as [r|]; simpl; [|reflexivity].
      unfold erase at 2. simpl. rewrite M. reflexivity.
  Qed.

  Lemma fdel_cons_same c a (t : frame A) : ~ In c (fcols t) -> fdel ((c, a) :: t) c = t.
  Proof. intros N. unfold fdel, dict_pop. simpl. rewrite eqb_refl. simpl. apply (fdel_absent t c N). Qed.

  Lemma fold_fdel_appended f (T : frame A) :
    NoDup (fcols T) -> (forall n, In n (fcols T) -> ~ In n (fcols f)) -> fold_left fdel (fcols T) (f ++ T) = f.
  Proof.
    revert f. induction T as [|[n a] t IH]; intros f N D; simpl; [apply app_nil_r|].
    inversion N as [|x l Hx N']; subst.
    rewrite fdel_app, fdel_absent by (apply D; left; reflexivity). rewrite fdel_cons_same by exact Hx.
    apply IH; [exact N'|]. intros m Hm. apply D. right. exact Hm.
  Qed.

  Lemma fget_app_absent f (T : frame A) c : ~ In c (fcols T) -> fget (f ++ T) c = fget f c.
  Proof. intros N. rewrite fget_app. destruct (fget f c); [reflexivity|]. apply fget_None, N. Qed.

  Lemma fget_app_r f (T : frame A) c : ~ In c (fcols f) -> fget (f ++ T) c = fget T c.
  Proof. intros N. rewrite fget_app. apply fget_None in N. rewrite N. reflexivity. Qed.
End Frames2.

Section WExtend.
  Context {A : Type} (P : prims A) (sn : pnames).
  Let one : A := p_const P "1".
  Let ext := n_ext_tmp sn.

  Definition tcols (temps : list (string * string)) : frame A := map (fun vn => (snd vn, p_const P (fst vn))) temps.

  Lemma fcols_tcols temps : fcols (tcols temps) = map snd temps.
  Proof. unfold fcols, tcols. rewrite map_map. reflexivity. Qed.

  Section Scan.
    Context (f : frame A) (rev u : list string).
    Context (Htmp : forall i, ~ In (ext i) u) (Hrev : forall c, In c rev -> In c u) (Hf : forall c, In c (fcols f) -> In c u).
    Context (Hinj : forall i j, ext i = ext j -> i = j).

    (* the executor's scan against the plain one: the temp columns are appended to the input under the names
       ext 0, ext 1, ...; col_list holds user columns and temp names, the user columns among them being col_set; a
       sort key of the plain scan is the content the executor will find under the corresponding name *)
    Record sinv (cl : list string) (temps : list (string * string)) (res : frame A) (cs : list string) (keys : list (option A * bool)) (seen : list string) : Prop := mksinv {
      si_seen : map fst temps = seen;
      si_names : map snd temps = map ext (seq 0 (List.length temps));
      si_res : res = f ++ tcols temps;
      si_keys : map (fun n => (fget res n, negb (mem n rev))) cl = keys;
      si_filter : filter (fun n => mem n u) cl = cs;
      si_cl : forall n, In n cl -> In n u \/ In n (map snd temps);
      si_tin : forall n, In n (map snd temps) -> In n cl }.

    Lemma temp_name (temps : list (string * string)) n : map snd temps = map ext (seq 0 (List.length temps)) -> In n (map snd temps) -> exists j, j < List.length temps /\ n = ext j.
    Proof. intros E H. rewrite E in H. apply in_map_iff in H. destruct H as [j [<- Hj]]. apply in_seq in Hj. exists j. split; [lia|reflexivity]. Qed.

    Lemma scan_rel ops : (forall o c, In o ops -> so_arg o = ArgCol c -> In c u) ->
      forall cl cs temps res keys seen, sinv cl temps res cs keys seen ->
      let '(cl', temps', res') := ext_scan P sn ops cl cs temps res in
      let '(cs', keys', seen') := plain_scan P rev f ops cs keys seen in
      sinv cl' temps' res' cs' keys' seen'.
    Proof.
      induction ops as [|o t IH]; intros Hu cl cs temps res keys seen I; simpl; [exact I|].
      assert (Hu' : forall o0 c, In o0 t -> so_arg o0 = ArgCol c -> In c u) by (intros o0 c Ho; apply Hu; right; exact Ho).
      destruct I as [Iseen Inames Ires Ikeys Ifil Icl Itin].
      destruct (so_arg o) as [|c|v] eqn:Ea.
      - apply (IH Hu'). constructor; assumption.
      - destruct (mem c cs) eqn:Mc; [apply (IH Hu'); constructor; assumption|].
        assert (Hc : In c u) by (apply (Hu o c); [left; reflexivity|exact Ea]).
        apply (IH Hu'). constructor; try assumption.
        + rewrite map_app, Ikeys. simpl. rewrite Ires, fget_app_absent; [reflexivity|].
          rewrite fcols_tcols. intros H. destruct (temp_name temps c Inames H) as [j [_ ->]]. exact (Htmp j Hc).
        + rewrite filter_app, Ifil. simpl. rewrite (proj2 (mem_In c u) Hc). reflexivity.
        + intros n Hn. apply in_app_or in Hn. destruct Hn as [H|[<-|[]]]; [apply Icl, H|left; exact Hc].
        + intros n Hn. apply in_or_app. left. apply Itin, Hn.
      - unfold dict_has. rewrite Iseen. destruct (mem v seen) eqn:Mv; [apply (IH Hu'); constructor; assumption|].
        fold ext. set (name := ext (List.length temps)).
        assert (Fr : ~ In name (map snd temps)) by (intros H; destruct (temp_name temps name Inames H) as [j [Lj E]]; apply Hinj in E; lia).
        apply (IH Hu'). constructor.
        + rewrite map_app, Iseen. reflexivity.
        + rewrite map_app, app_length, Inames. simpl. rewrite Nat.add_1_r, seq_S, map_app. reflexivity.
        + rewrite Ires. unfold tcols. rewrite map_app, app_assoc. apply fset_absent.
          rewrite fcols_app, fcols_tcols, in_app_iff. intros [H|H]; [exact (Htmp _ (Hf _ H))|exact (Fr H)].
        + rewrite map_app, <- Ikeys. simpl. rewrite fget_fset_same, (proj2 (mem_false name rev)) by (intros H; exact (Htmp _ (Hrev _ H))).
          f_equal. apply map_ext_in. intros n Hn. rewrite fget_fset_other; [reflexivity|].
          intros ->. destruct (Icl name Hn) as [H|H]; [exact (Htmp _ H)|exact (Fr H)].
        + rewrite filter_app, Ifil. simpl. rewrite (proj2 (mem_false name u) (Htmp _)). apply app_nil_r.
        + intros n Hn. rewrite map_app, in_app_iff. apply in_app_or in Hn.
          destruct Hn as [H|[<-|[]]]; [destruct (Icl n H); tauto|right; right; left; reflexivity].
        + intros n Hn. rewrite map_app in Hn. apply in_or_app. apply in_app_or in Hn.
          destruct Hn as [H|[<-|[]]]; [left; apply Itin, H|right; left; reflexivity].
    Qed.
    (* what the steps after the scan use of its result; oi and tg are two more scratch names *)
    Section Post.
      Context {cl : list string} {temps : list (string * string)} {res : frame A} {cs : list string} {keys : list (option A * bool)} {seen : list string}.
      Context (I : sinv cl temps res cs keys seen).
      Context {oi tg : string} (Goi : ~ In oi u) (Gtg : ~ In tg u) (Gtoi : forall i, ext i <> oi) (Gttg : forall i, ext i <> tg).

      Lemma scan_temp_name n : In n (map snd temps) -> exists j, n = ext j.
      Proof. intros H. destruct (temp_name temps n (si_names _ _ _ _ _ _ I) H) as [j [_ E]]. exists j. exact E. Qed.

      Lemma scan_scratch c : In c u -> ~ In c (oi :: tg :: map snd temps).
      Proof. intros Hc [E|[E|H]]; [subst c; contradiction|subst c; contradiction|]. destruct (scan_temp_name c H) as [j ->]. exact (Htmp j Hc). Qed.

      Lemma scan_cl_names n : In n cl -> n <> oi /\ n <> tg.
      Proof.
        intros Hn. destruct (si_cl _ _ _ _ _ _ I n Hn) as [Hu|Ht]; [split; intros ->; contradiction|].
        destruct (scan_temp_name n Ht) as [j ->]. split; [apply Gtoi|apply Gttg].
      Qed.

      Lemma scan_NoDup : NoDup (fcols (tcols temps)).
      Proof. rewrite fcols_tcols, (si_names _ _ _ _ _ _ I). apply Injective_map_NoDup; [intros i j E; apply Hinj, E|apply seq_NoDup]. Qed.

      Lemma scan_user_get c : In c u -> fget res c = fget f c.
      Proof.
        intros Hc. rewrite (si_res _ _ _ _ _ _ I). apply fget_app_absent. rewrite fcols_tcols. intros H.
        destruct (scan_temp_name c H) as [j ->]. exact (Htmp j Hc).
      Qed.

      Lemma scan_temp_get v nm : In (v, nm) temps -> fget res nm = Some (p_const P v).
      Proof.
        intros H. rewrite (si_res _ _ _ _ _ _ I), fget_app_r.
        - apply dict_get_NoDup_In; [exact scan_NoDup|]. unfold tcols. apply in_map_iff. exists (v, nm). split; [reflexivity|exact H].
        - intros Hc. destruct (scan_temp_name nm (in_map snd _ _ H)) as [j ->]. exact (Htmp j (Hf _ Hc)).
      Qed.

      Lemma scan_restore : fold_left fdel (map snd temps) res = f.
      Proof.
        rewrite (si_res _ _ _ _ _ _ I), <- fcols_tcols. apply fold_fdel_appended; [exact scan_NoDup|]. intros n Hn Hc. rewrite fcols_tcols in Hn.
        destruct (scan_temp_name n Hn) as [j ->]. exact (Htmp j (Hf _ Hc)).
      Qed.

      (* the plain step selects the user columns of col_list: the executor's selection with the scratch columns erased *)
      Lemma scan_select : fselect f cs = option_map (erase (oi :: tg :: map snd temps)) (fselect res cl).
      Proof.
        rewrite <- fselect_erase.
        - rewrite <- (si_filter _ _ _ _ _ _ I). replace (filter (fun n => mem n u) cl) with (filter (fun c => negb (mem c (oi :: tg :: map snd temps))) cl).
          + apply fselect_ext. intros c Hc. apply filter_In in Hc. destruct Hc as [Hc Nc]. apply negb_true_iff, mem_false in Nc. symmetry. apply scan_user_get.
            destruct (si_cl _ _ _ _ _ _ I c Hc) as [H|H]; [exact H|]. exfalso. apply Nc. right. right. exact H.
          + apply filter_ext_in. intros n Hn. destruct (si_cl _ _ _ _ _ _ I n Hn) as [Hu|Ht].
            * rewrite (proj2 (mem_In n u) Hu), (proj2 (mem_false n _) (scan_scratch n Hu)). reflexivity.
            * assert (M1 : mem n u = false) by (apply mem_false; destruct (scan_temp_name n Ht) as [j ->]; apply Htmp).
              rewrite M1, (proj2 (mem_In n _)) by (right; right; exact Ht). reflexivity.
        - intros c Hc HcS. destruct (si_cl _ _ _ _ _ _ I c Hc) as [Hu|Ht]; [exfalso; exact (scan_scratch c Hu HcS)|].
          apply in_map_iff in Ht. destruct Ht as [[v nm] [<- Hv]]. simpl. rewrite (scan_temp_get v nm Hv). discriminate.
      Qed.
    End Post.
  End Scan.

  Section Ops.
    Context (S : list string) (temps : list (string * string)) (tmps : list (string * A)) (gkeys : list A) (u : list string).
    Context (HS : forall c, In c u -> ~ In c S) (Hoi : In (n_orig_index sn) S) (Htg : In (n_temp_g sn) S).
    Context (Hnone : forall tx, dict_get temps tx = None -> dict_get tmps tx = None).

    Definition oinv (psub sub : frame A) (oi : A) : Prop :=
      erase S psub = sub /\ fget psub (n_orig_index sn) = Some oi /\ fget psub (n_temp_g sn) <> None
      /\ (forall v nm, dict_get temps v = Some nm -> In nm S /\ fget psub nm = dict_get tmps v).

    Lemma ext_ops_rel ops :
      (forall o, In o ops -> In (so_key o) u /\ forall c, so_arg o = ArgCol c -> In c u) ->
      forall psub sub oi, oinv psub sub oi ->
      match ext_ops P sn temps gkeys ops psub, plain_ext_ops P tmps gkeys ops sub with
      | Some p4, Some s4 => oinv p4 s4 oi
      | None, None => True
      | _, _ => False
      end.
    Proof.
      induction ops as [|o t IH]; intros Hu psub sub oi I; simpl; [exact I|].
      destruct I as (Ie & Io & Ig & It).
      destruct (Hu o (or_introl eq_refl)) as [Hk Hc]. assert (Nk : ~ In (so_key o) S) by (apply HS, Hk).
      (* writing a user column keeps the relation *)
      assert (Step : forall col, match ext_ops P sn temps gkeys t (fset psub (so_key o) col), plain_ext_ops P tmps gkeys t (fset sub (so_key o) col) with
                                 | Some p4, Some s4 => oinv p4 s4 oi
                                 | None, None => True
                                 | _, _ => False
                                 end).
      { intros col. apply IH; [intros o0 Ho; apply Hu; right; exact Ho|]. repeat split.
        - rewrite erase_fset_user by exact Nk. rewrite Ie. reflexivity.
        - rewrite fget_fset_other; [exact Io|]. intros E. apply Nk. rewrite <- E. exact Hoi.
        - rewrite fget_fset_other; [exact Ig|]. intros E. apply Nk. rewrite <- E. exact Htg.
        - apply (It v nm H).
        - destruct (It v nm H) as [Hin Fg]. rewrite fget_fset_other; [exact Fg|]. intros E. apply Nk. rewrite <- E. exact Hin. }
      destruct (so_arg o) as [|c|tx] eqn:Ea.
      - destruct (String.eqb (so_fn o) "_row_number" || String.eqb (so_fn o) "_count")%bool; [apply Step|].
        destruct (String.eqb (so_fn o) "_ngroup"); [apply Step|]. destruct (String.eqb (so_fn o) "_size"); [|exact I].
        destruct (fget psub (n_temp_g sn)); [apply Step|congruence].
      - assert (Ec : fget sub c = fget psub c) by (rewrite <- Ie; apply fget_erase, HS, Hc; reflexivity).
        rewrite Ec. destruct (fget psub c); [apply Step|exact I].
      - destruct (dict_get temps tx) as [nm|] eqn:G; simpl.
        + rewrite (proj2 (It tx nm G)). destruct (dict_get tmps tx); [apply Step|exact I].
        + rewrite (Hnone tx G). exact I.
    Qed.
  End Ops.

  Lemma add_new_In l cs c : In c (add_new l cs) -> In c l \/ In c cs.
  Proof.
    revert l. induction cs as [|x t IH]; intros l H; simpl in *; [tauto|].
    apply IH in H. destruct H as [H|H]; [|tauto]. destruct (mem x l); [tauto|]. apply in_app_or in H. destruct H as [H|[<-|[]]]; tauto.
  Qed.
  Lemma base_cols_In part order c : In c (base_cols part order) -> In c part \/ In c order.
  Proof. unfold base_cols. intros H. apply add_new_In in H. destruct H as [H|H]; [left; apply In_py_set, H|right; exact H]. Qed.

  Lemma dict_get_tabulate (g : string -> A) l v : dict_get (map (fun x => (x, g x)) l) v = if mem v l then Some (g v) else None.
  Proof. induction l as [|x t IH]; simpl; [reflexivity|]. destruct (eq_dec v x) as [->|n]; [reflexivity|exact IH]. Qed.

  Theorem wextend_no_capture ops part order rev f u :
    (forall c, In c (fcols f ++ wext_user ops part order rev) -> In c u) -> good_wextend sn u ->
    pexec_wextend P sn ops part order rev f = plain_wextend P ops part order rev f.
  Proof.
    intros Sub [Goi Gtg Gtmp Goitg Gtmpoi Gtmptg Ginj].
    assert (Uf : forall c, In c (fcols f) -> In c u) by (intros c H; apply Sub, in_or_app; left; exact H).
    assert (Uw : forall c, In c (wext_user ops part order rev) -> In c u) by (intros c H; apply Sub, in_or_app; right; exact H).
    assert (Upart : forall c, In c part -> In c u) by (intros c H; apply Uw, in_or_app; left; exact H).
    assert (Uorder : forall c, In c order -> In c u) by (intros c H; apply Uw, in_or_app; right; apply in_or_app; left; exact H).
    assert (Urev : forall c, In c rev -> In c u) by (intros c H; apply Uw; do 2 (apply in_or_app; right); apply in_or_app; left; exact H).
    assert (Uops : forall o, In o ops -> In (so_key o) u /\ forall c, so_arg o = ArgCol c -> In c u).
    { intros o Ho. split; [|intros c Ea]; apply Uw; do 3 (apply in_or_app; right); apply in_flat_map; exists o; (split; [exact Ho|]).
      - left. reflexivity.
      - rewrite Ea. right. left. reflexivity. }
    unfold pexec_wextend, plain_wextend. fold one.
    set (cl0 := base_cols part order).
    assert (Ucl0 : forall c, In c cl0 -> In c u) by (intros c H; apply base_cols_In in H; destruct H; auto).
    assert (I0 : sinv f rev u cl0 [] f cl0 (map (fun c => (fget f c, negb (mem c rev))) cl0) []).
    { constructor; try reflexivity.
      - simpl. symmetry. apply app_nil_r.
      - apply filter_all. intros c Hc. apply mem_In, Ucl0, Hc.
      - intros n Hn. left. apply Ucl0, Hn.
      - intros n []. }
    pose proof (scan_rel f rev u Gtmp Urev Uf Ginj ops (fun o c Ho Ea => proj2 (Uops o Ho) c Ea) _ _ _ _ _ _ I0) as SR.
    destruct (ext_scan P sn ops cl0 cl0 [] f) as [[cl temps] res1].
    destruct (plain_scan P rev f ops cl0 (map (fun c => (fget f c, negb (mem c rev))) cl0) []) as [[ucols keys] seen].
    set (S := n_orig_index sn :: n_temp_g sn :: map snd temps).
    pose proof (scan_scratch f rev u Gtmp SR Goi Gtg) as HS. fold S in HS.
    pose proof (scan_cl_names f rev u SR Goi Gtg Gtmpoi Gtmptg) as NclS.
    pose proof (scan_temp_get f rev u Gtmp Uf Ginj SR) as Rt.
    assert (Hoi : In (n_orig_index sn) S) by (left; reflexivity).
    assert (Htg : In (n_temp_g sn) S) by (right; left; reflexivity).
    pose proof (scan_restore f rev u Gtmp Uf Ginj SR) as Eres.
    rewrite (scan_select f rev u Gtmp Uf Ginj SR Goi Gtg). fold S.
    destruct SR as [Iseen _ _ Ikeys _ _ Itin].
    destruct (fselect res1 cl) as [X|] eqn:EX; simpl; [|reflexivity].
    assert (XG : forall n, In n cl -> fget X n = fget res1 n) by (intros n Hn; apply (fselect_get res1 cl X n EX Hn)).
    set (sub1 := fset X (n_orig_index sn) (p_index P)).
    assert (K1 : map (fget sub1) cl = map fst keys).
    { rewrite <- Ikeys, map_map. apply map_ext_in. intros n Hn. simpl. unfold sub1. rewrite fget_fset_other by (apply NclS, Hn). apply XG, Hn. }
    assert (K2 : map (fun c => negb (mem c rev)) cl = map snd keys) by (rewrite <- Ikeys, map_map; reflexivity).
    assert (Esort : (match cl0 with
                     | [] => Some sub1
                     | _ :: _ => ks <- freads sub1 cl ;; Some (sort_frame P (combine ks (map (fun c => negb (mem c rev)) cl)) sub1)
                     end)
                    = option_map (fun s => fmapc s sub1)
                        (match cl0 with
                         | [] => Some (fun a : A => a)
                         | _ :: _ => ks <- all_some (map fst keys) ;; Some (p_sort P (combine ks (map snd keys)))
                         end)).
    { destruct cl0 as [|c0 t0]; [simpl; rewrite fmapc_id; reflexivity|]. unfold freads. rewrite K1, K2.
      destruct (all_some (map fst keys)); reflexivity. }
    fold sub1. rewrite Esort. clear Esort.
    destruct (match cl0 with [] => _ | _ :: _ => _ end) as [s|]; simpl; [|reflexivity].
    set (sub2 := fmapc s sub1). set (sub3 := fset sub2 (n_temp_g sn) one). set (Y2 := fmapc s (erase S X)).
    assert (E3 : erase S sub3 = Y2).
    { unfold sub3, sub2, sub1, Y2. rewrite erase_fset_scratch by exact Htg. rewrite erase_fmapc, erase_fset_scratch by exact Hoi. reflexivity. }
    assert (Egk : (match part with [] => freads sub3 [n_temp_g sn] | _ :: _ => freads sub3 part end)
                  = (match part with [] => Some [one] | _ :: _ => freads Y2 part end)).
    { destruct part as [|p0 pt].
      - unfold freads. simpl. unfold sub3. rewrite fget_fset_same. reflexivity.
      - apply freads_ext. intros c Hc. rewrite <- E3. rewrite fget_erase by (apply HS, Upart, Hc). reflexivity. }
    rewrite Egk. clear Egk.
    destruct (match part with [] => _ | _ :: _ => _ end) as [gkeys|]; simpl; [|reflexivity].
    set (tmps := map (fun v => (v, s (p_const P v))) seen).
    assert (Hnone : forall tx, dict_get temps tx = None -> dict_get tmps tx = None).
    { intros tx G. unfold tmps. rewrite dict_get_tabulate. apply dict_get_None in G. unfold dict_keys in G. rewrite Iseen in G.
      apply mem_false in G. rewrite G. reflexivity. }
    assert (OI : oinv S temps tmps sub3 Y2 (s (p_index P))).
    { split; [exact E3|]. split; [|split].
      - unfold sub3, sub2, sub1. rewrite fget_fset_other by exact Goitg. rewrite fget_fmapc, fget_fset_same. reflexivity.
      - unfold sub3. rewrite fget_fset_same. discriminate.
      - intros v nm G. apply dict_get_In in G. pose proof (in_map snd _ _ G) as Gn. split; [right; right; exact Gn|].
        destruct (NclS nm (Itin nm Gn)) as [N1 N2].
        unfold sub3, sub2, sub1. rewrite fget_fset_other by exact N2. rewrite fget_fmapc, fget_fset_other by exact N1.
        rewrite (XG nm (Itin nm Gn)), (Rt v nm G). unfold tmps. rewrite dict_get_tabulate.
        rewrite (proj2 (mem_In v seen)) by (rewrite <- Iseen; exact (in_map fst _ _ G)). reflexivity. }
    pose proof (ext_ops_rel S temps tmps gkeys u HS Hoi Htg Hnone ops Uops sub3 Y2 (s (p_index P)) OI) as OR.
    destruct (ext_ops P sn temps gkeys ops sub3) as [p4|], (plain_ext_ops P tmps gkeys ops Y2) as [s4|]; simpl; try contradiction; [|reflexivity].
    destruct OR as (Oe & Oo & _ & _). rewrite Oo. simpl.
    rewrite Eres.
    rewrite (fselect_ext (sort_frame P [(s (p_index P), true)] p4) (sort_frame P [(s (p_index P), true)] s4) (map so_key ops)); [reflexivity|].
    intros c Hc. apply in_map_iff in Hc. destruct Hc as [o [<- Ho]].
    unfold sort_frame. rewrite <- Oe, <- erase_fmapc, fget_erase; [reflexivity|]. apply HS. exact (proj1 (Uops o Ho)).
  Qed.
End WExtend.
