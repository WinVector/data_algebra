(* SQLGEN, part 17: the SQL-level extend merge when WINDOW items are involved (outer step, inner step or both): the composition
   of Proofs/SqlGenP11.v under the name the property file uses, and the steps extend_to_near_sql never merges into. *)
From Coq Require Import List Bool String.
Import ListNotations.
From DA Require Import Base.PyRT Base.Val Model.Sem Proofs.SemBasicP Model.ColumnsUsed Proofs.ColumnsUsedP1 Proofs.ColumnsUsedP2
  Proofs.ColumnsUsedP4 Model.SqlGen Model.SqlSem Proofs.SqlGenP1 Proofs.SqlGenP2 Proofs.SqlGenP3 Proofs.SqlGenP4
  Proofs.SqlGenP6 Proofs.SqlGenP11 Proofs.SqlGenP12 Proofs.SqlGenP14 Proofs.SqlGenP15 Proofs.SqlGenP16.
Local Open Scope list_scope.

Section MergeWin.
Variable fl : flavor.

Lemma merge_compose_win (ts tms : terms) (ds deps : depmap) su' K X :
  (forall kt, In kt ts -> is_agg_term (snd kt) = false) -> (forall kt, In kt tms -> is_agg_term (snd kt) = false) ->
  NoDup (map fst ds) -> NoDup (map fst deps) -> NoDup (map fst tms) -> NoDup (map fst ts) ->
  incl (map fst ts) (map fst ds) -> map fst tms = map fst deps -> deps_describe tms deps ->
  contention (non_trivial_terms deps tms) (needs deps (non_trivial_terms deps tms))
             (non_trivial_terms ds ts) (needs ds (non_trivial_terms ds ts)) = [] ->
  su' <> [] -> incl su' (map fst ts) ->
  K <> [] -> incl K (map fst tms) -> (forall k, In k K -> incl (item_cols (k, term_of tms k)) su') ->
  forall Y, sql_select fl true (Some ts) (Some su') SfxNone X = Some Y ->
  sql_select fl true (Some (merged_terms (non_trivial_terms deps tms) tms deps ts)) (Some K) SfxNone X
  = sql_select fl true (Some tms) (Some K) SfxNone Y.
Proof. exact (merge_compose_nonagg fl ts tms ds deps su' K X). Qed.

End MergeWin.

(* ------------------------------------------------------------------ steps extend_to_near_sql never merges into *)
Definition not_mg (q : tnear) : Prop := match q with TUnary _ _ _ _ _ true _ => False | _ => True end.

Lemma not_mg_merge q tms deps : not_mg q -> try_sql_merge q tms deps = None.
Proof. destruct q as [n t|n t s ci sfx mg dp|n t s1 c1 j s2 c2 on]; simpl; try reflexivity. destruct mg; [intros []|]. destruct sfx; reflexivity. Qed.
Lemma not_mg_restrict q K q' : not_mg q -> restrict_terms q K = Some q' -> not_mg q'.
Proof.
  destruct q as [n t|n t s ci sfx mg dp|n t s1 c1 j s2 c2 on]; simpl; intros H E; destruct (subset K _); try discriminate; injection E as <-; exact H.
Qed.
Lemma not_mg_empty q : not_mg q -> not_mg (empty_terms q).
Proof. destruct q as [n t|n t s ci sfx mg dp|n t s1 c1 j s2 c2 on]; simpl; intros H; exact H. Qed.

Lemma join_not_mg d a b on_a on_b jt usg n q n' fuel :
  to_near_f fuel d (OJoin a b on_a on_b jt) usg n = Ok (q, n') -> not_mg q.
Proof. intros H. pose proof (join_binary fuel d a b on_a on_b jt usg n q n' H) as B. destruct q; try contradiction. exact I. Qed.

Theorem gen_not_mg : forall fuel d s usg n q n',
  mergeable_src s = false -> to_near_f fuel d s usg n = Ok (q, n') -> not_mg q.
Proof.
  induction fuel as [|fuel IH]; intros d s usg n q n' M H; [discriminate|].
  destruct s as [name cs|s ops wd w|s ops gb|s x|s cs|s ds|s m|s m dels|s cs rev lim|a b on_a on_b jt|a b idc an bn]; cbn [mergeable_src] in M; try discriminate M.
  - cbn [to_near_f] in H. destruct (negb (subset _ cs)); [discriminate|]. destruct (_ && _); injection H as <- _; exact I.
  - cbn [to_near_f] in H. unfold bind in H. destruct (to_near_f fuel d s _ n) as [[sub n1]| |]; try discriminate. injection H as <- _. exact I.
  - cbn [to_near_f] in H. unfold bind in H. destruct (to_near_f fuel d s _ n) as [[sub n1]| |]; try discriminate. injection H as <- _. exact I.
  - cbn [to_near_f] in H. unfold bind in H. destruct (to_near_f fuel d s _ n) as [[sub n1]| |] eqn:ER; try discriminate.
    pose proof (IH _ _ _ _ _ _ M ER) as NM.
    destruct (terms_is_none sub); [injection H as <- _; apply not_mg_empty, NM|].
    destruct (narrow_or_first sub _) as [q0|] eqn:EN; [|discriminate]. injection H as <- _.
    destruct (narrow_or_first_restrict _ _ _ EN) as [K' EK]. exact (not_mg_restrict _ _ _ NM EK).
  - cbn [to_near_f] in H. unfold bind in H. destruct (to_near_f fuel d s _ n) as [[sub n1]| |] eqn:ER; try discriminate.
    pose proof (IH _ _ _ _ _ _ M ER) as NM.
    destruct (terms_is_none sub).
    + destruct (filter _ _); [|discriminate]. injection H as <- _. apply not_mg_empty, NM.
    + destruct (narrow_or_first sub _) as [q0|] eqn:EN; [|discriminate]. injection H as <- _.
      destruct (narrow_or_first_restrict _ _ _ EN) as [K' EK]. exact (not_mg_restrict _ _ _ NM EK).
  - cbn [to_near_f] in H. unfold bind in H. destruct (to_near_f fuel d s _ n) as [[sub n1]| |]; try discriminate. injection H as <- _. exact I.
  - cbn [to_near_f] in H. unfold bind in H. destruct (to_near_f fuel d s _ n) as [[sub n1]| |]; try discriminate. injection H as <- _. exact I.
  - cbn [to_near_f] in H. unfold bind in H. destruct (to_near_f fuel d s _ n) as [[sub n1]| |]; try discriminate. injection H as <- _. exact I.
  - exact (join_not_mg d a b on_a on_b jt usg n q n' (S fuel) H).
  - cbn [to_near_f] in H. destruct (negb (subset _ _)); [discriminate|]. destruct (negb (set_eqb _ _)); [discriminate|]. unfold bind in H.
    destruct (to_near_f fuel d _ _ n) as [[ql n1]| |]; try discriminate. destruct (to_near_f fuel d _ _ n1) as [[qr n2]| |]; try discriminate.
    injection H as <- _. exact I.
Qed.

Lemma merge_branch_none (m : bool) (x : option (result tnear)) (n1 : nat) (fresh : result (tnear * nat)) :
  (m = true -> x = None) ->
  (if m then match x with Some (Ok m0) => Ok (m0, n1) | Some Raise => Raise | Some OutOfFuel => OutOfFuel | None => fresh end else fresh) = fresh.
Proof. destruct m; [intros H; rewrite (H eq_refl); reflexivity|reflexivity]. Qed.
