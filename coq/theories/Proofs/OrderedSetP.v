(* Proofs about the REGENERATED OrderedSet code (Gen/G_OrderedSet.v). *)
From Coq Require Import List Bool .
Import ListNotations.
From DA Require Import Base.PyRT Gen.G_OrderedSet.

Section P.
Context {A : Type} `{EqDec A}.

(* ---------- specification vocabulary (independent of the generated code) *)

(* keep the first occurrence of every element *)
Fixpoint first_occ (l : list A) : list A :=
  match l with [] => [] | x :: t => x :: filter (fun y => negb (eqb x y)) (first_occ t) end.

Inductive op := OAdd (x : A) | ODiscard (x : A) | OUpdate (ls : list (list A)).

(* a plain (unordered) set as a membership predicate *)
Fixpoint plain_mem (ops : list op) (x : A) : bool :=   (* ops: most recent first *)
  match ops with
  | [] => false
  | OAdd y :: r => eqb x y || plain_mem r x
  | ODiscard y :: r => negb (eqb x y) && plain_mem r x
  | OUpdate ls :: r => mem x (concat ls) || plain_mem r x
  end.

(* the abstract ordered-set machine: a duplicate-free list in first-insertion order *)
Definition spec_add (l : list A) (x : A) : list A := if mem x l then l else l ++ [x].
Definition spec_step (l : list A) (o : op) : list A :=
  match o with
  | OAdd x => spec_add l x
  | ODiscard x => filter (fun y => negb (eqb x y)) l
  | OUpdate ls => fold_left spec_add (concat ls) l
  end.

(* ---------- the generated code *)
Definition iter (s : @OrderedSet_t A) : list A := OrderedSet___iter__ s.
Definition Inv (s : @OrderedSet_t A) : Prop := NoDup (iter s).

Definition step (s : @OrderedSet_t A) (o : op) : OrderedSet_t :=
  match o with
  | OAdd x => OrderedSet_add s x
  | ODiscard x => OrderedSet_discard s x
  | OUpdate ls => OrderedSet_update s ls
  end.

Lemma iter_add s x : iter (OrderedSet_add s x) = spec_add (iter s) x.
Proof. unfold iter, OrderedSet___iter__, OrderedSet_add, spec_add. simpl. apply dict_keys_set. Qed.

Lemma iter_fold_add l s : iter (fold_left (fun self val => let self := OrderedSet_add self val in self) l s)
                           = fold_left spec_add l (iter s).
Proof. revert s. induction l as [|x t IH]; intros s; simpl; [reflexivity|]. rewrite IH, iter_add. reflexivity. Qed.

Lemma iter_discard s x : iter (OrderedSet_discard s x) = filter (fun y => negb (eqb x y)) (iter s).
Proof. exact (dict_keys_pop _ x). Qed.

Lemma iter_update s ls : iter (OrderedSet_update s ls) = fold_left spec_add (concat ls) (iter s).
Proof. unfold OrderedSet_update. revert s. induction ls as [|l t IH]; intros s; simpl; [reflexivity|].
  rewrite fold_left_app. rewrite <- iter_fold_add. apply IH. Qed.

Lemma step_refines s o : iter (step s o) = spec_step (iter s) o.
Proof. destruct o; simpl; [apply iter_add | apply iter_discard | apply iter_update]. Qed.

Lemma run_refines ops s : iter (fold_left step ops s) = fold_left spec_step ops (iter s).
Proof. revert s. induction ops as [|o t IH]; intros s; simpl; [reflexivity|]. rewrite IH, step_refines. reflexivity. Qed.

(* ---------- the abstract machine is a plain set in first-insertion order *)
Lemma spec_add_is_add_end l x : spec_add l x = add_end l x.
Proof. reflexivity. Qed.

Lemma In_spec_add l x y : In y (spec_add l x) <-> In y l \/ y = x.
Proof. apply In_add_end. Qed.

Lemma In_fold_spec_add xs l y : In y (fold_left spec_add xs l) <-> In y l \/ In y xs.
Proof. apply In_fold_add_end. Qed.

(* discarding x is PyRT's remove_elem x *)
Lemma In_discard x l y : In y (filter (fun z => negb (eqb x z)) l) <-> In y l /\ y <> x.
Proof. exact (In_remove_elem x l y). Qed.

Lemma NoDup_spec_step l o : NoDup l -> NoDup (spec_step l o).
Proof. intros N. destruct o; simpl; [apply NoDup_add_end, N | apply NoDup_filter, N | apply NoDup_fold_add_end, N]. Qed.

Lemma In_spec_step l o y : In y (spec_step l o) <->
  match o with OAdd x => y = x \/ In y l | ODiscard x => y <> x /\ In y l | OUpdate ls => In y (concat ls) \/ In y l end.
Proof. destruct o; simpl.
  - rewrite In_spec_add. tauto.
  - rewrite In_discard. tauto.
  - rewrite In_fold_spec_add. tauto. Qed.

(* history, oldest first; plain_mem takes most recent first *)
Lemma spec_members ops x : In x (fold_left spec_step ops []) <-> plain_mem (rev ops) x = true.
Proof. induction ops as [|o t IH] using rev_ind; simpl; [split; [tauto|discriminate]|].
  rewrite fold_left_app, rev_app_distr. simpl. rewrite In_spec_step.
  destruct o; simpl; rewrite ?orb_true_iff, ?andb_true_iff, ?negb_true_iff, <- ?IH, ?mem_In.
  - rewrite eqb_true. tauto.
  - unfold eqb. destruct (eq_dec x x0); split; intros [? ?]; split; auto; congruence.
  - tauto. Qed.

Lemma spec_nodup ops : NoDup (fold_left spec_step ops []).
Proof. induction ops as [|o t IH] using rev_ind; simpl; [constructor|]. rewrite fold_left_app. simpl. apply NoDup_spec_step, IH. Qed.

(* order: re-adding keeps the position, a new element goes last, discarding keeps relative order *)
Lemma order_add_existing l x : In x l -> spec_step l (OAdd x) = l.
Proof. intros i. simpl. unfold spec_add. apply mem_In in i. rewrite i. reflexivity. Qed.
Lemma order_add_new l x : ~ In x l -> spec_step l (OAdd x) = l ++ [x].
Proof. intros i. simpl. unfold spec_add. apply mem_false in i. rewrite i. reflexivity. Qed.
Lemma order_discard l x : spec_step l (ODiscard x) = filter (fun y => negb (eqb x y)) l.
Proof. reflexivity. Qed.

(* ---------- first_occ *)
Lemma In_first_occ l y : In y (first_occ l) <-> In y l.
Proof. induction l as [|x t IH]; simpl; [tauto|]. rewrite In_discard, IH. destruct (eq_dec x y); intuition congruence. Qed.

Lemma NoDup_first_occ l : NoDup (first_occ l).
Proof. induction l as [|x t IH]; simpl; constructor; [|apply NoDup_filter, IH].
  rewrite In_discard. intros [_ N]. exact (N eq_refl). Qed.

Lemma filter_spec_add_comm x l y : y <> x ->
  filter (fun z => negb (eqb x z)) (spec_add l y) = spec_add (filter (fun z => negb (eqb x z)) l) y.
Proof. intros n. unfold spec_add.
  assert (mem y (filter (fun z => negb (eqb x z)) l) = mem y l) as E.
  { destruct (mem y l) eqn:M.
    - apply mem_In. apply mem_In in M. rewrite filter_In, negb_true_iff. split; [exact M|]. unfold eqb. destruct (eq_dec x y); congruence.
    - apply mem_false. apply mem_false in M. rewrite filter_In. tauto. }
  rewrite E. destruct (mem y l); [reflexivity|]. rewrite filter_app. simpl.
  unfold eqb. destruct (eq_dec x y); [congruence|reflexivity]. Qed.

Lemma filter_filter_and' (f g : A -> bool) l : filter f (filter g l) = filter (fun a => g a && f a) l.
Proof. induction l as [|a t IH]; simpl; [reflexivity|]. destruct (g a); simpl; [destruct (f a); rewrite IH; reflexivity | exact IH]. Qed.

Lemma fold_spec_add_first_occ xs : forall l, NoDup l ->
  fold_left spec_add xs l = l ++ filter (fun y => negb (mem y l)) (first_occ xs).
Proof. induction xs as [|x t IH]; intros l N; simpl; [rewrite app_nil_r; reflexivity|].
  rewrite IH by (apply NoDup_add_end, N). unfold spec_add. destruct (mem x l) eqn:M; simpl.
  - f_equal. rewrite filter_filter_and'. apply filter_ext. intros a.
    unfold eqb. destruct (eq_dec x a) as [<-|n]; simpl; [rewrite M; reflexivity|reflexivity].
  - rewrite <- app_assoc. simpl. f_equal. f_equal. rewrite filter_filter_and'.
    apply filter_ext. intros a. rewrite mem_app. simpl. unfold eqb.
    destruct (eq_dec x a) as [e|n2]; destruct (eq_dec a x) as [e2|n]; try congruence; simpl.
    + rewrite orb_true_r. reflexivity.
    + rewrite orb_false_r. reflexivity. Qed.

(* ---------- constructor, copy, union, helpers *)
Lemma filter_true_in (f : A -> bool) l : (forall y, In y l -> f y = true) -> filter f l = l.
Proof. induction l as [|a t IH]; simpl; intros F; [reflexivity|]. rewrite (F a) by tauto. f_equal. apply IH. intros; apply F; tauto. Qed.
Lemma filter_true_all (l : list A) : filter (fun _ => true) l = l.
Proof. apply filter_true_in. reflexivity. Qed.

Lemma iter_init_none : iter (OrderedSet___init__ None) = [].
Proof. reflexivity. Qed.

Lemma iter_init_some v : iter (OrderedSet___init__ (Some v)) = first_occ v.
Proof. unfold OrderedSet___init__. rewrite iter_fold_add. rewrite fold_spec_add_first_occ by constructor.
  simpl. rewrite filter_true_all. reflexivity. Qed.

Lemma first_occ_nodup_id l : NoDup l -> first_occ l = l.
Proof. induction 1 as [|x l Hx N IH]; simpl; [reflexivity|]. rewrite IH. f_equal.
  apply filter_true_in. intros y Hy. apply negb_true_iff. unfold eqb. destruct (eq_dec x y); congruence. Qed.

Lemma iter_copy s : Inv s -> iter (OrderedSet_copy s) = iter s.
Proof. intros N. unfold OrderedSet_copy. rewrite iter_init_some. apply first_occ_nodup_id, N. Qed.

Lemma contains_spec s x : OrderedSet___contains__ s x = true <-> In x (iter s).
Proof. unfold OrderedSet___contains__. apply mem_In. Qed.

Lemma len_spec s : OrderedSet___len__ s = List.length (iter s).
Proof. unfold OrderedSet___len__, iter, OrderedSet___iter__, dict_keys. rewrite map_length. reflexivity. Qed.

Lemma le_spec s o : OrderedSet___le__ s o = true <-> incl (iter s) o.
Proof. unfold OrderedSet___le__. rewrite forallb_forall. unfold incl. split; intros S x Hx; apply mem_In; auto. Qed.

Lemma ge_spec s o : OrderedSet___ge__ s o = true <-> incl o (iter s).
Proof. unfold OrderedSet___ge__. rewrite forallb_forall. unfold incl. split; intros S x Hx; apply contains_spec; auto. Qed.

Lemma mem_same (l l' : list A) : (forall x, In x l <-> In x l') -> forall x, mem x l = mem x l'.
Proof. intros E x. destruct (mem x l') eqn:M.
  - apply mem_In, E, mem_In, M.
  - apply mem_false. rewrite E. apply mem_false, M. Qed.

Lemma ordered_intersect_spec a b : iter (ordered_intersect a b) = first_occ (filter (fun v => mem v b) a).
Proof. unfold ordered_intersect. rewrite iter_init_some. f_equal. apply filter_ext. apply mem_same, In_py_set. Qed.

Lemma ordered_diff_spec a b : iter (ordered_diff a b) = first_occ (filter (fun v => negb (mem v b)) a).
Proof. unfold ordered_diff. rewrite iter_init_some. f_equal. apply filter_ext. intros x. f_equal. apply mem_same, In_py_set. Qed.

Lemma cond_add_is_spec_add (s : @OrderedSet_t A) v :
  iter (if negb (OrderedSet___contains__ s v) then let a := OrderedSet_add s v in a else s) = spec_add (iter s) v.
Proof. unfold OrderedSet___contains__. change (dict_keys (OrderedSet_impl s)) with (iter s). unfold spec_add at 1.
  destruct (mem v (iter s)) eqn:M; simpl; [reflexivity|]. rewrite iter_add. unfold spec_add. rewrite M. reflexivity. Qed.

Lemma iter_fold_cond_add l s :
  iter (fold_left (fun a v => let a := (if negb (OrderedSet___contains__ a v) then let a := OrderedSet_add a v in a else a) in a) l s)
  = fold_left spec_add l (iter s).
Proof. revert s. induction l as [|x t IH]; intros s; simpl; [reflexivity|]. rewrite IH. f_equal. apply cond_add_is_spec_add. Qed.

Lemma ordered_union_spec a b : iter (ordered_union a b) = first_occ a ++ filter (fun y => negb (mem y a)) (first_occ b).
Proof. unfold ordered_union. rewrite iter_fold_cond_add, iter_init_some.
  rewrite fold_spec_add_first_occ by apply NoDup_first_occ. f_equal. apply filter_ext. intros x. f_equal.
  apply mem_same, In_first_occ. Qed.

Lemma union_spec s args : Inv s -> iter (OrderedSet_union s args) = iter s ++ filter (fun y => negb (mem y (iter s))) (first_occ (concat args)).
Proof. intros N. unfold OrderedSet_union.
  set (s0 := fold_left (fun res k => let res := OrderedSet_add res k in res) (dict_keys (OrderedSet_impl s)) (OrderedSet___init__ None)).
  assert (iter s0 = iter s) as E0.
  { unfold s0. rewrite iter_fold_add. rewrite iter_init_none. rewrite fold_spec_add_first_occ by constructor. simpl.
    rewrite filter_true_all. apply first_occ_nodup_id, N. }
  assert (forall args r, iter (fold_left (fun res other => let res := fold_left (fun res k => let res := (if negb (OrderedSet___contains__ res k) then let res := OrderedSet_add res k in res else res) in res) other res in res) args r)
          = fold_left spec_add (concat args) (iter r)) as F.
  { induction args0 as [|l t IH]; intros r; simpl; [reflexivity|]. rewrite IH. rewrite fold_left_app. f_equal. apply iter_fold_cond_add. }
  rewrite F, E0. apply fold_spec_add_first_occ, N. Qed.

Lemma step_inv s o : Inv s -> Inv (step s o).
Proof. unfold Inv. rewrite step_refines. apply NoDup_spec_step. Qed.
Lemma init_inv v : Inv (OrderedSet___init__ v).
Proof. unfold Inv. destruct v; [rewrite iter_init_some; apply NoDup_first_occ | rewrite iter_init_none; constructor]. Qed.
End P.

Section Main.
Context {A : Type} `{EqDec A}.
Definition run (ops : list (@op A)) : @OrderedSet_t A := fold_left step ops (OrderedSet___init__ None).

Lemma main_members ops x : In x (iter (run ops)) <-> plain_mem (rev ops) x = true.
Proof. unfold run. rewrite run_refines, iter_init_none. apply spec_members. Qed.
Lemma main_nodup ops : NoDup (iter (run ops)).
Proof. unfold run. rewrite run_refines, iter_init_none. apply spec_nodup. Qed.
Lemma main_order ops o :
  iter (run (ops ++ [o])) =
  match o with
  | OAdd x => if mem x (iter (run ops)) then iter (run ops) else iter (run ops) ++ [x]
  | ODiscard x => filter (fun y => negb (eqb x y)) (iter (run ops))
  | OUpdate ls => iter (run ops) ++ filter (fun y => negb (mem y (iter (run ops)))) (first_occ (concat ls))
  end.
Proof. unfold run. rewrite fold_left_app. simpl. rewrite step_refines. destruct o; simpl; try reflexivity.
  apply fold_spec_add_first_occ. apply (main_nodup ops). Qed.
End Main.
