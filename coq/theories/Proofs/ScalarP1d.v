(* C05 -- SQL templates compute the documented value: **, around, trimstr, is_in, mapv *)
From Coq Require Import List Bool Qround Qabs Qpower String Lia Lqa.
Import ListNotations.
From DA Require Import Model.Scalar Model.SqlTemplates Model.ScalarBackends Model.ScalarCatalog Model.ScalarIndex Proofs.ScalarP0 Proofs.ScalarP1.
Local Open Scope string_scope.

Lemma qtie_comp p q : (p == q)%Q -> qtie p = qtie q.
Proof. intros E. unfold qtie, qfloor. rewrite (Qfloor_comp _ _ E).
  destruct (Qeq_bool (p - inject_Z (Qfloor q)) (1 # 2)) eqn:A, (Qeq_bool (q - inject_Z (Qfloor q)) (1 # 2)) eqn:B; try reflexivity;
    exfalso; q_props; lra. Qed.
Lemma qround_nearest_comp p q : (p == q)%Q -> qround_nearest p = qround_nearest q.
Proof. intros E. unfold qround_nearest, qfloor. rewrite (Qfloor_comp (p + (1 # 2)) (q + (1 # 2))); [reflexivity | rewrite E; reflexivity]. Qed.
Lemma Qnat_spec q n : Qnat q = Some n -> Qis_int q = true /\ (0 <= q)%Q /\ Qfloor q = Z.of_nat n.
Proof. unfold Qnat. destruct (Qis_int q) eqn:I; [|discriminate]. destruct (Qle_bool 0 q) eqn:L; [|discriminate].
  cbn. intros H. inversion H; subst. apply Qle_bool_iff in L. repeat split; auto.
  rewrite Z2Nat.id; [reflexivity | apply Qfloor_nonneg; exact L]. Qed.
Lemma Qnat_inject n : Qnat (inject_Z (Z.of_nat n)) = Some n.
Proof. unfold Qnat. rewrite Qis_int_inject. replace (Qle_bool 0 (inject_Z (Z.of_nat n))) with true.
  - cbn [andb]. rewrite Qfloor_Z, Nat2Z.id. reflexivity.
  - symmetry. apply Qle_bool_iff. change 0%Q with (inject_Z 0). rewrite <- Zle_Qle. lia. Qed.
Lemma Qnat_comp p q : (p == q)%Q -> Qnat p = Qnat q.
Proof. intros E. unfold Qnat. rewrite (Qis_int_comp _ _ E), (Qfloor_comp _ _ E).
  replace (Qle_bool 0 p) with (Qle_bool 0 q); [reflexivity|].
  destruct (Qle_bool 0 q) eqn:A, (Qle_bool 0 p) eqn:B; try reflexivity; exfalso; q_props; lra. Qed.
Lemma Qnat_eq q n : Qnat q = Some n -> (q == inject_Z (Z.of_nat n))%Q.
Proof. intros H. destruct (Qnat_spec _ _ H) as [I [_ F]]. rewrite <- F. apply Qis_int_eq. exact I. Qed.
Lemma Qnat_succ q n : Qnat q = Some n -> Qnat (1 + q) = Some (S n).
Proof. intros H. apply Qnat_eq in H. rewrite (Qnat_comp (1 + q) (inject_Z (Z.of_nat (S n)))); [apply Qnat_inject|].
  rewrite H. rewrite Nat2Z.inj_succ. unfold Z.succ. rewrite inject_Z_plus. change (inject_Z 1) with 1%Q. ring. Qed.
Lemma Qnat_sub p q i j : Qnat p = Some i -> Qnat q = Some j -> (i <= j)%nat -> Qnat (q - p) = Some (j - i)%nat.
Proof. intros Hp Hq L. apply Qnat_eq in Hp. apply Qnat_eq in Hq.
  rewrite (Qnat_comp (q - p) (inject_Z (Z.of_nat (j - i)))); [apply Qnat_inject|].
  rewrite Hp, Hq. rewrite Nat2Z.inj_sub by exact L. rewrite inject_Z_minus. reflexivity. Qed.

Section SQL.
Variable mf : string -> Q -> option Q.
Variable mf2 : string -> Q -> Q -> option Q.
Notation documented_sql := (documented_sql mf mf2).

(* ---------------------------------------------------------------- ** *)
Lemma qpow_defined p q v : qpow mf2 p q = Some v -> pow_defined p q = true.
Proof. unfold qpow, pow_defined, Qlt_bool. intros H.
  destruct (Qis_int q) eqn:?, (Qeq_bool p 0) eqn:?, (Qle_bool 0 q) eqn:?, (Qle_bool p 0) eqn:?, (Qle_bool q 0) eqn:?;
    cbn in *; try discriminate; try reflexivity; exfalso; q_lra. Qed.
Lemma qpow_one p q : (q == 1)%Q -> exists v, qpow mf2 p q = Some v /\ (v == p)%Q.
Proof. intros E. unfold qpow. rewrite (Qis_int_comp _ _ E). change (Qis_int 1) with true.
  replace (Qle_bool 0 q) with true by (symmetry; apply Qle_bool_iff; lra).
  rewrite orb_true_r. cbn. eexists; split; [reflexivity|]. rewrite (Qfloor_comp _ _ E). reflexivity. Qed.
(* POWER(a, b) on operands where ** is documented; the literal flags of the atoms play no part *)
Lemma power_sem vr d f0 f1 a b r : lift2 (fin2 (fun p q => option_map SNum (qpow mf2 p q))) a b = Some r ->
  exists r', sem mf mf2 d vr (QFun "POWER" [QAtom f0 "" (enc d a); QAtom f1 "" (enc d b)]) = Some r' /\ sv_eqv r' r.
Proof. intros H. destruct a as [ | | |p| | | ], b as [ | | |q| | | ]; cbn in H; try discriminate H; try (inversion H; subst; destruct d; finish).
  destruct (qpow mf2 p q) as [v|] eqn:E; [|discriminate H]. cbn in H. inversion H; subst.
  pose proof (qpow_defined _ _ _ E) as D. destruct d; cbn; rewrite D, E; cbn; finish. Qed.
Lemma sql_pow vr d lits : documented_sql vr d "**" lits anyargs.
Proof. intros args r _ H. change (spec_method mf mf2 "**") with (spec_pow mf2) in H. arity2 H args.
  unfold sql_eval, sql_eval_on. cbn [atoms_from].
  unfold spec_pow in H.
  destruct (missing a && match b with SNum q => Qeq_bool q 0 | _ => false end || missing b && match a with SNum p => Qeq_bool p 1 | _ => false end) eqn:C; [discriminate H|].
  destruct (flag_at lits 1) eqn:Fl.
  - (* literal exponent: an exponent that is literally 1 renders the base alone *)
    destruct b as [ | | |q| | | ].
    1,2,3,5,6,7: (destruct d, a; try destruct b; simp; repeat (break_step; simp); try discriminate H; try (inversion H; subst; finish)).
    + destruct (Qeq_bool q 1) eqn:Q1.
      * assert (fmt vr d "**" [QAtom (flag_at lits 0) "" (enc d a); QAtom true "" (enc d (SNum q))] = Some (QAtom (flag_at lits 0) "" (enc d a))) as F.
        { destruct d; cbn; rewrite Q1; reflexivity. }
        rewrite F. cbn [sem]. apply Qeq_bool_iff in Q1.
        destruct a as [ | | |p| | | ]; cbn in H; try discriminate H; try (inversion H; subst; destruct d; finish).
        destruct (qpow_one p q Q1) as [v [E V]]. rewrite E in H. cbn in H. inversion H; subst.
        eexists; split; [reflexivity|]. destruct d; apply sv_eqv_num; symmetry; exact V.
      * assert (fmt vr d "**" [QAtom (flag_at lits 0) "" (enc d a); QAtom true "" (enc d (SNum q))] = Some (QFun "POWER" [QAtom (flag_at lits 0) "" (enc d a); QAtom true "" (enc d (SNum q))])) as F.
        { destruct d; cbn; rewrite Q1; reflexivity. }
        rewrite F. exact (power_sem vr d _ _ a (SNum q) r H).
  - assert (fmt vr d "**" [QAtom (flag_at lits 0) "" (enc d a); QAtom false "" (enc d b)] = Some (QFun "POWER" [QAtom (flag_at lits 0) "" (enc d a); QAtom false "" (enc d b)])) as F by (destruct d; reflexivity).
    rewrite F. exact (power_sem vr d _ _ a b r H). Qed.
(* ---------------------------------------------------------------- around (the digits argument is a literal) *)
Lemma pow10_pos n : (0 < pow10 (Z.of_nat n))%Q.
Proof. unfold pow10. apply Qpower_0_lt. reflexivity. Qed.
Lemma round_div_eqv d0 x s : qtie x = false ->
  sv_eqv (SNum ((match d0 with DSqlite => round_half_away x | DPg => round_half_even x end) / s)) (SNum (qround_nearest x / s)).
Proof. intros T. apply sv_eqv_num. destruct d0.
  - rewrite (round_half_away_nearest _ T). reflexivity.
  - rewrite (round_half_even_nearest _ T). reflexivity. Qed.
Lemma sql_around vr d : documented_sql vr d "around" [false; true] anyargs.
Proof. intros args r _ H. change (spec_method mf mf2 "around") with spec_around in H. arity2 H args.
  destruct b as [ | | |dg| | | ]; try (destruct a; discriminate H). cbn in H.
  destruct (Qnat dg) as [n|] eqn:N; [|discriminate H]. destruct (n <=? 6)%nat eqn:L6; [|discriminate H].
  destruct (Qnat_spec _ _ N) as [I [NN F]].
  unfold sql_eval, sql_eval_on. cbn [atoms_from flag_at nth last].
  replace (enc d (SNum dg)) with (SNum dg) by (destruct d; reflexivity).
  destruct (Qeq_bool dg 0) eqn:Z0.
  - (* around(0) renders ROUND(x) *)
    assert (fmt vr d "around" [QAtom false "" (enc d a); QAtom true "" (SNum dg)] = Some (QFun "ROUND" [QAtom false "" (enc d a)])) as FM.
    { destruct d; cbn; rewrite Z0; reflexivity. }
    rewrite FM. clear FM. apply Qeq_bool_iff in Z0.
    assert (n = 0)%nat as ->. { rewrite (Qfloor_comp _ _ Z0) in F. change (Qfloor 0) with 0%Z in F. lia. }
    destruct a as [ | | |q| | | ]; cbn in H; try discriminate H; try (inversion H; subst; destruct d; finish).
    change (pow10 (Z.of_nat 0)) with 1%Q in H.
    assert (q * 1 == q)%Q as E1 by ring.
    rewrite (qtie_comp _ _ E1) in H. destruct (qtie q) eqn:T; [discriminate H|]. inversion H; subst; clear H.
    rewrite (qround_nearest_comp _ _ E1).
    destruct d; cbn; (eexists; split; [reflexivity|]); apply sv_eqv_num.
    + rewrite (round_half_away_nearest _ T). field.
    + rewrite (round_half_even_nearest _ T). field.
  - pose proof (pow10_pos n) as PP.
    assert (sem mf mf2 d vr (t_power10 (QAtom true "" (SNum dg))) = Some (SNum (pow10 (Z.of_nat n)))) as TP.
    { unfold t_power10. cbn [is_lit_with]. destruct (Qeq_bool dg 1) eqn:O1.
      - apply Qeq_bool_iff in O1. assert (n = 1)%nat as ->. { rewrite (Qfloor_comp _ _ O1) in F. change (Qfloor 1) with 1%Z in F. lia. }
        reflexivity.
      - assert (qpow mf2 10 dg = Some (pow10 (Z.of_nat n))) as QP.
        { unfold qpow. rewrite I. cbn. unfold pow10. rewrite F. reflexivity. }
        assert (pow_defined 10 dg = true) as PD. { eapply qpow_defined; exact QP. }
        destruct d; cbn; rewrite PD, QP; reflexivity. }
    assert (fmt vr d "around" [QAtom false "" (enc d a); QAtom true "" (SNum dg)]
            = Some (QParen (QBin BDiv (QFun "ROUND" [QBin BMul (QAtom false "" (enc d a)) (t_power10 (QAtom true "" (SNum dg)))]) (t_power10 (QAtom true "" (SNum dg)))))) as FM.
    { destruct d; cbn -[t_power10]; rewrite Z0; reflexivity. }
    rewrite FM. clear FM. cbn [sem map all_some option_map]. rewrite TP. cbn [all_some option_map].
    set (s := pow10 (Z.of_nat n)) in *.
    assert (Qeq_bool s 0 = false) as SZ. { destruct (Qeq_bool s 0) eqn:E; [exfalso; q_lra | reflexivity]. }
    destruct a as [ | | |q| | | ]; cbn in H; try discriminate H; try (inversion H; subst; destruct d; cbn; finish).
    fold s in H. destruct (qtie (q * s)) eqn:T; [discriminate H|]. inversion H; subst; clear H.
    destruct d; cbn; rewrite SZ; (eexists; split; [reflexivity|]).
    + apply (round_div_eqv DSqlite), T.
    + apply (round_div_eqv DPg), T. Qed.
(* ---------------------------------------------------------------- trimstr (start and stop are literals) *)
(* shipped: SUBSTR(x, 1 + start, stop) takes `stop` characters, which is the documented slice only for start = 0;
   repaired: SUBSTR(x, 1 + start, stop - start) *)
Lemma sql_trimstr vr d : documented_sql vr d "trimstr" [false; true] (fun l => fix_trimstr vr || start_zero l).
Proof. intros args r G H. change (spec_method mf mf2 "trimstr") with spec_trimstr in H. arity3 H args.
  destruct b as [ | | |qa| | | ]; try (destruct a; discriminate H). destruct c as [ | | |qb| | | ]; try (destruct a; discriminate H).
  cbn in H. destruct (Qnat qa) as [i|] eqn:Na; [|discriminate H]. destruct (Qnat qb) as [j|] eqn:Nb; [|discriminate H].
  destruct (i <=? j)%nat eqn:L; [|discriminate H]. apply Nat.leb_le in L.
  unfold sql_eval, sql_eval_on. cbn [atoms_from flag_at nth last].
  replace (enc d (SNum qa)) with (SNum qa) by (destruct d; reflexivity). replace (enc d (SNum qb)) with (SNum qb) by (destruct d; reflexivity).
  pose proof (Qnat_succ _ _ Na) as Ns.
  destruct (fix_trimstr vr) eqn:FT.
  - assert (fmt vr d "trimstr" [QAtom false "" (enc d a); QAtom true "" (SNum qa); QAtom true "" (SNum qb)]
            = Some (QFun "SUBSTR" [QAtom false "" (enc d a); QBin BAdd (lit_text "1" (SNum 1)) (QAtom true "" (SNum qa)); QBin BSub (QAtom true "" (SNum qb)) (QAtom true "" (SNum qa))])) as FM.
    { destruct d; cbn; rewrite FT; reflexivity. }
    rewrite FM. clear FM. pose proof (Qnat_sub _ _ _ _ Na Nb L) as Nd.
    destruct a; try discriminate H; inversion H; subst; clear H.
    + destruct d; cbn; finish.
    + assert (Qnat (qb + - qa) = Some (j - i)%nat) as Nd' by exact Nd.
      destruct d; cbn; rewrite Ns, Nd'; finish.
  - cbn in G. apply Qeq_bool_iff in G.
    assert (i = 0)%nat as ->. { rewrite (Qnat_comp _ _ G) in Na. change (Qnat 0) with (Some 0%nat) in Na. congruence. }
    assert (fmt vr d "trimstr" [QAtom false "" (enc d a); QAtom true "" (SNum qa); QAtom true "" (SNum qb)]
            = Some (QFun "SUBSTR" [QAtom false "" (enc d a); QBin BAdd (lit_text "1" (SNum 1)) (QAtom true "" (SNum qa)); QAtom true "" (SNum qb)])) as FM.
    { destruct d; cbn; rewrite FT; reflexivity. }
    rewrite FM. clear FM.
    destruct a; try discriminate H; inversion H; subst; clear H.
    + destruct d; cbn; finish.
    + unfold str_slice. rewrite Nat.sub_0_r. destruct d; cbn; rewrite Ns, Nb; finish. Qed.

(* ---------------------------------------------------------------- is_in and mapv: literal collections of any size *)
Lemma flag_tail i : flag_at [false; true] (S i) = true.
Proof. destruct i as [|[|k]]; reflexivity. Qed.
Lemma atoms_all_lit d i l : all_lit (atoms_from d [false; true] (S i) l) = true.
Proof. revert i. induction l as [|v t IH]; intros i; [reflexivity|]. cbn [atoms_from all_lit forallb]. rewrite flag_tail.
  apply (IH (S i)). Qed.
Lemma atoms_sem d vr lits i l : all_some (map (sem mf mf2 d vr) (atoms_from d lits i l)) = Some (map (enc d) l).
Proof. revert i. induction l as [|v t IH]; intros i; [reflexivity|]. cbn [atoms_from map sem all_some]. rewrite IH. reflexivity. Qed.
Lemma cmp3_enc_eq d a b c : cmp3 a b = Some c -> cmp3 (enc d a) (enc d b) = Some c.
Proof. intros H. destruct (cmp3_enc d a b c H) as [c' [E ->]]. exact E. Qed.
Lemma mem_cmp_enc d x l bres : mem_cmp x l = Some bres -> mem_cmp (enc d x) (map (enc d) l) = Some bres.
Proof. revert bres. induction l as [|e t IH]; intros bres H; [exact H|]. cbn [mem_cmp map] in *.
  destruct (cmp3 x e) as [c|] eqn:C; [|discriminate H]. destruct (mem_cmp x t) as [rt|] eqn:M; [|discriminate H].
  rewrite (cmp3_enc_eq d _ _ _ C), (IH _ eq_refl). exact H. Qed.
Lemma enc_present d x : missing x = false -> enc d x <> SNull.
Proof. destruct d, x; cbn; try discriminate; try destruct b; discriminate. Qed.
Lemma sql_is_in vr d : documented_sql vr d "is_in" [false; true] anyargs.
Proof. intros args r _ H. change (spec_method mf mf2 "is_in") with spec_is_in in H.
  destruct args as [|x elems]; [discriminate H|]. cbn in H. destruct (missing x) eqn:Mx; [discriminate H|].
  destruct (mem_cmp x elems) as [bres|] eqn:M; [|discriminate H]. cbn in H. inversion H; subst; clear H.
  unfold sql_eval, sql_eval_on. cbn [atoms_from].
  assert (fmt vr d "is_in" (QAtom (flag_at [false; true] 0) "" (enc d x) :: atoms_from d [false; true] 1 elems)
          = Some (QParen (QIn (QAtom false "" (enc d x)) (atoms_from d [false; true] 1 elems)))) as FM.
  { destruct d; cbn; rewrite atoms_all_lit; reflexivity. }
  rewrite FM. cbn [sem]. rewrite atoms_sem. rewrite (mem_cmp_enc d _ _ _ M).
  pose proof (enc_present d x Mx) as NN. destruct (enc d x); try (exfalso; apply NN; reflexivity);
    cbn; (eexists; split; [reflexivity | apply mkb_eqv]). Qed.

Lemma truth_mkb d b : truth d (mkb d b) = Some (Some b).
Proof. destruct d, b; reflexivity. Qed.
(* one step of the simple CASE, named so that the induction can use it *)
Lemma caseof_step d vr a k t ws e :
  sem mf mf2 d vr (QCaseOf a ((k, t) :: ws) e) =
  match sem mf mf2 d vr a with
  | Some vs => match sem mf mf2 d vr k with
               | Some vk => match sql_cmp d CEq vs vk with
                            | Some rr => match truth d rr with
                                         | Some (Some true) => sem mf mf2 d vr t
                                         | Some _ => sem mf mf2 d vr (QCaseOf a ws e)
                                         | None => None end
                            | None => None end
               | None => None end
  | None => None end.
Proof. cbn [sem]. destruct (sem mf mf2 d vr a); reflexivity. Qed.
Lemma sem_atom d vr l t v : sem mf mf2 d vr (QAtom l t v) = Some v.
Proof. reflexivity. Qed.
Lemma caseof_nil d vr a e v : sem mf mf2 d vr a = Some v -> sem mf mf2 d vr (QCaseOf a [] e) = sem mf mf2 d vr e.
Proof. intros E. cbn [sem]. rewrite E. reflexivity. Qed.
(* key / value lists are taken two elements at a time *)
Lemma list_pair_ind {A} (P : list A -> Prop) :
  P [] -> (forall k, P [k]) -> (forall k v t, P t -> P (k :: v :: t)) -> forall l, P l.
Proof. intros H0 H1 H2. fix IH 1. intros [|k [|v t]]; [exact H0 | apply H1 | apply H2, IH]. Qed.
Lemma pair_up_even d i kv : Nat.even (List.length kv) = true -> exists ws, pair_up (atoms_from d [false; true] i kv) = Some ws.
Proof. revert i. induction kv as [|k|k v t IH] using list_pair_ind; intros i E; cbn in E.
  - eexists; reflexivity.
  - discriminate E.
  - destruct (IH (S (S i)) E) as [ws P]. cbn [atoms_from pair_up]. rewrite P. eexists; reflexivity. Qed.
Lemma mapv_null_scrutinee d vr i kv dflt ws :
  pair_up (atoms_from d [false; true] i kv) = Some ws ->
  sem mf mf2 d vr (QCaseOf (QAtom false "" SNull) ws dflt) = sem mf mf2 d vr dflt.
Proof. revert i ws. induction kv as [|k|k v t IH] using list_pair_ind; intros i ws P; cbn in P.
  - inversion P; subst. reflexivity.
  - discriminate P.
  - destruct (pair_up (atoms_from d [false; true] (S (S i)) t)) as [ws'|] eqn:P'; [|discriminate P]. cbn in P. inversion P; subst; clear P.
    rewrite caseof_step. rewrite !sem_atom. cbn [sql_cmp]. replace (truth d SNull) with (Some (@None bool)) by (destruct d; reflexivity).
    eapply IH, P'. Qed.
Lemma mapv_lookup d vr x i kv dflt ws r :
  missing x = false -> map_lookup x kv dflt = Some r ->
  pair_up (atoms_from d [false; true] i kv) = Some ws ->
  exists r', sem mf mf2 d vr (QCaseOf (QAtom false "" (enc d x)) ws (QAtom true "" (enc d dflt))) = Some r' /\ sv_eqv r' r.
Proof. intros Mx. revert i ws r. induction kv as [|k|k v t IH] using list_pair_ind; intros i ws r L P; cbn in P, L.
  - inversion P; inversion L; subst. cbn. finish.
  - discriminate L.
  - destruct (pair_up (atoms_from d [false; true] (S (S i)) t)) as [ws'|] eqn:P'; [|discriminate P]. cbn in P. inversion P; subst; clear P.
    destruct (cmp3 x k) as [c|] eqn:C; [|discriminate L].
    rewrite caseof_step. rewrite !sem_atom. unfold sql_cmp.
    pose proof (enc_present d x Mx) as NN.
    assert (missing k = false) as Mk. { destruct x, k; cbn in C; try discriminate C; reflexivity. }
    pose proof (enc_present d k Mk) as NK.
    rewrite (cmp3_enc_eq d _ _ _ C). cbn [option_map].
    destruct (enc d x) eqn:Ex; try (exfalso; apply NN; reflexivity);
    destruct (enc d k) eqn:Ek; try (exfalso; apply NK; reflexivity);
    rewrite truth_mkb; cbn [cmp_test]; destruct (is_Eq c);
      try (inversion L; subst; eexists; split; [reflexivity | apply enc_eqv]);
      try (eapply IH; [exact L | exact P']). Qed.
Lemma sql_mapv vr d : documented_sql vr d "mapv" [false; true] anyargs.
Proof. intros args r _ H. change (spec_method mf mf2 "mapv") with spec_mapv in H.
  destruct args as [|x [|dflt kv]]; try discriminate H. cbn in H.
  destruct (Nat.even (List.length kv)) eqn:EV; [|discriminate H]. cbn in H.
  unfold sql_eval, sql_eval_on. cbn [atoms_from flag_at nth last].
  assert (all_lit (QAtom true "" (enc d dflt) :: atoms_from d [false; true] 2 kv) = true) as AL.
  { cbn [all_lit forallb]. apply (atoms_all_lit d 1 kv). }
  destruct (pair_up_even d 2 kv EV) as [ws P].
  assert (fmt vr d "mapv" (QAtom false "" (enc d x) :: QAtom true "" (enc d dflt) :: atoms_from d [false; true] 2 kv)
          = Some (match ws with [] => QAtom true "" (enc d dflt) | _ => QCaseOf (QAtom false "" (enc d x)) ws (QAtom true "" (enc d dflt)) end)) as FM.
  { destruct d; cbn -[all_lit pair_up]; rewrite AL, P; destruct ws; reflexivity. }
  rewrite FM. clear FM.
  destruct (missing x) eqn:Mx.
  - inversion H; subst; clear H.
    assert (enc d x = SNull) as Ex by (destruct d, x; try discriminate Mx; reflexivity).
    destruct ws as [|w ws']; [cbn; finish|].
    rewrite Ex. rewrite (mapv_null_scrutinee d vr 2 kv _ _ P). cbn. finish.
  - destruct ws as [|w ws'].
    + destruct kv as [|k [|v t]]; cbn in P; try discriminate P.
      * cbn in H. inversion H; subst. cbn. finish.
      * destruct (pair_up (atoms_from d [false; true] 4 t)); discriminate P.
    + eapply mapv_lookup; [exact Mx | exact H | exact P]. Qed.
End SQL.
