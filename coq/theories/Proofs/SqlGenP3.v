(* SQLGEN, part 3: a SELECT without aggregation computed explicitly, row by row (a plain item -- column, renamed column, row-wise
   expression -- from the row, a window item looked up by the row's position), the unary step built on it, and the bridge to
   C10's per-node pruning lemma. *)
From Coq Require Import List Bool String.
Import ListNotations.
From DA Require Import Base.PyRT Base.Val Model.Sem Proofs.SemBasicP Model.ColumnsUsed Proofs.ColumnsUsedP1 Proofs.ColumnsUsedP2
  Proofs.ColumnsUsedP3 Proofs.ColumnsUsedP4 Model.SqlGen Model.SqlSem Proofs.SqlGenP1 Proofs.SqlGenP2 Proofs.TabP.
Local Open Scope list_scope.

Definition scalar_term (t : tterm) : bool :=
  match t with TmPass | TmSelf | TmCol _ | TmExpr _ => true | _ => false end.

(* a key without an entry reads as TmPass *)
Lemma term_of_all (P : tterm -> Prop) (tms : terms) : P TmPass -> (forall kt, In kt tms -> P (snd kt)) -> forall k, P (term_of tms k).
Proof. intros H0 H k. unfold term_of. destruct (dict_get tms k) as [t|] eqn:G; [|exact H0]. apply dict_get_In in G. exact (H _ G). Qed.

Lemma existsb_false_map {A B} (f : B -> bool) (g : A -> B) l : (forall x, In x l -> f (g x) = false) -> existsb f (map g l) = false.
Proof. induction l as [|a t IH]; intros H; simpl; [reflexivity|]. rewrite (H a (or_introl eq_refl)). apply IH. intros x I. apply H. right. exact I. Qed.

Lemma map_tag_from {A} (f : list val -> A) n l : map (fun ir => f (snd ir)) (tag_from n l) = map f l.
Proof. revert n. induction l as [|x t IH]; intros n; simpl; [reflexivity|]. rewrite IH. reflexivity. Qed.

Section Rowwise.
Variable fl : flavor.

(* one item for the row r at position i of the input t *)
Definition win_item (t : table) (i : nat) (r : list val) (kt : string * tterm) : val :=
  match snd kt with
  | TmWin ex part okeys => lookup_pos (sql_window_column fl part okeys t ex) i
  | tm => eval_item fl (cols t) r (fst kt) tm
  end.

Lemma win_item_plain t i r k tm : is_win_term tm = false -> win_item t i r (k, tm) = eval_item fl (cols t) r k tm.
Proof. destruct tm; simpl; intros H; try discriminate; reflexivity. Qed.

Lemma select_rows_of_unfold t items rs :
  select_rows_of fl t items rs = map (fun ir => map (win_item t (fst ir) (snd ir)) items) rs.
Proof.
  unfold select_rows_of. apply map_ext. intros [i r]. cbn [fst snd].
  induction items as [|[k tm] it IH]; [reflexivity|]. cbn [map combine]. f_equal; [|exact IH].
  unfold win_item. cbn [fst snd]. destruct tm; reflexivity.
Qed.

(* the terms and the suffix make a SELECT that works row by row: no aggregate, and window items only without WHERE / ORDER BY *)
Definition rowwise (sfx : tsuffix) (tms : terms) : Prop :=
  not_group sfx = true /\ (forall k, is_agg_term (term_of tms k) = false) /\
  (sfx = SfxNone \/ forall k, is_win_term (term_of tms k) = false).

Lemma scalar_flags t : scalar_term t = true -> is_agg_term t = false /\ is_win_term t = false.
Proof. destruct t; simpl; intros H; try discriminate; split; reflexivity. Qed.
Lemma rowwise_scalar sfx (tms : terms) : not_group sfx = true -> (forall kt, In kt tms -> scalar_term (snd kt) = true) -> rowwise sfx tms.
Proof.
  intros NG HS. pose proof (term_of_all (fun t => scalar_term t = true) tms eq_refl HS) as H.
  split; [exact NG|]. split; [|right]; intros k; apply (scalar_flags _ (H k)).
Qed.
Lemma rowwise_nonagg (tms : terms) : (forall kt, In kt tms -> is_agg_term (snd kt) = false) -> rowwise SfxNone tms.
Proof. intros H. split; [reflexivity|]. split; [exact (term_of_all (fun t => is_agg_term t = false) tms eq_refl H)|left; reflexivity]. Qed.

Lemma rowwise_select own tms K sfx t : rowwise sfx tms -> K <> [] ->
  sql_select fl own (Some tms) (Some K) sfx t
  = Some (mktable K (map (fun ir => map (fun k => win_item t (fst ir) (snd ir) (k, term_of tms k)) K) (tag_from 0 (sfx_rows fl sfx t)))).
Proof.
  intros [NG [NA NW]] NE. unfold sql_select. rewrite select_keys_some by exact NE.
  rewrite (existsb_false_map (fun kt => is_agg_term (snd kt)) (item_of_terms tms) K (fun k _ => NA k)).
  assert (forall rs, select_rows_of fl t (map (item_of_terms tms) K) rs
                     = map (fun ir => map (fun k => win_item t (fst ir) (snd ir) (k, term_of tms k)) K) rs) as ER.
  { intros rs. rewrite select_rows_of_unfold. apply map_ext. intros ir. apply map_map. }
  destruct sfx as [|x|gb|keys lim]; try discriminate NG; cbn [orb sfx_rows].
  - rewrite ER. reflexivity.
  - destruct NW as [NW|NW]; [discriminate NW|]. rewrite (existsb_false_map (fun kt => is_win_term (snd kt)) (item_of_terms tms) K (fun k _ => NW k)), ER. reflexivity.
  - destruct NW as [NW|NW]; [discriminate NW|]. rewrite (existsb_false_map (fun kt => is_win_term (snd kt)) (item_of_terms tms) K (fun k _ => NW k)), ER. reflexivity.
Qed.

(* selecting C inside a selection K gives the projection on C *)
Lemma rowwise_sub own tms sfx K C t R : rowwise sfx tms -> C <> [] -> incl C K ->
  sql_select fl own (Some tms) (Some K) sfx t = Some R -> sql_select fl own (Some tms) (Some C) sfx t = Some (sel C R).
Proof.
  intros RW NC ICK E.
  assert (K <> []) as NK by (intros ->; destruct C as [|c0 C']; [congruence|destruct (ICK c0 (or_introl eq_refl))]).
  rewrite (rowwise_select own tms K sfx t RW NK) in E. injection E as <-.
  rewrite (rowwise_select own tms C sfx t RW NC). f_equal. unfold sem_select_cols. cbn [cols rows]. f_equal. rewrite map_map.
  apply map_ext. intros ir. apply map_ext_in. intros k Ik. symmetry. apply (get_map_in (fun k0 => win_item t (fst ir) (snd ir) (k0, term_of tms k0))), ICK, Ik.
Qed.

Lemma sql_select_scalar own (tms : terms) K sfx t :
  K <> [] -> not_group sfx = true -> (forall kt, In kt tms -> scalar_term (snd kt) = true) ->
  sql_select fl own (Some tms) (Some K) sfx t
  = Some (mktable K (map (fun r => map (fun k => eval_item fl (cols t) r k (term_of tms k)) K) (sfx_rows fl sfx t))).
Proof.
  intros NE NG HS. rewrite (rowwise_select own tms K sfx t (rowwise_scalar sfx tms NG HS) NE). f_equal. f_equal.
  rewrite <- (map_tag_from (fun r => map (fun k => eval_item fl (cols t) r k (term_of tms k)) K) 0).
  apply map_ext. intros ir. apply map_ext. intros k. apply win_item_plain.
  apply (scalar_flags _ (term_of_all (fun t0 => scalar_term t0 = true) tms eq_refl HS k)).
Qed.

End Rowwise.

Section RowwiseSteps.
Variable fl : flavor.
Variable e : env.

Lemma unary_rowwise nm tms s ci sfx mg dp X u T :
  csem fl e s ci = Some X -> tms <> [] -> NoDup (map fst tms) -> rowwise sfx tms -> incl u (map fst tms) -> incl u (cols T) ->
  List.length (sfx_rows fl sfx X) = List.length (rows T) ->
  (forall K, K <> [] -> NoDup K -> incl K u -> sql_select fl true (Some tms) (Some K) sfx X = Some (sel K T)) ->
  Delivers fl e (TUnary nm (Some tms) s ci sfx mg dp) u T.
Proof.
  intros EX NT ND RW Iu IuT L Exact. apply (unary_delivers fl e nm tms s ci sfx mg dp X u T EX NT ND Iu IuT); [|exact Exact|].
  - intros K NE _. eexists. split; [exact (rowwise_select fl true tms K sfx X RW NE)|]. cbn [rows]. rewrite map_length, tag_from_length. exact L.
  - intros K C R NC IC _. exact (rowwise_sub fl true tms sfx K C X R RW NC IC).
Qed.

Lemma fresh_rowwise sub us S nm tms sfx mg dp u T :
  Delivers fl e sub us S -> NoDup us -> tms <> [] -> NoDup (map fst tms) -> rowwise sfx tms -> incl u (map fst tms) -> incl u (cols T) ->
  (forall K, K <> [] -> NoDup K -> incl K u -> sql_select fl true (Some tms) (Some K) sfx (sel us S) = Some (sel K T)) ->
  (forall k, In k u -> incl (item_cols (k, term_of tms k)) us) -> incl (sfx_cols sfx) us ->
  List.length (sfx_rows fl sfx (sel us S)) = List.length (rows T) ->
  Delivers fl e (TUnary nm (Some tms) sub (mk_tci (Some us) false None) sfx mg dp) u T.
Proof.
  intros D Nus NT ND RW Iu IuT Hex Hloc Hsfx L.
  apply (fresh_unary fl e (fun A => List.length (sfx_rows fl sfx A)) sub us S); try assumption.
  - intros K A NE _. eexists. split; [exact (rowwise_select fl true tms K sfx A RW NE)|]. cbn [rows]. rewrite map_length. apply tag_from_length.
  - intros A B R. exact (F2_length _ _ _ (sfx_rows_local fl us sfx A B R Hsfx)).
  - intros K C A R NC IC _. exact (rowwise_sub fl true tms sfx K C A R RW NC IC).
Qed.

End RowwiseSteps.

(* ------------------------------------------------------------------ C10's pruning lemma, as an equation between projections *)
Lemma prune_node fl e n s us' u S (F : table -> table) :
  builder_ok n = true -> sources n = [s] -> incl u (column_names n) -> sem_gen fl s e = Some S ->
  sem_gen fl n e = Some (F S) -> sem_gen fl (with_sources n [OSelectCols s us']) e = Some (F (sel us' S)) ->
  (forall x, In x (cfs1 n u) -> In x us') -> incl us' (column_names s) ->
  forall K, incl K u -> sel K (F S) = sel K (F (sel us' S)).
Proof.
  intros BO Sr Iu ES ET ET1 Hus Ic K IK. rewrite <- (sem_cols fl s e S ES) in Ic.
  pose proof (node_step fl e e n [OSelectCols s us'] u BO Iu) as NS. rewrite Sr in NS.
  assert (out_agree (cfs1 n u) (sem_gen fl s e) (sem_gen fl (OSelectCols s us') e)) as OA.
  { simpl. rewrite ES. simpl. destruct (agree_self_sel us' S Ic) as [A [B C]]. split; [exact A|]. split.
    - intros c Hc _. apply Hus, Hc.
    - eapply F2_weaken; [exact C|]. intros r r' R c Hc. apply R, Hus, Hc. }
  specialize (NS OA). unfold out_agree in NS. rewrite ET, ET1 in NS. eapply agree_sel; eassumption.
Qed.
