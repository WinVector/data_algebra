(* Order and permutation facts about Model/Sem.v that most families build on: the comparators are total preorders, stable_sort
   sorts and permutes, order_rows, and the steps under a permutation of the rows of their input (the *_perm lemmas, C18). *)
From Coq Require Import List Bool QArith String Lia Permutation Sorted.
Import ListNotations.
From DA Require Import Base.PyRT Base.Val Model.Sem Proofs.ListP.

Lemma qle_bool_total x y : Qle_bool x y = true \/ Qle_bool y x = true.
Proof. destruct (Qlt_le_dec x y) as [h|h]; [left; apply Qle_bool_iff, Qlt_le_weak, h | right; apply Qle_bool_iff, h]. Qed.
Lemma qle_bool_trans x y z : Qle_bool x y = true -> Qle_bool y z = true -> Qle_bool x z = true.
Proof. rewrite !Qle_bool_iff. apply Qle_trans. Qed.
Lemma qeq_bool_refl x : Qeq_bool x x = true.
Proof. apply Qeq_bool_iff. reflexivity. Qed.
Lemma qeq_eq_l x y z : Qeq_bool x y = true -> Qeq_bool x z = Qeq_bool y z.
Proof. intros h. apply Qeq_bool_iff in h. apply eq_true_iff_eq. rewrite !Qeq_bool_iff. rewrite h. reflexivity. Qed.
Lemma qeq_le_l x y z : Qeq_bool x y = true -> Qle_bool x z = Qle_bool y z.
Proof. intros h. apply Qeq_bool_iff in h. apply eq_true_iff_eq. rewrite !Qle_bool_iff. rewrite h. reflexivity. Qed.
Lemma qeq_le_r x y z : Qeq_bool x y = true -> Qle_bool z x = Qle_bool z y.
Proof. intros h. apply Qeq_bool_iff in h. apply eq_true_iff_eq. rewrite !Qle_bool_iff. rewrite h. reflexivity. Qed.
Lemma q_antisym x y : Qeq_bool x y = false -> Qle_bool x y = true -> Qle_bool y x = true -> False.
Proof. intros e h1 h2. apply Qle_bool_iff in h1, h2. assert (Qeq_bool x y = true) as E by (apply Qeq_bool_iff, Qle_antisym; assumption). congruence. Qed.
Lemma q_antisym' x y : Qeq_bool y x = false -> Qle_bool x y = true -> Qle_bool y x = true -> False.
Proof. rewrite Qeq_bool_comm. apply q_antisym. Qed.

Lemma scompare_le_trans a : forall b c, String.compare a b <> Gt -> String.compare b c <> Gt -> String.compare a c <> Gt.
Proof.
  induction a as [|x a IH]; intros [|y b] [|z c]; simpl; try congruence.
  unfold Ascii.compare.
  destruct (N.compare_spec (Ascii.N_of_ascii x) (Ascii.N_of_ascii y));
  destruct (N.compare_spec (Ascii.N_of_ascii y) (Ascii.N_of_ascii z));
  destruct (N.compare_spec (Ascii.N_of_ascii x) (Ascii.N_of_ascii z));
  try congruence; try lia; intros; eauto.
Qed.
Lemma sleb_trans a b c : String.leb a b = true -> String.leb b c = true -> String.leb a c = true.
Proof. unfold String.leb. intros h1 h2.
  assert (String.compare a c <> Gt) as N.
  { apply (scompare_le_trans a b c).
    - destruct (String.compare a b); congruence.
    - destruct (String.compare b c); congruence. }
  destruct (String.compare a c); congruence. Qed.
Lemma seqb_eq_l x y z : String.eqb x y = true -> String.eqb x z = String.eqb y z.
Proof. intros h. apply String.eqb_eq in h. subst. reflexivity. Qed.
Lemma seqb_le_l x y z : String.eqb x y = true -> String.leb x z = String.leb y z.
Proof. intros h. apply String.eqb_eq in h. subst. reflexivity. Qed.
Lemma seqb_le_r x y z : String.eqb x y = true -> String.leb z x = String.leb z y.
Proof. intros h. apply String.eqb_eq in h. subst. reflexivity. Qed.
Lemma s_antisym x y : String.eqb x y = false -> String.leb x y = true -> String.leb y x = true -> False.
Proof. intros e h1 h2. rewrite (String.leb_antisym _ _ h1 h2), String.eqb_refl in e. discriminate. Qed.
Lemma s_antisym' x y : String.eqb y x = false -> String.leb x y = true -> String.leb y x = true -> False.
Proof. rewrite String.eqb_sym. apply s_antisym. Qed.

Ltac dval a := destruct a as [|[|]|?|?|?].
Ltac vred := unfold v_le_dir, v_le, v_eqv, num_of; cbv beta iota.

(* ---------- the comparators are total preorders *)
Lemma v_le_total a b : v_le a b = true \/ v_le b a = true.
Proof. dval a; dval b; vred; auto using qle_bool_total, String.leb_total. Qed.
Lemma v_le_trans a b c : v_le a b = true -> v_le b c = true -> v_le a c = true.
Proof. dval a; dval b; dval c; vred; intros; try discriminate; try reflexivity; eauto using qle_bool_trans, sleb_trans. Qed.
Lemma v_le_dir_total nf d a b : v_le_dir nf d a b = true \/ v_le_dir nf d b a = true.
Proof. destruct nf; destruct d; dval a; dval b; vred; auto using qle_bool_total, String.leb_total. Qed.
Lemma v_le_dir_trans nf d a b c : v_le_dir nf d a b = true -> v_le_dir nf d b c = true -> v_le_dir nf d a c = true.
Proof. destruct nf; destruct d; dval a; dval b; dval c; vred; intros; try discriminate; try reflexivity; eauto using qle_bool_trans, sleb_trans. Qed.

Lemma v_le_dir_nonnull nf nf' d a b : is_null a = false -> is_null b = false -> v_le_dir nf d a b = v_le_dir nf' d a b.
Proof. destruct a, b; simpl; intros; try discriminate; reflexivity. Qed.

(* v_eqv is an equivalence compatible with v_le_dir *)
Lemma v_eqv_refl a : v_eqv a a = true.
Proof. dval a; vred; auto using qeq_bool_refl, String.eqb_refl. Qed.
Lemma v_eqv_sym a b : v_eqv a b = v_eqv b a.
Proof. dval a; dval b; vred; auto using Qeq_bool_comm, String.eqb_sym. Qed.
Lemma v_eqv_cong_l a b c : v_eqv a b = true -> v_eqv a c = v_eqv b c.
Proof. dval a; dval b; dval c; vred; intros; try discriminate; try reflexivity; auto using qeq_eq_l, seqb_eq_l. Qed.
Lemma v_eqv_cong_r a b c : v_eqv a b = true -> v_eqv c a = v_eqv c b.
Proof. intros h. rewrite (v_eqv_sym c a), (v_eqv_sym c b). apply v_eqv_cong_l, h. Qed.
Lemma v_le_dir_cong_l nf d a b c : v_eqv a b = true -> v_le_dir nf d a c = v_le_dir nf d b c.
Proof. destruct nf; destruct d; dval a; dval b; dval c; vred; intros; try discriminate; try reflexivity; auto using qeq_le_l, qeq_le_r, seqb_le_l, seqb_le_r. Qed.
Lemma v_le_dir_cong_r nf d a b c : v_eqv a b = true -> v_le_dir nf d c a = v_le_dir nf d c b.
Proof. destruct nf; destruct d; dval a; dval b; dval c; vred; intros; try discriminate; try reflexivity; auto using qeq_le_l, qeq_le_r, seqb_le_l, seqb_le_r. Qed.
Lemma v_le_dir_antisym nf d a b : v_eqv a b = false -> v_le_dir nf d a b = true -> v_le_dir nf d b a = true -> False.
Proof. destruct nf; destruct d; dval a; dval b; vred; intros E H1 H2; try discriminate;
  first [exact (q_antisym _ _ E H1 H2) | exact (q_antisym' _ _ E H1 H2) | exact (s_antisym _ _ E H1 H2) | exact (s_antisym' _ _ E H1 H2)]. Qed.

Lemma row_le_total fl cs keys r1 r2 : row_le fl cs keys r1 r2 = true \/ row_le fl cs keys r2 r1 = true.
Proof.
  induction keys as [|[c d] t IH]; simpl; [left; reflexivity|].
  rewrite (v_eqv_sym (get cs r2 c) (get cs r1 c)).
  destruct (v_eqv (get cs r1 c) (get cs r2 c)); [exact IH | apply v_le_dir_total].
Qed.
Lemma row_le_refl fl cs keys r : row_le fl cs keys r r = true.
Proof. destruct (row_le_total fl cs keys r r); assumption. Qed.

Lemma row_le_trans fl cs keys r1 r2 r3 : row_le fl cs keys r1 r2 = true -> row_le fl cs keys r2 r3 = true -> row_le fl cs keys r1 r3 = true.
Proof.
  induction keys as [|[c d] t IH]; simpl; [reflexivity|].
  set (a := get cs r1 c). set (b := get cs r2 c). set (x := get cs r3 c).
  destruct (v_eqv a b) eqn:Eab; destruct (v_eqv b x) eqn:Ebx; intros H1 H2.
  - rewrite (v_eqv_cong_l a b x Eab), Ebx. auto.
  - rewrite (v_eqv_cong_l a b x Eab), Ebx. rewrite (v_le_dir_cong_l _ d a b x Eab). exact H2.
  - rewrite <- (v_eqv_cong_r b x a Ebx), Eab. rewrite <- (v_le_dir_cong_r _ d b x a Ebx). exact H1.
  - destruct (v_eqv a x) eqn:Eax.
    + exfalso. apply (v_le_dir_antisym _ d b x Ebx H2).
      rewrite <- (v_le_dir_cong_l _ d a x b Eax). exact H1.
    + eapply v_le_dir_trans; eassumption.
Qed.

Lemma perm_flat_map2 {A B} (f g : A -> list B) l l' :
  (forall x, Permutation (f x) (g x)) -> Permutation l l' -> Permutation (flat_map f l) (flat_map g l').
Proof. intros E P. eapply perm_trans; [apply perm_flat_map_ext; intros x _; apply E | apply Permutation_flat_map, P]. Qed.
Lemma perm_existsb {A} (f : A -> bool) l l' : Permutation l l' -> existsb f l = existsb f l'.
Proof.
  intros P. apply eq_true_iff_eq. rewrite !existsb_exists.
  split; intros [x [I E]]; exists x; split; auto.
  - eapply Permutation_in; eassumption.
  - eapply Permutation_in; [apply Permutation_sym|]; eassumption.
Qed.
Lemma Forall_firstn {A} (P : A -> Prop) n : forall l, Forall P l -> Forall P (firstn n l).
Proof. induction n as [|n IH]; intros l F; simpl; [constructor|]. destruct F; constructor; auto. Qed.
Lemma firstn_sorted {A} (R : A -> A -> Prop) n : forall l, StronglySorted R l -> StronglySorted R (firstn n l).
Proof. induction n as [|n IH]; intros l S; simpl; [constructor|]. destruct S; constructor; auto using Forall_firstn. Qed.

(* ---------- stable_sort sorts and permutes *)
Section SortFacts.
  Context {A : Type} (le : A -> A -> bool).
  Hypothesis le_total : forall a b, le a b = true \/ le b a = true.
  Hypothesis le_trans : forall a b c, le a b = true -> le b c = true -> le a c = true.

  Lemma insert_sorted_perm x l : Permutation (insert_sorted le x l) (x :: l).
  Proof.
    induction l as [|y t IH]; simpl; [apply Permutation_refl|].
    destruct (le x y); [apply Permutation_refl|].
    eapply perm_trans; [apply perm_skip, IH | apply perm_swap].
  Qed.

  Lemma stable_sort_perm l : Permutation (stable_sort le l) l.
  Proof.
    induction l as [|a t IH]; simpl; [constructor|].
    eapply perm_trans; [apply insert_sorted_perm | apply perm_skip, IH].
  Qed.

  Lemma insert_sorted_sorted x l :
    StronglySorted (fun a b => le a b = true) l -> StronglySorted (fun a b => le a b = true) (insert_sorted le x l).
  Proof.
    induction 1 as [|y t S IH F]; simpl; [repeat constructor|].
    destruct (le x y) eqn:E.
    - constructor; [constructor; assumption|].
      constructor; [exact E|]. rewrite Forall_forall in *. intros z I. eapply le_trans; [exact E | apply F, I].
    - constructor; [exact IH|].
      rewrite Forall_forall in *. intros z I.
      apply (Permutation_in _ (insert_sorted_perm x t)) in I. destruct I as [<-|I]; [|apply F, I].
      destruct (le_total x y) as [h|h]; [congruence|exact h].
  Qed.

  Lemma stable_sort_sorted l : StronglySorted (fun a b => le a b = true) (stable_sort le l).
  Proof. induction l as [|a t IH]; simpl; [constructor|]. apply insert_sorted_sorted, IH. Qed.

  Lemma sorted_perm_unique l : forall l',
    StronglySorted (fun a b => le a b = true) l -> StronglySorted (fun a b => le a b = true) l' ->
    Permutation l l' ->
    (forall a b, In a l -> In b l -> le a b = true -> le b a = true -> a = b) ->
    l = l'.
  Proof.
    induction l as [|x t IH]; intros l' S S' P AS.
    - apply Permutation_nil in P. congruence.
    - destruct l' as [|y u]; [apply Permutation_sym, Permutation_nil in P; discriminate|].
      inversion S as [|? ? St Ft]; subst. inversion S' as [|? ? Su Fu]; subst.
      rewrite Forall_forall in Ft, Fu.
      assert (In y (x :: t)) as Iy by (eapply Permutation_in; [apply Permutation_sym, P | left; reflexivity]).
      assert (In x (y :: u)) as Ix by (eapply Permutation_in; [apply P | left; reflexivity]).
      assert (x = y) as E.
      { destruct Iy as [e|Iy']; [exact e|]. destruct Ix as [e|Ix']; [symmetry; exact e|].
        apply AS; [left; reflexivity | right; exact Iy' | apply Ft, Iy' | apply Fu, Ix']. }
      subst y. f_equal. apply IH; auto.
      + eapply Permutation_cons_inv, P.
      + intros a b Ia Ib. apply AS; right; assumption.
  Qed.

  (* when no two DIFFERENT elements are tied, the sorted list does not depend on the input order *)
  Lemma stable_sort_perm_invariant l l' :
    Permutation l l' ->
    (forall a b, In a l -> In b l -> le a b = true -> le b a = true -> a = b) ->
    stable_sort le l = stable_sort le l'.
  Proof.
    intros P AS. apply sorted_perm_unique; try apply stable_sort_sorted.
    - eapply perm_trans; [apply stable_sort_perm|]. eapply perm_trans; [exact P|]. apply Permutation_sym, stable_sort_perm.
    - intros a b Ia Ib. apply AS; eapply Permutation_in; try eassumption; apply stable_sort_perm.
  Qed.
End SortFacts.

(* ---------- order_rows: sorted by the given columns with the given reversals; limit = the first `limit` rows of that order *)
Lemma order_rows_sorted fl cs rev lim t :
  StronglySorted (fun r1 r2 => row_le fl (cols t) (map (fun c => (c, mem c rev)) cs) r1 r2 = true) (rows (sem_order fl cs rev lim t)).
Proof.
  unfold sem_order; simpl.
  assert (StronglySorted (fun r1 r2 => row_le fl (cols t) (map (fun c => (c, mem c rev)) cs) r1 r2 = true)
            (stable_sort (row_le fl (cols t) (map (fun c => (c, mem c rev)) cs)) (rows t))) as S.
  { apply stable_sort_sorted; [intros; apply row_le_total | intros; eapply row_le_trans; eassumption]. }
  destruct lim; [apply firstn_sorted, S | exact S].
Qed.
Lemma order_rows_is_permutation fl cs rev t : Permutation (rows (sem_order fl cs rev None t)) (rows t).
Proof. unfold sem_order; simpl. apply stable_sort_perm. Qed.
Lemma order_rows_limit fl cs rev n t : rows (sem_order fl cs rev (Some n) t) = firstn n (rows (sem_order fl cs rev None t)).
Proof. reflexivity. Qed.
Lemma order_rows_keeps_columns fl cs rev lim t : cols (sem_order fl cs rev lim t) = cols t.
Proof. reflexivity. Qed.

(* with a total order on the data the ordered result does not depend on the input row order *)
Definition total_on (fl : flavor) (cs : list string) (keys : list (string * bool)) (rs : list (list val)) : Prop :=
  forall r1 r2, In r1 rs -> In r2 rs -> row_le fl cs keys r1 r2 = true -> row_le fl cs keys r2 r1 = true -> r1 = r2.
Lemma order_rows_input_order_irrelevant fl cs rev lim t t' :
  cols t = cols t' -> Permutation (rows t) (rows t') ->
  total_on fl (cols t) (map (fun c => (c, mem c rev)) cs) (rows t) ->
  sem_order fl cs rev lim t = sem_order fl cs rev lim t'.
Proof.
  intros C P T. unfold sem_order. rewrite <- C.
  rewrite (stable_sort_perm_invariant (row_le fl (cols t) (map (fun c => (c, mem c rev)) cs))
             (row_le_total _ _ _) (row_le_trans _ _ _) (rows t) (rows t') P T).
  reflexivity.
Qed.

(* ---------- row-order independence of the row-wise steps (results as multisets) *)
Lemma extend_perm fl ops t t' : cols t = cols t' -> Permutation (rows t) (rows t') ->
  cols (sem_extend fl ops t) = cols (sem_extend fl ops t') /\ Permutation (rows (sem_extend fl ops t)) (rows (sem_extend fl ops t')).
Proof. intros C P. unfold sem_extend; simpl. rewrite <- C. split; [reflexivity | apply Permutation_map, P]. Qed.
Lemma select_rows_perm fl e t t' : cols t = cols t' -> Permutation (rows t) (rows t') ->
  Permutation (rows (sem_select_rows fl e t)) (rows (sem_select_rows fl e t')).
Proof. intros C P. unfold sem_select_rows; simpl. rewrite <- C. apply perm_filter, P. Qed.
Lemma select_cols_perm cs t t' : cols t = cols t' -> Permutation (rows t) (rows t') ->
  Permutation (rows (sem_select_cols cs t)) (rows (sem_select_cols cs t')).
Proof. intros C P. unfold sem_select_cols; simpl. rewrite <- C. apply Permutation_map, P. Qed.
Lemma rename_perm m t t' : Permutation (rows t) (rows t') ->
  Permutation (rows (sem_rename m t)) (rows (sem_rename m t')).
Proof. intros P. exact P. Qed.
Lemma concat_perm idc an bn a a' b b' : cols a = cols a' -> cols b = cols b' ->
  Permutation (rows a) (rows a') -> Permutation (rows b) (rows b') ->
  Permutation (rows (sem_concat idc an bn a b)) (rows (sem_concat idc an bn a' b')).
Proof.
  intros Ca Cb Pa Pb. unfold sem_concat. rewrite <- Ca, <- Cb.
  destruct idc; simpl; apply Permutation_app; repeat apply Permutation_map; assumption.
Qed.
Lemma join_perm nm on_a on_b jt a a' b b' : cols a = cols a' -> cols b = cols b' ->
  Permutation (rows a) (rows a') -> Permutation (rows b) (rows b') ->
  Permutation (rows (sem_join nm on_a on_b jt a b)) (rows (sem_join nm on_a on_b jt a' b')).
Proof.
  intros Ca Cb Pa Pb. unfold sem_join. rewrite <- Ca, <- Cb. simpl.
  apply Permutation_app; [|apply Permutation_app].
  - apply perm_flat_map2; [|exact Pa]. intros ra. apply Permutation_flat_map, Pb.
  - destruct jt; try apply Permutation_refl.
    + apply perm_flat_map2; [|exact Pa]. intros ra. rewrite (perm_existsb _ _ _ Pb). apply Permutation_refl.
    + apply perm_flat_map2; [|exact Pa]. intros ra. rewrite (perm_existsb _ _ _ Pb). apply Permutation_refl.
  - destruct jt; try apply Permutation_refl.
    + apply perm_flat_map2; [|exact Pb]. intros rb. rewrite (perm_existsb _ _ _ Pa). apply Permutation_refl.
    + apply perm_flat_map2; [|exact Pb]. intros rb. rewrite (perm_existsb _ _ _ Pa). apply Permutation_refl.
Qed.

(* an order_rows WITHOUT limit in front of a row-wise step changes nothing but the row order *)
Lemma order_then_select_rows fl cs rev e t :
  Permutation (rows (sem_select_rows fl e (sem_order fl cs rev None t))) (rows (sem_select_rows fl e t)).
Proof. apply select_rows_perm; [reflexivity | apply order_rows_is_permutation]. Qed.
Lemma order_then_extend fl cs rev ops t :
  Permutation (rows (sem_extend fl ops (sem_order fl cs rev None t))) (rows (sem_extend fl ops t)).
Proof. apply extend_perm; [reflexivity | apply order_rows_is_permutation]. Qed.

