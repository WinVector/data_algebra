(* C03, part 5: the project step of the Polars executor model computes the Pandas-flavoured sem_project on the same input
   (temporary group / constant-one columns, group_by().agg, final select, the all-null row on an empty ungrouped input);
   the frame with its temporaries and the assignment of produced columns, as the extend steps of part 6 use them too. *)
From Coq Require Import List Bool Qreduction String Permutation.
Import ListNotations.
From DA Require Import Base.PyRT Base.PyStr Base.Val Model.Sem Model.PolarsExec Proofs.SemOrderP Proofs.SemBasicP Proofs.PermP1 Proofs.PermP2
  Proofs.PolarsP1 Proofs.PolarsP2 Proofs.PolarsP3 Proofs.PolarsP4 Proofs.ListP Proofs.TabP.
Local Open Scope string_scope.
Local Open Scope list_scope.

(* ------------------------------------------------------------------ small list facts *)

Lemma distinct_keys_const {A} k (l : list A) : l <> [] -> keys_eqv k k = true -> distinct_keys (map (fun _ => k) l) = [k].
Proof.
  intros N R. destruct l as [|x t]; [congruence|]. clear N. simpl. f_equal.
  induction t as [|y t IH]; simpl; [reflexivity|]. rewrite R. simpl. rewrite IH. reflexivity.
Qed.

(* ------------------------------------------------------------------ the loop of _project_step on vocabulary aggregates *)
Definition agg_x (one : string) (e : expr) : plx := match tr_expr one false e with Ok x => x | _ => PLit VNull end.

Lemma fold_project one ops temps acc names : forallb agg_vocab (map snd ops) = true ->
  fold_left (project_fold_step one) ops (Ok (temps, acc, names)) = Ok (temps, acc ++ map (fun ke => (fst ke, agg_x one (snd ke))) ops, names).
Proof.
  revert acc. induction ops as [|ke t IH]; intros acc V; [simpl; rewrite app_nil_r; reflexivity|].
  cbn [map forallb] in V. apply andb_true_iff in V. destruct V as [V1 V2].
  destruct (agg_plx_value one (snd ke) V1) as [x [T _]].
  assert (project_fold_step one (Ok (temps, acc, names)) ke = Ok (temps, acc ++ [(fst ke, x)], names)) as S1.
  { unfold project_fold_step. cbn [rbind]. rewrite (agg_vocab_promote _ _ _ _ V1), T. reflexivity. }
  cbn [fold_left map]. rewrite S1, IH by exact V2. rewrite <- app_assoc. cbn [app]. unfold agg_x at 2. rewrite T. reflexivity.
Qed.

(* ------------------------------------------------------------------ temporary columns of a project / windowed extend *)
Lemma agg_no_zero es : forallb agg_vocab es = true -> existsb needs_zero es = false.
Proof. intros V. rewrite forallb_forall in V. apply existsb_false. intros e I. apply agg_vocab_zero, V, I. Qed.

Lemma with_columns_if_lits t temps : lit_temps temps ->
  with_columns_if t temps = mktable (ext_cols (cols t) (map fst temps)) (map (temps_row t temps) (rows t)).
Proof.
  intros LT. destruct temps as [|kx tl].
  - destruct t as [cs rs]. unfold with_columns_if, ext_cols. cbn [map fold_left cols rows]. f_equal.
    rewrite <- (map_id rs) at 1. apply map_ext. intros r. reflexivity.
  - unfold with_columns_if. unfold pl_with_columns. f_equal. apply (rows_with_lit_temps t (kx :: tl) LT).
Qed.

(* what the rest of the step needs to know about the frame with its temporaries: they are literal columns, named away
   from the names in use (85ef226), and the column of ones -- when an aggregate counts rows -- holds ones *)
Record temps_ok (temps : list (string * colx)) (used : list string) (one : string) (need_one : bool) : Prop := {
  to_lit : lit_temps temps;
  to_fresh : forall k, In k (map fst temps) -> ~ In k used;
  to_one : need_one = true -> last_for one temps = Some (one, CPlain (lit_int 1)) }.

Lemma temps_get_user t temps used one need r c : temps_ok temps used one need -> List.length r = List.length (cols t) ->
  In c used -> get (ext_cols (cols t) (map fst temps)) (temps_row t temps r) c = get (cols t) r c.
Proof.
  intros TO L I. apply temps_row_get_user; [apply (to_lit _ _ _ _ TO)|exact L|]. intros N. exact (to_fresh _ _ _ _ TO c N I).
Qed.

Lemma temps_one t temps used one need r : temps_ok temps used one need -> need = true -> List.length r = List.length (cols t) ->
  get (ext_cols (cols t) (map fst temps)) (temps_row t temps r) one = qn (inject_Z 1).
Proof. intros [LT _ O] N L. rewrite temps_row_get by assumption. rewrite (O N). reflexivity. Qed.

Lemma argval_temps t temps used one need e r : temps_ok temps used one need -> agg_vocab e = true -> List.length r = List.length (cols t) ->
  (forall c, In c (expr_cols e) -> In c used) ->
  argval e (ext_cols (cols t) (map fst temps)) (temps_row t temps r) = argval e (cols t) r.
Proof.
  intros TO V L NR. destruct (agg_vocab_shape _ V) as [[op [_ ->]]|[op [c [_ ->]]]]; [reflexivity|].
  cbn [argval eval_expr]. apply (temps_get_user t temps used one need r c TO L). apply NR. cbn. auto.
Qed.

Lemma key_of_temps t temps used one need ks r : temps_ok temps used one need -> List.length r = List.length (cols t) ->
  (forall c, In c ks -> In c used) ->
  key_of (ext_cols (cols t) (map fst temps)) ks (temps_row t temps r) = key_of (cols t) ks r.
Proof.
  intros TO L NR. unfold key_of. apply map_ext_in. intros c I. apply (temps_get_user t temps used one need r c TO L). auto.
Qed.

(* the value group_by().agg computes for one aggregate over the rows (with temporaries) of a group *)
Lemma agg_over_temps t temps used one need e grp pos :
  temps_ok temps used one need -> agg_vocab e = true -> (needs_one e = true -> need = true) ->
  (forall r, In r grp -> List.length r = List.length (cols t)) ->
  (forall c, In c (expr_cols e) -> In c used) ->
  plx_at (ext_cols (cols t) (map fst temps)) (map (temps_row t temps) grp) pos (agg_x one e) = agg_value fl_pandas (cols t) grp e.
Proof.
  intros TO V U W NR. destruct (agg_plx_value one e V) as [x [T E]]. unfold agg_x. rewrite T.
  rewrite E.
  - rewrite agg_value_unfold by exact V. f_equal. rewrite map_map. apply map_ext_in. intros r I.
    eapply argval_temps; eauto.
  - intros Uo r I. apply in_map_iff in I. destruct I as [r0 [<- I0]]. eapply (temps_one t); eauto.
Qed.

(* ------------------------------------------------------------------ the scratch names of a step *)
(* l = the step's group_by / partition_by list: when it is empty a constant stand-in column is added first *)
Lemma step_temps_ok (l : list string) base used (es : list expr) : existsb needs_zero es = false ->
  let T := fresh base used in
  let names1 := match l with [] => T :: used | _ => used end in
  let z := fresh zero_base names1 in
  let o := fresh one_base (z :: names1) in
  let temps := (match l with [] => [(T, CPlain (lit_int 1))] | _ => [] end) ++ req_temps z o es in
  temps_ok temps used o (existsb needs_one es) /\
  (l = [] -> forall t r, List.length r = List.length (cols t) ->
     key_of (ext_cols (cols t) (map fst temps)) [T] (temps_row t temps r) = [qn (inject_Z 1)]).
Proof.
  intros Z T names1 z o temps. unfold temps, req_temps. rewrite Z. cbn [app].
  assert (~ In T used) as FT by (apply fresh_not_in).
  assert (~ In o (z :: names1)) as FO by (apply fresh_not_in).
  assert (forall c, In c used -> In c names1) as Sub by (intros c I; unfold names1; destruct l; [right|]; exact I).
  assert (lit_temps ((match l with [] => [(T, CPlain (lit_int 1))] | _ => [] end) ++
                     (if existsb needs_one es then [(o, CPlain (lit_int 1))] else []))) as LT.
  { apply Forall_app. split.
    - destruct l; [|constructor]. constructor; [eexists; reflexivity|constructor].
    - destruct (existsb needs_one es); [|constructor]. constructor; [eexists; reflexivity|constructor]. }
  split; [constructor|].
  - exact LT.
  - intros k I. rewrite map_app, in_app_iff in I. destruct I as [I|I].
    + destruct l; [|destruct I]. destruct I as [<-|[]]. exact FT.
    + destruct (existsb needs_one es); [|destruct I]. destruct I as [<-|[]]. intros Iu. apply FO. right. apply Sub. exact Iu.
  - intros N. rewrite N. rewrite last_for_app. cbn [last_for fst]. destruct (eq_dec o o); [reflexivity|congruence].
  - intros -> t r L. unfold key_of. cbn [map]. f_equal. rewrite temps_row_get by assumption. rewrite last_for_app.
    destruct (existsb needs_one es); cbn [last_for fst].
    + destruct (eq_dec T o) as [E|_]; [exfalso; apply FO; right; left; exact E|].
      destruct (eq_dec T T); [reflexivity|congruence].
    + destruct (eq_dec T T); [reflexivity|congruence].
Qed.

Lemma needs_one_in (es : list expr) e : In e es -> needs_one e = true -> existsb needs_one es = true.
Proof. intros I U. apply existsb_exists. eauto. Qed.

Lemma agg_empty_null e : agg_vocab e = true -> mem (agg_of e) ["sum"; "count"; "size"; "_size"] = false ->
  agg_value fl_pandas [] [] e = VNull /\ forall cs, agg_value fl_pandas cs [] e = VNull.
Proof.
  intros V M. agg_cases V; try discriminate M; split; reflexivity.
Qed.

(* group_by(kl).agg on the frame with its temporaries, read on t: K is what the key columns kl hold in the row of r *)
Lemma group_agg_temps t temps used one kl (K : list val -> list val) (ops : list (string * expr)) r2 :
  good t -> temps_ok temps used one (existsb needs_one (map snd ops)) -> forallb agg_vocab (map snd ops) = true ->
  (forall c, In c (flat_map (fun ke => expr_cols (snd ke)) ops) -> In c used) ->
  (forall r, In r (rows t) -> key_of (ext_cols (cols t) (map fst temps)) kl (temps_row t temps r) = K r) ->
  pl_group_agg kl (map (fun ke => (fst ke, agg_x one (snd ke))) ops)
    (mktable (ext_cols (cols t) (map fst temps)) (map (temps_row t temps) (rows t))) = Ok r2 ->
  NoDup (kl ++ map fst ops) /\
  r2 = mktable (kl ++ map fst ops)
         (map (fun k => k ++ map (fun ke => agg_value fl_pandas (cols t) (filter (fun r => keys_eqv k (K r)) (rows t)) (snd ke)) ops)
              (distinct_keys (map K (rows t)))).
Proof.
  intros [ND W] TO V NR HK H. unfold pl_group_agg in H. cbn [cols rows] in H. rewrite !map_map in H. cbn [fst] in H.
  destruct (negb (nodupb _)) eqn:ENd in H; [discriminate|]. apply negb_false_iff, nodupb_NoDup in ENd.
  inversion H; subst r2; clear H. split; [exact ENd|]. f_equal.
  rewrite (map_ext_in _ _ _ HK). apply map_ext. intros k. f_equal. rewrite map_map.
  rewrite filter_map_comm, (filter_ext_in _ (fun r => keys_eqv k (K r))) by (intros r I; rewrite (HK r I); reflexivity).
  apply map_ext_in. intros ke Ike. cbn [snd].
  assert (In (snd ke) (map snd ops)) as Ie by (apply in_map; exact Ike).
  apply (agg_over_temps t temps used one _ (snd ke) _ 0%nat TO).
  - rewrite forallb_forall in V. auto.
  - apply needs_one_in, Ie.
  - intros r I. apply filter_In in I. apply width_row; tauto.
  - intros c Ic. apply NR. apply in_flat_map. exists ke. auto.
Qed.

Lemma project_step_same declared ops gb t t2 :
  good t -> declared = gb ++ map fst ops ->
  forallb agg_vocab (map snd ops) = true ->
  (forall c, In c gb \/ In c (flat_map (fun ke => expr_cols (snd ke)) ops) -> In c (cols t)) ->
  (gb = [] -> rows t = [] -> forallb (fun ke => negb (mem (agg_of (snd ke)) ["sum"; "count"; "size"; "_size"])) ops = true) ->
  pl_project_step declared (cols t) ops gb t = Ok t2 -> t2 = sem_project fl_pandas ops gb t.
Proof.
  intros [ND W] -> V NR GE H. unfold pl_project_step in H.
  set (used := cols t ++ map fst ops) in *.
  set (G := fresh project_group_base used) in *.
  destruct (step_temps_ok gb project_group_base used (map snd ops) (agg_no_zero _ V)) as [TO LG]. fold G in TO, LG.
  set (o := fresh one_base _) in *. set (temps := _ ++ req_temps _ o (map snd ops)) in *.
  assert (forall c, In c (flat_map (fun ke => expr_cols (snd ke)) ops) -> In c used) as SubU.
  { intros c I. unfold used. apply in_or_app. left. apply NR. right. exact I. }
  rewrite fold_project in H by exact V. cbn [rbind app] in H.
  rewrite (with_columns_if_lits t temps (to_lit _ _ _ _ TO)) in H.
  apply rbind_ok in H. destruct H as [r2 [H2 H]]. apply rbind_ok in H. destruct H as [r3 [H3 H]].
  destruct gb as [|g gb'].
  - (* no group_by: the constant stand-in column puts all rows into one group *)
    apply (group_agg_temps t temps used o [G] (fun _ => [qn (inject_Z 1)]) ops r2 (conj ND W) TO V SubU) in H2;
      [|intros r I; apply (LG eq_refl t r), width_row; auto].
    destruct H2 as [NDg ->]. cbn [app] in NDg. inversion NDg as [|? ? NG NDk]; subst.
    unfold select_if, temps in H3. cbn [app] in H3. apply pl_select_ok in H3. destruct H3 as [-> _].
    unfold sem_project. cbn [app]. destruct (rows t) as [|x rest] eqn:ER.
    + (* empty input: the all-null row *)
      cbn in H. inversion H; subst t2; clear H. cbn [map filter]. f_equal. f_equal. rewrite map_map.
      apply map_ext_in. intros ke Ike. symmetry.
      specialize (GE eq_refl eq_refl). rewrite forallb_forall in GE. specialize (GE ke Ike). apply negb_true_iff in GE.
      rewrite forallb_forall in V. apply (agg_empty_null (snd ke)); [apply V; apply in_map; exact Ike|exact GE].
    + rewrite <- ER in *. assert (rows t <> []) as NE by (rewrite ER; discriminate).
      rewrite (distinct_keys_const [qn (inject_Z 1)] (rows t) NE eq_refl) in H.
      cbn [map sem_select_cols rows cols] in H. inversion H; subst t2; clear H.
      cbn [map app]. rewrite !filter_all by (intros; reflexivity). unfold sem_select_cols. cbn [cols rows map]. f_equal. f_equal.
      set (vals := map (fun ke => agg_value fl_pandas (cols t) (rows t) (snd ke)) ops).
      transitivity (map (get (map fst ops) vals) (map fst ops)).
      * apply map_ext_in. intros c Ic. apply get_cons_other. intros ->. apply NG. exact Ic.
      * apply get_map_self; [exact NDk|]. unfold vals. rewrite !map_length. reflexivity.
  - (* group_by given: the user's key columns are untouched by the temporaries *)
    apply (group_agg_temps t temps used o (g :: gb') (key_of (cols t) (g :: gb')) ops r2 (conj ND W) TO V SubU) in H2.
    2:{ intros r I. apply (key_of_temps t temps used o _ (g :: gb') r TO); [apply width_row; auto|].
        intros c Ic. unfold used. apply in_or_app. left. apply NR. left. exact Ic. }
    destruct H2 as [NDg E2]. change (r2 = sem_project fl_pandas ops (g :: gb') t) in E2. subst r2.
    assert (r3 = sem_project fl_pandas ops (g :: gb') t) as ->.
    { unfold select_if in H3. destruct temps; [inversion H3; reflexivity|]. apply pl_select_ok in H3. destruct H3 as [-> _].
      apply (select_self (sem_project fl_pandas ops (g :: gb') t)); [exact NDg|apply width_project]. }
    inversion H. reflexivity.
Qed.

Lemma project_step_nodup declared src (ops : list (string * expr)) gb t t2 :
  forallb agg_vocab (map snd ops) = true -> pl_project_step declared src ops gb t = Ok t2 -> NoDup (gb ++ map fst ops).
Proof.
  intros V H. unfold pl_project_step in H. rewrite fold_project in H by exact V. cbn [rbind app] in H.
  apply rbind_ok in H. destruct H as [r2 [H2 _]]. unfold pl_group_agg in H2.
  destruct (negb (nodupb _)) eqn:ENd in H2; [discriminate|]. apply negb_false_iff in ENd. apply nodupb_NoDup in ENd.
  rewrite map_map in ENd. cbn [fst] in ENd. destruct gb as [|g gb']; [|exact ENd].
  cbn [app] in ENd |- *. inversion ENd; assumption.
Qed.

(* ------------------------------------------------------------------ sem_project does not depend on the order of the input rows *)

Lemma project_perm (ops : list (string * expr)) gb t t' :
  cols t = cols t' -> Permutation (rows t) (rows t') ->
  forallb agg_vocab (map snd ops) = true ->
  (forall r1 r2, In r1 (rows t') -> In r2 (rows t') ->
     keys_eqv (key_of (cols t') gb r1) (key_of (cols t') gb r2) = true -> key_of (cols t') gb r1 = key_of (cols t') gb r2) ->
  Permutation (rows (sem_project fl_pandas ops gb t)) (rows (sem_project fl_pandas ops gb t')).
Proof.
  intros C P V EQ. unfold sem_project. cbn [rows]. rewrite C.
  set (F := fun rs k => k ++ map (fun ke => agg_value fl_pandas (cols t') (filter (fun r => keys_eqv k (key_of (cols t') gb r)) rs) (snd ke)) ops).
  change (Permutation (map (F (rows t)) (match gb with [] => [[]] | _ :: _ => distinct_keys (map (key_of (cols t') gb) (rows t)) end))
                      (map (F (rows t')) (match gb with [] => [[]] | _ :: _ => distinct_keys (map (key_of (cols t') gb) (rows t')) end))).
  assert (forall k, F (rows t) k = F (rows t') k) as FE.
  { intros k. unfold F. f_equal. apply map_ext_in. intros ke Ike. apply agg_value_perm, perm_filter, P. }
  rewrite (map_ext _ _ FE). apply Permutation_map. destruct gb as [|g gb']; [apply Permutation_refl|].
  apply Permutation_sym, distinct_keys_perm; [apply Permutation_map, Permutation_sym, P|].
  intros a b Ia Ib E. apply in_map_iff in Ia, Ib. destruct Ia as [r1 [<- I1]], Ib as [r2 [<- I2]]. apply EQ; assumption.
Qed.

(* r2 holds the rows of t with their temporaries, in any order.  The produced columns G are assigned by with_columns and
   the declared columns selected: each row of r2 becomes the row of t it came from with the cells F written into it, the
   way extend_row (Model/Sem.v) writes them. *)
Lemma produced_rows {X} t temps used one need r2 (ops : list (string * X)) (G : string * X -> colx) (F : list val -> string * X -> val) t2 :
  let cs1 := ext_cols (cols t) (map fst temps) in
  let w1 := temps_row t temps in
  let declared := ext_cols (cols t) (map fst ops) in
  good t -> temps_ok temps used one need -> (forall c, In c declared -> In c used) ->
  cols r2 = cs1 -> (forall row2, In row2 (rows r2) -> exists r, In r (rows t) /\ row2 = w1 r) ->
  (forall i r ke, nth_error (rows r2) i = Some (w1 r) -> In r (rows t) -> In ke ops -> col_at r2 (G ke) i = F r ke) ->
  select_if temps declared (pl_with_columns r2 (map (fun ke => (fst ke, G ke)) ops)) = Ok t2 ->
  cols t2 = declared /\
  exists row_of, rows t2 = map row_of (rows r2) /\
    forall r, In r (rows t) ->
      row_of (w1 r) = fst (fold_left (fun acc ke => let '(row, ccs) := acc in (set_cell ccs row (fst ke) (F r ke), add_end ccs (fst ke))) ops (r, cols t)).
Proof.
  intros cs1 w1 declared [ND W] TO SubD C2 From CV H.
  set (produced := map (fun ke => (fst ke, G ke)) ops) in *.
  set (r3 := pl_with_columns r2 produced) in *.
  assert (map fst produced = map fst ops) as MF by (unfold produced; rewrite map_map; reflexivity).
  assert (NoDup declared) as NDd by (apply NoDup_ext_cols; exact ND).
  assert (forall r, In r (rows t) -> List.length (w1 r) = List.length cs1) as L1.
  { intros r I. apply temps_row_len. apply width_row; auto. }
  assert (forall r c, In r (rows t) -> In c declared -> get cs1 (w1 r) c = get (cols t) r c) as G1.
  { intros r c I Ic. apply (temps_get_user t temps used one need r c TO); [apply width_row|]; auto. }
  (* a row of t is read back from its row with temporaries *)
  set (unw := fun row2 : list val => map (get cs1 row2) (cols t)).
  assert (forall r, In r (rows t) -> unw (w1 r) = r) as UW.
  { intros r I. unfold unw. rewrite (map_ext_in (get cs1 (w1 r)) (get (cols t) r)).
    - apply get_map_self; [exact ND|apply width_row; auto].
    - intros c Ic. apply G1; [exact I|]. apply In_ext_cols. left. exact Ic. }
  assert (t2 = sem_select_cols declared r3) as ->.
  { unfold select_if in H. destruct temps eqn:Et; [|apply pl_select_ok in H; tauto].
    injection H as <-. symmetry.
    assert (cols r3 = declared) as C3 by (unfold r3; rewrite cols_with_columns, C2, MF; reflexivity).
    rewrite <- C3. apply select_self; [rewrite C3; exact NDd|].
    apply width_with_columns. apply Forall_forall. intros row2 I2. rewrite C2.
    destruct (From row2 I2) as [r [I ->]]. apply L1. exact I. }
  split; [reflexivity|].
  set (frow := fun r => fst (fold_left (fun acc ke => let '(row, ccs) := acc in (set_cell ccs row (fst ke) (F r ke), add_end ccs (fst ke))) ops (r, cols t))).
  exists (fun row2 => frow (unw row2)). split; [|intros r I; rewrite (UW r I); reflexivity].
  rewrite rows_select. unfold r3 at 2. rewrite rows_with_columns, map_map.
  apply map_tag_from_rowwise. intros i row2 N.
  assert (In row2 (rows r2)) as I2 by (eapply nth_error_In; eassumption).
  destruct (From row2 I2) as [r [Ir ->]]. rewrite (UW r Ir).
  pose proof (width_row _ _ W Ir) as L.
  apply row_ext with (cs := declared); [exact NDd|apply map_length| |].
  - unfold frow. rewrite (fold_cells_len (F r)) by exact L. reflexivity.
  - intros c Ic. rewrite (get_map_in (get (cols r3) (wc_row r2 produced (i, w1 r)))) by assumption.
    unfold r3. rewrite cols_with_columns, wc_row_get by (rewrite C2; apply L1; exact Ir). rewrite C2.
    unfold frow, declared. rewrite (fold_cells_get_full (F r)) by exact L.
    unfold produced at 1. rewrite (last_for_map (fun ke => (fst ke, G ke))) by reflexivity.
    destruct (last_for c ops) as [ke|] eqn:Lf; cbn [option_map snd].
    + destruct (last_for_Some _ _ _ Lf) as [_ Ike]. apply CV; assumption.
    + apply G1; assumption.
Qed.
