(* C11, part 4: the forgetful map to_sem -- its image declares the columns the node constructors compute, equal pipelines
   declare the same columns, and equal assignment dicts have the same image key by key. *)
From Coq Require Import List Bool String .
Import ListNotations.
From DA Require Import Base.PyRT Base.Val Model.Sem Model.Equiv Proofs.SemBasicP Proofs.EquivP1 Proofs.EquivP2 Proofs.EquivP3.
Local Open Scope list_scope.

Ltac inv_some :=
  repeat match goal with
         | H : match ?x with Some _ => _ | None => None end = Some _ |- _ => destruct x eqn:?; [|discriminate]
         | H : (if ?c then _ else None) = Some _ |- _ => destruct c eqn:?; [|discriminate]
         | H : option_map _ ?x = Some _ |- _ => destruct x eqn:?; [|discriminate]; simpl in H
         | H : Some _ = Some _ |- _ => inversion H; clear H; subst
         end.

(* ------------------------------------------------------------------ the image of the assignments *)
Lemma ops_sem_keys ops : forall sops, ops_sem ops = Some sops -> map fst sops = map fst ops.
Proof. induction ops as [|[k e] t IH]; intros sops E; simpl in E; [inversion E; reflexivity|].
  destruct (expr_sem e); [|discriminate]. destruct (ops_sem t) as [t'|]; [|discriminate]. inversion E; subst. simpl.
  rewrite (IH t' eq_refl). reflexivity. Qed.
Lemma ops_sem_get ops : forall sops k, ops_sem ops = Some sops ->
  dict_get sops k = match dict_get ops k with Some e => expr_sem e | None => None end.
Proof. induction ops as [|[k0 e] t IH]; intros sops k E; simpl in E; [inversion E; reflexivity|].
  destruct (expr_sem e) as [e'|] eqn:Ee; [|discriminate]. destruct (ops_sem t) as [t'|]; [|discriminate]. inversion E; subst. simpl.
  destruct (eq_dec k k0); [symmetry; exact Ee|apply IH; reflexivity]. Qed.

Lemma filter_disjoint_id (ks gb : list string) : disjointb ks gb = true -> filter (fun k => negb (mem k gb)) ks = ks.
Proof. intros D. rewrite disjointb_spec in D. induction ks as [|k t IH]; simpl; [reflexivity|].
  assert (mem k gb = false) as M by (apply mem_false, D; left; reflexivity). rewrite M. simpl. f_equal.
  apply IH. intros x Hx. apply D. right. exact Hx. Qed.

(* ------------------------------------------------------------------ the image has the declared columns *)
Lemma cn_to_sem a : forall s, to_sem a = Some s -> column_names s = ecolumn_names a.
Proof. induction a as [n cs ql|s IH ops p o r w|s IH ops gb|s IH e|s IH cs|s IH cs|s IH m|s IH m d|s IH cs r l
                      |x IHx y IHy oa ob jt|x IHx y IHy ic an bn|s IH rm]; intros sa T; cbn [to_sem] in T; inv_some;
    cbn [column_names ecolumn_names]; try reflexivity;
    try (rewrite (IH _ eq_refl); reflexivity).
  - rewrite (IH _ eq_refl). erewrite ops_sem_keys by eassumption. reflexivity.
  - erewrite ops_sem_keys by eassumption. rewrite filter_disjoint_id by assumption. reflexivity.
  - destruct (eqb (join_cols (ecolumn_names x) (ecolumn_names y)) _) eqn:J; inv_some; cbn [column_names]; [|reflexivity].
    apply (proj1 (eqb_true _ _)) in J. rewrite J, (IHx _ eq_refl), (IHy _ eq_refl). reflexivity.
  - rewrite (IHx _ eq_refl). reflexivity.
  - discriminate. Qed.

(* ------------------------------------------------------------------ equal pipelines declare the same columns *)
Lemma eqb_cols q a b : eop_eqb q a b = true -> ragree q a b = true -> ecolumn_names a = ecolumn_names b.
Proof. destruct a, b; intros E G; try discriminate E; cbn [eop_eqb ragree] in E, G.
  1: { cbn [ecolumn_names]. destruct (q_table_key_only q); split_andb; eqb_to_eq; assumption. }
  all: split_andb; eqb_to_eq; assumption. Qed.

(* ------------------------------------------------------------------ equal assignment dicts have the same image, key by key *)
Lemma ops_lookups q ops ops' sops sops' :
  ops_eq q ops ops' = true -> ragree_ops q ops ops' = true -> ops_sem ops = Some sops -> ops_sem ops' = Some sops' ->
  forall k, dict_get sops k = dict_get sops' k.
Proof. intros E G S S' k. rewrite (ops_sem_get ops sops k S), (ops_sem_get ops' sops' k S').
  rewrite ops_eq_unfold in E. apply andb_true_iff in E. destruct E as [K F]. unfold ragree_ops in G.
  pose proof (keys_test_set q ops ops' K k) as KS.
  destruct (dict_get ops k) as [e|] eqn:D1.
  - assert (In k (map fst ops)) as I by (eapply dict_get_Some_keys; eassumption).
    rewrite forallb_forall in F, G. specialize (F k I). specialize (G k I). rewrite D1 in F, G.
    destruct (dict_get ops' k) as [e'|]; [|discriminate]. apply is_equal_sem with (q := q); assumption.
  - destruct (dict_get ops' k) as [e'|] eqn:D2; [|reflexivity].
    apply dict_get_Some_keys in D2. apply KS in D2. apply dict_get_None in D1. contradiction. Qed.

(* with the repaired flags the guard of the result theorem is vacuous *)
Lemma ragree_ops_fixed o1 o2 : ragree_ops q_fixed o1 o2 = true.
Proof. unfold ragree_ops. apply forallb_forall. intros k _.
  destruct (dict_get o1 k), (dict_get o2 k); try reflexivity. apply ragree_expr_fixed. Qed.
Lemma ragree_fixed a : forall b, ragree q_fixed a b = true.
Proof. induction a; intros b; destruct b; try reflexivity; cbn [ragree];
    rewrite ?ragree_ops_fixed, ?ragree_expr_fixed, ?IHa, ?IHa1, ?IHa2; reflexivity. Qed.
