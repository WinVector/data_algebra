(* C21, part 8: def_multi_column_map computes multimap_spec. *)
From Coq Require Import List Bool Arith String Lia Permutation.
Import ListNotations.
From DA Require Import Base.PyRT Base.Val Model.Sem Model.Solutions Proofs.SemBasicP Proofs.SemOrderP
  Proofs.SolutionsP1 Proofs.SolutionsP3 Proofs.SolutionsP5 Proofs.SolutionsP6 Proofs.ListP Proofs.TabP.
Local Open Scope string_scope.
Local Open Scope list_scope.

Lemma sem_x_env_ext pw fl p : forall en en', (forall n, In n (tables_of p) -> dict_get en' n = dict_get en n) -> sem_x pw fl p en' = sem_x pw fl p en.
Proof. induction p; intros en en' H; cbn [sem_x]; cbn [tables_of] in H;
    try (rewrite (IHp en en' H); reflexivity).
  - rewrite (H name (or_introl eq_refl)). reflexivity.
  - rewrite (IHp1 en en'), (IHp2 en en') by (intros n I; apply H, in_or_app; auto). reflexivity.
  - rewrite (IHp1 en en'), (IHp2 en en') by (intros n I; apply H, in_or_app; auto). reflexivity. Qed.

Lemma nonempty_In {A} (l : list A) : l <> [] -> exists x, In x l.
Proof. destruct l as [|x l]; [congruence|]. intros _. exists x. left. reflexivity. Qed.
Lemma pairwiseb_In {A} (f : A -> A -> bool) l a b : (forall x y, f x y = f y x) -> pairwiseb f l = true -> In a l -> In b l -> a = b \/ f a b = true.
Proof. intros Sym. induction l as [|x l IH]; intros P Ia Ib; [destruct Ia|]. cbn [pairwiseb] in P. apply andb_true_iff in P as [P1 P2]. rewrite forallb_forall in P1.
  destruct Ia as [<-|Ia], Ib as [<-|Ib]; [left; reflexivity|right; apply P1, Ib|right; rewrite Sym; apply P1, Ia|apply IH; assumption]. Qed.
Lemma pairwiseb_NoDup_map {A B} (f : A -> A -> bool) (g : A -> B) l : pairwiseb f l = true -> (forall x y, g x = g y -> f x y = false) -> NoDup (map g l).
Proof. intros P H. induction l as [|x l IH]; [constructor|]. cbn [pairwiseb] in P. apply andb_true_iff in P as [P1 P2]. rewrite forallb_forall in P1.
  cbn [map]. constructor; [|apply IH, P2]. intros I. apply in_map_iff in I as [y [E Iy]]. specialize (P1 y Iy). rewrite (H x y (eq_sym E)) in P1. discriminate. Qed.
Lemma v_eqv_null_l w : is_null w = false -> v_eqv VNull w = false.
Proof. destruct w; simpl; congruence. Qed.
Lemma find_ext_in {A} (f g : A -> bool) l : (forall x, In x l -> f x = g x) -> find f l = find g l.
Proof. induction l as [|x l IH]; intros H; [reflexivity|]. cbn [find]. rewrite (H x (or_introl eq_refl)), IH; [reflexivity|]. intros y I. apply H. right. exact I. Qed.
Lemma find_map {A B} (f : B -> bool) (g : A -> B) l : find f (map g l) = option_map g (find (fun x => f (g x)) l).
Proof. induction l as [|x l IH]; [reflexivity|]. cbn [map find]. destruct (f (g x)); [reflexivity|exact IH]. Qed.
Lemma rename_vcols bs : forall vcols, NoDup vcols -> List.length bs = List.length vcols -> map (rename_col (combine bs vcols)) vcols = bs.
Proof. induction bs as [|b bs IH]; intros [|v vcols] ND L; simpl in *; try discriminate; [reflexivity|].
  inversion ND as [|? ? Nv ND']; subst. unfold rename_col at 1. cbn [find snd fst]. rewrite String.eqb_refl. f_equal.
  rewrite <- (IH vcols ND') at 2 by lia. apply map_ext_in. intros c Ic. unfold rename_col. cbn [find snd].
  destruct (String.eqb_spec v c) as [->|]; [contradiction|reflexivity]. Qed.
Lemma rename_other m c : ~ In c (map snd m) -> rename_col m c = c.
Proof. intros N. unfold rename_col. rewrite find_none_all; [reflexivity|]. intros [n o] I. cbn [snd]. apply String.eqb_neq. intros ->. apply N. apply in_map_iff. exists (n, c). split; [reflexivity|exact I]. Qed.
Lemma combine_snd {A B} (a : list A) : forall (b : list B), List.length a = List.length b -> map snd (combine a b) = b.
Proof. induction a as [|x a IH]; intros [|y b] L; simpl in *; try discriminate; [reflexivity|]. rewrite IH by lia. reflexivity. Qed.

Section MM.
  Variable pw : nat -> nat.
  Variables (fl : flavor) (keys : list string) (namec valc mapc : string) (vcols : list string) (co : option val) (back : option (list string)).
  Variables (t mt : table).
  Hypothesis V : multimap_valid keys namec valc mapc vcols back t mt = true.
  Let cs := cols t.
  Let rs := rows t.
  Let mcs := cols mt.
  Let mrs := rows mt.

  Definition kf (r r' : list val) : bool := negb (keys_eqv (key_of cs keys r) (key_of cs keys r')).
  Definition mf (a b : list val) : bool := negb (v_eqv (get mcs a namec) (get mcs b namec) && v_eqv (get mcs a valc) (get mcs b valc)).
  Lemma mm_facts :
    vcols <> [] /\ NoDup (keys ++ vcols) /\ NoDup (keys ++ [namec; valc; mapc])
    /\ (match back with Some bs => List.length bs = List.length vcols | None => True end)
    /\ pairwiseb kf rs = true
    /\ (forall mr, In mr mrs -> is_null (get mcs mr valc) = false)
    /\ pairwiseb mf mrs = true.
  Proof. unfold multimap_valid in V. fold cs rs mcs mrs in V.
    apply andb_prop in V as [[[[[[[[[[[[[[_ V2]%andb_prop V3]%andb_prop V4]%andb_prop V5]%andb_prop _]%andb_prop _]%andb_prop _]%andb_prop
                                     _]%andb_prop _]%andb_prop _]%andb_prop _]%andb_prop V13]%andb_prop V14]%andb_prop V15].
    split; [intros E; rewrite E in V2; discriminate|]. split; [apply nodupb_NoDup, V3|]. split; [apply nodupb_NoDup, V4|].
    split; [destruct back as [bs|]; [|exact I]; apply andb_true_iff in V5 as [_ B]; apply Nat.eqb_eq, B|].
    split; [exact V13|]. split; [|exact V15].
    intros mr Im. eapply forallb_forall in V14; [|exact Im]. apply andb_prop in V14 as [_ B]. apply negb_true_iff, B. Qed.

  Definition K (r : list val) : list val := key_of cs keys r.
  Definition ML (r : list val) (c : string) : val := map_lookup mcs namec valc mapc mrs c (get cs r c).
  Definition ucols : list string := keys ++ [namec; valc].
  Definition LR : list (list val) := flat_map (fun r => map (fun c => K r ++ [VStr c; get cs r c]) vcols) rs.
  Definition rc : list string := [namec; valc; mapc].
  Definition RRow (mr : list val) : list val := [get mcs mr namec; get mcs mr valc; get mcs mr mapc].
  Definition jcols : list string := ucols ++ [mapc].
  Definition Nrow (r : list val) (c : string) (x : val) : list val := K r ++ [VStr c; get cs r c; x].

  Lemma NoDup_keys_rc : NoDup (keys ++ [namec; valc; mapc]).
  Proof. apply mm_facts. Qed.
  Lemma jcols_eq : jcols = keys ++ [namec; valc; mapc].
  Proof. unfold jcols, ucols. rewrite <- app_assoc. reflexivity. Qed.
  Lemma NoDup_ucols : NoDup ucols.
  Proof. apply (NoDup_app_l ucols [mapc]). fold jcols. rewrite jcols_eq. exact NoDup_keys_rc. Qed.
  Lemma mapc_notin_ucols : ~ In mapc ucols.
  Proof. pose proof NoDup_keys_rc as ND. rewrite <- jcols_eq in ND. apply (NoDup_remove_2 ucols [] mapc) in ND. rewrite app_nil_r in ND. exact ND. Qed.
  Lemma NoDup_keys : NoDup keys.
  Proof. eapply NoDup_app_l, NoDup_keys_rc. Qed.
  (* the cells of the rows of the unpivoted table (i < 2) and of the joined table, by the position of the column *)
  Lemma Lrow_get r c i c' : nth_error [namec; valc] i = Some c' -> get ucols (K r ++ [VStr c; get cs r c]) c' = nth i [VStr c; get cs r c] VNull.
  Proof. apply get_app_nth; [exact NoDup_ucols|apply map_length]. Qed.
  Lemma Nrow_get r c x i c' : nth_error rc i = Some c' -> get jcols (Nrow r c x) c' = nth i [VStr c; get cs r c; x] VNull.
  Proof. rewrite jcols_eq. apply get_app_nth; [exact NoDup_keys_rc|apply map_length]. Qed.
  Lemma RRow_get mr i c' : nth_error rc i = Some c' -> get rc (RRow mr) c' = nth i (RRow mr) VNull.
  Proof. apply (get_app_nth [] rc [] (RRow mr)); [exact (NoDup_app_r _ _ NoDup_keys_rc)|reflexivity]. Qed.
  Lemma Nrow_key r c x : key_of jcols keys (Nrow r c x) = K r.
  Proof. rewrite jcols_eq. apply map_get_app_l; [exact NoDup_keys|apply map_length]. Qed.

  (* ---- select_columns then unpivot *)
  Lemma step_unpivot :
    sem_unpivot keys namec valc vcols (sem_select_cols (keys ++ vcols) t) = mktable ucols LR.
  Proof. destruct mm_facts as (_ & NDkv & _).
    unfold sem_unpivot, sem_select_cols, ucols, LR. cbn [cols rows]. fold cs rs. f_equal. rewrite flat_map_map. apply flat_map_ext. intros r.
    apply map_ext_in. intros c Ic. rewrite map_app. fold (key_of cs keys r). fold (K r).
    assert (key_of (keys ++ vcols) keys (K r ++ map (get cs r) vcols) = K r) as E1 by (apply map_get_app_l; [exact NoDup_keys|apply map_length]).
    rewrite E1, get_app_r; [|intros Ik; apply (NoDup_app_disj keys vcols c NDkv Ik Ic)|apply map_length]. rewrite (get_map_in _ vcols c Ic). reflexivity. Qed.

  (* the rows of l are the f r c for the rows r of the data and the columns c to map *)
  Definition cells (f : list val -> string -> list val) (l : list (list val)) : Prop :=
    forall row, In row l <-> exists r c, In r rs /\ In c vcols /\ row = f r c.
  Lemma LR_form : cells (fun r c => K r ++ [VStr c; get cs r c]) LR.
  Proof. intros row. unfold LR. rewrite in_flat_map. split.
    - intros [r [Ir I]]. apply in_map_iff in I as [c [<- Ic]]. exists r, c. auto.
    - intros [r [c [Ir [Ic ->]]]]. exists r. split; [exact Ir|]. apply in_map_iff. exists c. auto. Qed.
  Lemma left_select : sem_select_cols ucols (mktable ucols LR) = mktable ucols LR.
  Proof. unfold sem_select_cols. cbn [cols rows]. f_equal. rewrite <- (map_id LR) at 2. apply map_ext_in. intros row I.
    apply LR_form in I as [r [c [_ [_ ->]]]]. apply get_map_self; [apply NoDup_ucols|]. unfold ucols. rewrite !app_length. f_equal. apply map_length. Qed.

  (* ---- the left join with the mapping table *)
  Definition mtch (r : list val) (c : string) (mr : list val) : bool :=
    negb (is_null (get cs r c)) && (v_eqv (get mcs mr namec) (VStr c) && v_eqv (get mcs mr valc) (get cs r c)).
  Lemma km nm r c mr : In mr mrs ->
    keys_match nm (key_of ucols [namec; valc] (K r ++ [VStr c; get cs r c])) (key_of rc [namec; valc] (RRow mr)) = mtch r c mr.
  Proof. intros Im. destruct mm_facts as (_ & _ & _ & _ & _ & NNm & _). pose proof (NNm mr Im) as Nv.
    unfold key_of. cbn [map]. rewrite (Lrow_get r c 0 namec eq_refl), (Lrow_get r c 1 valc eq_refl).
    rewrite (RRow_get mr 0 namec eq_refl), (RRow_get mr 1 valc eq_refl).
    unfold keys_match, mtch. cbn [nth RRow existsb is_null keys_eqv orb]. rewrite orb_false_r, andb_true_r.
    rewrite (v_eqv_sym (VStr c)), (v_eqv_sym (get cs r c)).
    destruct (is_null (get cs r c)) eqn:E.
    - apply is_null_VNull in E. rewrite E, (v_eqv_sym _ VNull), (v_eqv_null_l _ Nv). cbn [negb andb]. rewrite !andb_false_r. reflexivity.
    - cbn [negb]. rewrite orb_true_r. reflexivity. Qed.

  Lemma out_cols : ucols ++ filter (fun c => negb (mem c ucols)) rc = jcols.
  Proof. unfold jcols, rc. f_equal. cbn [filter].
    assert (mem namec ucols = true) as M1 by (apply mem_In; unfold ucols; apply in_or_app; right; left; reflexivity).
    assert (mem valc ucols = true) as M2 by (apply mem_In; unfold ucols; apply in_or_app; right; right; left; reflexivity).
    assert (mem mapc ucols = false) as M3 by (apply mem_false, mapc_notin_ucols).
    rewrite M1, M2, M3. reflexivity. Qed.

  Lemma mk_row r c (ob' : option (list val)) :
    (match ob' with Some _ => is_null (get cs r c) = false | None => True end) ->
    join_mk ucols rc jcols (Some (K r ++ [VStr c; get cs r c])) (option_map RRow ob')
    = Nrow r c (match ob' with Some mr => get mcs mr mapc | None => VNull end).
  Proof. intros Hn. unfold join_mk, Nrow. rewrite jcols_eq, map_app. cbn [map].
    assert (forall x, In x ucols -> mem x ucols = true) as MU by (intros x I; apply mem_In, I).
    f_equal; [|f_equal; [|f_equal; [|f_equal]]].
    - transitivity (map (get keys (K r)) keys); [|apply get_map_self; [exact NoDup_keys|apply map_length]]. apply map_ext_in. intros k Ik.
      rewrite MU by (apply in_or_app; left; exact Ik). unfold ucols. rewrite (get_app_l keys _ (K r) _ k Ik (map_length _ _)).
      assert (mem k rc = false) as M by (apply mem_false, (NoDup_app_disj keys rc k NoDup_keys_rc Ik)).
      rewrite M. destruct ob'; apply null_self.
    - rewrite MU by (apply in_or_app; right; left; reflexivity). rewrite (Lrow_get r c 0 namec eq_refl). reflexivity.
    - rewrite MU by (apply in_or_app; right; right; left; reflexivity). rewrite (Lrow_get r c 1 valc eq_refl). cbn [nth].
      destruct ob' as [mr|]; cbn [option_map]; [rewrite Hn; reflexivity|apply null_self].
    - rewrite (proj2 (mem_false _ _) mapc_notin_ucols). cbn [is_null]. destruct ob' as [mr|]; cbn [option_map]; [|reflexivity].
      assert (mem mapc rc = true) as M2 by (apply mem_In; right; right; left; reflexivity). rewrite M2. apply (RRow_get mr 2 mapc eq_refl). Qed.

  (* orb is what the mapping table holds for the value of column c in row r: a matching row, or nothing when no row matches.
     All matching rows carry the same mapped value: the table is uniquely keyed *)
  Definition picks (r : list val) (c : string) (orb : option (list val)) : Prop :=
    match orb with Some mr => In mr mrs /\ mtch r c mr = true | None => forall mr, In mr mrs -> mtch r c mr = false end.
  Lemma picks_find r c : picks r c (find (mtch r c) mrs).
  Proof. unfold picks. destruct (find (mtch r c) mrs) eqn:F; [apply find_some in F; exact F|apply find_none, F]. Qed.
  Lemma mf_sym a b : mf a b = mf b a.
  Proof. unfold mf. rewrite (v_eqv_sym (get mcs a namec)), (v_eqv_sym (get mcs a valc)). reflexivity. Qed.
  Lemma mtch_unique r c m1 m2 : In m1 mrs -> In m2 mrs -> mtch r c m1 = true -> mtch r c m2 = true -> m1 = m2.
  Proof. intros I1 I2 M1 M2. destruct mm_facts as (_ & _ & _ & _ & _ & _ & UM).
    destruct (pairwiseb_In mf mrs m1 m2 mf_sym UM I1 I2) as [E|F]; [exact E|exfalso].
    unfold mtch in M1, M2. apply andb_true_iff in M1 as [_ M1]. apply andb_true_iff in M1 as [A1 B1]. apply andb_true_iff in M2 as [_ M2]. apply andb_true_iff in M2 as [A2 B2].
    unfold mf in F. rewrite (v_eqv_sym _ (VStr c)) in A2. rewrite (v_eqv_sym _ (get cs r c)) in B2.
    rewrite (v_eqv_trans _ _ _ A1 A2), (v_eqv_trans _ _ _ B1 B2) in F. discriminate. Qed.
  Lemma picks_ML r c orb : picks r c orb -> ML r c = match orb with Some mr => get mcs mr mapc | None => VNull end.
  Proof. intros P. unfold ML, map_lookup. destruct (is_null (get cs r c)) eqn:Nn.
    - destruct orb as [mr|]; [|reflexivity]. destruct P as [_ M]. unfold mtch in M. rewrite Nn in M. discriminate.
    - rewrite (find_ext_in _ (mtch r c)) by (intros mr _; unfold mtch; rewrite Nn; reflexivity).
      pose proof (picks_find r c) as Q. destruct (find (mtch r c) mrs) as [m0|], orb as [mr|]; cbn [picks] in *.
      + f_equal. apply (mtch_unique r c); tauto.
      + destruct Q as [I0 M0]. rewrite (P m0 I0) in M0. discriminate.
      + destruct P as [Im M]. rewrite (Q mr Im) in M. discriminate.
      + reflexivity. Qed.

  Lemma join_rows nm :
    cells (fun r c => Nrow r c (ML r c)) (rows (sem_join nm [namec; valc] [namec; valc] JLeft (mktable ucols LR) (mktable rc (map RRow mrs)))).
  Proof. intros row.
    assert (forall r c orb, picks r c orb -> join_mk ucols rc jcols (Some (K r ++ [VStr c; get cs r c])) (option_map RRow orb) = Nrow r c (ML r c)) as MK.
    { intros r c orb P. rewrite (picks_ML r c orb P). apply mk_row. destruct orb as [mr|]; [|exact I].
      destruct P as [_ M]. apply andb_true_iff in M as [M _]. apply negb_true_iff, M. }
    split.
    - intros IJ. apply left_join_In in IJ as [L [orb [IL [P ->]]]]. cbn [cols rows] in *. rewrite out_cols. apply LR_form in IL as [r [c [Ir [Ic ->]]]]. exists r, c. split; [exact Ir|]. split; [exact Ic|].
      destruct orb as [rb|].
      + destruct P as [Ib M]. apply in_map_iff in Ib as [mr [<- Im]]. rewrite (km nm r c mr Im) in M. apply (MK r c (Some mr)). split; assumption.
      + apply (MK r c None). intros mr Im. rewrite <- (km nm r c mr Im). apply P, in_map, Im.
    - intros [r [c [Ir [Ic ->]]]]. apply left_join_In. cbn [cols rows]. rewrite out_cols.
      exists (K r ++ [VStr c; get cs r c]), (option_map RRow (find (mtch r c) mrs)).
      split; [apply LR_form; exists r, c; auto|]. pose proof (picks_find r c) as P. split; [|symmetry; apply MK, P].
      destruct (find (mtch r c) mrs) as [mr|]; cbn [option_map].
      + destruct P as [Im M]. split; [apply in_map, Im|rewrite (km nm r c mr Im); exact M].
      + intros rb Ib. apply in_map_iff in Ib as [mr [<- Im]]. rewrite (km nm r c mr Im). apply P, Im. Qed.
  Lemma join_cols nm : cols (sem_join nm [namec; valc] [namec; valc] JLeft (mktable ucols LR) (mktable rc (map RRow mrs))) = jcols.
  Proof. rewrite sem_join_left. cbn [cols]. apply out_cols. Qed.

  (* ---- optional coalesce of the mapped value *)
  Definition cov (x : val) : val := match co with Some d => if is_null x then d else x | None => x end.
  Definition co_table (j : table) : table :=
    match co with Some d => sem_extend_x pw fl [(mapc, EOp "coalesce" [ECol mapc; EConst d])] j | None => j end.
  Lemma Nrow_len r c x : List.length (Nrow r c x) = List.length jcols.
  Proof. unfold Nrow, jcols, ucols, K, key_of. rewrite !app_length, map_length. cbn [List.length]. lia. Qed.
  Lemma Nrow_name r c x : get jcols (Nrow r c x) namec = VStr c.
  Proof. apply (Nrow_get r c x 0 namec eq_refl). Qed.
  Lemma Nrow_mapc r c x : get jcols (Nrow r c x) mapc = x.
  Proof. apply (Nrow_get r c x 2 mapc eq_refl). Qed.
  Lemma co_rows j : cols j = jcols -> cells (fun r c => Nrow r c (ML r c)) (rows j) ->
    cols (co_table j) = jcols /\ cells (fun r c => Nrow r c (cov (ML r c))) (rows (co_table j)).
  Proof. intros Cj Rj. unfold co_table, cov. destruct co as [d|]; [|split; assumption].
    assert (In mapc jcols) as Im by (unfold jcols; apply in_or_app; right; left; reflexivity).
    unfold sem_extend_x. cbn [map fst cols rows]. unfold ext_cols. cbn [fold_left]. rewrite Cj, (add_end_old jcols mapc Im). split; [reflexivity|].
    assert (forall r c x, extend_row_x pw fl jcols [(mapc, EOp "coalesce" [ECol mapc; EConst d])] (Nrow r c x) = Nrow r c (if is_null x then d else x)) as E.
    { intros r c x. unfold extend_row_x. cbn [fold_left fst snd]. unfold eval_x.
      change (norm_expr (EOp "coalesce" [ECol mapc; EConst d])) with (EOp "coalesce" [ECol mapc; EConst d]). cbn [eval_n]. rewrite Nrow_mapc.
      change (xscalar pw fl "coalesce" [x; d]) with (if is_null x then d else x).
      assert (forall y, Nrow r c y = (K r ++ [VStr c; get cs r c]) ++ [y]) as EN by (intros y; unfold Nrow; rewrite <- app_assoc; reflexivity).
      rewrite !EN. apply set_cell_snoc; [apply mapc_notin_ucols|]. unfold ucols. rewrite !app_length. f_equal. apply map_length. }
    intros row. rewrite in_map_iff. split.
    - intros [row0 [<- I0]]. apply Rj in I0 as [r [c [Ir [Ic ->]]]]. exists r, c. rewrite E. auto.
    - intros [r [c [Ir [Ic ->]]]]. exists (Nrow r c (ML r c)). split; [apply E|]. apply Rj. exists r, c. auto. Qed.

  (* ---- pivot back: one row per record key *)
  Lemma kf_sym a b : kf a b = kf b a.
  Proof. unfold kf. rewrite keys_eqv_sym. reflexivity. Qed.
  Lemma K_inj r r' : In r rs -> In r' rs -> keys_eqv (K r) (K r') = true -> r = r'.
  Proof. intros I I' E. destruct mm_facts as (_ & _ & _ & _ & UK & _).
    destruct (pairwiseb_In kf rs r r' kf_sym UK I I') as [H|H]; [exact H|]. unfold kf in H. fold (K r) (K r') in H. rewrite E in H. discriminate. Qed.

  Lemma pivot_rows j : cols j = jcols -> cells (fun r c => Nrow r c (cov (ML r c))) (rows j) ->
    Permutation (rows (sem_pivot keys namec mapc vcols j)) (map (fun r => K r ++ map (fun c => cov (ML r c)) vcols) rs).
  Proof. intros Cj Rj. destruct mm_facts as (NEv & _ & _ & _ & UK & _).
    unfold sem_pivot. cbn [rows]. rewrite Cj.
    set (DK := distinct_keys (map (key_of jcols keys) (rows j))).
    set (G := fun k : list val => k ++ map (fun c => match find (fun r => keys_eqv k (key_of jcols keys r) && v_eqv (get jcols r namec) (VStr c)) (rows j) with
                                                      | Some r => get jcols r mapc | None => VNull end) vcols).
    assert (forall r, In r rs -> G (K r) = K r ++ map (fun c => cov (ML r c)) vcols) as EG.
    { intros r Ir. unfold G. f_equal. apply map_ext_in. intros c Ic.
      destruct (find _ (rows j)) as [row|] eqn:F.
      - apply find_some in F as [I P]. apply Rj in I as [r' [c' [Ir' [Ic' ->]]]]. rewrite Nrow_key, Nrow_name, Nrow_mapc in *.
        apply andb_true_iff in P as [P1 P2]. assert (r = r') as <- by (apply K_inj; assumption).
        cbn [v_eqv] in P2. apply String.eqb_eq in P2. subst c'. reflexivity.
      - exfalso. assert (In (Nrow r c (cov (ML r c))) (rows j)) as I by (apply Rj; exists r, c; auto).
        pose proof (find_none _ _ F _ I) as X. cbn beta in X. rewrite Nrow_key, Nrow_name, keys_eqv_refl in X. cbn [v_eqv andb] in X. rewrite String.eqb_refl in X. discriminate. }
    assert (Permutation DK (map K rs)) as PK.
    { apply NoDup_Permutation.
      - pose proof (distinct_keys_pairwise (map (key_of jcols keys) (rows j))) as FO. fold DK in FO. clear -FO.
        induction FO as [|k l F _ IH]; constructor; [|exact IH]. intros I. rewrite Forall_forall in F. specialize (F k I). rewrite keys_eqv_refl in F. discriminate.
      - apply (pairwiseb_NoDup_map kf K rs UK). intros x y E. unfold kf. fold (K x) (K y). rewrite E, keys_eqv_refl. reflexivity.
      - intros k. split.
        + intros I. apply distinct_keys_sound in I. apply in_map_iff in I as [row [<- I]]. apply Rj in I as [r [c [Ir [Ic ->]]]]. rewrite Nrow_key. apply in_map, Ir.
        + intros I. apply in_map_iff in I as [r [<- Ir]].
          destruct (nonempty_In vcols NEv) as [c0 Ic0].
          assert (In (K r) (map (key_of jcols keys) (rows j))) as I0.
          { apply in_map_iff. exists (Nrow r c0 (cov (ML r c0))). split; [apply Nrow_key|]. apply Rj. exists r, c0. split; [exact Ir|]. split; [exact Ic0|reflexivity]. }
          destruct (distinct_keys_complete _ _ I0) as [k' [Ik' E']]. fold DK in Ik'.
          pose proof Ik' as Ik''. apply distinct_keys_sound in Ik''. apply in_map_iff in Ik'' as [row [Er I]]. apply Rj in I as [r' [c' [Ir' [Ic' ->]]]]. rewrite Nrow_key in Er.
          subst k'. assert (r' = r) as -> by (apply K_inj; assumption). exact Ik'. }
    change (map (fun k => G k) DK) with (map G DK).
    eapply perm_trans; [apply Permutation_map, PK|]. rewrite map_map. rewrite (map_ext_in _ (fun r => K r ++ map (fun c => cov (ML r c)) vcols) rs EG). apply Permutation_refl.
  Qed.
  Lemma pivot_cols j : cols (sem_pivot keys namec mapc vcols j) = keys ++ vcols.
  Proof. reflexivity. Qed.
  Lemma pivot_width j row : In row (rows (sem_pivot keys namec mapc vcols j)) -> List.length row = List.length (keys ++ vcols).
  Proof. unfold sem_pivot. cbn [rows]. intros I. apply in_map_iff in I as [k [<- Ik]]. rewrite !app_length, map_length. f_equal.
    apply distinct_keys_sound in Ik. apply in_map_iff in Ik as [r [<- _]]. apply map_length. Qed.

  Definition mm_pivoted (nm : bool) : table :=
    sem_pivot keys namec mapc vcols
      (co_table (sem_join nm [namec; valc] [namec; valc] JLeft
                   (sem_select_cols ucols (sem_unpivot keys namec valc vcols (sem_select_cols (keys ++ vcols) t)))
                   (sem_select_cols rc mt))).
  Lemma spec_rows : rows (multimap_spec keys namec valc mapc vcols co back t mt) = map (fun r => K r ++ map (fun c => cov (ML r c)) vcols) rs.
  Proof. unfold multimap_spec. cbn [rows]. fold cs rs mcs mrs. apply map_ext. intros r. f_equal. Qed.
  Lemma mm_pivoted_ok nm : cols (mm_pivoted nm) = keys ++ vcols /\ Permutation (rows (mm_pivoted nm)) (map (fun r => K r ++ map (fun c => cov (ML r c)) vcols) rs).
  Proof. split; [reflexivity|]. unfold mm_pivoted. rewrite step_unpivot, left_select. change (sem_select_cols rc mt) with (mktable rc (map RRow mrs)).
    destruct (co_rows _ (join_cols nm) (join_rows nm)) as [C R]. apply pivot_rows; assumption. Qed.

  Lemma mm_renamed nm bs : back = Some bs ->
    tbl_equiv (sem_rename (combine bs vcols) (sem_select_cols (keys ++ vcols) (mm_pivoted nm))) (multimap_spec keys namec valc mapc vcols co back t mt).
  Proof. intros EB. destruct mm_facts as (_ & NDkv & _ & Lb & _). rewrite EB in Lb.
    destruct (mm_pivoted_ok nm) as [C R]. split.
    - unfold sem_rename, sem_select_cols, multimap_spec. cbn [cols]. rewrite EB, map_app. f_equal; [|apply rename_vcols; [eapply NoDup_app_r, NDkv|exact Lb]].
      rewrite <- (map_id keys) at 2. apply map_ext_in. intros k Ik. apply rename_other. rewrite combine_snd by exact Lb. apply (NoDup_app_disj keys vcols k NDkv Ik).
    - unfold sem_rename. cbn [rows sem_select_cols]. rewrite spec_rows.
      rewrite (map_ext_in _ (fun r => r) (rows (mm_pivoted nm))); [rewrite map_id; exact R|].
      intros row I. rewrite C. apply get_map_self; [exact NDkv|]. apply (pivot_width _ row I). Qed.
  Lemma mm_plain nm : back = None -> tbl_equiv (mm_pivoted nm) (multimap_spec keys namec valc mapc vcols co back t mt).
  Proof. intros EB. destruct (mm_pivoted_ok nm) as [C R]. split; [rewrite C; unfold multimap_spec; cbn [cols]; rewrite EB; reflexivity|rewrite spec_rows; exact R]. Qed.
End MM.

Lemma dict_get_head (n : string) (t : table) (e : env) : dict_get ((n, t) :: e) n = Some t.
Proof. cbn [dict_get]. destruct (eq_dec n n); [reflexivity|congruence]. Qed.
Lemma sem_xop_let pw fl n b body e :
  sem_xop pw fl (XLet n b body) e = match sem_xop pw fl b e with Some t => sem_xop pw fl body ((n, t) :: e) | None => None end.
Proof. reflexivity. Qed.

Theorem multi_map_correct (pw : nat -> nat) (fl : flavor) (d m : op) (keys : list string) (namec valc mapc : string) (vcols : list string)
        (co : option val) (back : option (list string)) (e : env) (t mt : table) :
  sem_x pw fl d e = Some t -> sem_x pw fl m e = Some mt -> ~ In mm_tmp1 (tables_of m) ->
  multimap_valid keys namec valc mapc vcols back t mt = true ->
  exists out, sem_xop pw fl (multi_map_pipeline d m keys namec valc mapc vcols co back) e = Some out
              /\ tbl_equiv out (multimap_spec keys namec valc mapc vcols co back t mt).
Proof. intros Hd Hm Nm V.
  set (u := sem_unpivot keys namec valc vcols (sem_select_cols (keys ++ vcols) t)).
  assert (sem_x pw fl m ((mm_tmp1, u) :: e) = Some mt) as Hm'.
  { rewrite <- Hm. apply sem_x_env_ext. intros n I. cbn [dict_get]. destruct (eq_dec n mm_tmp1) as [->|]; [contradiction|reflexivity]. }
  (* without cols_to_map_back the pipeline is the pivot; with it, the pivot bound to mm_tmp2 and renamed *)
  assert (sem_xop pw fl (multi_map_pipeline d m keys namec valc mapc vcols co None) e
          = Some (mm_pivoted pw fl keys namec valc mapc vcols co t mt (f_join_null_match fl))) as Epv.
  { unfold multi_map_pipeline, mm_pivoted, co_table. destruct co as [v|]; cbn [sem_xop sem_x option_map]; rewrite Hd; cbn [option_map]; fold u;
      rewrite dict_get_head, Hm'; reflexivity. }
  destruct back as [bs|]; eexists.
  - split; [|apply (mm_renamed pw fl keys namec valc mapc vcols co (Some bs) t mt V (f_join_null_match fl) bs eq_refl)].
    change (multi_map_pipeline d m keys namec valc mapc vcols co (Some bs))
      with (XLet mm_tmp2 (multi_map_pipeline d m keys namec valc mapc vcols co None) (XSem (ORename (OTable mm_tmp2 (keys ++ vcols)) (combine bs vcols)))).
    rewrite sem_xop_let, Epv. cbn [sem_xop sem_x]. rewrite dict_get_head. reflexivity.
  - split; [exact Epv|]. apply (mm_plain pw fl keys namec valc mapc vcols co None t mt V (f_join_null_match fl) eq_refl).
Qed.

(* what the helper returns when it returns: for two or more columns to map the pipeline above *)
Theorem multi_map_built_correct (pw : nat -> nat) (fl : flavor) (d m : op) (keys : list string) (namec valc mapc : string) (vcols : list string)
        (co : option val) (back : option (list string)) (p : xop) (e : env) (t mt : table) :
  multi_map_build d m keys namec valc mapc vcols co back = Some p ->
  sem_x pw fl d e = Some t -> sem_x pw fl m e = Some mt -> ~ In mm_tmp1 (tables_of m) ->
  multimap_valid keys namec valc mapc vcols back t mt = true ->
  exists out, sem_xop pw fl p e = Some out /\ tbl_equiv out (multimap_spec keys namec valc mapc vcols co back t mt).
Proof. unfold multi_map_build. destruct (Nat.leb (List.length vcols) 1); [discriminate|]. intros E. inversion E; subst p. apply multi_map_correct. Qed.
Lemma multi_map_build_some d m keys namec valc mapc vcols co back :
  (2 <= List.length vcols)%nat -> multi_map_build d m keys namec valc mapc vcols co back = Some (multi_map_pipeline d m keys namec valc mapc vcols co back).
Proof. intros L. unfold multi_map_build. destruct (Nat.leb_spec (List.length vcols) 1); [lia|reflexivity]. Qed.

(* the known finding's witness: a call the docstring allows (one column to map) on which the helper returns nothing *)
Lemma multi_map_single_column_witness :
  exists (d m : op) (keys : list string) (namec valc mapc : string) (vcols : list string) (t mt : table),
    multimap_valid keys namec valc mapc vcols None t mt = true
    /\ sem_gen fl_pandas d [("d", t); ("m", mt)] = Some t /\ sem_gen fl_pandas m [("d", t); ("m", mt)] = Some mt
    /\ multi_map_build d m keys namec valc mapc vcols None None = None.
Proof.
  exists (OTable "d" ["id"; "a"]), (OTable "m" ["column_name"; "column_value"; "mapped_value"]), ["id"], "column_name", "column_value", "mapped_value", ["a"],
         (mktable ["id"; "a"] [[vnat 0; VStr "x"]; [vnat 1; VStr "y"]]),
         (mktable ["column_name"; "column_value"; "mapped_value"] [[VStr "a"; VStr "x"; vnat 1]]).
  vm_compute. repeat split; reflexivity. Qed.
