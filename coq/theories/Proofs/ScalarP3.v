(* C05 -- the Polars expressions compute the documented value whenever they do not raise *)
From Coq Require Import List Bool Qround Qabs Qpower String Lqa.
Import ListNotations.
From DA Require Import Model.Scalar Model.SqlTemplates Model.ScalarBackends Model.ScalarCatalog Model.ScalarIndex Proofs.ScalarP0 Proofs.ScalarP1 Proofs.ScalarP1d.
Local Open Scope string_scope.

Section PL.
Variable mf : string -> Q -> option Q.
Variable mf2 : string -> Q -> Q -> option Q.

(* `None` of pl_eval is "Polars raises": nothing is claimed then *)
Definition documented_pl (m : string) (guard : list sval -> bool) : Prop :=
  forall args r, guard args = true -> spec_method mf mf2 m args = Some r ->
    forall r', pl_eval mf mf2 m args = Some r' -> sv_eqv r' r.

Ltac fin_pl H P :=
  cbn in H; try discriminate H; cbn in P; try discriminate P; cbn in H, P |- *; repeat (break_step; cbn in H, P |- *);
  try discriminate H; try discriminate P; try congruence;
  try (inversion H; subst; clear H; cbn in P |- *; repeat (break_step; cbn in P |- *); try discriminate P; try congruence;
       try (inversion P; subst; clear P; try done_eqv; try (exfalso; q_lra))).
Ltac pl2case H P args := destruct args as [|x [|y [|z l]]]; [junk H | junk H | destruct x, y; fin_pl H P | junk H].
Ltac pl1case H P args := destruct args as [|x [|y l]]; [junk H | destruct x; fin_pl H P | junk H].

(* a binary numeric method whose expression computes the documented total function g: null propagates, and so must a NaN
   operand through g, since Polars hands it to g as an ordinary IEEE value (g stays a variable) *)
Lemma pl2_total g a b r r' : (forall y, g XNaN y = XNaN) -> (forall x, g x XNaN = XNaN) ->
  lift2 (fun x y => Some (of_x (g x y))) a b = Some r -> pl2 (fun x y => Some (g x y)) [a; b] = Some r' -> sv_eqv r' r.
Proof. intros Gl Gr H P. destruct a, b; cbn in H; try discriminate H; cbn in P; rewrite ?Gl, ?Gr in P;
  inversion H; inversion P; subst; done_eqv. Qed.
Lemma xadd_nan_r x : xadd x XNaN = XNaN. Proof. destruct x; reflexivity. Qed.
Lemma xmul_nan_r x : xmul x XNaN = XNaN. Proof. destruct x; reflexivity. Qed.
Lemma pl_add : documented_pl "+" anyargs.
Proof. intros args r _ H r' P. change (spec_method mf mf2 "+") with spec_add in H. arity2 H args. exact (pl2_total xadd a b r r' (fun _ => eq_refl) xadd_nan_r H P). Qed.
Lemma pl_mul : documented_pl "*" anyargs.
Proof. intros args r _ H r' P. change (spec_method mf mf2 "*") with spec_mul in H. arity2 H args. exact (pl2_total xmul a b r r' (fun _ => eq_refl) xmul_nan_r H P). Qed.
Lemma pl_sub : documented_pl "-" anyargs.
Proof. intros args r _ H r' P. change (spec_method mf mf2 "-") with spec_sub in H.
  destruct args as [|a [|b [|c l]]]; try discriminate H.
  - destruct a; fin_pl H P.
  - exact (pl2_total xsub a b r r' (fun _ => eq_refl) xadd_nan_r H P). Qed.
Lemma pl_div : documented_pl "/" anyargs.
Proof. intros args r _ H r' P. change (spec_method mf mf2 "/") with spec_div in H. pl2case H P args. Qed.
Lemma pl_fdiv : documented_pl "%/%" anyargs.
Proof. intros args r _ H r' P. change (spec_method mf mf2 "%/%") with spec_div in H. pl2case H P args. Qed.
Lemma pl_floordiv : documented_pl "//" anyargs.
Proof. intros args r _ H r' P. change (spec_method mf mf2 "//") with spec_floordiv in H. pl2case H P args. Qed.
Lemma pl_mod m : str_in m ["%"; "mod"; "remainder"] = true -> documented_pl m anyargs.
Proof. intros M args r _ H r' P. apply str_in_In in M. simpl in M.
  assert (spec_method mf mf2 m = spec_mod) as S by (destruct M as [<-|[<-|[<-|[]]]]; reflexivity). rewrite S in H.
  assert (pl_eval mf mf2 m = pl2 (nanprop2 (finfin (fun p q => if Qeq_bool q 0 then Some XNaN else Some (XFin (qpymod p q)))))) as E
    by (destruct M as [<-|[<-|[<-|[]]]]; reflexivity).
  rewrite E in P. clear E S M. arity2 H args.
  destruct a as [ | | |p| | | ], b as [ | | |q| | | ]; cbn in H; try discriminate H; cbn in P;
    try (inversion H; inversion P; subst; done_eqv).
  destruct (Qis_int p) eqn:Ip; [|discriminate H]. destruct (Qis_int q) eqn:Iq; [|discriminate H].
  destruct (Qle_bool 0 p) eqn:Lp; [|discriminate H]. destruct (Qlt_bool 0 q) eqn:Lq; [|discriminate H].
  cbn in H. inversion H; subst; clear H.
  destruct (Qeq_bool q 0) eqn:Z0; [exfalso; q_lra|]. cbn in P. inversion P; subst.
  apply sv_eqv_num. unfold qpymod, qmodZ, qfloor. apply floor_formula_is_mod; assumption. Qed.
Lemma pl_pow : documented_pl "**" anyargs.
Proof. intros args r _ H r' P. change (spec_method mf mf2 "**") with (spec_pow mf2) in H. arity2 H args.
  unfold spec_pow in H.
  destruct a as [ | | |p| | | ], b as [ | | |q| | | ]; cbn in H; try discriminate H.
  all: try solve [fin_pl H P].
  destruct (qpow mf2 p q) as [v|] eqn:E; [|discriminate H]. cbn in H. inversion H; subst.
  cbn in P. rewrite (qpow_defined _ _ _ _ E), E in P. cbn in P. inversion P; subst. apply sv_eqv_refl. Qed.
Lemma pl_cmp_ops m : str_in m cmp_names = true -> documented_pl m anyargs.
Proof. intros I args r _ H r' P. destruct (cmp_names_op m I) as [op L]. rewrite (cmp_ops_spec mf mf2 m op L) in H.
  assert (pl_eval mf mf2 m = pl_cmp (cmp_test op)) as E.
  { apply lookup_In in L. simpl in L. repeat (destruct L as [L|L]; [inversion L; reflexivity|]). destruct L. }
  rewrite E in P. arity2 H args. unfold spec_cmp in H. unfold pl_cmp in P.
  destruct (cmp3 a b) as [c|] eqn:C; [|discriminate H]. inversion H; subst; clear H.
  destruct a, b; cbn in C; try discriminate C; rewrite ?C in P; cbn in P; inversion P; subst; apply sv_eqv_refl. Qed.
Lemma pl_and : documented_pl "and" anyargs.
Proof. intros args r _ H r' P. change (spec_method mf mf2 "and") with spec_and in H. arity2 H args.
  destruct a as [ | |x| | | | ], b as [ | |y| | | | ]; try discriminate H. inversion H; subst. destruct x, y; inversion P; subst; reflexivity. Qed.
Lemma pl_or : documented_pl "or" anyargs.
Proof. intros args r _ H r' P. change (spec_method mf mf2 "or") with spec_or in H. arity2 H args.
  destruct a as [ | |x| | | | ], b as [ | |y| | | | ]; try discriminate H. inversion H; subst. destruct x, y; inversion P; subst; reflexivity. Qed.
Lemma pl_abs : documented_pl "abs" anyargs.
Proof. intros args r _ H r' P. change (spec_method mf mf2 "abs") with spec_abs in H. pl1case H P args. Qed.
Lemma pl_sign : documented_pl "sign" anyargs.
Proof. intros args r _ H r' P. change (spec_method mf mf2 "sign") with spec_sign in H. pl1case H P args. Qed.
Lemma pl_floor : documented_pl "floor" anyargs.
Proof. intros args r _ H r' P. change (spec_method mf mf2 "floor") with spec_floor in H. pl1case H P args. Qed.
Lemma pl_ceil : documented_pl "ceil" anyargs.
Proof. intros args r _ H r' P. change (spec_method mf mf2 "ceil") with spec_ceil in H. pl1case H P args. Qed.
Lemma pl_round : documented_pl "round" anyargs.
Proof. intros args r _ H r' P. change (spec_method mf mf2 "round") with spec_round in H. arity1 H args.
  destruct a as [ | | |q| | | ]; cbn in H; try discriminate H; cbn in P; try (inversion H; inversion P; subst; done_eqv).
  destruct (qtie q) eqn:T; [discriminate H|]. inversion H; inversion P; subst.
  rewrite (round_half_even_nearest _ T). apply sv_eqv_refl. Qed.
Lemma pl_around : documented_pl "around" anyargs.
Proof. intros args r _ H r' P. change (spec_method mf mf2 "around") with spec_around in H. arity2 H args.
  destruct b as [ | | |dg| | | ]; try (destruct a; discriminate H). cbn in H. cbn in P.
  destruct (Qnat dg) as [n|] eqn:N; [|discriminate H]. destruct (n <=? 6)%nat; [|discriminate H].
  destruct a as [ | | |q| | | ]; cbn in H; try discriminate H; cbn in P; try (inversion H; inversion P; subst; done_eqv).
  destruct (qtie (q * pow10 (Z.of_nat n))) eqn:T; [discriminate H|]. inversion H; inversion P; subst.
  rewrite (round_half_even_nearest _ T). apply sv_eqv_refl. Qed.
(* null operands are propagated; max_horizontal / min_horizontal still skip a NaN next to a present operand *)
Definition nan_beside_present (l : list sval) : bool :=
  existsb (fun v => match v with SNaN => true | _ => false end) l && existsb (fun v => negb (missing v)) l.
Lemma pl2_propagate g a b r r' : nan_beside_present [a; b] = false -> lift2 (fun x y => Some (of_x (g x y))) a b = Some r ->
  pl_propagate_null g [a; b] = Some r' -> sv_eqv r' r.
Proof. intros G H P. destruct a, b; cbn in G; try discriminate G; cbn in H; try discriminate H; cbn in P;
  inversion H; inversion P; subst; done_eqv. Qed.
Lemma pl_maximum : documented_pl "maximum" (pl_guard "maximum").
Proof. intros args r G H r' P. change (spec_method mf mf2 "maximum") with spec_maximum in H. arity2 H args.
  apply negb_true_iff in G. exact (pl2_propagate xmax a b r r' G H P). Qed.
Lemma pl_minimum : documented_pl "minimum" (pl_guard "minimum").
Proof. intros args r G H r' P. change (spec_method mf mf2 "minimum") with spec_minimum in H. arity2 H args.
  apply negb_true_iff in G. exact (pl2_propagate xmin a b r r' G H P). Qed.
Lemma pl2_horizontal g a b r r' : ignore_missing2 g a b = Some r -> pl_horizontal g [a; b] = Some r' -> sv_eqv r' r.
Proof. intros H P. destruct a, b; cbn in H; try discriminate H; cbn in P; inversion H; inversion P; subst; done_eqv. Qed.
Lemma pl_fmax : documented_pl "fmax" anyargs.
Proof. intros args r _ H r' P. change (spec_method mf mf2 "fmax") with spec_fmax in H. arity2 H args. exact (pl2_horizontal xmax a b r r' H P). Qed.
Lemma pl_fmin : documented_pl "fmin" anyargs.
Proof. intros args r _ H r' P. change (spec_method mf mf2 "fmin") with spec_fmin in H. arity2 H args. exact (pl2_horizontal xmin a b r r' H P). Qed.
Lemma pl_if_else : documented_pl "if_else" anyargs.
Proof. intros args r _ H r' P. change (spec_method mf mf2 "if_else") with spec_if_else in H. arity3 H args.
  destruct a as [ | |x| | | | ]; try discriminate H; [|destruct x]; inversion H; inversion P; subst; apply sv_eqv_refl. Qed.
Lemma pl_where : documented_pl "where" anyargs.
Proof. intros args r _ H r' P. change (spec_method mf mf2 "where") with spec_where in H. arity3 H args.
  destruct a as [ | |x| | | | ]; try discriminate H; [|destruct x]; inversion H; inversion P; subst; apply sv_eqv_refl. Qed.
Lemma pl_coalesce : documented_pl "coalesce" anyargs.
Proof. intros args r _ H r' P. change (spec_method mf mf2 "coalesce") with spec_coalesce in H. arity2 H args.
  destruct a; cbn in H; try discriminate H; inversion H; inversion P; subst; apply sv_eqv_refl. Qed.
Lemma pl_is_null : documented_pl "is_null" anyargs.
Proof. intros args r _ H r' P. change (spec_method mf mf2 "is_null") with spec_is_null in H. pl1case H P args. Qed.
Lemma pl_is_nan : documented_pl "is_nan" anyargs.
Proof. intros args r _ H r' P. change (spec_method mf mf2 "is_nan") with spec_is_nan in H. pl1case H P args. Qed.
Lemma pl_is_inf : documented_pl "is_inf" anyargs.
Proof. intros args r _ H r' P. change (spec_method mf mf2 "is_inf") with spec_is_inf in H. pl1case H P args. Qed.
Lemma pl_is_bad : documented_pl "is_bad" anyargs.
Proof. intros args r _ H r' P. change (spec_method mf mf2 "is_bad") with spec_is_bad in H. pl1case H P args. Qed.
Lemma pl_is_in : documented_pl "is_in" anyargs.
Proof. intros args r _ H r' P. change (spec_method mf mf2 "is_in") with spec_is_in in H.
  destruct args as [|x elems]; [discriminate H|]. cbn in H. cbn in P. destruct (missing x) eqn:M; [discriminate H|].
  destruct (mem_cmp x elems); [|discriminate H]. cbn in *. destruct x; try discriminate M; inversion H; inversion P; subst; apply sv_eqv_refl. Qed.
Lemma pl_mapv : documented_pl "mapv" anyargs.
Proof. intros args r _ H r' P. change (spec_method mf mf2 "mapv") with spec_mapv in H.
  destruct args as [|x [|dflt kv]]; try discriminate H. cbn in H.
  destruct (Nat.even (List.length kv)); [|discriminate H]. cbn in H.
  change (pl_eval mf mf2 "mapv" (x :: dflt :: kv)) with (pl_when_chain x kv dflt) in P. unfold pl_when_chain in P.
  destruct (missing x); rewrite H in P; inversion P; subst; apply sv_eqv_refl. Qed.
Lemma pl_concat : documented_pl "concat" anyargs.
Proof. intros args r _ H r' P. change (spec_method mf mf2 "concat") with spec_concat in H. arity2 H args.
  destruct a, b; try discriminate H. inversion H; inversion P; subst. apply sv_eqv_refl. Qed.
(* Polars has no trimstr, and arctan2 is registered with one argument: the model always raises, so nothing is claimed *)
Lemma pl_trimstr : documented_pl "trimstr" anyargs.
Proof. intros args r _ H r' P. discriminate P. Qed.
Lemma pl_as_str : documented_pl "as_str" anyargs.
Proof. intros args r _ H r' P. change (spec_method mf mf2 "as_str") with spec_as_str in H. arity1 H args.
  destruct a; try discriminate H; inversion H; inversion P; subst; apply sv_eqv_refl. Qed.
Lemma pl_as_int64 : documented_pl "as_int64" anyargs.
Proof. intros args r _ H r' P. change (spec_method mf mf2 "as_int64") with spec_as_int64 in H. arity1 H args.
  destruct a as [ | | |q| | | ]; try discriminate H. cbn in H. destruct (Qis_int q) eqn:I; [|discriminate H].
  inversion H; inversion P; subst. apply sv_eqv_num. apply qtrunc_int. exact I. Qed.
Lemma pl_arctan2 : documented_pl "arctan2" anyargs.
Proof. intros args r _ H r' P. discriminate P. Qed.
Lemma pl_math name : str_in name math_names = true -> documented_pl name anyargs.
Proof. intros I args r _ H r' P. apply str_in_In in I.
  assert (spec_method mf mf2 name = spec_math mf name /\ pl_eval mf mf2 name = ScalarBackends.pl_math mf name) as [S E].
  { simpl in I. repeat (destruct I as [<-|I]; [split; reflexivity|]). destruct I. }
  rewrite S in H. rewrite E in P. clear S E I. arity1 H args. unfold ScalarBackends.pl_math in P.
  destruct (String.eqb name "expm1"); [discriminate P|].
  destruct a; cbn in H; try discriminate H; cbn in P;
    try (destruct (math_dom name q); [|discriminate H]; destruct (mf name q); [|discriminate H]);
    inversion H; inversion P; subst; done_eqv. Qed.
End PL.
