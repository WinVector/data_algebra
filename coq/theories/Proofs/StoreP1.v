(* C19, part 1: ownership.  A small Hoare logic over the store monad of Model/Store.v and the theorem that an evaluation
   only writes into frame objects it allocated itself. *)
From Coq Require Import List Bool Arith String Lia.
Import ListNotations.
From DA Require Import Model.Store.
Local Open Scope list_scope.

(* ------------------------------------------------------------------ lookup / update / fresh *)
Lemma lookup_in_dom fs l f : lookup fs l = Some f -> In l (map fst fs).
Proof. induction fs as [|[l' f'] t IH]; simpl; [discriminate|]. destruct (Nat.eqb l l') eqn:E.
  - apply Nat.eqb_eq in E. subst. auto.
  - intros H. right. auto. Qed.
Lemma in_dom_lookup fs l : In l (map fst fs) -> exists f, lookup fs l = Some f.
Proof. induction fs as [|[l' f'] t IH]; simpl; [tauto|]. intros [->|H].
  - rewrite Nat.eqb_refl. eauto.
  - destruct (Nat.eqb l l'); eauto. Qed.
Lemma update_dom fs l f : map fst (update fs l f) = map fst fs.
Proof. induction fs as [|[l' f'] t IH]; simpl; [reflexivity|]. destruct (Nat.eqb l l'); simpl; congruence. Qed.
Lemma lookup_update_other fs l f x : x <> l -> lookup (update fs l f) x = lookup fs x.
Proof. intros N. induction fs as [|[l' f'] t IH]; simpl; [reflexivity|]. destruct (Nat.eqb l l') eqn:E; simpl.
  - apply Nat.eqb_eq in E. subst l'. destruct (Nat.eqb x l) eqn:E2; [apply Nat.eqb_eq in E2; congruence|reflexivity].
  - destruct (Nat.eqb x l'); auto. Qed.
Lemma lookup_update_same fs l f f0 : lookup fs l = Some f0 -> lookup (update fs l f) l = Some f.
Proof. induction fs as [|[l' f'] t IH]; simpl; [discriminate|]. destruct (Nat.eqb l l') eqn:E; simpl.
  - rewrite E. reflexivity.
  - rewrite E. auto. Qed.
Lemma list_max_ge l x : In x l -> x <= list_max l.
Proof. induction l as [|a t IH]; simpl; [tauto|]. intros [->|H]; [lia|]. specialize (IH H). lia. Qed.
Lemma fresh_notin s : ~ In (fresh s) (dom s).
Proof. intros H. apply list_max_ge in H. unfold fresh in H. lia. Qed.

(* ------------------------------------------------------------------ the symbolic stores produced by the primitives *)
Definition push (s : store) (f : frame) : store := mkstore ((fresh s, f) :: frames s) (rng s).
Definition upd (s : store) (l : loc) (f : frame) : store := mkstore (update (frames s) l f) (rng s).
Definition tick (s : store) : store := mkstore (frames s) (S (rng s)).

Lemma get_push_same s f : get (push s f) (fresh s) = Some f.
Proof. unfold get, push; simpl. rewrite Nat.eqb_refl. reflexivity. Qed.
Lemma get_push_old s f x fx : get s x = Some fx -> get (push s f) x = Some fx.
Proof. intros H. unfold get, push; simpl. destruct (Nat.eqb x (fresh s)) eqn:E; [|exact H].
  apply Nat.eqb_eq in E. subst x. exfalso. exact (fresh_notin s (lookup_in_dom _ _ _ H)). Qed.
Lemma get_upd_other s l f x fx : x <> l -> get s x = Some fx -> get (upd s l f) x = Some fx.
Proof. intros N H. unfold get, upd; simpl. rewrite lookup_update_other; auto. Qed.
Lemma get_tick s x : get (tick s) x = get s x.
Proof. reflexivity. Qed.
Lemma neq_fresh_r s x fx : get s x = Some fx -> x <> fresh s.
Proof. intros H E. subst x. exact (fresh_notin s (lookup_in_dom _ _ _ H)). Qed.

(* ------------------------------------------------------------------ extension of a base store *)
Definition ext (s0 s : store) : Prop := incl (dom s0) (dom s) /\ forall l, In l (dom s0) -> get s l = get s0 l.
Definition notin (s0 : store) (l : loc) : Prop := ~ In l (dom s0).

Lemma ext_refl s : ext s s.
Proof. split; [apply incl_refl|reflexivity]. Qed.
Lemma ext_trans a b c : ext a b -> ext b c -> ext a c.
Proof. intros [I1 G1] [I2 G2]. split; [eapply incl_tran; eauto|]. intros l H. rewrite G2; auto. Qed.
Lemma ext_push s0 s f : ext s0 s -> ext s0 (push s f).
Proof. intros [I G]. split.
  - intros l H. right. apply I, H.
  - intros l H. rewrite <- (G l H). destruct (in_dom_lookup (frames s) l (I l H)) as [fx Hx].
    change (lookup (frames s) l) with (get s l) in Hx. rewrite Hx. apply get_push_old, Hx. Qed.
Lemma ext_upd s0 s l f : ext s0 s -> notin s0 l -> ext s0 (upd s l f).
Proof. intros [I G] N. split.
  - unfold dom, upd; simpl. rewrite update_dom. exact I.
  - intros x H. rewrite <- (G x H). unfold get, upd; simpl. apply lookup_update_other. intros ->. exact (N H). Qed.
Lemma ext_tick s0 s : ext s0 s -> ext s0 (tick s).
Proof. intros H. exact H. Qed.
Lemma fresh_notin_base s0 s : ext s0 s -> notin s0 (fresh s).
Proof. intros [I _] H. exact (fresh_notin s (I _ H)). Qed.

(* ------------------------------------------------------------------ writes of a trace *)
Lemma write_locs_wr k l ws x : In x (write_locs (map (EWrite k l) ws)) -> x = l.
Proof. unfold write_locs. induction ws as [|w t IH]; simpl; [tauto|]. intros [E|H]; auto. Qed.

(* ------------------------------------------------------------------ Hoare logic: `owned s0 m Q`
   started from any extension of the base store s0, m keeps every frame of s0 unchanged, writes only outside dom s0,
   and its result satisfies Q *)
Definition owned (s0 : store) {A} (m : M A) (Q : A -> Prop) : Prop :=
  forall s, ext s0 s -> forall a s' evs, m s = Some (a, s', evs) ->
    ext s0 s' /\ (forall l, In l (write_locs evs) -> notin s0 l) /\ Q a.

Lemma owned_ret s0 {A} (a : A) (Q : A -> Prop) : Q a -> owned s0 (ret a) Q.
Proof. intros H s E a' s' evs R. inversion R; subst. split; [exact E|]. split; [intros l []|exact H]. Qed.
Lemma owned_fail s0 {A} (Q : A -> Prop) : owned s0 (@fail A) Q.
Proof. intros s E a s' evs R. discriminate. Qed.
Lemma owned_bind s0 {A B} (m : M A) (k : A -> M B) (Q : A -> Prop) (R : B -> Prop) :
  owned s0 m Q -> (forall a, Q a -> owned s0 (k a) R) -> owned s0 (bind m k) R.
Proof. intros Hm Hk s E b s2 evs Run. unfold bind in Run.
  destruct (m s) as [[[a s1] e1]|] eqn:M1; [|discriminate].
  destruct (k a s1) as [[[b' s2'] e2]|] eqn:K1; [|discriminate]. inversion Run; subst.
  destruct (Hm s E a s1 e1 M1) as (E1 & W1 & Qa).
  destruct (Hk a Qa s1 E1 b s2 e2 K1) as (E2 & W2 & Rb).
  split; [exact E2|]. split; [|exact Rb]. intros l H. unfold write_locs in H. rewrite flat_map_app in H. apply in_app_or in H. destruct H; auto. Qed.
Lemma owned_bind_loc s0 {B} (m : M loc) (k : loc -> M B) (R : B -> Prop) :
  owned s0 m (notin s0) -> (forall a, notin s0 a -> owned s0 (k a) R) -> owned s0 (bind m k) R.
Proof. apply owned_bind. Qed.
Lemma owned_bind_any s0 {A B} (m : M A) (k : A -> M B) (R : B -> Prop) :
  owned s0 m (fun _ => True) -> (forall a, owned s0 (k a) R) -> owned s0 (bind m k) R.
Proof. intros Hm Hk. eapply owned_bind; [exact Hm|]. intros a _. apply Hk. Qed.
Lemma owned_weaken s0 {A} (m : M A) (Q Q' : A -> Prop) : (forall a, Q a -> Q' a) -> owned s0 m Q -> owned s0 m Q'.
Proof. intros I H s E a s' evs R. destruct (H s E a s' evs R) as (X & Y & Z). auto. Qed.
Lemma owned_new s0 k f : owned s0 (new k f) (notin s0).
Proof. intros s E a s' evs R. unfold new in R. inversion R; subst. split; [|split].
  - apply (ext_push s0 s f E).
  - simpl. tauto.
  - apply fresh_notin_base, E. Qed.
Lemma owned_rd s0 k l : owned s0 (rd k l) (fun _ => True).
Proof. intros s E a s' evs R. unfold rd in R. destruct (get s l); [|discriminate]. inversion R; subst.
  split; [exact E|]. split; [simpl; tauto|exact I]. Qed.
Lemma owned_wr s0 k l ws u : notin s0 l -> owned s0 (wr k l ws u) (fun _ => True).
Proof. intros N s E a s' evs R. unfold wr in R. destruct (get s l) as [f|]; [|discriminate]. inversion R; subst.
  split; [|split; [|exact I]].
  - apply (ext_upd s0 s l (u f) E N).
  - intros x H. apply write_locs_wr in H. subst. exact N. Qed.
Lemma owned_draw s0 : owned s0 draw (fun _ => True).
Proof. intros s E a s' evs R. unfold draw in R. inversion R; subst. split; [exact E|]. split; [simpl; tauto|exact I]. Qed.
Lemma owned_derive s0 k l g : owned s0 (derive k l g) (notin s0).
Proof. unfold derive. eapply owned_bind_any; [apply owned_rd|]. intros f. apply owned_new. Qed.
Lemma owned_derive2 s0 k l1 l2 g : owned s0 (derive2 k l1 l2 g) (notin s0).
Proof. unfold derive2. eapply owned_bind_any; [apply owned_rd|]. intros f1.
  eapply owned_bind_any; [apply owned_rd|]. intros f2. apply owned_new. Qed.

(* `owned` is closed under every way the executors build programs: one rule per constructor; sub-programs that have a
   lemma of their own (hint database `own`) or an induction hypothesis are closed by it *)
Create HintDb own.
Ltac own :=
  lazymatch goal with
  | |- owned _ (ret _) _ => apply owned_ret; cbv beta; auto
  | |- owned _ fail _ => apply owned_fail
  | |- owned _ (new _ _) _ => apply owned_new
  | |- owned _ (rd _ _) _ => apply owned_rd
  | |- owned _ (wr _ _ _ _) _ => apply owned_wr; assumption
  | |- owned _ draw _ => apply owned_draw
  | |- owned _ (derive _ _ _) _ => apply owned_derive
  | |- owned _ (derive2 _ _ _ _) _ => apply owned_derive2
  | |- owned _ (@bind loc _ _ _) _ => eapply owned_bind_loc; [own | intros ? ?; own]
  | |- owned _ (bind _ _) _ => eapply owned_bind_any; [own | intros ?; own]
  | |- owned _ (if ?b then _ else _) _ => destruct b; own
  | |- owned _ (match ?x with _ => _ end) _ => destruct x; own
  | |- owned _ _ _ => solve [eauto with own]
  end.

(* ------------------------------------------------------------------ the steps of the Pandas executor *)
Section Steps.
Variable s0 : store.
Notation N := (notin s0).

Lemma own_add_cols k res nf : N res -> N nf -> owned s0 (add_cols k res nf) N.
Proof. intros H1 H2. unfold add_cols. own. Qed.
Lemma own_coalesce sx cs : forall l, N l -> owned s0 (coalesce_loop sx cs l) N.
Proof. induction cs as [|c t IH]; intros l H; simpl; own. Qed.
Hint Resolve own_add_cols own_coalesce : own.

Lemma own_table env name cols : owned s0 (step_table env name cols) N.
Proof. unfold step_table. own. Qed.
Lemma own_extend tag outs win random res : N res -> owned s0 (step_extend tag outs win random res) N.
Proof. intros H. unfold step_extend. own. Qed.
Lemma own_project tag gb outs consts nr res : N res -> owned s0 (step_project tag gb outs consts nr res) N.
Proof. intros H. unfold step_project. own. Qed.
Lemma own_select_rows tag nr res : N res -> owned s0 (step_select_rows tag nr res) N.
Proof. intros H. unfold step_select_rows. own. Qed.
Lemma own_order_rows by_ rev limit res : N res -> owned s0 (step_order_rows by_ rev limit res) N.
Proof. intros H. unfold step_order_rows. own. Qed.
Lemma own_map_cols m dels res : owned s0 (step_map_cols m dels res) N.
Proof. unfold step_map_cols. own. Qed.
Lemma own_join on_a on_b jt nk nr left right : N left -> N right -> owned s0 (step_join on_a on_b jt nk nr left right) N.
Proof. intros H1 H2. unfold step_join. own. Qed.
Lemma own_concat idcol left right : N left -> N right -> owned s0 (step_concat idcol left right) N.
Proof. intros H1 H2. unfold step_concat. own. Qed.
Lemma own_convert hi ho mc oc nm nr res : owned s0 (step_convert hi ho mc oc nm nr res) N.
Proof. unfold step_convert, b2r, r2b. own. Qed.
Hint Resolve own_table own_extend own_project own_select_rows own_order_rows own_map_cols own_join own_concat own_convert : own.

Lemma own_pexec env p : owned s0 (pexec env p) N.
Proof. induction p; simpl; unfold step_select_cols, step_drop_cols, step_rename; own. Qed.

(* Polars executor *)
Lemma own_plexec env p : owned s0 (plexec env p) N.
Proof. induction p; simpl; unfold pl_table, pl_convert, pl_join; own. Qed.
End Steps.

(* ------------------------------------------------------------------ consequences for one evaluation *)
Lemma owned_run (m : M loc) s a s' evs :
  owned s m (notin s) -> m s = Some (a, s', evs) ->
  (forall l, In l (write_locs evs) -> ~ In l (dom s)) /\ (forall l, In l (dom s) -> get s' l = get s l) /\
  incl (dom s) (dom s') /\ ~ In a (dom s).
Proof. intros H R. destruct (H s (ext_refl s) a s' evs R) as ((I & G) & W & Q). split; [exact W|]. split; [exact G|]. split; [exact I|exact Q]. Qed.

Lemma pexec_inputs_never_written s p env s' l evs : pexec_st s p env = Some (s', l, evs) ->
  (forall x, In x (write_locs evs) -> ~ In x (dom s)) /\ (forall x, In x (dom s) -> get s' x = get s x) /\
  incl (dom s) (dom s') /\ ~ In l (dom s).
Proof. unfold pexec_st. destruct (pexec env p s) as [[[l0 s1] e1]|] eqn:R; [|discriminate]. intros E. inversion E; subst.
  exact (owned_run _ _ _ _ _ (own_pexec s env p) R). Qed.
Lemma plexec_inputs_never_written s p env s' l evs : plexec_st s p env = Some (s', l, evs) ->
  (forall x, In x (write_locs evs) -> ~ In x (dom s)) /\ (forall x, In x (dom s) -> get s' x = get s x) /\
  incl (dom s) (dom s') /\ ~ In l (dom s).
Proof. unfold plexec_st. destruct (plexec env p s) as [[[l0 s1] e1]|] eqn:R; [|discriminate]. intros E. inversion E; subst.
  exact (owned_run _ _ _ _ _ (own_plexec s env p) R). Qed.
