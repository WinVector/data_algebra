(* C10, part 1: list / Forall2 facts, reading cells by name, locality of expression evaluation. *)
From Coq Require Import List Bool String .
Import ListNotations.
From DA Require Import Base.PyRT Base.Val Model.Sem Proofs.SemBasicP Model.ColumnsUsed Proofs.TabP.
Local Open Scope list_scope.

(* ------------------------------------------------------------------ Forall2 transport *)
Lemma F2_map_eq {A B C} (R : A -> B -> Prop) (f : A -> C) (g : B -> C) l l' :
  Forall2 R l l' -> (forall x y, R x y -> f x = g y) -> map f l = map g l'.
Proof. induction 1 as [|x y l l' Rxy _ IH]; intros E; simpl; [reflexivity|]. rewrite (E _ _ Rxy), IH by exact E. reflexivity. Qed.

Lemma F2_map {A B C D} (R : A -> B -> Prop) (S : C -> D -> Prop) (f : A -> C) (g : B -> D) l l' :
  Forall2 R l l' -> (forall x y, R x y -> S (f x) (g y)) -> Forall2 S (map f l) (map g l').
Proof. induction 1 as [|x y l l' Rxy _ IH]; intros E; simpl; constructor; auto. Qed.

Lemma F2_filter {A B} (R : A -> B -> Prop) (f : A -> bool) (g : B -> bool) l l' :
  Forall2 R l l' -> (forall x y, R x y -> f x = g y) -> Forall2 R (filter f l) (filter g l').
Proof. induction 1 as [|x y l l' Rxy _ IH]; intros E; simpl; [constructor|].
  rewrite (E _ _ Rxy). destruct (g y); [constructor|]; auto. Qed.

Lemma F2_existsb {A B} (R : A -> B -> Prop) (f : A -> bool) (g : B -> bool) l l' :
  Forall2 R l l' -> (forall x y, R x y -> f x = g y) -> existsb f l = existsb g l'.
Proof. induction 1 as [|x y l l' Rxy _ IH]; intros E; simpl; [reflexivity|]. rewrite (E _ _ Rxy), IH by exact E. reflexivity. Qed.

Lemma F2_flat_map {A B C D} (R : A -> B -> Prop) (S : C -> D -> Prop) (f : A -> list C) (g : B -> list D) l l' :
  Forall2 R l l' -> (forall x y, R x y -> Forall2 S (f x) (g y)) -> Forall2 S (flat_map f l) (flat_map g l').
Proof. induction 1 as [|x y l l' Rxy _ IH]; intros E; simpl; [constructor|]. apply Forall2_app; auto. Qed.

(* the rows of l without a partner in m (the unmatched side of an outer join), each turned into one output row *)
Lemma F2_unmatched {A A' B B' C C'} (R : A -> A' -> Prop) (S : B -> B' -> Prop) (T : C -> C' -> Prop)
  (m : A -> B -> bool) (m' : A' -> B' -> bool) (mk : A -> C) (mk' : A' -> C') l l' p p' :
  Forall2 R l l' -> Forall2 S p p' -> (forall a a' b b', R a a' -> S b b' -> m a b = m' a' b') ->
  (forall a a', R a a' -> T (mk a) (mk' a')) ->
  Forall2 T (flat_map (fun a => if existsb (m a) p then [] else [mk a]) l)
            (flat_map (fun a' => if existsb (m' a') p' then [] else [mk' a']) l').
Proof.
  intros Fl Fp M K. eapply F2_flat_map; [exact Fl|]. intros a a' Ra.
  rewrite (F2_existsb S (m a) (m' a') p p' Fp) by (intros b b' Sb; apply M; assumption).
  destruct (existsb _ _); repeat constructor. apply K, Ra.
Qed.

Lemma F2_firstn {A B} (R : A -> B -> Prop) n : forall l l', Forall2 R l l' -> Forall2 R (firstn n l) (firstn n l').
Proof. induction n as [|n IH]; intros l l' H; simpl; [constructor|]. destruct H; constructor; auto. Qed.

Lemma F2_weaken {A B} (R S : A -> B -> Prop) l l' : Forall2 R l l' -> (forall x y, R x y -> S x y) -> Forall2 S l l'.
Proof. induction 1; intros E; constructor; auto. Qed.

Lemma F2_length {A B} (R : A -> B -> Prop) l l' : Forall2 R l l' -> List.length l = List.length l'.
Proof. induction 1; simpl; congruence. Qed.

Lemma F2_insert_sorted {A B} (R : A -> B -> Prop) (le : A -> A -> bool) (le' : B -> B -> bool) x y l l' :
  (forall a b c d, R a b -> R c d -> le a c = le' b d) ->
  R x y -> Forall2 R l l' -> Forall2 R (insert_sorted le x l) (insert_sorted le' y l').
Proof. intros E Rxy H. induction H as [|a b l l' Rab H0 IH]; simpl; [repeat constructor; exact Rxy|].
  rewrite (E _ _ _ _ Rxy Rab). destruct (le' y b).
  - constructor; [exact Rxy|]. constructor; assumption.
  - constructor; [exact Rab|exact IH]. Qed.

Lemma F2_stable_sort {A B} (R : A -> B -> Prop) (le : A -> A -> bool) (le' : B -> B -> bool) l l' :
  (forall a b c d, R a b -> R c d -> le a c = le' b d) ->
  Forall2 R l l' -> Forall2 R (stable_sort le l) (stable_sort le' l').
Proof. intros E H. induction H as [|a b l l' Rab _ IH]; simpl; [constructor|]. apply F2_insert_sorted; assumption. Qed.

Lemma F2_tag_from {R : list val -> list val -> Prop} n l l' :
  Forall2 R l l' -> Forall2 (fun a b => fst a = fst b /\ R (snd a) (snd b)) (tag_from n l) (tag_from n l').
Proof. intros H. revert n. induction H as [|x y l l' Rxy _ IH]; intros n; simpl; constructor; auto. Qed.

(* ------------------------------------------------------------------ reading cells by name *)
(* a row built cell by cell from its column list *)

(* renamed column lists: position of a name under a map that is injective where it matters *)
Lemma index_of_map_inj (f : string -> string) cs x0 :
  (forall x, In x cs -> f x = f x0 -> x = x0) -> index_of (f x0) (map f cs) = index_of x0 cs.
Proof.
  induction cs as [|x t IH]; intros Inj; simpl; [reflexivity|].
  destruct (eq_dec (f x0) (f x)) as [e|n].
  - rewrite (Inj x (or_introl eq_refl) (eq_sym e)). destruct (eq_dec x0 x0); [reflexivity|congruence].
  - destruct (eq_dec x0 x) as [->|n2]; [congruence|]. rewrite IH; [reflexivity|]. intros y I. apply Inj. right. exact I.
Qed.

(* ------------------------------------------------------------------ set_cell / cell-by-cell folds (general form) *)

(* the last assignment to column c in a list of (column, _) pairs *)
Fixpoint last_for {X} (c : string) (l : list (string * X)) : option (string * X) :=
  match l with
  | [] => None
  | ke :: t => match last_for c t with Some x => Some x | None => if eq_dec c (fst ke) then Some ke else None end
  end.
Lemma last_for_In {X} c (l : list (string * X)) ke : last_for c l = Some ke -> In ke l /\ fst ke = c.
Proof.
  induction l as [|a t IH]; simpl; [discriminate|]. destruct (last_for c t) as [x|].
  - intros [= <-]. destruct (IH eq_refl). split; [right|]; assumption.
  - destruct (eq_dec c (fst a)) as [e|n]; [|discriminate]. intros [= <-]. split; [left; reflexivity|symmetry; exact e].
Qed.
Lemma last_for_None {X} c (l : list (string * X)) : last_for c l = None -> ~ In c (map fst l).
Proof.
  induction l as [|a t IH]; simpl; [tauto|]. destruct (last_for c t) as [x|]; [discriminate|].
  destruct (eq_dec c (fst a)) as [e|n]; [discriminate|]. intros _ [H|H]; [congruence|]. apply IH; [reflexivity|exact H].
Qed.
Lemma last_for_map {X Y} c (g : string * X -> Y) (l : list (string * X)) :
  last_for c (map (fun ke => (fst ke, g ke)) l) = option_map (fun ke => (fst ke, g ke)) (last_for c l).
Proof.
  induction l as [|a t IH]; simpl; [reflexivity|]. rewrite IH. destruct (last_for c t); simpl; [reflexivity|].
  destruct (eq_dec c (fst a)); reflexivity.
Qed.

Lemma fold_cells_get_full {X} (F : string * X -> val) l : forall row ccs c,
  List.length row = List.length ccs ->
  get (ext_cols ccs (map fst l))
      (fst (fold_left (fun (acc : list val * list string) (ke : string * X) =>
                         let '(row, ccs) := acc in (set_cell ccs row (fst ke) (F ke), add_end ccs (fst ke))) l (row, ccs))) c
  = match last_for c l with Some ke => F ke | None => get ccs row c end.
Proof.
  induction l as [|ke l IH]; intros row ccs c L; simpl; [reflexivity|].
  unfold ext_cols in *. simpl. rewrite IH by (apply set_cell_length; exact L).
  destruct (last_for c l); [reflexivity|]. rewrite set_cell_get by exact L.
  destruct (eq_dec c (fst ke)); reflexivity.
Qed.

(* ------------------------------------------------------------------ expressions only read the columns they mention *)
Lemma eval_expr_local fl cs cs' r r' e :
  (forall x, In x (cols_used e) -> get cs r x = get cs' r' x) -> eval_expr fl cs r e = eval_expr fl cs' r' e.
Proof.
  revert e. fix IH 1. intros [c|v|o args] H.
  - simpl. apply H. left. reflexivity.
  - reflexivity.
  - simpl. f_equal. simpl in H. induction args as [|a t IHt]; [reflexivity|].
    f_equal.
    + apply IH. intros x I. apply H. apply in_app_iff. left. exact I.
    + apply IHt. intros x I. apply H. apply in_app_iff. right. exact I.
Qed.

Lemma cols_used_in_ops (ops : list (string * expr)) ke x : In ke ops -> In x (cols_used (snd ke)) -> In x (ops_cols ops).
Proof. intros I H. unfold ops_cols. apply in_flat_map. exists ke. split; assumption. Qed.

(* ------------------------------------------------------------------ boolean checks *)
Lemma nodupb_NoDup l : nodupb l = true -> NoDup l.
Proof. induction l as [|x t IH]; simpl; intros H; constructor.
  - apply andb_true_iff in H. destruct H as [H _]. apply negb_true_iff in H. apply mem_false in H. exact H.
  - apply IH. apply andb_true_iff in H. tauto. Qed.

