(* C12, part 8: printing a builder-normal pipeline and evaluating the text gives the pipeline back (induction over the
   operator tree), and what follows: `==` of the rebuilt pipeline, injectivity of the printer. *)
From Coq Require Import List Bool String .
Import ListNotations.
From DA Require Import Base.PyRT Base.Val Model.Sem Model.Equiv Proofs.EquivP1 Proofs.EquivP2 Proofs.EquivP5 Proofs.EquivP6.
From DA Require Import Model.PyExpr Model.ExprPrint Model.ExprParse Model.ExprRoundtrip Model.PipePrintStr Model.PipePrintSyn Model.PipePrint.
From DA Require Import Proofs.ExprParseP14 Proofs.PipePrintP4 Proofs.PipePrintP5 Proofs.PipePrintP6 Proofs.PipePrintP7.
Local Close Scope Q_scope.
Local Open Scope string_scope.
Local Open Scope bool_scope.
Local Open Scope list_scope.

(* the float constants of a pipeline satisfy the repr / float() assumption *)
Fixpoint floats_ok_op (E : penv) (p : eop) : Prop :=
  match p with
  | ETable _ _ _ => True
  | EExtend s ops _ _ _ _ | EProject s ops _ => ops_floats_ok E ops /\ floats_ok_op E s
  | ESelectRows s e => px_floats_ok E e /\ floats_ok_op E s
  | ESelectCols s _ | EDropCols s _ | ERename s _ | EMapCols s _ _ | EOrder s _ _ _ | EConvert s _ => floats_ok_op E s
  | EJoin a b _ _ _ | EConcat a b _ _ _ => floats_ok_op E a /\ floats_ok_op E b
  end.

Section Main.
Variable E : penv.
Hypothesis unq : forall s, py_unquote (py_repr (e_np E) s) = Some s.
Hypothesis lexh : forall e, lexable e = true -> (forall m, In m (floats_of e) -> float_lex_ok (e_F E) m) ->
  lexg (e_F E) (expr_text (e_F E) (e_np E) e) = Some (to_python e).

(* `normal` of a node includes `normal` of its sources, so each induction hypothesis applies as it stands *)
Lemma all_good p : normal E p = true -> floats_ok_op E p -> good E p.
Proof. induction p as [name cols quals|s IH ops part order rev w|s IH ops gb|s IH e|s IH cs|s IH ds|s IH m|s IH m dels|s IH cs rev limit
                       |a IHa b IHb oa ob jt|a IHa b IHb idc an bn|s IH rm]; intros N F;
    pose proof N as N'; cbn [normal] in N'; split_andb; cbn [floats_ok_op] in F.
  - apply (table_good E unq). exact N.
  - destruct F. apply (extend_good E unq lexh); auto.
  - destruct F. apply (project_good E unq lexh); auto.
  - destruct F. apply (select_rows_good E unq lexh); auto.
  - apply (select_cols_good E unq); auto.
  - apply (drop_cols_good E unq); auto.
  - apply (rename_good E unq); auto.
  - apply (map_cols_good E unq); auto.
  - apply (order_good E unq); auto.
  - destruct F. apply (join_good E unq); auto.
  - destruct F. apply (concat_good E unq); auto.
  - apply (convert_good E unq); auto. Qed.

Theorem print_rebuild p : normal E p = true -> floats_ok_op E p ->
  exists ts, print_op E p = Some ts /\ rebuild E ts = Some p.
Proof. intros N F. destruct (all_good p N F) as [s [S1 [S2 [S3 S4]]]].
  exists (flatten (SPar s)). split; [unfold print_op, pipe_syn; rewrite S1; reflexivity|].
  unfold rebuild. rewrite (parse_flatten (SPar s)) by exact S2.
  change (eval_syn E (SPar s)) with (eval_syn E s). rewrite S4. reflexivity. Qed.

(* ... hence a pipeline that `==` the original *)
Corollary print_rebuild_eq p : normal E p = true -> floats_ok_op E p ->
  exists ts p', print_op E p = Some ts /\ rebuild E ts = Some p' /\ pipeline_eqb p p' = true /\ pipeline_eqb p' p = true.
Proof. intros N F. destruct (print_rebuild p N F) as [ts [P R]]. exists ts, p. repeat split; try assumption; apply pipeline_eqb_refl. Qed.

Corollary print_injective p q : normal E p = true -> normal E q = true -> floats_ok_op E p -> floats_ok_op E q ->
  print_op E p = print_op E q -> p = q.
Proof. intros Np Nq Fp Fq Eq. destruct (print_rebuild p Np Fp) as [ts [P R]]. destruct (print_rebuild q Nq Fq) as [ts' [P' R']].
  rewrite Eq, P' in P. inversion P; subst ts'. rewrite R in R'. inversion R'. reflexivity. Qed.

End Main.
