(* SQLGEN, part 1: projections of tables, row-wise agreement on a column set, and the locality of one SQL SELECT
   (Model/SqlSem.v sql_select): it reads its input only through the columns its items and its suffix name. *)
From Coq Require Import List Bool String Lia.
Import ListNotations.
From DA Require Import Base.PyRT Base.Val Model.Sem Proofs.SemBasicP Model.ColumnsUsed Proofs.ColumnsUsedP1 Proofs.ColumnsUsedP2
  Model.SqlGen Model.SqlSem Proofs.TabP.
Local Open Scope list_scope.

Notation sel := sem_select_cols.
Definition osel (C : list string) (o : option table) : option table := option_map (sel C) o.

(* rows of B carry, position by position, the cells of A in the columns us *)
Definition RA (us : list string) (A B : table) : Prop := Forall2 (rowrel us (cols A) (cols B)) (rows A) (rows B).

Lemma sel_cols C t : cols (sel C t) = C. Proof. reflexivity. Qed.

Lemma get_sel_row cs r C k : In k C -> get C (map (get cs r) C) k = get cs r k.
Proof. apply get_map_in. Qed.

Lemma sel_sel K C t : incl K C -> sel K (sel C t) = sel K t.
Proof.
  intros I. unfold sem_select_cols. cbn [cols rows]. f_equal. rewrite map_map. apply map_ext. intros r.
  apply map_ext_in. intros k Hk. apply get_sel_row. apply I, Hk.
Qed.

Lemma sel_eq_RA C A B : sel C A = sel C B <-> RA C A B.
Proof.
  unfold sem_select_cols, RA. split.
  - intros E. injection E as E. revert E. generalize (rows B). induction (rows A) as [|r t IH]; intros [|r' t'] E; simpl in E; try discriminate; constructor.
    + injection E as E1 _. intros c Hc. clear IH. induction C as [|x C' IHC]; [destruct Hc|]. simpl in E1. injection E1 as E1 E2.
      destruct Hc as [<-|Hc]; [exact E1|]. apply IHC; assumption.
    + apply IH. injection E as _ E. exact E.
  - intros H. f_equal. eapply F2_map_eq; [exact H|]. intros r r' R. apply map_ext_in. intros c Hc. apply R, Hc.
Qed.

Lemma RA_refl us A : RA us A A.
Proof. unfold RA. induction (rows A); constructor; [intros c _; reflexivity|assumption]. Qed.
Lemma RA_sym us A B : RA us A B -> RA us B A.
Proof. unfold RA. generalize (rows A) (rows B). induction 1; constructor; [intros c Hc; symmetry; auto|assumption]. Qed.
Lemma RA_trans us A B C : RA us A B -> RA us B C -> RA us A C.
Proof.
  unfold RA. generalize (rows A) (rows B) (rows C). intros la lb lc H. revert lc.
  induction H as [|x y l l' Rxy _ IH]; intros lc H2; inversion H2; subst; constructor.
  - intros c Hc. rewrite (Rxy c Hc). auto.
  - apply IH. assumption.
Qed.
Lemma RA_mono us us' A B : incl us us' -> RA us' A B -> RA us A B.
Proof. intros I H. eapply F2_weaken; [exact H|]. intros r r' R c Hc. apply R, I, Hc. Qed.
Lemma RA_sel us A : RA us A (sel us A).
Proof.
  unfold RA, sem_select_cols. cbn [cols rows]. induction (rows A) as [|r t IH]; simpl; constructor; [|exact IH].
  intros c Hc. symmetry. apply get_sel_row, Hc.
Qed.

Lemma sel_nil_length A B : List.length (rows A) = List.length (rows B) -> sel [] A = sel [] B.
Proof.
  intros L. unfold sem_select_cols. f_equal. simpl. revert L. generalize (rows A) (rows B).
  induction l as [|x t IH]; intros [|y u] L; simpl in *; try discriminate; [reflexivity|]. f_equal. apply IH. lia.
Qed.
Lemma sel_nil_inv A B : sel [] A = sel [] B -> List.length (rows A) = List.length (rows B).
Proof. intros E. apply (f_equal (fun t => List.length (rows t))) in E. simpl in E. rewrite !map_length in E. exact E. Qed.
Lemma sel_nil_sel K A : sel [] (sel K A) = sel [] A.
Proof. apply sel_sel. intros x []. Qed.

(* agree (C10) on a set gives equal projections on every part of it *)
Lemma agree_sel u K T T' : agree u T T' -> incl K u -> sel K T = sel K T'.
Proof. intros [_ [_ H]] I. apply sel_eq_RA. eapply RA_mono; [exact I|exact H]. Qed.

Lemma agree_self_sel us S : incl us (cols S) -> agree us S (sel us S).
Proof.
  intros I. split; [exact I|]. split; [intros c Hc _; exact Hc|]. apply RA_sel.
Qed.

(* ------------------------------------------------------------------ what a SELECT reads *)
Definition item_cols (kt : string * tterm) : list string :=
  match snd kt with
  | TmPass | TmSelf => [fst kt]
  | TmCol c => [c]
  | TmExpr e | TmAgg e => cols_used e
  | TmWin e part okeys => part ++ map fst okeys ++ cols_used e
  | TmCoalesce _ c => [c]
  end.
Definition sfx_cols (s : tsuffix) : list string :=
  match s with SfxNone => [] | SfxWhere e => cols_used e | SfxGroup gb => gb | SfxOrder keys _ => map fst keys end.

Section Local.
Variable fl : flavor.

Lemma eval_item_local cs cs' r r' k t :
  (forall x, In x (item_cols (k, t)) -> get cs r x = get cs' r' x) -> eval_item fl cs r k t = eval_item fl cs' r' k t.
Proof.
  destruct t; simpl; intros H; try reflexivity; try (apply H; left; reflexivity).
  apply eval_expr_local. exact H.
Qed.

Lemma sql_window_column_is fl' w t e :
  window_column fl' w t e = sql_window_column fl' (w_part w) (map (fun c => (c, mem c (w_rev w))) (w_order w)) t e.
Proof. reflexivity. Qed.

Lemma sql_window_column_local part okeys e A B :
  Forall2 (fun r r' => forall x, In x (part ++ map fst okeys ++ cols_used e) -> get (cols A) r x = get (cols B) r' x) (rows A) (rows B) ->
  sql_window_column fl part okeys A e = sql_window_column fl part okeys B e.
Proof.
  intros H. unfold sql_window_column.
  assert (map (fun r => key_of (cols A) part r) (rows A) = map (fun r => key_of (cols B) part r) (rows B)) as EK.
  { eapply F2_map_eq; [exact H|]. cbv beta. intros r r' R. apply key_of_local. intros x I. apply R. apply in_app_iff. left. exact I. }
  rewrite EK. apply flat_map_ext. intros k.
  set (Rt := fun (a b : nat * list val) => fst a = fst b /\
                (forall x, In x (part ++ map fst okeys ++ cols_used e) -> get (cols A) (snd a) x = get (cols B) (snd b) x)).
  assert (Forall2 Rt (tag_from 0 (rows A)) (tag_from 0 (rows B))) as HT.
  { exact (@F2_tag_from (fun r r' => forall x, In x (part ++ map fst okeys ++ cols_used e) -> get (cols A) r x = get (cols B) r' x) 0 _ _ H). }
  assert (Forall2 Rt (filter (fun ir => keys_eqv k (key_of (cols A) part (snd ir))) (tag_from 0 (rows A)))
                     (filter (fun ir => keys_eqv k (key_of (cols B) part (snd ir))) (tag_from 0 (rows B)))) as HF.
  { eapply F2_filter; [exact HT|]. intros a b [_ R]. cbv beta. f_equal. apply key_of_local. intros x I. apply R. apply in_app_iff. left. exact I. }
  match goal with |- context [stable_sort ?le ?l] => set (le1 := le); set (l1 := l) in * end.
  match goal with |- context [stable_sort ?le (filter ?f (tag_from 0 (rows B)))] => set (le2 := le); set (l2 := filter f (tag_from 0 (rows B))) in * end.
  assert (Forall2 Rt (stable_sort le1 l1) (stable_sort le2 l2)) as HS.
  { apply F2_stable_sort; [|exact HF]. intros a b c d [_ R1] [_ R2]. unfold le1, le2. apply row_le_local.
    - intros x I. apply R1. apply in_app_iff. right. apply in_app_iff. left. exact I.
    - intros x I. apply R2. apply in_app_iff. right. apply in_app_iff. left. exact I. }
  assert (map fst (stable_sort le1 l1) = map fst (stable_sort le2 l2)) as EF.
  { eapply F2_map_eq; [exact HS|]. intros a b [E _]. exact E. }
  destruct (win_parts e) as [[[o arg] extra]|] eqn:WP.
  - rewrite EF. f_equal. f_equal. eapply F2_map_eq; [exact HS|]. intros a b [_ R]. cbv beta.
    destruct arg as [a0|]; [|reflexivity]. apply eval_expr_local. intros x I. apply R.
    apply in_app_iff. right. apply in_app_iff. right. eapply win_parts_arg_cols; eassumption.
  - eapply F2_map_eq; [exact HS|]. intros a b [E _]. cbv beta. rewrite E. reflexivity.
Qed.

(* rows of a row-wise / windowed SELECT over two inputs that agree on what the items read *)
Lemma select_rows_of_local us A B items ra rb :
  RA us A B -> (forall kt, In kt items -> incl (item_cols kt) us) ->
  Forall2 (fun a b => fst a = fst b /\ rowrel us (cols A) (cols B) (snd a) (snd b)) ra rb ->
  select_rows_of fl A items ra = select_rows_of fl B items rb.
Proof.
  intros H Hi Hr. unfold select_rows_of.
  assert (map (fun kt => match snd kt with TmWin e part okeys => sql_window_column fl part okeys A e | _ => [] end) items
          = map (fun kt => match snd kt with TmWin e part okeys => sql_window_column fl part okeys B e | _ => [] end) items) as EW.
  { apply map_ext_in. intros [k t] I. simpl. destruct t; try reflexivity. apply sql_window_column_local.
    eapply F2_weaken; [exact H|]. intros r r' R x Hx. apply R. apply (Hi _ I). exact Hx. }
  rewrite EW. eapply F2_map_eq; [exact Hr|]. intros [i r] [j r'] [E R]. simpl in E, R. subst j. cbv beta. cbn [fst snd].
  apply map_ext_in. intros [[k t] wc] I. cbn [fst snd].
  assert (In (k, t) items) as Ik by (apply in_combine_l in I; exact I).
  destruct t; try reflexivity; try (apply eval_item_local; intros x Hx; apply R; apply (Hi _ Ik); exact Hx).
Qed.

Lemma agg_item_local us cs cs' gb key grp grp' k t :
  Forall2 (rowrel us cs cs') grp grp' -> incl (item_cols (k, t)) us ->
  agg_item fl cs gb key grp k t = agg_item fl cs' gb key grp' k t.
Proof.
  intros H I. unfold agg_item.
  assert (forall c, In c us -> get cs (hd [] grp) c = get cs' (hd [] grp') c) as Hh.
  { intros c Hc. destruct H as [|x y l l' R _]; simpl; [unfold get; destruct (index_of c cs), (index_of c cs'); try destruct n; try destruct n0; reflexivity|apply R, Hc]. }
  destruct t; simpl in *.
  - destruct (index_of k gb); [reflexivity|]. apply Hh, I. left. reflexivity.
  - destruct (index_of k gb); [reflexivity|]. apply Hh, I. left. reflexivity.
  - destruct (index_of c gb); [reflexivity|]. apply Hh, I. left. reflexivity.
  - apply eval_expr_local. intros x Hx. apply Hh, I, Hx.
  - apply agg_value_local. eapply F2_weaken; [exact H|]. intros r r' R x Hx. apply R, I, Hx.
  - reflexivity.
  - reflexivity.
Qed.

Lemma agg_rows_local us A B gb items :
  RA us A B -> incl gb us -> (forall kt, In kt items -> incl (item_cols kt) us) ->
  agg_rows fl A gb items = agg_rows fl B gb items.
Proof.
  intros H Hg Hi. unfold agg_rows.
  assert (forall r r', rowrel us (cols A) (cols B) r r' -> key_of (cols A) gb r = key_of (cols B) gb r') as KE.
  { intros r r' R. apply key_of_local. intros x I. apply R, Hg, I. }
  assert (map (key_of (cols A) gb) (rows A) = map (key_of (cols B) gb) (rows B)) as EK by (eapply F2_map_eq; [exact H|exact KE]).
  rewrite EK. apply map_ext. intros key. apply map_ext_in. intros [k t] I. cbn [fst snd].
  apply (agg_item_local us); [|apply (Hi _ I)].
  eapply F2_filter; [exact H|]. intros r r' R. cbv beta. rewrite (KE r r' R). reflexivity.
Qed.

Lemma sort_limit_local us A B keys lim :
  RA us A B -> incl (map fst keys) us ->
  Forall2 (rowrel us (cols A) (cols B)) (sort_limit fl (cols A) keys lim (rows A)) (sort_limit fl (cols B) keys lim (rows B)).
Proof.
  intros H I. unfold sort_limit.
  assert (Forall2 (rowrel us (cols A) (cols B)) (stable_sort (row_le fl (cols A) keys) (rows A)) (stable_sort (row_le fl (cols B) keys) (rows B))) as HS.
  { apply F2_stable_sort; [|exact H]. intros a b c d R1 R2. apply row_le_local; intros x Hx; [apply R1|apply R2]; apply I, Hx. }
  destruct lim; [apply F2_firstn|]; exact HS.
Qed.

Lemma tag_rel us ca cb (la lb : list (list val)) :
  Forall2 (rowrel us ca cb) la lb ->
  Forall2 (fun a b => fst a = fst b /\ rowrel us ca cb (snd a) (snd b)) (tag_from 0 la) (tag_from 0 lb).
Proof. intros H. exact (@F2_tag_from (rowrel us ca cb) 0 la lb H). Qed.

(* the rows a suffix lets through, in the order it leaves them (GROUP BY does not work row by row) *)
Definition sfx_rows (sfx : tsuffix) (t : table) : list (list val) :=
  match sfx with
  | SfxNone | SfxGroup _ => rows t
  | SfxWhere x => filter (fun r => truth (eval_expr fl (cols t) r x)) (rows t)
  | SfxOrder keys lim => sort_limit fl (cols t) keys lim (rows t)
  end.
Definition not_group (sfx : tsuffix) : bool := match sfx with SfxGroup _ => false | _ => true end.

Lemma sfx_rows_local us sfx A B :
  RA us A B -> incl (sfx_cols sfx) us -> Forall2 (rowrel us (cols A) (cols B)) (sfx_rows sfx A) (sfx_rows sfx B).
Proof.
  intros H Hs. destruct sfx as [|x|gb|keys lim]; simpl in Hs; cbn [sfx_rows]; try exact H.
  - eapply F2_filter; [exact H|]. intros r r' R. cbv beta. f_equal. apply eval_expr_local. intros c Hc. apply R, Hs, Hc.
  - apply sort_limit_local; assumption.
Qed.

(* SELECT * *)
Lemma star_is want sfx A : not_group sfx = true -> sql_select fl true None want sfx A = Some (mktable (cols A) (sfx_rows sfx A)).
Proof. intros NG. destruct A as [ca ra]. destruct sfx; try discriminate; reflexivity. Qed.

(* the locality of one SELECT with an explicit, non-empty SELECT list *)
Lemma sql_select_local us own l K sfx A B :
  RA us A B -> K <> [] ->
  (forall k, In k K -> incl (item_cols (k, term_of l k)) us) -> incl (sfx_cols sfx) us ->
  sql_select fl own (Some l) (Some K) sfx A = sql_select fl own (Some l) (Some K) sfx B.
Proof.
  intros H NE Hi Hs. unfold sql_select.
  assert (select_keys own (Some l) (Some K) = Some K) as EK.
  { unfold select_keys. destruct K as [|k0 K']; [congruence|]. simpl. rewrite andb_false_r. reflexivity. }
  rewrite EK.
  assert (forall kt, In kt (map (item_of_terms l) K) -> incl (item_cols kt) us) as Hi'.
  { intros kt I. apply in_map_iff in I. destruct I as [k [<- Ik]]. apply Hi, Ik. }
  pose proof (tag_rel us _ _ _ _ (sfx_rows_local us sfx A B H Hs)) as HR.
  destruct sfx as [|e|gb|keys lim]; cbn [sfx_rows] in HR.
  - destruct (existsb _ _).
    + destruct (existsb _ _); [reflexivity|]. f_equal. f_equal. apply (agg_rows_local us); [exact H|intros x []|exact Hi'].
    + f_equal. f_equal. apply (select_rows_of_local us); assumption.
  - destruct (_ || _); [reflexivity|]. f_equal. f_equal. apply (select_rows_of_local us); assumption.
  - destruct (existsb _ _); [reflexivity|]. f_equal. f_equal. apply (agg_rows_local us); [exact H|exact Hs|exact Hi'].
  - destruct (_ || _); [reflexivity|]. f_equal. f_equal. apply (select_rows_of_local us); assumption.
Qed.

End Local.
