(* C15, part A: the reference semantics is equivariant under injective renamings of tables and columns, for ALL pipelines
   (structural induction over the operator tree; no bound on depth, width, rows). *)
From Coq Require Import List Bool String .
Import ListNotations.
From DA Require Import Base.PyRT Base.Val Model.Sem Model.Rename Proofs.RenameP1.
Local Open Scope list_scope.

Lemma dict_get_rename_env rt rc (Ht : injective rt) (e : env) n :
  dict_get (rename_env rt rc e) (rt n) = option_map (rename_tab rc) (dict_get e n).
Proof.
  unfold rename_env. induction e as [|[k t] rest IH]; simpl; [reflexivity|].
  rewrite (dec_inj rt Ht). destruct (eq_dec n k); [reflexivity|exact IH].
Qed.

Lemma option_map_commute {X} (g F F' : X -> X) (x : option X) :
  (forall t, F' (g t) = g (F t)) -> option_map F' (option_map g x) = option_map g (option_map F x).
Proof. intros H. destruct x; simpl; [rewrite H|]; reflexivity. Qed.

Theorem sem_rename_equivariant :
  forall (fl : flavor) (rt rc : string -> string), injective rt -> injective rc ->
  forall (p : op) (e : env),
  sem_gen fl (rename_op rt rc p) (rename_env rt rc e) = option_map (rename_tab rc) (sem_gen fl p e).
Proof.
  intros fl rt rc Ht Hc p e.
  induction p as [n cs|s IH ops wd w|s IH ops gb|s IH x|s IH cs|s IH cs|s IH m|s IH m dels|s IH cs rev lim|a IHa b IHb on_a on_b jt|a IHa b IHb idc an bn];
    cbn [rename_op sem_gen]; try (rewrite IH; apply option_map_commute; intros t).
  - rewrite (dict_get_rename_env rt rc Ht). destruct (dict_get e n) as [t|]; simpl; [|reflexivity].
    f_equal. apply (sem_select_cols_inj rc Hc).
  - destruct wd; [apply (sem_wextend_inj rc Hc)|apply (sem_extend_inj rc Hc)].
  - apply (sem_project_inj rc Hc).
  - apply (sem_select_rows_inj rc Hc).
  - apply (sem_select_cols_inj rc Hc).
  - apply (sem_drop_cols_inj rc Hc).
  - apply (sem_rename_inj rc Hc).
  - rewrite (sem_rename_inj rc Hc). apply (sem_drop_cols_inj rc Hc).
  - apply (sem_order_inj rc Hc).
  - rewrite IHa, IHb. destruct (sem_gen fl a e) as [ta|]; simpl; [|reflexivity].
    destruct (sem_gen fl b e) as [tb|]; simpl; [|reflexivity]. f_equal. apply (sem_join_inj rc Hc).
  - rewrite IHa, IHb. destruct (sem_gen fl a e) as [ta|]; simpl; [|reflexivity].
    destruct (sem_gen fl b e) as [tb|]; simpl; [|reflexivity]. f_equal. apply (sem_concat_inj rc Hc).
Qed.

(* "... and changes nothing else": the rows (all cell values, their order) of the renamed run are those of the original run *)
Theorem sem_rename_rows_unchanged :
  forall (fl : flavor) (rt rc : string -> string), injective rt -> injective rc ->
  forall (p : op) (e : env) (t : table), sem_gen fl p e = Some t ->
  exists t', sem_gen fl (rename_op rt rc p) (rename_env rt rc e) = Some t' /\ cols t' = map rc (cols t) /\ rows t' = rows t.
Proof.
  intros fl rt rc Ht Hc p e t E. exists (rename_tab rc t). rewrite (sem_rename_equivariant fl rt rc Ht Hc), E. repeat split; reflexivity.
Qed.

(* a renaming with a left inverse is injective *)
Lemma left_inverse_injective (r back : string -> string) : (forall c, back (r c) = c) -> injective r.
Proof. intros H a b E. rewrite <- (H a), <- (H b), E. reflexivity. Qed.

Lemma rename_tab_back (r back : string -> string) (H : forall c, back (r c) = c) t : rename_tab back (rename_tab r t) = t.
Proof.
  destruct t as [cs rs]. unfold rename_tab. cbn [cols rows]. f_equal. rewrite map_map.
  rewrite (map_ext (fun c => back (r c)) (fun c => c)) by exact H. apply map_id.
Qed.

(* the oracle of the check, as a theorem about the specification: rename -> evaluate -> rename back = evaluate *)
Theorem sem_rename_evaluate_rename_back :
  forall (fl : flavor) (rt rc tback cback : string -> string),
  (forall n, tback (rt n) = n) -> (forall c, cback (rc c) = c) ->
  forall (p : op) (e : env),
  option_map (rename_tab cback) (sem_gen fl (rename_op rt rc p) (rename_env rt rc e)) = sem_gen fl p e.
Proof.
  intros fl rt rc tback cback Ht Hc p e.
  rewrite (sem_rename_equivariant fl rt rc (left_inverse_injective rt tback Ht) (left_inverse_injective rc cback Hc)).
  destruct (sem_gen fl p e) as [t|]; simpl; [|reflexivity]. f_equal. apply (rename_tab_back rc cback Hc).
Qed.

(* the declared columns (the builders' bookkeeping) are renamed the same way *)
Theorem column_names_rename :
  forall (rt rc : string -> string), injective rc ->
  forall p : op, column_names (rename_op rt rc p) = map rc (column_names p).
Proof.
  intros rt rc Hc p.
  induction p as [n cs|s IH ops wd w|s IH ops gb|s IH x|s IH cs|s IH cs|s IH m|s IH m dels|s IH cs rev lim|a IHa b IHb on_a on_b jt|a IHa b IHb idc an bn];
    cbn [rename_op column_names]; try reflexivity; try exact IH.
  - rewrite IH, (map_fst_rename_ops rc). apply (ext_cols_inj rc Hc).
  - rewrite (map_fst_rename_ops rc), map_app. reflexivity.
  - rewrite IH. apply (filter_not_mem_inj rc Hc).
  - rewrite IH, !map_map. apply map_ext. intros c. apply (rename_col_inj rc Hc).
  - rewrite IH, map_map.
    rewrite (map_ext (fun c => rename_col (rename_pairs rc m) (rc c)) (fun c => rc (rename_col m c))) by (intros c; apply (rename_col_inj rc Hc)).
    rewrite <- (map_map (rename_col m) rc). apply (filter_not_mem_inj rc Hc).
  - rewrite IHa, IHb, (filter_not_mem_inj rc Hc), map_app. reflexivity.
  - rewrite IHa, map_app. destruct idc; reflexivity.
Qed.

(* exchanges of names are injective, so the theorems apply to renamings onto ANY name, internal names included *)
Lemma swap_involutive a b s : swap a b (swap a b s) = s.
Proof.
  unfold swap. destruct (String.eqb s a) eqn:Ea.
  - apply String.eqb_eq in Ea. subst s. destruct (String.eqb b a) eqn:Eba; [apply String.eqb_eq in Eba; exact Eba|]. rewrite String.eqb_refl. reflexivity.
  - destruct (String.eqb s b) eqn:Eb.
    + apply String.eqb_eq in Eb. subst s. rewrite String.eqb_refl. reflexivity.
    + rewrite Ea, Eb. reflexivity.
Qed.

Lemma swap_injective a b : injective (swap a b).
Proof. apply (left_inverse_injective (swap a b) (swap a b)). apply swap_involutive. Qed.

Lemma swaps_injective l : injective (swaps l).
Proof.
  unfold swaps. induction l as [|[a b] t IH]; intros x y E; simpl in E; [exact E|]. apply IH in E. apply (swap_injective a b), E.
Qed.
