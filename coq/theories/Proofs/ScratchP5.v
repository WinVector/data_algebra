(* C15, part B: the plain steps (scratch values in locals) have no names of their own, so they commute with every injective
   renaming of the user's column names; with Proofs/ScratchP4.v: so does the executor step whenever its scratch names are
   chosen away from the frame. *)
From Coq Require Import List Bool String .
Import ListNotations.
From DA Require Import Base.PyRT Model.Rename Model.ScratchNames Model.ScratchRename Proofs.ListP.
From DA Require Import Proofs.RenameP1 Proofs.ScratchP1 Proofs.ScratchP2 Proofs.ScratchP3 Proofs.ScratchP4.
Local Open Scope list_scope.

Section Equivariance.
  Context {A : Type} (P : prims A) (rho : string -> string) (Hinj : injective rho).
  Let rf := @rename_frame A rho.

  Lemma rf_cols f : fcols (rf f) = map rho (fcols f).
  Proof. apply fcols_rename_frame. Qed.

  Lemma rf_app f g : rf (f ++ g) = rf f ++ rf g.
  Proof. apply map_app. Qed.

  Lemma rf_get f c : fget (rf f) (rho c) = fget f c.
  Proof. apply fget_rename_frame. intros k _ E. apply Hinj, E. Qed.

  Lemma rf_set f c a : fset (rf f) (rho c) a = rf (fset f c a).
  Proof.
    unfold rf, rename_frame, fset. induction f as [|[k b] t IH]; simpl; [reflexivity|].
    rewrite (RenameP1.dec_inj rho Hinj). destruct (eq_dec c k); simpl; [reflexivity|]. rewrite IH. reflexivity.
  Qed.

  Lemma rf_select f cs : fselect (rf f) (map rho cs) = option_map rf (fselect f cs).
  Proof.
    induction cs as [|c t IH]; simpl; [reflexivity|]. rewrite rf_get, IH.
    destruct (fget f c); [|reflexivity]. destruct (fselect f t); reflexivity.
  Qed.

  Lemma rf_reads f cs : freads (rf f) (map rho cs) = freads f cs.
  Proof. unfold freads. rewrite map_map. f_equal. apply map_ext. intros c. apply rf_get. Qed.

  Lemma rf_fmapc g f : fmapc g (rf f) = rf (fmapc g f).
  Proof. unfold rf, rename_frame, fmapc. rewrite !map_map. reflexivity. Qed.

  Lemma rf_fold_set l f : fold_left (fun r ka => fset r (fst ka) (snd ka)) (rf l) (rf f) = rf (fold_left (fun r ka => fset r (fst ka) (snd ka)) l f).
  Proof. revert f. induction l as [|[k a] t IH]; intros f; simpl; [reflexivity|]. rewrite rf_set. apply IH. Qed.

  Lemma nil_map {X Y} (g : X -> Y) l : match map g l with [] => true | _ => false end = match l with [] => true | _ => false end.
  Proof. destruct l; reflexivity. Qed.

  Lemma match_nil_map {X Y Z} (g : X -> Y) l (a b : Z) :
    match map g l with [] => a | _ :: _ => b end = match l with [] => a | _ :: _ => b end.
  Proof. destruct l; reflexivity. Qed.

  Lemma so_key_rename ops : map so_key (map (rename_sop rho) ops) = map rho (map so_key ops).
  Proof. rewrite !map_map. reflexivity. Qed.

  Lemma plain_proj_cols_rf f keys ops cols :
    plain_proj_cols P (rf f) keys (map (rename_sop rho) ops) (rf cols) = option_map rf (plain_proj_cols P f keys ops cols).
  Proof.
    revert cols. induction ops as [|o t IH]; intros cols; simpl; [reflexivity|].
    destruct (so_arg o) as [|c|v]; simpl.
    - rewrite rf_set. apply IH.
    - rewrite rf_get. destruct (fget f c); simpl; [|reflexivity]. rewrite rf_set. apply IH.
    - rewrite rf_set. apply IH.
  Qed.

  Lemma keycols_rf gb keys : keycols P (map rho gb) keys = rf (keycols P gb keys).
  Proof.
    unfold keycols. rewrite map_length. generalize (map (p_groupkey P keys) (seq 0 (List.length gb))). clear.
    induction gb as [|g t IH]; intros [|x l]; simpl; try reflexivity. rewrite IH. reflexivity.
  Qed.

  Theorem plain_project_equivariant ops gb f :
    plain_project P (map (rename_sop rho) ops) (map rho gb) (rf f) = option_map rf (plain_project P ops gb f).
  Proof.
    unfold plain_project. rewrite rf_reads. destruct (freads f gb) as [keys|]; simpl; [|reflexivity].
    change (@nil (string * A)) with (rf []) at 1. rewrite plain_proj_cols_rf.
    destruct (plain_proj_cols P f keys ops []) as [cols|]; simpl; [|reflexivity].
    assert (E : existsb (fun g => mem g (fcols (rf cols))) (map rho gb) = existsb (fun g => mem g (fcols cols)) gb).
    { rewrite rf_cols. induction gb as [|g t IH]; simpl; [reflexivity|]. rewrite (mem_inj rho Hinj), IH. reflexivity. }
    rewrite E. destruct (existsb (fun g => mem g (fcols cols)) gb); [reflexivity|]. simpl. rewrite keycols_rf, rf_app. reflexivity.
  Qed.

  Lemma add_new_rf l cs : add_new (map rho l) (map rho cs) = map rho (add_new l cs).
  Proof.
    revert l. induction cs as [|c t IH]; intros l; simpl; [reflexivity|]. rewrite (mem_inj rho Hinj).
    destruct (mem c l); [apply IH|]. rewrite <- IH, map_app. reflexivity.
  Qed.

  Lemma base_cols_rf part order : base_cols (map rho part) (map rho order) = map rho (base_cols part order).
  Proof.
    unfold base_cols. assert (E : py_set (map rho part) = map rho (py_set part)) by (unfold py_set; apply (ext_cols_inj rho Hinj [] part)).
    rewrite E. apply add_new_rf.
  Qed.

  Lemma plain_scan_rf rev f ops ucols keys seen :
    plain_scan P (map rho rev) (rf f) (map (rename_sop rho) ops) (map rho ucols) keys seen
    = (let '(u, k, s) := plain_scan P rev f ops ucols keys seen in (map rho u, k, s)).
  Proof.
    revert ucols keys seen. induction ops as [|o t IH]; intros ucols keys seen; simpl; [reflexivity|].
    destruct (so_arg o) as [|c|v]; simpl.
    - apply IH.
    - rewrite (mem_inj rho Hinj). destruct (mem c ucols); [apply IH|].
      rewrite rf_get, (mem_inj rho Hinj). rewrite <- IH, map_app. reflexivity.
    - destruct (mem v seen); apply IH.
  Qed.

  Lemma plain_ext_ops_rf tmps gkeys ops sub :
    plain_ext_ops P tmps gkeys (map (rename_sop rho) ops) (rf sub) = option_map rf (plain_ext_ops P tmps gkeys ops sub).
  Proof.
    revert sub. induction ops as [|o t IH]; intros sub; simpl; [reflexivity|].
    destruct (so_arg o) as [|c|v]; simpl.
    - destruct (String.eqb (so_fn o) "_row_number" || String.eqb (so_fn o) "_count")%bool; simpl; [rewrite rf_set; apply IH|].
      destruct (String.eqb (so_fn o) "_ngroup"); simpl; [rewrite rf_set; apply IH|].
      destruct (String.eqb (so_fn o) "_size"); simpl; [rewrite rf_set; apply IH|reflexivity].
    - rewrite rf_get. destruct (fget sub c); simpl; [rewrite rf_set; apply IH|reflexivity].
    - destruct (dict_get tmps v); simpl; [rewrite rf_set; apply IH|reflexivity].
  Qed.

  Theorem plain_wextend_equivariant ops part order rev f :
    plain_wextend P (map (rename_sop rho) ops) (map rho part) (map rho order) (map rho rev) (rf f)
    = option_map rf (plain_wextend P ops part order rev f).
  Proof.
    unfold plain_wextend. cbv zeta. rewrite base_cols_rf.
    assert (K0 : map (fun c => (fget (rf f) c, negb (mem c (map rho rev)))) (map rho (base_cols part order))
                 = map (fun c => (fget f c, negb (mem c rev))) (base_cols part order)).
    { rewrite map_map. apply map_ext. intros c. rewrite rf_get, (mem_inj rho Hinj). reflexivity. }
    rewrite K0, plain_scan_rf.
    destruct (plain_scan P rev f ops (base_cols part order) (map (fun c => (fget f c, negb (mem c rev))) (base_cols part order)) []) as [[ucols keys] seen].
    rewrite rf_select. destruct (fselect f ucols) as [sub0|]; simpl; [|reflexivity].
    rewrite match_nil_map. destruct (match base_cols part order with [] => _ | _ :: _ => _ end) as [s|]; simpl; [|reflexivity].
    rewrite rf_fmapc, rf_reads, match_nil_map.
    destruct (match part with [] => _ | _ :: _ => _ end) as [gkeys|]; simpl; [|reflexivity].
    rewrite plain_ext_ops_rf.
    destruct (plain_ext_ops P (map (fun v => (v, s (p_const P v))) seen) gkeys ops (fmapc s sub0)) as [sub4|]; simpl; [|reflexivity].
    unfold sort_frame. rewrite rf_fmapc, so_key_rename, rf_select.
    destruct (fselect (fmapc (p_sort P [(s (p_index P), true)]) sub4) (map so_key ops)) as [sub6|]; simpl; [|reflexivity].
    rewrite rf_fold_set. reflexivity.
  Qed.

  Lemma map_rf_commute (h' h : string * A -> A) F :
    (forall k a, h' (rho k, a) = h (k, a)) -> map (fun na => (fst na, h' na)) (rf F) = rf (map (fun na => (fst na, h na)) F).
  Proof. intros H. unfold rf, rename_frame. rewrite !map_map. apply map_ext. intros [k a]. simpl. rewrite H. reflexivity. Qed.

  Theorem plain_join_equivariant how on nullkeys lf rg :
    plain_join P how (map rho on) nullkeys (rf lf) (rf rg) = option_map rf (plain_join P how on nullkeys lf rg).
  Proof.
    unfold plain_join. rewrite !rf_reads, !match_nil_map.
    destruct (match on with [] => _ | _ :: _ => freads lf on end) as [ka1|]; simpl; [|reflexivity].
    destruct (match on with [] => _ | _ :: _ => freads rg on end) as [kb1|]; simpl; [|reflexivity].
    set (ka := if nullkeys then ka1 ++ [p_nullmark_left P ka1] else ka1).
    set (kb := if nullkeys then kb1 ++ [p_nullmark_right P kb1] else kb1).
    f_equal. rewrite rf_app. f_equal.
    - apply map_rf_commute. intros k a. simpl. rewrite (mem_inj rho Hinj), rf_get. reflexivity.
    - assert (Ef : filter (fun nb : string * A => negb (mem (fst nb) (fcols (rf lf)))) (rf rg) = rf (filter (fun nb => negb (mem (fst nb) (fcols lf))) rg)).
      { unfold rf at 2 3, rename_frame. apply filter_map_comm. intros [k a]. simpl. rewrite rf_cols, (mem_inj rho Hinj). reflexivity. }
      rewrite Ef. apply (map_rf_commute (fun nb => p_merge_right P how ka kb (snd nb)) (fun nb => p_merge_right P how ka kb (snd nb))). reflexivity.
  Qed.

  Theorem plain_equivariant s f g :
    plain P (rename_step rho s) (rf f) (rf g) = option_map rf (plain P s f g).
  Proof.
    destruct s as [ops gb|ops part order rev|how on nk]; simpl;
      [apply plain_project_equivariant|apply plain_wextend_equivariant|apply plain_join_equivariant].
  Qed.

  Lemma rf_nodup f : NoDup (fcols f) -> NoDup (fcols (rf f)).
  Proof. intros N. rewrite rf_cols. apply NoDup_map_inj_on; [exact N|]. intros a b _ _ E. apply Hinj, E. Qed.

  (* the executor step with scratch names chosen away from the frame: renaming the user's names renames its result *)
  Theorem repaired_step_equivariant s f g :
    NoDup (fcols f) -> NoDup (fcols g) ->
    pexec P (fresh (user_names (rename_step rho s) (rf f) (rf g))) (rename_step rho s) (rf f) (rf g)
    = option_map rf (pexec P (fresh (user_names s f g)) s f g).
  Proof.
    intros Nf Ng. rewrite (fresh_never_captures P (rename_step rho s) (rf f) (rf g) (rf_nodup f Nf) (rf_nodup g Ng)).
    rewrite (fresh_never_captures P s f g Nf Ng). apply plain_equivariant.
  Qed.
End Equivariance.
