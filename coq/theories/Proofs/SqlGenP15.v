(* SQLGEN, part 15 (generic dialect): the natural_join step written as a native SQL join
   (INNER / LEFT / RIGHT / FULL, no rewrite) delivers the join node's table, given what its two sub-queries deliver. *)
From Coq Require Import List Bool String.
Import ListNotations.
From DA Require Import Base.PyRT Base.Val Model.Sem Proofs.SemBasicP Model.ColumnsUsed Proofs.ColumnsUsedP1 Proofs.ColumnsUsedP2
  Proofs.ColumnsUsedP3 Proofs.ColumnsUsedP4 Model.JoinSpec Proofs.JoinP1 Model.SqlGen Model.SqlSem Proofs.SqlGenP1 Proofs.SqlGenP2 Proofs.SqlGenP3 Proofs.SqlGenP4 Proofs.TabP Proofs.ListP.
Local Open Scope list_scope.

(* a table step handed on as the generator's result for a non-empty request has exactly the requested columns *)
Definition BareOk (e : env) (q : tnear) (u : list string) : Prop :=
  forall n ts, q = TTable n ts -> u <> [] -> exists st, dict_get e n = Some st /\ (forall c, In c (cols st) <-> In c u).

Lemma bare_ok_unary e n t s ci sfx mg dp u : BareOk e (TUnary n t s ci sfx mg dp) u.
Proof. intros n0 ts E. discriminate. Qed.
Lemma bare_ok_binary e n t s1 c1 j s2 c2 on u : BareOk e (TBinary n t s1 c1 j s2 c2 on) u.
Proof. intros n0 ts E. discriminate. Qed.
Lemma bare_ok_restrict e q K q' u u' : BareOk e q u -> restrict_terms q K = Some q' -> (u' <> [] -> u <> []) ->
  (forall c, In c u <-> In c u') -> BareOk e q' u'.
Proof.
  intros B E NE EQ n ts Eq NU. subst q'. destruct q as [n0 ts0| |]; simpl in E; try (destruct (subset K _); discriminate).
  destruct (subset K _); [|discriminate]. injection E as <- _. destruct (B n0 ts0 eq_refl (NE NU)) as [st [G H]].
  exists st. split; [exact G|]. intros c. rewrite H. apply EQ.
Qed.
Lemma bare_ok_empty e q u u' : BareOk e q u -> (u' <> [] -> u <> []) -> (forall c, In c u <-> In c u') -> BareOk e (empty_terms q) u'.
Proof.
  intros B NE EQ n ts Eq NU. destruct q as [n0 ts0| |]; simpl in Eq; try discriminate. injection Eq as <- _.
  destruct (B n0 ts0 eq_refl (NE NU)) as [st [G H]]. exists st. split; [exact G|]. intros c. rewrite H. apply EQ.
Qed.

Definition join_terms (lf : bool) (u ul ur : list string) : terms :=
  let common := set_inter ul ur in
  map (fun c => (c, TmCoalesce lf c)) (filter (fun c => mem c u) common)
  ++ pass_terms (filter (fun c => negb (mem c common)) ul)
  ++ pass_terms (filter (fun c => negb (mem c common)) ur).

Section Join.
Variable fl : flavor.
Variable e : env.

(* what a join sees of an operand asked for the non-empty column set u *)
Lemma operand_cols q u T pub S' :
  Delivers fl e q u T -> BareOk e q u -> NoDup u -> u <> [] ->
  csem fl e q (mk_tci (Some u) false pub) = Some S' -> (forall c, In c (cols S') <-> In c u) /\ RA u T S'.
Proof.
  intros D B N NE E. destruct (deliver_csem fl e q u T u false pub D N (incl_refl u)) as [S2 [E2 [R X]]].
  rewrite E in E2. injection E2 as <-. split; [|exact R].
  destruct (by_name q (mk_tci (Some u) false pub)) eqn:BN.
  - destruct q as [n ts| |]; try discriminate. destruct (B n ts eq_refl NE) as [st [G H]].
    unfold csem in E. rewrite BN in E. rewrite G in E. injection E as <-. exact H.
  - rewrite (X NE eq_refl). intros c. reflexivity.
Qed.

Definition orow_rel (us ca ca' : list string) (o o' : option row) : Prop :=
  match o, o' with Some r, Some r' => rowrel us ca ca' r r' | None, None => True | _, _ => False end.
Definition pair_rel (ul ur ca ca' cb cb' : list string) (p p' : option row * option row) : Prop :=
  orow_rel ul ca ca' (fst p) (fst p') /\ orow_rel ur cb cb' (snd p) (snd p').

Lemma F2_list_prod {A B A' B'} (R : A -> A' -> Prop) (Q : B -> B' -> Prop) la la' lb lb' :
  Forall2 R la la' -> Forall2 Q lb lb' -> Forall2 (fun p p' => R (fst p) (fst p') /\ Q (snd p) (snd p')) (list_prod la lb) (list_prod la' lb').
Proof.
  intros H1 H2. induction H1 as [|x x' l l' Rx _ IH]; simpl; [constructor|]. apply Forall2_app; [|exact IH].
  apply (F2_map Q); [exact H2|]. intros y y' Qy. split; assumption.
Qed.

Lemma on_holds_local ul ur (ca ca' cb cb' : list string) on r1 r1' r2 r2' :
  incl (map fst on) ul -> incl (map snd on) ur -> rowrel ul ca ca' r1 r1' -> rowrel ur cb cb' r2 r2' ->
  on_holds ca cb on r1 r2 = on_holds ca' cb' on r1' r2'.
Proof.
  intros I1 I2 R1 R2. unfold on_holds, on_cond. f_equal. induction on as [|[x y] t IH]; [reflexivity|]. simpl.
  rewrite (R1 x (I1 x (or_introl eq_refl))), (R2 y (I2 y (or_introl eq_refl))). f_equal. apply IH; intros z Hz; [apply I1|apply I2]; right; exact Hz.
Qed.

(* the joined pairs of the operands as the join sees them correspond, pair by pair, to those of the tables they deliver *)
Lemma join_pairs_rel ul ur jt on A A' B B' :
  incl (map fst on) ul -> incl (map snd on) ur -> RA ul A A' -> RA ur B B' ->
  Forall2 (pair_rel ul ur (cols A) (cols A') (cols B) (cols B')) (join_pairs jt on A B) (join_pairs jt on A' B').
Proof.
  intros I1 I2 RA1 RB1.
  assert (Forall2 (pair_rel ul ur (cols A) (cols A') (cols B) (cols B'))
            (map (fun p => (Some (fst p), Some (snd p))) (joined_TN on A B)) (map (fun p => (Some (fst p), Some (snd p))) (joined_TN on A' B'))) as HTN.
  { apply (F2_map (fun p p' => rowrel ul (cols A) (cols A') (fst p) (fst p') /\ rowrel ur (cols B) (cols B') (snd p) (snd p'))).
    - unfold joined_TN. eapply F2_filter; [apply F2_list_prod; [exact RA1|exact RB1]|]. intros p p' [R1 R2]. apply (on_holds_local ul ur); assumption.
    - intros p p' [R1 R2]. split; assumption. }
  assert (Forall2 (pair_rel ul ur (cols A) (cols A') (cols B) (cols B'))
            (map (fun r => (Some r, @None row)) (unmatched_left on A B)) (map (fun r => (Some r, @None row)) (unmatched_left on A' B'))) as HL.
  { apply (F2_map (rowrel ul (cols A) (cols A'))).
    - unfold unmatched_left. eapply F2_filter; [exact RA1|]. intros r r' R1. f_equal. eapply F2_existsb; [exact RB1|]. intros s s' R2. apply (on_holds_local ul ur); assumption.
    - intros r r' R1. split; [exact R1|exact I]. }
  assert (Forall2 (pair_rel ul ur (cols A) (cols A') (cols B) (cols B'))
            (map (fun r => (@None row, Some r)) (unmatched_right on A B)) (map (fun r => (@None row, Some r)) (unmatched_right on A' B'))) as HR.
  { apply (F2_map (rowrel ur (cols B) (cols B'))).
    - unfold unmatched_right. eapply F2_filter; [exact RB1|]. intros r r' R2. f_equal. eapply F2_existsb; [exact RA1|]. intros s s' R1. apply (on_holds_local ul ur); assumption.
    - intros r r' R2. split; [exact I|exact R2]. }
  unfold join_pairs. destruct jt; repeat apply Forall2_app; assumption.
Qed.

Lemma spec_rows_pairs jt on A B :
  sql_join_rows (jt_of jt) on A B = map (fun p => select_row (cols A) (cols B) (fst p) (snd p)) (join_pairs jt on A B).
Proof. unfold sql_join_rows, join_pairs. destruct jt; simpl; rewrite ?map_app, !map_map; reflexivity. Qed.

Lemma cell_rel us cs cs' o o' c : orow_rel us cs cs' o o' -> In c us -> cell cs o c = cell cs' o' c.
Proof. destruct o, o'; simpl; intros H I; try contradiction; [apply H, I|reflexivity]. Qed.

Lemma term_of_join lf u ul ur k :
  NoDup ul ->
  term_of (join_terms lf u ul ur) k =
  if mem k ul && mem k ur && mem k u then TmCoalesce lf k else TmPass.
Proof.
  intros Nl. unfold term_of, join_terms. set (common := set_inter ul ur).
  assert (forall c, In c common <-> In c ul /\ In c ur) as HC by (intros c; apply In_set_inter).
  rewrite dict_get_app.
  destruct (mem k ul && mem k ur && mem k u) eqn:M.
  - apply andb_true_iff in M. destruct M as [M M3]. apply andb_true_iff in M. destruct M as [M1 M2]. apply mem_In in M1, M2, M3.
    assert (dict_get (map (fun c => (c, TmCoalesce lf c)) (filter (fun c => mem c u) common)) k = Some (TmCoalesce lf k)) as G.
    { apply dict_get_NoDup_In.
      - unfold dict_keys. rewrite map_map. simpl. rewrite map_id. apply NoDup_filter. unfold common, set_inter. apply NoDup_filter, Nl.
      - apply in_map_iff. exists k. split; [reflexivity|]. apply filter_In. split; [apply HC; tauto|apply mem_In, M3]. }
    rewrite G. reflexivity.
  - assert (dict_get (map (fun c => (c, TmCoalesce lf c)) (filter (fun c => mem c u) common)) k = None) as G.
    { apply dict_get_None. unfold dict_keys. rewrite map_map. simpl. rewrite map_id. intros I. apply filter_In in I. destruct I as [I1 I2]. apply HC in I1.
      destruct I1 as [A1 A2]. apply mem_In in A1, A2. rewrite A1, A2, I2 in M. discriminate. }
    rewrite G, dict_get_app.
    assert (forall l t, dict_get (pass_terms l) k = Some t -> t = TmPass) as PT.
    { intros l t Gt. apply dict_get_In in Gt. unfold pass_terms in Gt. apply in_map_iff in Gt. destruct Gt as [x [E _]]. congruence. }
    destruct (dict_get (pass_terms (filter (fun c => negb (mem c common)) ul)) k) as [t|] eqn:G1; [rewrite (PT _ _ G1); reflexivity|].
    destruct (dict_get (pass_terms (filter (fun c => negb (mem c common)) ur)) k) as [t|] eqn:G2; [rewrite (PT _ _ G2); reflexivity|reflexivity].
Qed.

Lemma join_terms_keys lf u ul ur k : In k (map fst (join_terms lf u ul ur)) -> In k ul \/ In k ur.
Proof.
  unfold join_terms. rewrite !map_app, !keys_pass, map_map. simpl. rewrite map_id. intros I.
  apply in_app_iff in I. destruct I as [I|I]; [apply filter_In in I; destruct I as [I _]; apply In_set_inter in I; tauto|].
  apply in_app_iff in I. destruct I as [I|I]; apply filter_In in I; tauto.
Qed.
Lemma join_terms_keys_iff lf u ul ur k :
  In k (map fst (join_terms lf u ul ur)) <->
  (In k ul /\ In k ur /\ In k u) \/ (In k ul /\ ~ In k ur) \/ (In k ur /\ ~ In k ul).
Proof.
  unfold join_terms. rewrite !map_app, !keys_pass, map_map. simpl. rewrite map_id, !in_app_iff, !filter_In.
  assert (forall c, mem c (set_inter ul ur) = mem c ul && mem c ur) as MC.
  { intros c. destruct (mem c ul && mem c ur) eqn:M.
    - apply andb_true_iff in M. destruct M as [M1 M2]. apply mem_In. apply In_set_inter. split; apply mem_In; assumption.
    - apply mem_false. intros I. apply In_set_inter in I. destruct I as [I1 I2]. apply mem_In in I1, I2. rewrite I1, I2 in M. discriminate. }
  rewrite In_set_inter, !MC. split.
  - intros [[[A1 A2] A3]|[[A1 A2]|[A1 A2]]].
    + left. apply mem_In in A3. tauto.
    + right. left. split; [exact A1|]. apply mem_In in A1. rewrite A1 in A2. simpl in A2. apply negb_true_iff, mem_false in A2. exact A2.
    + right. right. split; [exact A1|]. apply mem_In in A1. rewrite A1, andb_true_r in A2. apply negb_true_iff, mem_false in A2. exact A2.
  - intros [[A1 [A2 A3]]|[[A1 A2]|[A1 A2]]].
    + left. split; [tauto|apply mem_In, A3].
    + right. left. split; [exact A1|]. apply mem_false in A2. rewrite A2, andb_false_r. reflexivity.
    + right. right. split; [exact A1|]. apply mem_false in A2. rewrite A2. reflexivity.
Qed.

Lemma join_terms_nodup lf u ul ur : NoDup ul -> NoDup ur -> NoDup (map fst (join_terms lf u ul ur)).
Proof.
  intros Nl Nr. unfold join_terms. rewrite !map_app, !keys_pass, map_map. simpl. rewrite map_id.
  set (common := set_inter ul ur).
  assert (forall c, In c common <-> In c ul /\ In c ur) as HC by (intros c; apply In_set_inter).
  apply NoDup_app_iff; repeat split; [apply NoDup_filter; unfold common, set_inter; apply NoDup_filter, Nl| |].
  - apply NoDup_app_iff; repeat split; [apply NoDup_filter, Nl|apply NoDup_filter, Nr|].
    intros x I1 I2. apply filter_In in I1, I2. destruct I1 as [A1 A2], I2 as [B1 B2]. apply negb_true_iff, mem_false in A2. apply A2, HC. tauto.
  - intros x I1 I2. apply filter_In in I1. destruct I1 as [A1 _]. apply in_app_iff in I2.
    destruct I2 as [I2|I2]; apply filter_In in I2; destruct I2 as [_ B2]; apply negb_true_iff, mem_false in B2; contradiction.
Qed.

(* what a join step sees of its two operands, asked for ul and ur: tables A' B' with exactly these columns whose joined pairs
   correspond, pair by pair, to those of the tables the operands deliver *)
Lemma join_operands nm tms pl pr ql qr jt on_a on_b ul ur A B :
  Delivers fl e ql ul A -> Delivers fl e qr ur B -> BareOk e ql ul -> BareOk e qr ur ->
  NoDup ul -> NoDup ur -> ul <> [] -> ur <> [] -> incl on_a ul -> incl on_b ur ->
  exists A' B', (forall c, In c (cols A') <-> In c ul) /\ (forall c, In c (cols B') <-> In c ur) /\
    Forall2 (pair_rel ul ur (cols A) (cols A') (cols B) (cols B')) (join_pairs jt (combine on_a on_b) A B) (join_pairs jt (combine on_a on_b) A' B') /\
    List.length (join_pairs jt (combine on_a on_b) A' B') = List.length (rows (sql_join_spec (jt_of jt) (combine on_a on_b) A B)) /\
    forall want, qsem fl e (TBinary nm tms ql (mk_tci (Some ul) false pl) (TJoin jt) qr (mk_tci (Some ur) false pr) (combine on_a on_b)) want
                 = sql_join_select tms want jt (combine on_a on_b) A' B'.
Proof.
  intros DL DR BL BR Nl Nr NEl NEr Ia Ib. set (on := combine on_a on_b).
  destruct (deliver_csem fl e ql ul A ul false pl DL Nl (incl_refl _)) as [A' [EA _]].
  destruct (deliver_csem fl e qr ur B ur false pr DR Nr (incl_refl _)) as [B' [EB _]].
  destruct (operand_cols ql ul A pl A' DL BL Nl NEl EA) as [CA RA1]. destruct (operand_cols qr ur B pr B' DR BR Nr NEr EB) as [CB RB1].
  assert (incl (map fst on) ul /\ incl (map snd on) ur) as [I1 I2].
  { unfold on. split; intros x Hx; apply in_map_iff in Hx; destruct Hx as [[y z] [<- I]]; [apply in_combine_l in I; apply Ia, I|apply in_combine_r in I; apply Ib, I]. }
  pose proof (join_pairs_rel ul ur jt on A A' B B' I1 I2 RA1 RB1) as HP.
  exists A', B'. split; [exact CA|]. split; [exact CB|]. split; [exact HP|]. split.
  - unfold sql_join_spec. cbn [rows]. rewrite spec_rows_pairs, map_length. symmetry. apply (F2_length _ _ _ HP).
  - intros want. cbn [qsem]. unfold csem in EA, EB.
    destruct (by_name ql (mk_tci (Some ul) false pl)); destruct (by_name qr (mk_tci (Some ur) false pr)); cbn [tc_cols] in *; rewrite EA, EB; reflexivity.
Qed.

(* THE JOIN STEP.  ul / ur: what the two sub-queries were asked for (non-empty, inside the operands' columns, containing the
   keys and every requested column of the respective operand). *)
Lemma delivers_join nm pl pr ql qr jt on_a on_b u ul ur A B :
  f_join_null_match fl = false -> List.length on_a = List.length on_b ->
  Delivers fl e ql ul A -> Delivers fl e qr ur B -> BareOk e ql ul -> BareOk e qr ur ->
  NoDup ul -> NoDup ur -> ul <> [] -> ur <> [] -> incl ul (cols A) -> incl ur (cols B) ->
  incl on_a ul -> incl on_b ur -> NoDup (cols A) -> NoDup (cols B) ->
  (forall k, In k u -> (In k (cols A) -> In k ul) /\ (In k (cols B) -> In k ur) /\ (In k (cols A) \/ In k (cols B))) ->
  join_terms true u ul ur <> [] ->
  Delivers fl e (TBinary nm (Some (join_terms true u ul ur)) ql (mk_tci (Some ul) false pl) (TJoin jt) qr (mk_tci (Some ur) false pr) (combine on_a on_b))
           u (sem_join (f_join_null_match fl) on_a on_b jt A B).
Proof.
  intros NM Len DL DR BL BR Nl Nr NEl NEr Il Ir Ia Ib NA NB Hu NT.
  rewrite NM, (sem_join_is_spec on_a on_b jt A B Len).
  destruct (join_operands nm (Some (join_terms true u ul ur)) pl pr ql qr jt on_a on_b ul ur A B DL DR BL BR Nl Nr NEl NEr Ia Ib) as [A' [B' [CA [CB [HP [LP EQ]]]]]].
  set (on := combine on_a on_b) in *.
  set (tms := join_terms true u ul ur) in *.
  set (T := sql_join_spec (jt_of jt) on A B).
  assert (forall k, In k (map fst tms) <-> (In k ul /\ In k ur /\ In k u) \/ (In k ul /\ ~ In k ur) \/ (In k ur /\ ~ In k ul)) as HK
      by (intros k; apply join_terms_keys_iff).
  assert (forall k, term_of tms k = if mem k ul && mem k ur && mem k u then TmCoalesce true k else TmPass) as HT
      by (intros k; apply term_of_join; assumption).
  (* no unqualified name is ambiguous *)
  assert (forall K, incl K (map fst tms) -> ambiguous (cols A') (cols B') (map (item_of_terms tms) K) = false) as NoAmb.
  { intros K IK. apply existsb_false_map. intros k Ik. unfold item_of_terms. cbn [fst snd]. rewrite HT.
    destruct (mem k ul && mem k ur && mem k u) eqn:M; [reflexivity|].
    destruct (mem k (cols A')) eqn:M1; [|reflexivity]. destruct (mem k (cols B')) eqn:M2; [|reflexivity]. exfalso.
    apply mem_In in M1, M2. apply CA in M1. apply CB in M2. specialize (IK k Ik). apply HK in IK.
    destruct IK as [[_ [_ X]]|[[_ X]|[_ X]]]; try contradiction.
    apply mem_In in M1, M2, X. rewrite M1, M2, X in M. discriminate. }
  set (pairs' := join_pairs jt on A' B').
  set (RK := fun K => mktable K (map (fun p => map (fun k => join_item (cols A') (cols B') (fst p) (snd p) k (term_of tms k)) K) pairs')).
  set (q := TBinary nm (Some tms) ql (mk_tci (Some ul) false pl) (TJoin jt) qr (mk_tci (Some ur) false pr) on).
  assert (forall K, K <> [] -> incl K (map fst tms) -> qsem fl e q (Some K) = Some (RK K)) as EK.
  { intros K NK IK. unfold q. rewrite EQ. unfold sql_join_select. rewrite (select_keys_some false tms K NK), (NoAmb K IK). unfold RK. f_equal. f_equal.
    apply map_ext. intros p. rewrite map_map. reflexivity. }
  (* one cell *)
  assert (forall p p' k, pair_rel ul ur (cols A) (cols A') (cols B) (cols B') p p' -> In k u ->
            join_item (cols A') (cols B') (fst p') (snd p') k (term_of tms k)
            = get (out_cols (cols A) (cols B)) (select_row (cols A) (cols B) (fst p) (snd p)) k) as Hcell.
  { intros p p' k [R1 R2] Ik. destruct (Hu k Ik) as [HA [HB HAB]].
    assert (In k (out_cols (cols A) (cols B))) as Iout.
    { unfold out_cols. apply in_app_iff. destruct (in_dec string_dec k (cols A)) as [i|n]; [left; exact i|right].
      apply filter_In. split; [tauto|apply negb_true_iff, mem_false, n]. }
    unfold select_row. rewrite get_map_cols. assert (mem k (out_cols (cols A) (cols B)) = true) as MO by (apply mem_In, Iout). rewrite MO.
    rewrite HT. unfold item_of, eval_item.
    destruct (mem k (cols A)) eqn:MA; destruct (mem k (cols B)) eqn:MB.
    - apply mem_In in MA, MB. pose proof (HA MA) as Il1. pose proof (HB MB) as Ir1.
      assert (mem k ul && mem k ur && mem k u = true) as M by (apply mem_In in Il1, Ir1, Ik; rewrite Il1, Ir1, Ik; reflexivity).
      rewrite M. cbn [join_item]. rewrite <- (cell_rel ul _ _ _ _ k R1 Il1), <- (cell_rel ur _ _ _ _ k R2 Ir1). reflexivity.
    - apply mem_In in MA. pose proof (HA MA) as Il1. assert (~ In k ur) as Nr1 by (intros X; apply mem_false in MB; apply MB, Ir, X).
      apply mem_false in Nr1. rewrite Nr1, andb_false_r. cbn [join_item andb].
      assert (mem k (cols A') = true) as MA' by (apply mem_In, CA, Il1). rewrite MA'. symmetry. apply (cell_rel ul _ _ _ _ k R1 Il1).
    - apply mem_In in MB. pose proof (HB MB) as Ir1. assert (~ In k ul) as Nl1 by (intros X; apply mem_false in MA; apply MA, Il, X).
      assert (mem k ul = false) as Nl2 by (apply mem_false, Nl1). rewrite Nl2. cbn [join_item andb].
      assert (mem k (cols A') = false) as MA' by (apply mem_false; intros X; apply Nl1, CA, X). rewrite MA'. symmetry. apply (cell_rel ur _ _ _ _ k R2 Ir1).
    - exfalso. apply mem_false in MA, MB. tauto. }
  assert (forall K, incl K u -> RK K = sel K T) as Exact.
  { intros K IK. unfold RK, T, sql_join_spec, sem_select_cols. cbn [cols rows]. f_equal. rewrite spec_rows_pairs, map_map.
    symmetry. eapply F2_map_eq; [exact HP|]. intros p p' R. cbv beta. apply map_ext_in. intros k Ik. symmetry. apply Hcell; [exact R|apply IK, Ik]. }
  assert (incl u (map fst tms)) as IuK.
  { intros k Ik. apply HK. destruct (Hu k Ik) as [HA [HB HAB]].
    destruct (in_dec string_dec k (cols A)) as [ia|na]; destruct (in_dec string_dec k (cols B)) as [ib|nb].
    - left. tauto.
    - right. left. split; [tauto|]. intros X. apply nb, Ir, X.
    - right. right. split; [tauto|]. intros X. apply na, Il, X.
    - tauto. }
  constructor.
  - apply join_terms_nodup; assumption.
  - exact IuK.
  - intros k Ik. unfold T, sql_join_spec. cbn [cols]. destruct (Hu k Ik) as [_ [_ HAB]]. unfold out_cols. apply in_app_iff.
    destruct (in_dec string_dec k (cols A)) as [i|n]; [left; exact i|right]. apply filter_In. split; [tauto|apply negb_true_iff, mem_false, n].
  - intros K NK NDK IK. cbn [tkeys] in IK. exists (RK K). split; [apply EK; assumption|]. split.
    + apply sel_nil_length. unfold RK. cbn [rows]. rewrite map_length. exact LP.
    + split; [intros IKu; apply Exact, IKu|]. intros C NC IC ICu. rewrite <- (Exact C ICu). unfold RK, sem_select_cols. cbn [cols rows]. f_equal. rewrite map_map.
      apply map_ext. intros p. apply map_ext_in. intros k Ik. rewrite get_map_cols. assert (mem k K = true) as M by (apply mem_In, IC, Ik). rewrite M. reflexivity.
  - unfold q in *. rewrite EQ. unfold sql_join_select. assert (select_keys false (Some tms) (Some []) = None) as E0 by (destruct tms; reflexivity). rewrite E0.
    eexists. split; [reflexivity|]. apply sel_nil_length. cbn [rows]. rewrite map_length. exact LP.
  - intros n0 ts X. discriminate.
Qed.

(* the same step when it has no term at all (nothing requested, and the only requested-from-the-operands columns are common keys):
   written SELECT * over the join; it still supplies the rows *)
Lemma delivers_join_star nm pl pr ql qr jt on_a on_b ul ur A B :
  f_join_null_match fl = false -> List.length on_a = List.length on_b ->
  Delivers fl e ql ul A -> Delivers fl e qr ur B -> BareOk e ql ul -> BareOk e qr ur ->
  NoDup ul -> NoDup ur -> ul <> [] -> ur <> [] -> incl on_a ul -> incl on_b ur ->
  Delivers fl e (TBinary nm None ql (mk_tci (Some ul) false pl) (TJoin jt) qr (mk_tci (Some ur) false pr) (combine on_a on_b))
           [] (sem_join (f_join_null_match fl) on_a on_b jt A B).
Proof.
  intros NM Len DL DR BL BR Nl Nr NEl NEr Ia Ib.
  rewrite NM, (sem_join_is_spec on_a on_b jt A B Len).
  destruct (join_operands nm None pl pr ql qr jt on_a on_b ul ur A B DL DR BL BR Nl Nr NEl NEr Ia Ib) as [A' [B' [_ [_ [_ [LP EQ]]]]]].
  constructor.
  - constructor.
  - intros x [].
  - intros x [].
  - intros K NK _ IK. destruct K as [|k0 K']; [congruence|]. destruct (IK k0 (or_introl eq_refl)).
  - rewrite EQ. eexists. split; [reflexivity|]. apply sel_nil_length. cbn [rows]. rewrite map_length. exact LP.
  - intros n0 ts X. discriminate.
Qed.

End Join.
