(* SQLGEN, part 18: the merge invariant and the merged step for NON-AGGREGATE terms (plain expressions or window items):
   MergeInvN / merge_okN are Proofs/SqlGenP12.v's invariant at the class of non-aggregate terms, merged_delivers_gen the
   merged step for any outer step, windowed or not. *)
From Coq Require Import List Bool String.
Import ListNotations.
From DA Require Import Base.PyRT Base.Val Model.Sem Proofs.SemBasicP Model.ColumnsUsed Proofs.ColumnsUsedP1 Proofs.ColumnsUsedP2
  Proofs.ColumnsUsedP4 Model.SqlGen Model.SqlSem Proofs.SqlGenP1 Proofs.SqlGenP2 Proofs.SqlGenP3 Proofs.SqlGenP4
  Proofs.SqlGenP6 Proofs.SqlGenP11 Proofs.SqlGenP12 Proofs.SqlGenP13 Proofs.SqlGenP14 Proofs.SqlGenP17.
Local Open Scope list_scope.

Definition merge_okN (l : terms) (dp : depmap) : Prop :=
  l <> [] /\ (forall kt, In kt l -> is_agg_term (snd kt) = false) /\ NoDup (map fst l) /\
  incl (map fst l) (map fst dp) /\ NoDup (map fst dp) /\ deps_describe l dp.
Definition MergeInvN (q : tnear) : Prop :=
  forall n ts s0 ci sfx dp, q = TUnary n ts s0 ci sfx true (Some dp) -> sfx = SfxNone /\ exists l, ts = Some l /\ merge_okN l dp.

Lemma merge_invN_narrow q K q' : MergeInvN q -> NoDup K ->
  (if terms_is_none q then (match K with [] => Some (empty_terms q) | _ => None end) else narrow_or_first q K) = Some q' -> MergeInvN q'.
Proof. exact (merge_invP_narrow (fun t => is_agg_term t = false) q K q'). Qed.

(* a step extend_to_near_sql never merges into satisfies the invariant for want of a case *)
Lemma merge_invN_not_mg q : not_mg q -> MergeInvN q.
Proof. intros H n ts s0 ci sfx dp E. subst q. destruct H. Qed.

Section DirectN.
Variable fl : flavor.
Variable e : env.

(* extend_to_near_sql returning the merged sub-query, for ANY outer step (terms tms, declared dependencies deps) that, built
   as a fresh step over sub, would deliver T *)
Lemma merged_delivers_gen n ts s0 ci ds su S nm (tms : terms) (deps : depmap) dpx u T :
  let sub := TUnary n (Some ts) s0 ci SfxNone true (Some ds) in
  let our_nt := non_trivial_terms deps tms in
  Delivers fl e sub su S -> merge_okN ts ds -> NoDup su ->
  merge_okN tms deps -> map fst tms = map fst deps ->
  Delivers fl e (TUnary nm (Some tms) sub (mk_tci (Some su) false None) SfxNone true dpx) u T ->
  (forall k, In k u -> incl (item_cols (k, term_of tms k)) su) ->
  u <> [] -> List.length (rows T) = List.length (rows S) ->
  contention our_nt (needs deps our_nt) (non_trivial_terms ds ts) (needs ds (non_trivial_terms ds ts)) = [] ->
  Delivers fl e (TUnary n (Some (merged_terms our_nt tms deps ts)) s0 ci SfxNone true (Some (merged_deps our_nt tms deps ds))) u T
  /\ merge_okN (merged_terms our_nt tms deps ts) (merged_deps our_nt tms deps ds).
Proof.
  intros sub our_nt.
  exact (merged_delivers_P fl e (fun t => is_agg_term t = false) n ts s0 ci ds su S nm tms deps dpx u T eq_refl (fun t H => H)).
Qed.

End DirectN.
