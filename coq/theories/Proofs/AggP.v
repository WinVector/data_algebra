(* C05 -- aggregates and window functions: the SQL templates under the engine models compute the documented value over EVERY
   group (lists of any length: induction); `computes`, the form in which AggP2 says the same of the pandas and Polars primitives *)
From Coq Require Import List Bool Qround Qabs String Lia Lqa.
Import ListNotations.
From DA Require Import Model.Scalar Model.SqlTemplates Model.ScalarBackends Model.ScalarCatalog Model.AggModels Model.ScalarIndex Model.AggIndex Proofs.ScalarP0.
Local Open Scope string_scope.

(* list-level result equivalence *)
Definition svl_eqv (a b : list sval) : Prop := Forall2 sv_eqv a b.
Fixpoint svl_eqvb (a b : list sval) : bool :=
  match a, b with [], [] => true | x :: t, y :: u => sv_eqvb x y && svl_eqvb t u | _, _ => false end.
Lemma svl_eqv_refl l : svl_eqv l l.
Proof. induction l; constructor; auto using sv_eqv_refl. Qed.
Lemma svl_eqv_const {A} (l : list A) a b : sv_eqv a b -> svl_eqv (map (fun _ => a) l) (map (fun _ => b) l).
Proof. intros E. induction l; constructor; auto. Qed.

(* ---------------------------------------------------------------- present values on each side *)
Lemma all_fin_present_enc d l qs : all_fin (present l) = Some qs -> all_fin (sql_present (map (enc d) l)) = Some qs.
Proof. revert qs. induction l as [|v t IH]; intros qs H; [exact H|].
  destruct v as [ | |b|q| | |s]; try discriminate H.
  - destruct d; apply IH; exact H.
  - destruct d; apply IH; exact H.
  - unfold present in H. cbn in H. fold (present t) in H. destruct (all_fin (present t)) as [qt|] eqn:E; [|discriminate H]. cbn in H. inversion H; subst.
    assert (all_fin (sql_present (map (enc d) t)) = Some qt) as E' by (apply IH; reflexivity).
    destruct d; cbn; unfold sql_present in E'; rewrite E'; reflexivity. Qed.
Lemma all_fin_no_missing l qs : all_fin l = Some qs -> present l = l /\ sql_present l = l.
Proof. revert qs. induction l as [|v t IH]; intros qs H; [repeat split|].
  destruct v; try discriminate H. cbn in H. destruct (all_fin t) as [qt|] eqn:E; [|discriminate H].
  destruct (IH _ eq_refl) as [A C]. unfold present, sql_present in *. cbn. rewrite A, C. repeat split. Qed.
Lemma all_fin_length l qs : all_fin l = Some qs -> List.length qs = List.length l.
Proof. revert qs. induction l as [|v t IH]; intros qs H; [inversion H; reflexivity|].
  destruct v; try discriminate H. cbn in H. destruct (all_fin t) as [qt|] eqn:E; [|discriminate H]. cbn in H. inversion H; subst.
  cbn. rewrite (IH _ eq_refl). reflexivity. Qed.
Lemma all_some_map_some {A B} (f : A -> B) l : all_some (map (fun v => Some (f v)) l) = Some (map f l).
Proof. induction l as [|v t IH]; [reflexivity|]. cbn [map all_some]. rewrite IH. reflexivity. Qed.
Lemma np_present_eq l : np_present l = present l. Proof. reflexivity. Qed.

Lemma agg_present_inv k f l r : agg_present k f l = Some r ->
  exists qs, all_fin (present l) = Some qs /\ (k <= List.length qs)%nat /\ f qs = Some r.
Proof. unfold agg_present. destruct (all_fin (present l)) as [qs|]; [|discriminate].
  destruct (k <=? List.length qs)%nat eqn:L; [|discriminate]. intros H. exists qs. apply Nat.leb_le in L. auto. Qed.

Lemma qdistinct_nil l : qdistinct l = [] -> l = [].
Proof. induction l as [|y t IH]; [reflexivity|]. cbn. destruct (existsb (Qeq_bool y) t) eqn:E; [|discriminate].
  intros H. rewrite (IH H) in E. discriminate E. Qed.
Lemma qdistinct_single l x : qdistinct l = [x] -> Forall (fun y => (y == x)%Q) l.
Proof. induction l as [|y t IH]; [constructor|]. cbn. destruct (existsb (Qeq_bool y) t) eqn:E; intros H.
  - pose proof (IH H) as F. constructor; [|exact F]. apply existsb_exists in E. destruct E as [z [Iz Ez]].
    apply Qeq_bool_iff in Ez. rewrite Ez. rewrite Forall_forall in F. apply F. exact Iz.
  - inversion H; subst. rewrite (qdistinct_nil _ H2). constructor; [reflexivity | constructor]. Qed.
Lemma qfold1_all_eq (f : Q -> Q -> Q) l x v : (forall a b, f a b = a \/ f a b = b) ->
  Forall (fun y => (y == x)%Q) l -> qfold1 f l = Some v -> (v == x)%Q.
Proof. intros Hf. revert v. induction l as [|y t IH]; intros v F H; [discriminate H|]. inversion F; subst.
  destruct t as [|z t']; [inversion H; subst; assumption|].
  change (qfold1 f (y :: z :: t')) with (option_map (f y) (qfold1 f (z :: t'))) in H.
  destruct (qfold1 f (z :: t')) as [w|] eqn:W; [|discriminate H]. cbn in H. inversion H; subst.
  destruct (Hf y w) as [-> | ->]; [assumption | apply IH; auto]. Qed.
Lemma qmax2_pick a b : qmax2 a b = a \/ qmax2 a b = b. Proof. unfold qmax2. destruct (Qle_bool b a); auto. Qed.
Lemma qmin2_pick a b : qmin2 a b = a \/ qmin2 a b = b. Proof. unfold qmin2. destruct (Qle_bool a b); auto. Qed.
Definition qmaxl (f : Q -> Q -> Q) (l : list Q) : Q := match qfold1 f l with Some v => v | None => 0%Q end.
Lemma qfold1_some (f : Q -> Q -> Q) l : l <> [] -> qfold1 f l = Some (qmaxl f l).
Proof. intros NE. unfold qmaxl. destruct (qfold1 f l) eqn:E; [reflexivity|]. exfalso. destruct l as [|a t]; [congruence|]. clear NE.
  revert a E. induction t as [|b t IH]; intros a E; [discriminate E|].
  change (qfold1 f (a :: b :: t)) with (option_map (f a) (qfold1 f (b :: t))) in E. destruct (qfold1 f (b :: t)) eqn:E2; [discriminate E|]. eapply IH; exact E2. Qed.

(* The eight numeric aggregates are documented as a function f of the present values of a group with at least k of them
   (agg_present k f); an engine or a frame library computes some g of the same values.  What has to be shown per method is
   a fact about lists of numbers only. *)
Definition computes (k : nat) (f g : list Q -> option sval) : Prop :=
  forall qs r, (k <= List.length qs)%nat -> f qs = Some r -> exists v, g qs = Some v /\ sv_eqv v r.
Lemma computes_same k f : computes k f f.
Proof. intros qs r _ E. exists r. split; [exact E | apply sv_eqv_refl]. Qed.
Lemma computes_nonempty (h : list Q -> Q) :
  computes 1 (fun qs => Some (SNum (h qs))) (fun qs => Some (match qs with [] => SNull | _ => SNum (h qs) end)).
Proof. intros qs r L [= <-]. destruct qs; [cbn in L; lia|]. eexists; split; [reflexivity | apply sv_eqv_refl]. Qed.
Lemma computes_fold (f2 : Q -> Q -> Q) :
  computes 1 (fun qs => option_map SNum (qfold1 f2 qs)) (fun qs => Some (match qfold1 f2 qs with Some v => SNum v | None => SNull end)).
Proof. intros qs r _ E. destruct (qfold1 f2 qs); [|discriminate E]. injection E as <-. eexists; split; [reflexivity | apply sv_eqv_refl]. Qed.
Lemma computes_var :
  computes 2 (fun qs => Some (SNum (qvar qs))) (fun qs => Some (if (2 <=? List.length qs)%nat then SNum (qvar qs) else SNull)).
Proof. intros qs r L [= <-]. apply Nat.leb_le in L. rewrite L. eexists; split; [reflexivity | apply sv_eqv_refl]. Qed.
Lemma computes_std (s : Q -> option Q) :
  computes 2 (fun qs => option_map SNum (s (qvar qs))) (fun qs => if (2 <=? List.length qs)%nat then option_map SNum (s (qvar qs)) else Some SNull).
Proof. intros qs r L E. apply Nat.leb_le in L. rewrite L. exists r. split; [exact E | apply sv_eqv_refl]. Qed.
Lemma computes_any_first :
  computes 1 (fun qs => match qdistinct qs with [x] => Some (SNum x) | _ => None end) (fun qs => Some (match qs with [] => SNull | x :: _ => SNum x end)).
Proof. intros qs r L E. destruct (qdistinct qs) as [|x [|x2 rest]] eqn:D; try discriminate E. injection E as <-.
  destruct qs as [|y t]; [cbn in L; lia|]. eexists; split; [reflexivity|].
  apply sv_eqv_num. pose proof (qdistinct_single _ _ D) as A. inversion A; subst. assumption. Qed.
Lemma computes_any_fold (f2 : Q -> Q -> Q) : (forall a b, f2 a b = a \/ f2 a b = b) ->
  computes 1 (fun qs => match qdistinct qs with [x] => Some (SNum x) | _ => None end)
             (fun qs => Some (match qfold1 f2 qs with Some v => SNum v | None => SNull end)).
Proof. intros Pk qs r L E. destruct (qdistinct qs) as [|x [|x2 rest]] eqn:D; try discriminate E. injection E as <-.
  destruct qs as [|q0 qt]; [cbn in L; lia|]. rewrite (qfold1_some f2 (q0 :: qt)) by discriminate.
  eexists; split; [reflexivity|]. apply sv_eqv_num.
  eapply qfold1_all_eq; [exact Pk | apply qdistinct_single; exact D | apply qfold1_some; discriminate]. Qed.

Section Agg.
Variable mf : string -> Q -> option Q.
Variable mf2 : string -> Q -> Q -> option Q.
Variable vr : variant.

(* ---------------------------------------------------------------- SQL: one aggregate over one group *)
(* the scalar statement: template t of method m evaluates to the documented value of the group *)
Definition agg1_ok (d : dialect) (m : string) : Prop :=
  forall vals r, vals <> [] -> spec_agg mf m vals = Some r ->
  exists t v, fmt_agg d m = Some t /\ sem_agg mf mf2 vr d t vals = Some v /\ sv_eqv v r.

Lemma sem_agg_id d fn vals : sem_agg mf mf2 vr d (mk_aggtmpl fn (fun x => x) false) vals = eng_agg mf d fn (map (enc d) vals).
Proof. unfold sem_agg. cbn [ag_row ag_fn ag_ge1].
  replace (map (fun v => sem mf mf2 d vr (QAtom false "" (enc d v))) vals) with (map (fun v => Some (enc d v)) vals) by reflexivity.
  rewrite all_some_map_some. destruct (eng_agg mf d fn (map (enc d) vals)); reflexivity. Qed.

(* a method documented by agg_present whose template is FN(x): the engine function FN computes some g of the present values *)
Lemma sql_present_ok d m fn k f g :
  (forall l, spec_agg mf m l = agg_present k f l) -> fmt_agg d m = Some (mk_aggtmpl fn (fun x => x) false) ->
  (forall rows, eng_agg mf d fn rows = match all_fin (sql_present rows) with Some qs => g qs | None => None end) ->
  computes k f g -> agg1_ok d m.
Proof. intros S T E C vals r NE H. rewrite S in H. destruct (agg_present_inv _ _ _ _ H) as [qs [F [L Ef]]].
  destruct (C qs r L Ef) as [v [Eg Q]]. exists (mk_aggtmpl fn (fun x => x) false), v. split; [exact T|].
  rewrite sem_agg_id, E, (all_fin_present_enc d _ _ F). split; [exact Eg | exact Q]. Qed.

Lemma sql_sum_ok d : agg1_ok d "sum".
Proof. eapply sql_present_ok; [reflexivity | reflexivity | reflexivity | apply computes_nonempty]. Qed.
Lemma sql_mean_ok d : agg1_ok d "mean".
Proof. eapply sql_present_ok; [reflexivity | reflexivity | reflexivity | apply computes_nonempty]. Qed.
Lemma sql_max_ok d : agg1_ok d "max".
Proof. eapply sql_present_ok; [reflexivity | reflexivity | reflexivity | apply computes_fold]. Qed.
Lemma sql_min_ok d : agg1_ok d "min".
Proof. eapply sql_present_ok; [reflexivity | reflexivity | reflexivity | apply computes_fold]. Qed.
Lemma sql_median_ok : agg1_ok DSqlite "median".
Proof. eapply sql_present_ok; [reflexivity | reflexivity | reflexivity | apply computes_nonempty]. Qed.
Lemma sql_var_ok d : agg1_ok d "var".
Proof. destruct d; (eapply sql_present_ok; [reflexivity | reflexivity | reflexivity | apply computes_var]). Qed.
Lemma sql_std_ok d : agg1_ok d "std".
Proof. destruct d; (eapply sql_present_ok; [reflexivity | reflexivity | reflexivity | apply computes_std]). Qed.
Lemma sql_any_value_ok d : agg1_ok d "any_value".
Proof. eapply sql_present_ok; [reflexivity | reflexivity | reflexivity | apply computes_any_fold, qmax2_pick]. Qed.
Lemma sql_nunique_ok d : agg1_ok d "nunique".
Proof. intros vals r NE H. change (spec_agg mf "nunique" vals) with (match all_fin vals with Some qs => Some (nat_sv (List.length (qdistinct qs))) | None => None end) in H.
  destruct (all_fin vals) as [qs|] eqn:F; [|discriminate H]. inversion H; subst.
  exists (mk_aggtmpl "COUNT(DISTINCT" (fun x => QParen x) false). eexists. split; [reflexivity|].
  unfold sem_agg. cbn [ag_row ag_fn ag_ge1].
  replace (map (fun v => sem mf mf2 d vr (QParen (QAtom false "" (enc d v)))) vals) with (map (fun v => Some (enc d v)) vals) by reflexivity.
  rewrite all_some_map_some. unfold eng_agg.
  destruct (all_fin_no_missing _ _ F) as [P _]. rewrite <- P in F. rewrite (all_fin_present_enc d _ _ F). cbn.
  split; [reflexivity | apply sv_eqv_refl]. Qed.

(* count: SUM(CASE WHEN x IS NOT NULL THEN 1 ELSE 0 END) is the number of present cells -- induction over the group *)
Definition ind01 (b : bool) : sval := SNum (if b then 1 else 0).
Lemma count_rows d vals :
  all_some (map (fun v => sem mf mf2 d vr (case_1_0 (QIsNotNull (QAtom false "" (enc d v))))) vals)
  = Some (map (fun v => ind01 (negb (missing v))) vals).
Proof. induction vals as [|v t IH]; [reflexivity|]. cbn [map all_some]. rewrite IH.
  destruct d, v; try destruct b; reflexivity. Qed.
Lemma qsum_ind01 (l : list bool) :
  all_fin (sql_present (map ind01 l)) = Some (map (fun b : bool => if b then 1%Q else 0%Q) l).
Proof. induction l as [|b t IH]; [reflexivity|]. cbn [map]. unfold sql_present in *. cbn. rewrite IH. reflexivity. Qed.
Lemma qsum_count (l : list bool) : (qsum (map (fun b : bool => if b then 1%Q else 0%Q) l) == inject_Z (Z.of_nat (List.length (filter (fun b => b) l))))%Q.
Proof. induction l as [|b t IH]; [reflexivity|]. cbn [map qsum fold_right filter]. fold (qsum (map (fun b : bool => if b then 1%Q else 0%Q) t)). rewrite IH.
  destruct b; cbn [List.length].
  - rewrite Nat2Z.inj_succ. unfold Z.succ. rewrite inject_Z_plus. change (inject_Z 1) with 1%Q. ring.
  - ring. Qed.
Lemma present_length vals : List.length (present vals) = List.length (filter (fun b : bool => b) (map (fun v => negb (missing v)) vals)).
Proof. induction vals as [|v t IH]; [reflexivity|]. unfold present in *. cbn. destruct (negb (missing v)); cbn; rewrite IH; reflexivity. Qed.
Lemma sql_count_ok d : agg1_ok d "count".
Proof. intros vals r NE H. change (spec_agg mf "count" vals) with (Some (nat_sv (List.length (present vals)))) in H. inversion H; subst.
  destruct vals as [|v0 t]; [congruence|].
  exists (mk_aggtmpl "SUM" (fun x => case_1_0 (QIsNotNull x)) false).
  exists (SNum (qsum (map (fun b : bool => if b then 1%Q else 0%Q) (map (fun v => negb (missing v)) (v0 :: t))))). split; [reflexivity|].
  unfold sem_agg. cbn [ag_row ag_fn ag_ge1]. rewrite count_rows. unfold eng_agg.
  rewrite <- (map_map (fun v => negb (missing v)) ind01). rewrite qsum_ind01. cbn [String.eqb Ascii.eqb Bool.eqb].
  split; [reflexivity|].
  apply sv_eqv_num. rewrite qsum_count. rewrite <- present_length. reflexivity. Qed.
Lemma size_rows d (vals : list sval) :
  all_some (map (fun v : sval => sem mf mf2 d vr (lit_text "1" (SNum 1))) vals) = Some (map (fun _ => SNum 1) vals).
Proof. induction vals as [|v t IH]; [reflexivity|]. cbn [map all_some]. rewrite IH. reflexivity. Qed.
Lemma all_fin_ones {A} (l : list A) : all_fin (sql_present (map (fun _ => SNum 1) l)) = Some (map (fun _ => 1%Q) l).
Proof. induction l as [|b t IH]; [reflexivity|]. unfold sql_present in *. cbn. rewrite IH. reflexivity. Qed.
Lemma qsum_ones {A} (l : list A) : (qsum (map (fun _ => 1%Q) l) == inject_Z (Z.of_nat (List.length l)))%Q.
Proof. induction l as [|b t IH]; [reflexivity|]. cbn [map qsum fold_right List.length]. fold (qsum (map (fun _ : A => 1%Q) t)). rewrite IH.
  rewrite Nat2Z.inj_succ. unfold Z.succ. rewrite inject_Z_plus. change (inject_Z 1) with 1%Q. ring. Qed.
Lemma sql_size_ok d m : (m = "size" \/ m = "_size") -> agg1_ok d m.
Proof. intros M vals r NE H.
  assert (spec_agg mf m vals = Some (nat_sv (List.length vals))) as S by (destruct M as [->| ->]; reflexivity). rewrite S in H. inversion H; subst.
  destruct vals as [|v0 t]; [congruence|].
  exists (mk_aggtmpl "SUM" (fun _ => lit_text "1" (SNum 1)) false). exists (SNum (qsum (map (fun _ => 1%Q) (v0 :: t)))). split; [destruct M as [->| ->]; reflexivity|].
  unfold sem_agg. cbn [ag_row ag_fn ag_ge1]. rewrite size_rows. unfold eng_agg. rewrite all_fin_ones. cbn [String.eqb Ascii.eqb Bool.eqb].
  split; [reflexivity|]. apply sv_eqv_num. apply (qsum_ones (v0 :: t)). Qed.

(* any / all: (MAX(CASE WHEN a THEN 1 ELSE 0 END) >= 1) and (MIN(...) >= 1) -- induction over the group *)
Lemma bool_rows d bs vals : all_bool vals = Some bs ->
  all_some (map (fun v => sem mf mf2 d vr (case_1_0 (QAtom false "" (enc d v)))) vals) = Some (map ind01 bs).
Proof. revert bs. induction vals as [|v t IH]; intros bs H; [inversion H; reflexivity|].
  destruct v as [ | |b| | | | ]; try discriminate H. cbn in H. destruct (all_bool t) as [bt|]; [|discriminate H]. cbn in H. inversion H; subst.
  cbn [map all_some]. rewrite (IH _ eq_refl). destruct d, b; reflexivity. Qed.
Lemma max_ind (bs : list bool) b0 : qfold1 qmax2 (map (fun b : bool => if b then 1%Q else 0%Q) (b0 :: bs)) = Some (if existsb (fun x => x) (b0 :: bs) then 1%Q else 0%Q).
Proof. revert b0. induction bs as [|b t IH]; intros b0; [destruct b0; reflexivity|].
  change (qfold1 qmax2 (map (fun b : bool => if b then 1%Q else 0%Q) (b0 :: b :: t)))
    with (option_map (qmax2 (if b0 then 1%Q else 0%Q)) (qfold1 qmax2 (map (fun b : bool => if b then 1%Q else 0%Q) (b :: t)))).
  rewrite IH. cbn [option_map existsb]. destruct b0, (existsb (fun x => x) (b :: t)) eqn:E; cbn [existsb] in E; rewrite ?E; reflexivity. Qed.
Lemma min_ind (bs : list bool) b0 : qfold1 qmin2 (map (fun b : bool => if b then 1%Q else 0%Q) (b0 :: bs)) = Some (if forallb (fun x => x) (b0 :: bs) then 1%Q else 0%Q).
Proof. revert b0. induction bs as [|b t IH]; intros b0; [destruct b0; reflexivity|].
  change (qfold1 qmin2 (map (fun b : bool => if b then 1%Q else 0%Q) (b0 :: b :: t)))
    with (option_map (qmin2 (if b0 then 1%Q else 0%Q)) (qfold1 qmin2 (map (fun b : bool => if b then 1%Q else 0%Q) (b :: t)))).
  rewrite IH. cbn [option_map forallb]. destruct b0, (forallb (fun x => x) (b :: t)) eqn:E; cbn [forallb] in E; rewrite ?E; reflexivity. Qed.
Lemma sql_any_ok d : agg1_ok d "any".
Proof. intros vals r NE H.
  change (spec_agg mf "any" vals) with (match all_bool vals with Some (b :: bs) => Some (SBool (existsb (fun x => x) (b :: bs))) | _ => None end) in H.
  destruct (all_bool vals) as [[|b bs]|] eqn:B; try discriminate H.
  remember (existsb (fun x => x) (b :: bs)) as e eqn:He. inversion H; subst r.
  exists (mk_aggtmpl "MAX" (fun x => case_1_0 x) true). exists (mkb d e). split; [reflexivity|].
  unfold sem_agg. cbn [ag_row ag_fn ag_ge1]. rewrite (bool_rows d _ _ B). unfold eng_agg. rewrite qsum_ind01. cbn [String.eqb Ascii.eqb Bool.eqb].
  rewrite max_ind, <- He. destruct e, d; split; reflexivity. Qed.
Lemma sql_all_ok d : agg1_ok d "all".
Proof. intros vals r NE H.
  change (spec_agg mf "all" vals) with (match all_bool vals with Some (b :: bs) => Some (SBool (forallb (fun x => x) (b :: bs))) | _ => None end) in H.
  destruct (all_bool vals) as [[|b bs]|] eqn:B; try discriminate H.
  remember (forallb (fun x => x) (b :: bs)) as e eqn:He. inversion H; subst r.
  exists (mk_aggtmpl "MIN" (fun x => case_1_0 x) true). exists (mkb d e). split; [reflexivity|].
  unfold sem_agg. cbn [ag_row ag_fn ag_ge1]. rewrite (bool_rows d _ _ B). unfold eng_agg. rewrite qsum_ind01. cbn [String.eqb Ascii.eqb Bool.eqb].
  rewrite min_ind, <- He. destruct e, d; split; reflexivity. Qed.

(* ---------------------------------------------------------------- lifting to project (one row per group) and windowed extend *)
Definition documented_agg_sql (d : dialect) (c : acls) (m : string) : Prop :=
  forall vals r, vals <> [] -> spec_cls mf c m vals = Some r ->
  exists r', agg_sql mf mf2 vr d c m vals = Some r' /\ svl_eqv r' r.
Lemma lift_project d m : agg1_ok d m -> documented_agg_sql d CProject m.
Proof. intros A vals r NE H. unfold spec_cls in H. destruct (spec_agg mf m vals) as [r0|] eqn:S; [|discriminate H]. inversion H; subst.
  destruct (A vals r0 NE S) as [t [v [F [E Q]]]]. unfold agg_sql, agg_sql_on. rewrite F, E. eexists; split; [reflexivity|].
  constructor; [exact Q | constructor]. Qed.
Lemma lift_group d m : agg1_ok d m -> documented_agg_sql d CGroup m.
Proof. intros A vals r NE H. unfold spec_cls in H. destruct (spec_agg mf m vals) as [r0|] eqn:S; [|discriminate H]. inversion H; subst.
  destruct (A vals r0 NE S) as [t [v [F [E Q]]]]. unfold agg_sql, agg_sql_on. rewrite F, E. eexists; split; [reflexivity|].
  apply svl_eqv_const. exact Q. Qed.

(* ---------------------------------------------------------------- ordered windows *)
Lemma sql_row_number_ok d : documented_agg_sql d CWindow "_row_number".
Proof. intros vals r NE H. inversion H; subst. eexists; split; [reflexivity | apply svl_eqv_refl]. Qed.
Lemma map_enc_eqv d l : svl_eqv (map (enc d) l) l.
Proof. induction l; constructor; auto using enc_eqv. Qed.
Lemma sql_shift_ok d : documented_agg_sql d CWindow "shift".
Proof. intros vals r NE H. destruct vals as [|v t]; [congruence|]. inversion H; subst. eexists; split; [reflexivity|].
  constructor; [apply sv_eqv_refl | apply map_enc_eqv]. Qed.

(* cumulative aggregates: the frame of row k is the prefix of length k+1; induction over the ordered partition *)
Local Open Scope list_scope.
Lemma Forall2_map_l {A B C} (R : B -> C -> Prop) (f : A -> B) l l' : Forall2 (fun a c => R (f a) c) l l' -> Forall2 R (map f l) l'.
Proof. induction 1; constructor; auto. Qed.
Lemma prefixes_fin vals qs : all_fin vals = Some qs ->
  Forall2 (fun p pq => all_fin p = Some pq /\ pq <> []) (prefixes vals) (prefixes qs).
Proof. revert qs. induction vals as [|v t IH]; intros qs H; [inversion H; constructor|].
  destruct v as [ | | |q| | | ]; try discriminate H. cbn in H. destruct (all_fin t) as [qt|] eqn:E; [|discriminate H]. cbn in H. inversion H; subst.
  cbn [prefixes]. constructor; [split; [reflexivity | discriminate]|].
  apply Forall2_map_l. specialize (IH _ eq_refl). clear -IH. induction IH as [|p pq ps pqs [A B] _ IH2]; cbn [map]; constructor; auto.
  split; [cbn; rewrite A; reflexivity | discriminate]. Qed.
Lemma running_sql d fn (G : list Q -> sval) vals qs :
  all_fin vals = Some qs ->
  (forall p pq, all_fin p = Some pq -> pq <> [] -> eng_agg mf d fn (map (enc d) p) = Some (G pq)) ->
  all_some (map (fun p => sem_agg mf mf2 vr d (mk_aggtmpl fn (fun x => x) false) p) (prefixes vals)) = Some (map G (prefixes qs)).
Proof. intros F HG. pose proof (prefixes_fin _ _ F) as P. clear F. induction P as [|p pq ps pqs [A B] _ IH]; [reflexivity|].
  cbn [map all_some]. rewrite sem_agg_id, (HG _ _ A B), IH. reflexivity. Qed.
Lemma enc_fin d p pq : all_fin p = Some pq -> map (enc d) p = map SNum pq.
Proof. revert pq. induction p as [|v t IH]; intros pq A; [inversion A; reflexivity|].
  destruct v; try discriminate A. cbn in A. destruct (all_fin t) eqn:T; [|discriminate A]. cbn in A. inversion A; subst.
  cbn [map]. rewrite (IH _ eq_refl). destruct d; reflexivity. Qed.
Lemma all_fin_snum qs : all_fin (sql_present (map SNum qs)) = Some qs.
Proof. induction qs as [|q t IH]; [reflexivity|]. unfold sql_present in *. cbn. rewrite IH. reflexivity. Qed.

Lemma qsum_app a b : (qsum (a ++ b) == qsum a + qsum b)%Q.
Proof. induction a as [|x t IH].
  - change (qsum ([] ++ b)) with (qsum b). change (qsum []) with 0%Q. ring.
  - change (qsum ((x :: t) ++ b)) with (x + qsum (t ++ b))%Q. change (qsum (x :: t)) with (x + qsum t)%Q. rewrite IH. ring. Qed.

Lemma qmax2_comp a b b' : (b == b')%Q -> (qmax2 a b == qmax2 a b')%Q.
Proof. intros E. unfold qmax2. destruct (Qle_bool b a) eqn:A, (Qle_bool b' a) eqn:B; q_props; lra. Qed.
Lemma qmin2_comp a b b' : (b == b')%Q -> (qmin2 a b == qmin2 a b')%Q.
Proof. intros E. unfold qmin2. destruct (Qle_bool a b) eqn:A, (Qle_bool a b') eqn:B; q_props; lra. Qed.
Lemma qmax2_comp_l a a' b : (a == a')%Q -> (qmax2 a b == qmax2 a' b)%Q.
Proof. intros E. unfold qmax2. destruct (Qle_bool b a) eqn:A, (Qle_bool b a') eqn:B; q_props; lra. Qed.
Lemma qmin2_comp_l a a' b : (a == a')%Q -> (qmin2 a b == qmin2 a' b)%Q.
Proof. intros E. unfold qmin2. destruct (Qle_bool a b) eqn:A, (Qle_bool a' b) eqn:B; q_props; lra. Qed.
Lemma qmax2_assoc a b c : (qmax2 a (qmax2 b c) == qmax2 (qmax2 a b) c)%Q.
Proof. unfold qmax2. destruct (Qle_bool c b) eqn:A, (Qle_bool b a) eqn:B; rewrite ?A, ?B;
  destruct (Qle_bool c a) eqn:C; rewrite ?A, ?B, ?C; q_props; try lra. Qed.
Lemma qmin2_assoc a b c : (qmin2 a (qmin2 b c) == qmin2 (qmin2 a b) c)%Q.
Proof. unfold qmin2. destruct (Qle_bool b c) eqn:A, (Qle_bool a b) eqn:B; rewrite ?A, ?B;
  destruct (Qle_bool a c) eqn:C; rewrite ?A, ?B, ?C; q_props; try lra. Qed.
Lemma qmaxl_cons (f : Q -> Q -> Q) a l : l <> [] -> qmaxl f (a :: l) = f a (qmaxl f l).
Proof. intros NE. unfold qmaxl at 1. destruct l as [|b t]; [congruence|].
  change (qfold1 f (a :: b :: t)) with (option_map (f a) (qfold1 f (b :: t))). rewrite (qfold1_some f (b :: t) NE). reflexivity. Qed.
Lemma qmaxl_snoc (f : Q -> Q -> Q) pre y :
  (forall a b b', (b == b')%Q -> (f a b == f a b')%Q) -> (forall a b c, (f a (f b c) == f (f a b) c)%Q) ->
  pre <> [] -> (qmaxl f (pre ++ [y]) == f (qmaxl f pre) y)%Q.
Proof. intros Hc Ha. induction pre as [|a t IH]; intros NE; [congruence|]. destruct t as [|b t']; [reflexivity|].
  assert (b :: t' <> []) as NE' by discriminate. cbn [app].
  rewrite (qmaxl_cons f a (b :: t' ++ [y])) by discriminate. rewrite (qmaxl_cons f a (b :: t') NE').
  rewrite (Hc _ _ _ (IH NE')). apply Ha. Qed.

Lemma scan_prefixes (f : Q -> Q -> Q) (G : list Q -> Q) pre acc t :
  (forall a a' b, (a == a')%Q -> (f a b == f a' b)%Q) -> (forall p y, p <> [] -> (G (p ++ [y]) == f (G p) y)%Q) ->
  pre <> [] -> (acc == G pre)%Q ->
  Forall2 (fun pq a => (G (pre ++ pq) == a)%Q) (prefixes t) (scan1 f acc t).
Proof. intros Hc Hs. revert pre acc. induction t as [|y t IH]; intros pre acc NE E; [constructor|]. cbn [prefixes scan1].
  assert (f acc y == G (pre ++ [y]))%Q as E' by (rewrite (Hs pre y NE); apply Hc, E).
  constructor; [symmetry; exact E'|].
  apply Forall2_map_l. assert (pre ++ [y] <> []) as NE' by (destruct pre; discriminate).
  specialize (IH (pre ++ [y]) (f acc y) NE' E'). clear -IH. induction IH; constructor; auto. rewrite <- app_assoc in H. exact H. Qed.

(* a cumulative method whose window template is FN(x) over the default frame, FN computing G of a non-empty group *)
Lemma sql_cum_ok d m fn (f : Q -> Q -> Q) (G : list Q -> Q) :
  (forall vals, spec_cls mf CWindow m vals = option_map (fun qs => map SNum (cum f qs)) (all_fin vals)) ->
  (forall vals, agg_sql mf mf2 vr d CWindow m vals = all_some (map (fun p => sem_agg mf mf2 vr d (mk_aggtmpl fn (fun x => x) false) p) (prefixes vals))) ->
  (forall qs, qs <> [] -> eng_agg mf d fn (map SNum qs) = Some (SNum (G qs))) ->
  (forall x, (G [x] == x)%Q) ->
  (forall a a' b, (a == a')%Q -> (f a b == f a' b)%Q) -> (forall p y, p <> [] -> (G (p ++ [y]) == f (G p) y)%Q) ->
  documented_agg_sql d CWindow m.
Proof. intros S A E G1 Hc Hs vals r NE H. rewrite S in H. destruct (all_fin vals) as [qs|] eqn:F; [|discriminate H]. inversion H; subst; clear H.
  exists (map (fun pq => SNum (G pq)) (prefixes qs)). split.
  - rewrite A. apply running_sql; [exact F|]. intros p pq Ap B. rewrite (enc_fin d p pq Ap). apply E, B.
  - destruct qs as [|x t]; [constructor|]. cbn [prefixes cum map]. constructor; [apply sv_eqv_num, G1|].
    assert ([x] <> []) as NE1 by discriminate. assert (x == G [x])%Q as E1 by (symmetry; apply G1).
    pose proof (scan_prefixes f G [x] x t Hc Hs NE1 E1) as C.
    rewrite map_map. clear -C. induction C; cbn [map]; constructor; auto. apply sv_eqv_num. exact H. Qed.
Lemma sql_cumsum_ok d : documented_agg_sql d CWindow "cumsum".
Proof. apply (sql_cum_ok d "cumsum" "SUM" Qplus qsum); try reflexivity.
  - intros qs NE. unfold eng_agg. rewrite all_fin_snum. destruct qs; [congruence | reflexivity].
  - intros x. change (qsum [x]) with (x + 0)%Q. ring.
  - intros a a' b E. rewrite E. reflexivity.
  - intros p y _. rewrite qsum_app. change (qsum [y]) with (y + 0)%Q. ring. Qed.
Lemma sql_cummax_ok d : documented_agg_sql d CWindow "cummax".
Proof. apply (sql_cum_ok d "cummax" "MAX" qmax2 (qmaxl qmax2)); try reflexivity.
  - intros qs NE. unfold eng_agg. rewrite all_fin_snum. cbn. rewrite (qfold1_some qmax2 qs NE). reflexivity.
  - apply qmax2_comp_l.
  - intros p y NE. apply qmaxl_snoc; [apply qmax2_comp | apply qmax2_assoc | exact NE]. Qed.
Lemma sql_cummin_ok d : documented_agg_sql d CWindow "cummin".
Proof. apply (sql_cum_ok d "cummin" "MIN" qmin2 (qmaxl qmin2)); try reflexivity.
  - intros qs NE. unfold eng_agg. rewrite all_fin_snum. cbn. rewrite (qfold1_some qmin2 qs NE). reflexivity.
  - apply qmin2_comp_l.
  - intros p y NE. apply qmaxl_snoc; [apply qmin2_comp | apply qmin2_assoc | exact NE]. Qed.
End Agg.
