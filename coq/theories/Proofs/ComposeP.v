(* C07 -- proofs about Model/Compose.v, part 1: replace_leaves as substitution, and its meaning.
   Everything is by structural induction over operator trees; no bound on depth, width, rows or names. *)
From Coq Require Import List Bool Arith String .
Import ListNotations.
From DA Require Import Base.PyRT Base.Val Model.Sem Proofs.SemBasicP Model.Compose Proofs.ListP Proofs.TabP.
Local Open Scope list_scope.

(* ------------------------------------------------------------------ plain substitution of leaves *)
Fixpoint subst (m : rmap) (p : op) : op :=
  match p with
  | OTable n cs => match dict_get m n with Some r => r | None => OTable n cs end
  | OExtend s ops wd w => OExtend (subst m s) ops wd w
  | OProject s ops gb => OProject (subst m s) ops gb
  | OSelectRows s e => OSelectRows (subst m s) e
  | OSelectCols s cs => OSelectCols (subst m s) cs
  | ODropCols s ds => ODropCols (subst m s) ds
  | ORename s mp => ORename (subst m s) mp
  | OMapCols s mp dels => OMapCols (subst m s) mp dels
  | OOrder s cs rev lim => OOrder (subst m s) cs rev lim
  | OJoin a b on_a on_b jt => OJoin (subst m a) (subst m b) on_a on_b jt
  | OConcat a b idc an bn => OConcat (subst m a) (subst m b) idc an bn
  end.

Lemma nonempty_false {A} (l : list A) : nonempty l = false -> l = [].
Proof. destruct l; [reflexivity|discriminate]. Qed.

(* ExtendNode rebuilt from its own fields is the same node (this is where the partition_by=1 fix matters) *)
Lemma extend_rebuild src ops wd w :
  implb (implies_windowed ops || nonempty (w_part w) || nonempty (w_order w)) wd = true ->
  b_extend_parsed src (fw_extend fw_code ops wd w) = OExtend src ops wd w.
Proof.
  intros H. destruct w as [part order rv]. unfold b_extend_parsed, extend_node. cbn [fw_extend fw_code ea_parsed_ops ea_partition_by ea_order_by ea_reverse w_part w_order w_rev] in *.
  destruct wd; cbn [andb].
  - destruct (nonempty part) eqn:Np; cbn [negb part_cols part_is_one].
    + rewrite Np. rewrite orb_true_r. reflexivity.
    + apply nonempty_false in Np. subst part. cbn. rewrite orb_true_r. reflexivity.
  - cbn [part_cols part_is_one]. rewrite orb_false_r.
    destruct (implies_windowed ops || nonempty part || nonempty order); [discriminate H|reflexivity].
Qed.

Lemma map_rebuild_remap (m : list (string * string)) (dels : list string) :
  flat_map (fun kv : string * option string => match snd kv with Some n => [(n, fst kv)] | None => [] end)
           (map (fun no : string * string => (snd no, Some (fst no))) m ++ map (fun d : string => (d, @None string)) dels) = m.
Proof.
  induction m as [|[n o] t IH]; cbn.
  - induction dels as [|d u IHd]; cbn; [reflexivity|exact IHd].
  - rewrite IH. reflexivity.
Qed.
Lemma map_rebuild_dels (m : list (string * string)) (dels : list string) :
  flat_map (fun kv : string * option string => match snd kv with Some _ => [] | None => [fst kv] end)
           (map (fun no : string * string => (snd no, Some (fst no))) m ++ map (fun d : string => (d, @None string)) dels) = dels.
Proof.
  induction m as [|[n o] t IH]; cbn.
  - induction dels as [|d u IHd]; cbn; [reflexivity|rewrite IHd; reflexivity].
  - exact IH.
Qed.

(* on trees made by the node constructors, re-running the (un-simplified) builders with the forwarded arguments
   is plain substitution of the leaves *)
Lemma replace_leaves_subst m p : built_ok p = true -> replace_leaves m p = subst m p.
Proof.
  unfold replace_leaves.
  induction p; intros B; cbn [built_ok] in B; cbn [replace_leaves_with subst]; try (rewrite (IHp B); reflexivity).
  - reflexivity.
  - apply andb_true_iff in B. destruct B as [Bs Bw]. rewrite (IHp Bs). apply extend_rebuild. exact Bw.
  - rewrite (IHp B). unfold b_map_columns. cbn [fw_map_columns fw_code mc_column_remapping].
    rewrite map_rebuild_remap, map_rebuild_dels. reflexivity.
  - apply andb_true_iff in B. destruct B as [B L]. apply andb_true_iff in B. destruct B as [Ba Bb].
    apply Nat.eqb_eq in L. rewrite (IHp1 Ba), (IHp2 Bb). cbn [fw_natural_join fw_code]. unfold b_natural_join. cbn [nj_b nj_on nj_jointype].
    rewrite (map_fst_combine _ _ L), (map_snd_combine _ _ L). reflexivity.
  - apply andb_true_iff in B. destruct B as [Ba Bb]. rewrite (IHp1 Ba), (IHp2 Bb). reflexivity.
Qed.

Lemma built_ok_subst m p : built_ok p = true -> (forall k r, dict_get m k = Some r -> built_ok r = true) -> built_ok (subst m p) = true.
Proof.
  intros B Hm. induction p; cbn [built_ok subst] in *; try (apply IHp; exact B).
  - destruct (dict_get m name) as [r|] eqn:E; [eapply Hm; exact E|reflexivity].
  - apply andb_true_iff in B. destruct B as [Bs Bw]. rewrite (IHp Bs), Bw. reflexivity.
  - apply andb_true_iff in B. destruct B as [B L]. apply andb_true_iff in B. destruct B as [Ba Bb]. rewrite (IHp1 Ba), (IHp2 Bb), L. reflexivity.
  - apply andb_true_iff in B. destruct B as [Ba Bb]. rewrite (IHp1 Ba), (IHp2 Bb). reflexivity.
Qed.

(* ------------------------------------------------------------------ environments *)
Lemma dict_get_env_set (e : env) k o n : dict_get (env_set e k o) n = if eq_dec n k then o else dict_get e n.
Proof.
  unfold env_set. destruct o as [t|].
  - simpl. destruct (eq_dec n k); reflexivity.
  - rewrite dict_get_pop. destruct (eq_dec n k); reflexivity.
Qed.

Lemma dict_get_override fl (e : env) (m : rmap) n :
  dict_get (override fl e m) n = match dict_get m n with Some r => sem_gen fl r e | None => dict_get e n end.
Proof.
  unfold override. induction m as [|[k r] t IH]; simpl; [reflexivity|].
  rewrite dict_get_env_set. destruct (eq_dec n k); [reflexivity|exact IH].
Qed.

(* a pipeline's meaning depends on the environment only through the tables it names *)
Fixpoint table_names (p : op) : list string :=
  match p with
  | OTable n _ => [n]
  | OExtend s _ _ _ | OProject s _ _ | OSelectRows s _ | OSelectCols s _ | ODropCols s _ | ORename s _ | OMapCols s _ _ | OOrder s _ _ _ => table_names s
  | OJoin a b _ _ _ | OConcat a b _ _ _ => table_names a ++ table_names b
  end.

Lemma sem_env_ext fl p (e e' : env) :
  (forall n, In n (table_names p) -> dict_get e n = dict_get e' n) -> sem_gen fl p e = sem_gen fl p e'.
Proof.
  induction p; intros H; cbn [sem_gen table_names] in *; try (rewrite (IHp H); reflexivity).
  1: { rewrite (H name); [reflexivity|left; reflexivity]. }
  all: rewrite IHp1, IHp2; [reflexivity| |]; intros n I; apply H; apply in_app_iff; [right|left]; exact I.
Qed.

(* ------------------------------------------------------------------ selecting a table's own columns is the identity *)
Lemma nodupb_NoDup l : nodupb l = true <-> NoDup l.
Proof.
  induction l as [|x t IH]; cbn [nodupb]; [split; [constructor|reflexivity]|].
  rewrite andb_true_iff, negb_true_iff, mem_false, IH. split.
  - intros [A B]. constructor; assumption.
  - intros N. inversion N; subst. split; assumption.
Qed.

Lemma row_reselect (cs : list string) (r : list val) : NoDup cs -> List.length r = List.length cs -> map (get cs r) cs = r.
Proof.
  intros N L. apply (nth_ext _ _ VNull VNull); [rewrite map_length; symmetry; exact L|].
  intros i Hi. rewrite map_length in Hi.
  rewrite (nth_indep _ VNull (get cs r EmptyString)) by (rewrite map_length; exact Hi).
  rewrite (map_nth (get cs r) cs EmptyString i). unfold get. rewrite index_of_nth_NoDup by assumption. reflexivity.
Qed.

Lemma select_cols_id (t : table) : NoDup (cols t) -> Forall (fun r => List.length r = List.length (cols t)) (rows t) ->
  sem_select_cols (cols t) t = t.
Proof.
  intros N W. destruct t as [cs rs]. unfold sem_select_cols. cbn [cols rows] in *. f_equal.
  induction rs as [|r u IH]; simpl; [reflexivity|]. inversion W; subst. rewrite row_reselect by assumption. rewrite IH by assumption. reflexivity.
Qed.

(* ------------------------------------------------------------------ the meaning of a substituted pipeline *)
(* THE BOUNDARY CONDITION IS USED IN THE LEAF CASE ONLY: a table leaf SELECTS its declared columns from the table bound to
   its name, whereas the substituted pipeline is taken whole.  The two agree exactly when the replacement's columns
   are the declared ones, in the declared order. *)
Lemma subst_sem fl m p e : boundary_ok m p = true -> sem_gen fl (subst m p) e = sem_gen fl p (override fl e m).
Proof.
  induction p; intros B; cbn [boundary_ok] in B; cbn [subst sem_gen]; try (rewrite (IHp B); reflexivity).
  1: { rewrite dict_get_override. revert B. destruct (dict_get m name) as [r|] eqn:E; intros B; [|reflexivity].
       apply andb_true_iff in B. destruct B as [Bc Bn]. apply (proj1 (eqb_true _ _)) in Bc. apply nodupb_NoDup in Bn.
       destruct (sem_gen fl r e) as [t|] eqn:S; [|reflexivity].
       pose proof (sem_cols _ _ _ _ S) as C. pose proof (sem_rows_width _ _ _ _ S) as W.
       rewrite <- Bc, <- C. rewrite select_cols_id; [reflexivity| |exact W]. rewrite C, Bc. exact Bn. }
  all: apply andb_true_iff in B; destruct B as [Ba Bb]; rewrite (IHp1 Ba), (IHp2 Bb); reflexivity.
Qed.

Theorem replace_leaves_sem fl m p e :
  built_ok p = true -> boundary_ok m p = true ->
  sem_gen fl (replace_leaves m p) e = sem_gen fl p (override fl e m).
Proof. intros B1 B2. rewrite replace_leaves_subst by exact B1. apply subst_sem. exact B2. Qed.

(* declared columns: under the boundary condition the composed pipeline declares what the outer one declares *)
Lemma subst_column_names m p : boundary_ok m p = true -> column_names (subst m p) = column_names p.
Proof.
  induction p; intros B; cbn [boundary_ok] in B; cbn [subst column_names]; try (rewrite (IHp B); reflexivity); try reflexivity.
  1: { revert B. destruct (dict_get m name) as [r|]; intros B; [|reflexivity].
       apply andb_true_iff in B. destruct B as [Bc _]. apply (proj1 (eqb_true _ _)) in Bc. exact Bc. }
  all: apply andb_true_iff in B; destruct B as [Ba Bb]; rewrite (IHp1 Ba), ?(IHp2 Bb); reflexivity.
Qed.

(* ------------------------------------------------------------------ composition at one leaf *)
Lemma dict_get_single {V} (k : string) (v : V) n : dict_get [(k, v)] n = if eq_dec n k then Some v else None.
Proof. reflexivity. Qed.

(* b's leaf named k declares the columns cs (every leaf with that name) *)
Fixpoint leaf_declares (k : string) (cs : list string) (p : op) : bool :=
  match p with
  | OTable n c => if eq_dec n k then eqb c cs else true
  | OExtend s _ _ _ | OProject s _ _ | OSelectRows s _ | OSelectCols s _ | ODropCols s _ | ORename s _ | OMapCols s _ _ | OOrder s _ _ _ => leaf_declares k cs s
  | OJoin a b _ _ _ | OConcat a b _ _ _ => leaf_declares k cs a && leaf_declares k cs b
  end.

Lemma boundary_single k a b : leaf_declares k (column_names a) b = true -> nodupb (column_names a) = true -> boundary_ok [(k, a)] b = true.
Proof.
  intros L N. induction b; cbn [leaf_declares boundary_ok] in *; try (apply IHb; exact L).
  1: { rewrite dict_get_single. destruct (eq_dec name k); [|reflexivity].
       apply (proj1 (eqb_true _ _)) in L. subst tcols. rewrite N. rewrite eqb_refl. reflexivity. }
  all: apply andb_true_iff in L; destruct L as [La Lb]; rewrite (IHb1 La), (IHb2 Lb); reflexivity.
Qed.

(* env[k := o] *)
Lemma override_single fl e k a : override fl e [(k, a)] = env_set e k (sem_gen fl a e).
Proof. reflexivity. Qed.

Theorem compose_is_sequential fl k a b e :
  built_ok b = true -> leaf_declares k (column_names a) b = true -> nodupb (column_names a) = true ->
  sem_gen fl (compose_at k a b) e = sem_gen fl b (env_set e k (sem_gen fl a e)).
Proof.
  intros B L N. unfold compose_at. rewrite replace_leaves_sem; [reflexivity|exact B|apply boundary_single; assumption].
Qed.

(* when every table of b is the leaf k, the rest of the environment is irrelevant: b runs on a's result alone *)
Definition only_table (k : string) (p : op) : Prop := forall n, In n (table_names p) -> n = k.

Theorem compose_is_sequential_single fl k a b e ta :
  built_ok b = true -> leaf_declares k (column_names a) b = true -> nodupb (column_names a) = true ->
  only_table k b -> sem_gen fl a e = Some ta ->
  sem_gen fl (compose_at k a b) e = sem_gen fl b [(k, ta)].
Proof.
  intros B L N O S. rewrite compose_is_sequential by assumption. rewrite S. apply sem_env_ext.
  intros n I. rewrite (O n I). simpl. destruct (eq_dec k k); [reflexivity|congruence].
Qed.
