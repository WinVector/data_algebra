(* Proofs/ExprParseP15.v -- C13, part 3: what the walker builds is printable -- facts about the method table and
   the operator tables (checked by computation once, then used entry by entry); then one step of the walker (an
   operator, a power, a method call) builds a printable expression from printable operands. *)
From Coq Require Import List Bool String QArith .
Import ListNotations.
From DA Require Import Model.PyExpr Model.ExprPrint Model.ExprParse Model.ExprAst Model.ExprRoundtrip
  Proofs.ExprParseP1 Proofs.ExprParseP2 Proofs.ExprParseP12.
Local Close Scope Q_scope.
Local Open Scope string_scope.
Local Open Scope bool_scope.
Local Open Scope list_scope.

(* ------------------------------------------------------------------ constructors, with what they check *)
Lemma mk_expr_inv c op args i m e : mk_expr c op args i m = Ok e ->
  e = EOp op i m None args /\ mem_str op (known c) = true /\ i && m = false.
Proof. unfold mk_expr. destruct (mem_str op (known c)); [|discriminate]. cbn [negb].
  destruct (i && m); [discriminate|]. intros H. inversion H. auto. Qed.

Lemma op_expr_inv c op a b i m chk e : op_expr c op a b i m chk = Ok e ->
  e = EOp op i m None [a; b] /\ mem_str op (known c) = true /\ i && m = false.
Proof. unfold op_expr. destruct (is_none_value a || is_none_value b); [discriminate|].
  destruct (chk && obvious_type_problem a b); [discriminate|]. apply mk_expr_inv. Qed.

(* ------------------------------------------------------------------ the method table, entry by entry *)
Definition mspec_eqb (a b : mspec) : bool :=
  match a, b with
  | MUop x, MUop y => x ==s y
  | MBin x i m k, MBin y i' m' k' => (x ==s y) && Bool.eqb i i' && Bool.eqb m m' && Bool.eqb k k'
  | MRBin x, MRBin y => x ==s y
  | MTri x i m, MTri y i' m' => (x ==s y) && Bool.eqb i i' && Bool.eqb m m'
  | MNeg, MNeg | MPos, MPos | MRPow, MRPow | MShift, MShift | MAround, MAround | MMapv, MMapv
  | MTrimstr, MTrimstr | MCoalesce0, MCoalesce0 => true
  | MFmt x d k, MFmt y d' k' => (x ==s y) && (d ==s d') && Bool.eqb k k'
  | _, _ => false
  end.
Lemma mspec_eqb_eq a b : mspec_eqb a b = true -> a = b.
Proof. destruct a, b; simpl; intros H; try discriminate H; try reflexivity;
  repeat (apply andb_prop in H as [H ?]);
  repeat match goal with
         | E : (_ ==s _) = true |- _ => apply String.eqb_eq in E
         | E : Bool.eqb _ _ = true |- _ => apply Bool.eqb_prop in E
         end; subst; reflexivity. Qed.

Definition finds (name : string) (sp : mspec) : bool :=
  match find_method name method_table with Some sp' => mspec_eqb sp' sp | None => false end.

(* the method form  self.op(...)  is printable when op is a plain name under which the table has `sp` *)
Definition method_ok (op : string) (sp : mspec) : bool := negb (is_sym_text op) && negb (is_dunder op) && finds op sp.

(* what is needed of one entry so that a call written with a non-dunder name yields a printable expression *)
Definition entry_ok (name : string) (sp : mspec) : bool :=
  if is_dunder name then true else
  match sp with
  | MUop op => method_ok op sp
  | MBin op i m chk =>
      if m then method_ok op sp
      else if i then mem_str op bin2_ops && negb (mem_str op kops) && (remap op_remap op ==s name) && negb (op ==s "**")
      else negb (is_sym_text op)
  | MTri op i m => method_ok op sp && m && negb i
  | MShift => method_ok "shift" sp
  | MAround => negb (is_sym_text "around")
  | MMapv => method_ok "mapv" sp
  | MTrimstr => method_ok "trimstr" sp
  | MCoalesce0 => method_ok "coalesce" (MBin "coalesce" false true true)
  | MFmt op d k => method_ok op sp
  | MRBin _ | MNeg | MPos | MRPow => false
  end.

Lemma table_ok : forallb (fun kv => entry_ok (fst kv) (snd kv)) method_table = true.
Proof. vm_compute. reflexivity. Qed.

Lemma find_method_In name l sp : find_method name l = Some sp -> In (name, sp) l.
Proof. induction l as [|[k v] l IH]; simpl; [discriminate|]. destruct (name ==s k) eqn:E.
  - apply String.eqb_eq in E. intros H; inversion H; subst. left. reflexivity.
  - intros H. right. apply IH, H. Qed.

Lemma entry_ok_of name sp : find_method name method_table = Some sp -> entry_ok name sp = true.
Proof. intros H. apply find_method_In in H. pose proof table_ok as T. rewrite forallb_forall in T. exact (T _ H). Qed.

Lemma finds_eq name sp : finds name sp = true -> find_method name method_table = Some sp.
Proof. unfold finds. destruct (find_method name method_table) as [sp'|]; [|discriminate]. intros H. apply mspec_eqb_eq in H. subst. reflexivity. Qed.

(* ------------------------------------------------------------------ the operator tokens of the three arithmetic / comparison levels *)
Definition step_ok (op : string) : bool :=
  match find_method (remap op_remap op) method_table with
  | Some (MBin op' i m chk) =>
      if m then negb i && negb (is_sym_text op') && negb (is_dunder op') && finds op' (MBin op' i m chk) && (remap op_remap op ==s op')
      else i && (mem_str op' kops || (mem_str op' bin2_ops && (remap op_remap op' ==s remap op_remap op) && negb (op' ==s "**")))
  | _ => false
  end.

Lemma steps_ok : forallb step_ok ["<"; ">"; "=="; ">="; "<="; "<>"; "!="; "+"; "-"; "*"; "/"; "%+%"; "%?%"; "%"; "//"; "%/%"] = true.
Proof. vm_compute. reflexivity. Qed.

Lemma binop_levels L op : is_binop_at L op = true -> In L [3; 8; 9] ->
  In op ["<"; ">"; "=="; ">="; "<="; "<>"; "!="; "+"; "-"; "*"; "/"; "%+%"; "%?%"; "%"; "//"; "%/%"].
Proof. intros H HL. unfold is_binop_at in H. destruct (binlvl op) as [l|] eqn:B; [|discriminate H].
  apply Nat.eqb_eq in H. subst l. revert B. unfold binlvl.
  destruct (op ==s "or"); [intros B; inversion B; subst; simpl in HL; exfalso; intuition discriminate|].
  destruct (op ==s "and"); [intros B; inversion B; subst; simpl in HL; exfalso; intuition discriminate|].
  destruct (mem_str op ["<"; ">"; "=="; ">="; "<="; "<>"; "!="]) eqn:M3.
  { intros _. apply mem_str_In in M3. simpl in M3. simpl. tauto. }
  destruct (op ==s "|"); [intros B; inversion B; subst; simpl in HL; exfalso; intuition discriminate|].
  destruct (op ==s "^"); [intros B; inversion B; subst; simpl in HL; exfalso; intuition discriminate|].
  destruct (op ==s "&"); [intros B; inversion B; subst; simpl in HL; exfalso; intuition discriminate|].
  destruct (mem_str op ["<<"; ">>"]); [intros B; inversion B; subst; simpl in HL; exfalso; intuition discriminate|].
  destruct (mem_str op ["+"; "-"]) eqn:M8.
  { intros _. apply mem_str_In in M8. simpl in M8. simpl. tauto. }
  destruct (mem_str op ["*"; "/"; "%+%"; "%?%"; "%"; "//"; "%/%"]) eqn:M9.
  { intros _. apply mem_str_In in M9. simpl in M9. simpl. tauto. }
  destruct (op ==s "**"); intros B; inversion B; subst; simpl in HL; exfalso; intuition discriminate. Qed.

Section Steps.
Variables (c : cfg) (dd : list string).
Notation PR := (printable c dd).

Lemma call_bin_inv name op i m chk a b e :
  find_method name method_table = Some (MBin op i m chk) -> call_method c name a [b] = Ok e ->
  e = EOp op i m None [a; b] /\ mem_str op (known c) = true /\ i && m = false /\ is_term a = true.
Proof. intros F. unfold call_method. destruct (is_term a); [|discriminate]. cbn [negb]. rewrite F.
  intros H. apply op_expr_inv in H as [H1 [H2 H3]]. auto. Qed.

(* an operator token of the comparison / arith_expr / term levels *)
Lemma step_printable L op a b e : is_binop_at L op = true -> In L [3; 8; 9] ->
  call_method c (remap op_remap op) a [b] = Ok e -> PR a = true -> PR b = true -> PR e = true.
Proof. intros Hb HL Hc Pa Pb.
  pose proof (binop_levels L op Hb HL) as Hin. pose proof steps_ok as S. rewrite forallb_forall in S. specialize (S op Hin).
  unfold step_ok in S. destruct (find_method (remap op_remap op) method_table) as [[| op' i m chk | | | | | | | | | | |]|] eqn:F; try discriminate S.
  destruct (call_bin_inv _ _ _ _ _ _ _ _ F Hc) as [-> [Hk [Him Ht]]].
  cbn [printable forallb]. rewrite Pa, Pb, Hk. cbn [andb]. destruct m.
  - (* a method: concat, coalesce *)
    apply andb_prop in S as [S Hre]. apply andb_prop in S as [S Hf]. apply andb_prop in S as [S Hdu]. apply andb_prop in S as [Hi Hs].
    apply negb_true_iff in Hi. subst i. rewrite Hs, Hdu. cbn [andb]. apply String.eqb_eq in Hre. subst op'.
    apply res_expr_eqb_refl. exact Hc.
  - apply andb_prop in S as [Hi S]. subst i. cbn [negb andb]. destruct (mem_str op' kops); [reflexivity|].
    cbn [orb] in S. apply andb_prop in S as [S Hp]. apply andb_prop in S as [Hm Hre]. rewrite Hm. cbn [andb].
    apply String.eqb_eq in Hre. rewrite Hre. rewrite (res_expr_eqb_refl _ _ Hc). reflexivity. Qed.

Lemma pow_printable a b e : call_method c "__pow__" a [b] = Ok e -> PR a = true -> PR b = true -> PR e = true.
Proof. intros Hc Pa Pb.
  destruct (call_bin_inv "__pow__" "**" true false true a b e eq_refl Hc) as [-> [Hk [_ Ht]]].
  cbn [printable forallb]. rewrite Pa, Pb, Hk. cbn [andb negb]. change (mem_str "**" kops) with false. cbv iota.
  change (mem_str "**" bin2_ops) with true. change (remap op_remap "**") with "__pow__".
  rewrite (res_expr_eqb_refl _ _ Hc). reflexivity. Qed.

Lemma py_neg_inf v v' : py_neg v = Some v' -> is_inf v' = is_inf v.
Proof. destruct v; simpl; intros H; inversion H; reflexivity. Qed.

Lemma not_printable a e : call_method c "__eq__" a [EVal (PBool false)] = Ok e -> PR a = true -> PR e = true.
Proof. intros Hc Pa. apply (step_printable 3 "==" a (EVal (PBool false)) e); [reflexivity|simpl; tauto|exact Hc|exact Pa|reflexivity]. Qed.

Lemma neg_printable a e : call_method c "__neg__" a [] = Ok e -> PR a = true -> PR e = true.
Proof. intros Hc Pa. unfold call_method in Hc. destruct (is_term a) eqn:Ht; [|discriminate Hc]. cbn [negb] in Hc.
  change (find_method "__neg__" method_table) with (Some MNeg) in Hc. cbv iota beta in Hc.
  assert (Hu : forall x, (forall v, x <> EVal v) -> is_term x = true -> PR x = true -> uop_expr c "-" x true = Ok e -> PR e = true).
  { intros x Hnv Htx Px Hx. unfold uop_expr in Hx. destruct (is_none_value x); [discriminate Hx|].
    apply mk_expr_inv in Hx as [-> [Hk _]]. cbn [printable forallb]. rewrite Px, Hk, Htx. cbn [andb negb].
    destruct x; try reflexivity. exfalso. eapply Hnv. reflexivity. }
  destruct a as [n|v|vs|kvs|op i m p args]; try discriminate Ht.
  - apply (Hu (ECol n)); [discriminate|reflexivity|exact Pa|exact Hc].
  - destruct (py_neg v) as [v'|] eqn:Hn; [|discriminate Hc]. inversion Hc; subst. cbn [printable] in *.
    rewrite (py_neg_inf _ _ Hn). exact Pa.
  - apply (Hu (EOp op i m p args)); [discriminate|reflexivity|exact Pa|exact Hc]. Qed.

Lemma pos_printable a e : call_method c "__pos__" a [] = Ok e -> PR a = true -> PR e = true.
Proof. intros Hc Pa. unfold call_method in Hc. destruct (is_term a); [|discriminate Hc]. cbn [negb] in Hc.
  change (find_method "__pos__" method_table) with (Some MPos) in Hc. cbv iota beta in Hc. inversion Hc; subst. exact Pa. Qed.

(* a call  expr.name(args)  with a non-dunder name *)
Lemma method_call_printable n self al e : is_dunder n = false ->
  call_method c n self al = Ok e -> PR self = true -> forallb PR al = true -> PR e = true.
Proof. intros Hd Hc Ps Pal. pose proof Hc as Hc0. unfold call_method in Hc. destruct (is_term self) eqn:Ht; [|discriminate Hc].
  cbn [negb] in Hc. destruct (find_method n method_table) as [sp|] eqn:F; [|discriminate Hc].
  pose proof (entry_ok_of n sp F) as Ok0. unfold entry_ok in Ok0. rewrite Hd in Ok0.
  (* the method form: the check of `printable` is the call of op on the same receiver and arguments *)
  assert (Hm : forall op sp' al', method_ok op sp' = true -> e = EOp op false true None (self :: al') -> forallb PR al' = true ->
               (find_method op method_table = Some sp' -> call_method c op self al' = Ok e) -> PR e = true).
  { intros op sp' al' H E Pal' Hcall. apply andb_prop in H as [Hs Hf]. apply finds_eq in Hf. rewrite E in *.
    cbn [printable forallb]. rewrite Ps, Pal', Hs. apply res_expr_eqb_refl, Hcall, Hf. }
  (* ... which is the walker's own call when op has the entry of n and nothing was added to the arguments *)
  assert (Hsame : forall op, method_ok op sp = true -> e = EOp op false true None (self :: al) -> PR e = true).
  { intros op H E. apply (Hm op sp al H E Pal). intros Hf. rewrite <- Hc0. unfold call_method. rewrite F, Hf. reflexivity. }
  destruct sp as [op|op i m chk|op|op i m| | | | | | | | |op dflt must]; try discriminate Ok0.
  - (* MUop *)
    destruct al as [|? ?]; [|discriminate Hc]. exact (Hsame op Ok0 (uop_expr_Ok _ _ _ _ _ Hc)).
  - (* MBin *)
    destruct al as [|o [|? ?]]; try discriminate Hc. apply op_expr_inv in Hc as [E [Hk Him]]. destruct m.
    + destruct i; [discriminate Him|]. exact (Hsame op Ok0 E).
    + cbn [forallb] in Pal. apply andb_prop in Pal as [Po _]. subst e. cbn [printable forallb]. rewrite Ps, Po, Hk. destruct i.
      * apply andb_prop in Ok0 as [Ok0 Hp]. apply andb_prop in Ok0 as [Ok0 Hre]. apply andb_prop in Ok0 as [Hb Hnk].
        apply negb_true_iff in Hnk. apply String.eqb_eq in Hre.
        rewrite Hnk, Hb, Hre. cbn [andb negb]. rewrite (res_expr_eqb_refl _ _ Hc0). reflexivity.
      * rewrite Ok0. reflexivity.
  - (* MTri *)
    destruct al as [|x [|y [|? ?]]]; try discriminate Hc. apply andb_prop in Ok0 as [Ok0 Hi]. apply andb_prop in Ok0 as [Ok0 Hmm].
    subst m. apply negb_true_iff in Hi. subst i. exact (Hsame op Ok0 (triop_expr_Ok _ _ _ _ _ _ _ _ Hc)).
  - (* MShift: the default amount is the constant 1 *)
    destruct al as [|[| v | | |] [|? ?]]; try discriminate Hc.
    + apply (Hm "shift" MShift [EVal (PInt 1)] Ok0 (op_expr_Ok _ _ _ _ _ _ _ _ Hc) eq_refl).
      intros Hf. unfold call_method. rewrite Ht, Hf. exact Hc.
    + destruct v as [|b|z| | |]; try discriminate Hc.
      * destruct b; [|discriminate Hc]. exact (Hsame "shift" Ok0 (op_expr_Ok _ _ _ _ _ _ _ _ Hc)).
      * destruct (Z.eqb z 0); [discriminate Hc|]. exact (Hsame "shift" Ok0 (op_expr_Ok _ _ _ _ _ _ _ _ Hc)).
    + destruct v as [|b|z| | |]; discriminate Hc.
  - (* MAround *)
    destruct al as [|[| v | | |] [|? ?]]; try discriminate Hc. apply op_expr_inv in Hc as [-> [Hk _]].
    cbn [printable forallb] in *. rewrite Ps, Hk, Ok0, Pal. reflexivity.
  - (* MMapv: the default value is None *)
    destruct al as [|[| | | d |] [|[| v | | |] [|? ?]]]; try discriminate Hc.
    + cbn [forallb] in Pal. apply andb_prop in Pal as [Pd _].
      apply (Hm "mapv" MMapv [EDict d; EVal PNone] Ok0 (triop_expr_Ok _ _ _ _ _ _ _ _ Hc)); [cbn [forallb]; rewrite Pd; reflexivity|].
      intros Hf. unfold call_method. rewrite Ht, Hf. exact Hc.
    + exact (Hsame "mapv" Ok0 (triop_expr_Ok _ _ _ _ _ _ _ _ Hc)).
  - (* MTrimstr *)
    destruct al as [|[| x | | |] [|[| y | | |] [|? ?]]]; try discriminate Hc.
    exact (Hsame "trimstr" Ok0 (triop_expr_Ok _ _ _ _ _ _ _ _ Hc)).
  - (* MCoalesce0: coalesce with the constant 0 *)
    destruct al as [|? ?]; [|discriminate Hc].
    apply (Hm "coalesce" _ [EVal (PInt 0)] Ok0 (op_expr_Ok _ _ _ _ _ _ _ _ Hc) eq_refl).
    intros Hf. unfold call_method. rewrite Ht, Hf. exact Hc.
  - (* MFmt: the default format *)
    destruct al as [|o [|? ?]]; try discriminate Hc.
    + apply (Hm op _ [EVal (PStr dflt)] Ok0 (op_expr_Ok _ _ _ _ _ _ _ _ Hc) eq_refl).
      intros Hf. unfold call_method. rewrite Ht, Hf. cbn [negb andb]. rewrite andb_false_r. exact Hc.
    + destruct (must && negb match o with EVal _ => true | _ => false end); [discriminate Hc|].
      exact (Hsame op Ok0 (op_expr_Ok _ _ _ _ _ _ _ _ Hc)). Qed.

End Steps.
