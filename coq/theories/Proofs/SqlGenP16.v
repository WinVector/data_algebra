(* SQLGEN, part 16: when the generator hands on a bare table step for a non-empty request, the stored table has exactly the
   requested columns (all node kinds, all dialects) -- what a join needs to know of an operand it refers to by name; then the
   join node over the induction hypothesis (Section JoinNode, node_join). *)
From Coq Require Import List Bool Arith String.
Import ListNotations.
From DA Require Import Base.PyRT Base.Val Model.Sem Proofs.SemBasicP Model.ColumnsUsed Proofs.ColumnsUsedP1 Proofs.ColumnsUsedP2
  Proofs.ColumnsUsedP4 Model.SqlGen Model.SqlSem Proofs.SqlGenP1 Proofs.SqlGenP2 Proofs.SqlGenP4 Proofs.SqlGenP6
  Proofs.SqlGenP12 Proofs.SqlGenP15 Proofs.ListP Proofs.TabP.
Local Open Scope list_scope.

(* natural_join_to_near_sql returns a binary step (the FULL-join rewrite generates a join again) *)
Definition is_binary (q : tnear) : Prop := match q with TBinary _ _ _ _ _ _ _ _ => True | _ => False end.

Lemma gen_join_binary d srca srcb p a b on_a on_b jt lf usg n q n' :
  gen_join d srca srcb p a b on_a on_b jt lf usg n = Ok (q, n') -> is_binary q.
Proof.
  unfold gen_join. destruct (negb (subset _ _)); [discriminate|]. unfold bind.
  destruct (srca _ _) as [[ql n2]| |]; try discriminate. destruct (srcb _ _) as [[qr n3]| |]; try discriminate.
  intros [= <- _]. exact I.
Qed.

Lemma join_binary : forall fuel d a b on_a on_b jt usg n q n',
  to_near_f fuel d (OJoin a b on_a on_b jt) usg n = Ok (q, n') -> is_binary q.
Proof.
  induction fuel as [|fuel IH]; intros d a b on_a on_b jt usg n q n' H; [discriminate|]. cbn [to_near_f] in H.
  destruct jt.
  - exact (gen_join_binary _ _ _ _ _ _ _ _ _ _ _ _ _ _ H).
  - exact (gen_join_binary _ _ _ _ _ _ _ _ _ _ _ _ _ _ H).
  - destruct (d_rewrite_right d); exact (gen_join_binary _ _ _ _ _ _ _ _ _ _ _ _ _ _ H).
  - destruct (d_rewrite_full d); [|exact (gen_join_binary _ _ _ _ _ _ _ _ _ _ _ _ _ _ H)].
    destruct (is_nil on_a); [discriminate|]. destruct (negb (eqb on_a on_b)); [discriminate|]. unfold full_join_rewrite in H. exact (IH _ _ _ _ _ _ _ _ _ _ H).
Qed.

Lemma narrow_or_first_restrict q K q' : narrow_or_first q K = Some q' -> exists K', restrict_terms q K' = Some q'.
Proof. unfold narrow_or_first. destruct K as [|k0 K]; [destruct (tkeys q) as [|t0 tk]|]; intros H; eexists; exact H. Qed.

Section Bare.
Variable e : env.

Theorem gen_bare_ok : forall fuel d p usg n q n',
  builder_ok p = true -> wf_env e p ->
  incl (match usg with Some u => u | None => column_names p end) (column_names p) ->
  to_near_f fuel d p usg n = Ok (q, n') ->
  BareOk e q (match usg with Some u => u | None => column_names p end).
Proof.
  induction fuel as [|fuel IH]; intros d p usg n q n' BO WF Iu H; [discriminate|].
  set (u := match usg with Some u0 => u0 | None => column_names p end) in *.
  destruct p as [name cs|s ops wd w|s ops gb|s x|s cs|s ds|s m|s m dels|s cs rev lim|a b on_a on_b jt|a b idc an bn]; cbn [to_near_f] in H.
  - change (match usg with Some u0 => u0 | None => column_names (OTable name cs) end) with u in H.
    destruct (subset u cs) eqn:Sb; cbn [negb] in H; [|discriminate].
    destruct (negb (is_nil u) && negb (set_eqb u cs)) eqn:C; injection H as <- _; [apply bare_ok_unary|].
    intros n0 ts Eq NU. injection Eq as <- _. destruct (WF name cs (or_introl eq_refl)) as [st [G [EC _]]]. exists st. split; [exact G|].
    assert (is_nil u = false) as NN by (destruct u; [congruence|reflexivity]). rewrite NN in C. cbn [negb andb] in C. apply negb_false_iff in C.
    unfold set_eqb in C. apply andb_true_iff in C. destruct C as [C1 C2]. rewrite EC. intros c. split; [apply (proj1 (subset_spec _ _) C2)|apply (proj1 (subset_spec _ _) C1)].
  - unfold gen_extend in H.
    change (match usg with Some u0 => u0 | None => column_names (OExtend s ops wd w) end) with u in H.
    destruct (sub_ops u ops) as [|so0 sor] eqn:ESub.
    + destruct (bok_extend_full _ _ _ _ BO) as [BOs _].
      assert (incl u (column_names s)) as Ius.
      { intros k Ik. pose proof (Iu k Ik) as X. simpl in X. apply In_ext_cols in X. destruct X as [X|X]; [exact X|]. exfalso.
        apply in_map_iff in X. destruct X as [ke [Ek Ike]]. pose proof (in_sub_ops u ops ke Ike) as Y. rewrite Ek in Y. specialize (Y Ik). rewrite ESub in Y. destruct Y. }
      exact (IH d s (Some u) n q n' BOs (fun n0 cs0 I => WF n0 cs0 I) Ius H).
    + destruct (is_nil _); [discriminate|]. destruct (negb (subset _ _)); [discriminate|]. unfold bind in H.
      destruct (to_near_f fuel d s _ n) as [[sub n1]| |]; try discriminate.
      destruct (d_allow_extend_merges d).
      * destruct (try_sql_merge sub _ _) as [[m0| |]|] eqn:EM; try discriminate; injection H as <- _; [|apply bare_ok_unary].
        destruct (try_sql_merge_inv _ _ _ _ EM) as [n0 [ts [s00 [ci0 [ds0 [_ [_ ->]]]]]]]. apply bare_ok_unary.
      * injection H as <- _. apply bare_ok_unary.
  - unfold bind in H. destruct (to_near_f fuel d s _ n) as [[sub n1]| |]; try discriminate. injection H as <- _. apply bare_ok_unary.
  - unfold bind in H. destruct (to_near_f fuel d s _ n) as [[sub n1]| |]; try discriminate. injection H as <- _. apply bare_ok_unary.
  - (* select_columns *)
    change (match usg with Some u0 => u0 | None => column_names (OSelectCols s cs) end) with u in H. unfold bind in H.
    set (su := cfs1 (OSelectCols s cs) u) in *.
    destruct (to_near_f fuel d s (Some su) n) as [[sub n1]| |] eqn:ER; try discriminate.
    destruct (bok_select_cols _ _ BO) as [BOs _].
    assert (incl cs (column_names s)) as Ics.
    { simpl in BO. rewrite !andb_true_iff in BO. destruct BO as [[_ B] _]. exact (proj1 (subset_spec _ _) B). }
    assert (forall c, In c su <-> In c u) as Hsu.
    { intros c. unfold su, cfs1. simpl. rewrite In_set_inter. split; [tauto|]. intros I. split; [exact (Iu c I)|exact I]. }
    assert (incl su (column_names s)) as Isu by (intros c Hc; apply Ics; unfold su, cfs1 in Hc; simpl in Hc; apply In_set_inter in Hc; tauto).
    pose proof (IH d s (Some su) n sub n1 BOs (fun n0 cs0 I => WF n0 cs0 I) Isu ER) as BK. cbn beta iota in BK.
    assert (u <> [] -> su <> []) as NE by (intros NU X; destruct u as [|c0 t]; [congruence|]; assert (In c0 su) as I by (apply Hsu; left; reflexivity); rewrite X in I; destruct I).
    destruct (terms_is_none sub).
    + injection H as <- _. exact (bare_ok_empty e sub su u BK NE Hsu).
    + destruct (narrow_or_first sub su) as [q0|] eqn:EN; [|discriminate]. injection H as <- _.
      destruct (narrow_or_first_restrict _ _ _ EN) as [K' EK]. exact (bare_ok_restrict e sub K' q0 su u BK EK NE Hsu).
  - (* drop_columns *)
    change (match usg with Some u0 => u0 | None => column_names (ODropCols s ds) end) with u in H. unfold bind in H.
    set (su := cfs1 (ODropCols s ds) u) in *.
    pose proof (bok_drop _ _ BO) as BOs.
    assert (forall c, In c u -> In c (column_names s) /\ ~ In c ds) as Hu.
    { intros c Hc. pose proof (Iu c Hc) as X. simpl in X. apply filter_In in X. destruct X as [A B]. apply negb_true_iff, mem_false in B. tauto. }
    assert (su = u) as Esu.
    { unfold su, cfs1. simpl. apply filter_all. intros c Hc. apply negb_true_iff, mem_false. apply Hu, Hc. }
    assert (filter (fun k => negb (mem k ds)) u = u) as Ekeep by (apply filter_all; intros c Hc; apply negb_true_iff, mem_false; apply Hu, Hc).
    rewrite Ekeep in H.
    destruct (to_near_f fuel d s (Some su) n) as [[sub n1]| |] eqn:ER; try discriminate.
    assert (incl su (column_names s)) as Isu by (rewrite Esu; intros c Hc; apply Hu, Hc).
    pose proof (IH d s (Some su) n sub n1 BOs (fun n0 cs0 I => WF n0 cs0 I) Isu ER) as BK. cbn beta iota in BK. rewrite Esu in BK.
    destruct (terms_is_none sub).
    + destruct u as [|c0 u']; [|discriminate]. injection H as <- _. apply (bare_ok_empty e sub [] []); [exact BK|auto|tauto].
    + destruct (narrow_or_first sub u) as [q0|] eqn:EN; [|discriminate]. injection H as <- _.
      destruct (narrow_or_first_restrict _ _ _ EN) as [K' EK]. apply (bare_ok_restrict e sub K' q0 u u BK EK); [auto|tauto].
  - unfold bind in H. destruct (to_near_f fuel d s _ n) as [[sub n1]| |]; try discriminate. injection H as <- _. apply bare_ok_unary.
  - unfold bind in H. destruct (to_near_f fuel d s _ n) as [[sub n1]| |]; try discriminate. injection H as <- _. apply bare_ok_unary.
  - unfold bind in H. destruct (to_near_f fuel d s _ n) as [[sub n1]| |]; try discriminate. injection H as <- _. apply bare_ok_unary.
  - pose proof (join_binary (S fuel) d a b on_a on_b jt usg n q n' H) as B. destruct q; try contradiction. apply bare_ok_binary.
  - destruct (negb (subset _ _)); [discriminate|]. destruct (negb (set_eqb _ _)); [discriminate|]. unfold bind in H.
    destruct (to_near_f fuel d _ _ n) as [[ql n1]| |]; try discriminate. destruct (to_near_f fuel d _ _ n1) as [[qr n2]| |]; try discriminate.
    injection H as <- _. apply bare_ok_binary.
Qed.

End Bare.

(* ------------------------------------------------------------------ the join node (generic dialect: no rewrite) *)
Definition pick (x cs : list string) : list string := if is_nil x then firstn 1 cs else x.

Lemma join_side cs w on : cs <> [] -> NoDup cs -> incl on cs -> incl on w ->
  pick (set_inter cs w) cs <> [] /\ NoDup (pick (set_inter cs w) cs) /\ incl (pick (set_inter cs w) cs) cs /\
  incl on (pick (set_inter cs w) cs) /\ (forall k, In k w -> In k cs -> In k (pick (set_inter cs w) cs)).
Proof.
  intros NE N Io Iw. unfold pick. destruct (is_nil (set_inter cs w)) eqn:EN.
  - assert (forall k, In k cs -> In k w -> False) as X.
    { intros k I1 I2. assert (In k (set_inter cs w)) as I by (apply In_set_inter; tauto). destruct (set_inter cs w); [destruct I|discriminate]. }
    destruct cs as [|c0 t]; [congruence|]. simpl. split; [discriminate|]. split; [constructor; [intros []|constructor]|]. split; [intros x [<-|[]]; left; reflexivity|].
    split; [intros k Ik; destruct (X k (Io k Ik) (Iw k Ik))|intros k I1 I2; destruct (X k I2 I1)].
  - split; [intros X; rewrite X in EN; discriminate|]. split; [apply NoDup_set_inter, N|]. split; [intros k Ik; apply In_set_inter in Ik; tauto|].
    split; [intros k Ik; apply In_set_inter; split; [apply Io, Ik|apply Iw, Ik]|intros k I1 I2; apply In_set_inter; tauto].
Qed.

Section JoinNode.
Variable fl : flavor.
Variable e : env.

Lemma node_join d (srca srcb : option (list string) -> gen) a b on_a on_b jt usg n q n' :
  d_join_carry d = true -> f_join_null_match fl = false -> builder_ok (OJoin a b on_a on_b jt) = true ->
  column_names a <> [] -> column_names b <> [] ->
  NoDup (match usg with Some u0 => u0 | None => column_names (OJoin a b on_a on_b jt) end) ->
  incl (match usg with Some u0 => u0 | None => column_names (OJoin a b on_a on_b jt) end) (column_names (OJoin a b on_a on_b jt)) ->
  gen_join d srca srcb (OJoin a b on_a on_b jt) a b on_a on_b jt true usg n = Ok (q, n') ->
  (forall ul ql n1 n2, NoDup ul -> incl ul (column_names a) -> srca (Some ul) n1 = Ok (ql, n2) ->
     exists A, sem_gen fl a e = Some A /\ Delivers fl e ql ul A /\ BareOk e ql ul) ->
  (forall ur qr n1 n2, NoDup ur -> incl ur (column_names b) -> srcb (Some ur) n1 = Ok (qr, n2) ->
     exists B, sem_gen fl b e = Some B /\ Delivers fl e qr ur B /\ BareOk e qr ur) ->
  exists T, sem_gen fl (OJoin a b on_a on_b jt) e = Some T /\
            Delivers fl e q (match usg with Some u0 => u0 | None => column_names (OJoin a b on_a on_b jt) end) T.
Proof.
  intros C NM BO NEa NEb Nu Iu H HA HB.
  destruct (bok_join _ _ _ _ _ BO) as [BOa BOb].
  pose proof BO as BO'. cbn [builder_ok] in BO'. rewrite !andb_true_iff in BO'. destruct BO' as [[[[_ _] Sa] Sb] Len]. apply Nat.eqb_eq in Len.
  pose proof (proj1 (subset_spec _ _) Sa) as Ia. pose proof (proj1 (subset_spec _ _) Sb) as Ib.
  pose proof (builder_ok_nodup a BOa) as Na. pose proof (builder_ok_nodup b BOb) as Nb.
  set (p := OJoin a b on_a on_b jt) in *.
  set (u := match usg with Some u0 => u0 | None => column_names p end) in *.
  unfold gen_join in H. rewrite C in H. cbv zeta in H. cbn [andb] in H. fold p in H. fold u in H.
  clearbody u.
  set (u1 := if is_nil u then firstn 1 (column_names p) else u) in *.
  set (ask := set_union (set_union u1 on_a) on_b) in *.
  change (cfs1 p ask) with (set_inter (column_names a) (ask ++ on_a ++ on_b)) in H.
  change (cfs2 p ask) with (set_inter (column_names b) (ask ++ on_a ++ on_b)) in H.
  set (w := ask ++ on_a ++ on_b) in *.
  change (if is_nil (set_inter (column_names a) w) then firstn 1 (column_names a) else set_inter (column_names a) w)
    with (pick (set_inter (column_names a) w) (column_names a)) in H.
  change (if is_nil (set_inter (column_names b) w) then firstn 1 (column_names b) else set_inter (column_names b) w)
    with (pick (set_inter (column_names b) w) (column_names b)) in H.
  set (ul := pick (set_inter (column_names a) w) (column_names a)) in *.
  set (ur := pick (set_inter (column_names b) w) (column_names b)) in *.
  change (map (fun c : string => (c, TmCoalesce true c)) (filter (fun c : string => mem c u) (set_inter ul ur))
          ++ pass_terms (filter (fun c : string => negb (mem c (set_inter ul ur))) ul)
          ++ pass_terms (filter (fun c : string => negb (mem c (set_inter ul ur))) ur)) with (join_terms true u ul ur) in H.
  assert (column_names p <> []) as NCp. { unfold p. simpl. destruct (column_names a); [congruence|discriminate]. }
  assert (incl u1 (column_names p) /\ incl u u1) as [Iu1 Iuu1].
  { unfold u1. destruct u as [|k0 ut]; cbn [is_nil].
    - split; [|intros x []]. destruct (column_names p) as [|c0 t]; [congruence|]. cbn [firstn]. intros x [<-|[]]; left; reflexivity.
    - split; [exact Iu|apply incl_refl]. }
  assert (subset u1 (column_names p) = true) as Sb1 by (apply subset_spec; exact Iu1).
  rewrite Sb1 in H. cbn [negb] in H.
  assert (incl on_a w /\ incl on_b w) as [Iaw Ibw].
  { unfold w. split; intros x Hx; apply in_app_iff; right; apply in_app_iff; [left|right]; exact Hx. }
  destruct (join_side (column_names a) w on_a NEa Na Ia Iaw) as [NEl [Nl [Il [Ial Hl]]]].
  destruct (join_side (column_names b) w on_b NEb Nb Ib Ibw) as [NEr [Nr [Ir [Ibr Hr]]]].
  fold ul in NEl, Nl, Il, Ial, Hl. fold ur in NEr, Nr, Ir, Ibr, Hr.
  unfold bind in H.
  destruct (srca (Some ul) (S n)) as [[ql n2]| |] eqn:ERl; try discriminate.
  destruct (srcb (Some ur) n2) as [[qr n3]| |] eqn:ERr; try discriminate.
  injection H as <- _.
  destruct (HA ul ql _ _ Nl Il ERl) as [A [EA [DA BA]]]. destruct (HB ur qr _ _ Nr Ir ERr) as [B [EB [DB BB]]].
  exists (sem_join (f_join_null_match fl) on_a on_b jt A B). split; [unfold p; simpl; rewrite EA, EB; reflexivity|].
  pose proof (sem_cols fl a e A EA) as CA. pose proof (sem_cols fl b e B EB) as CB.
  assert (forall k, In k u -> (In k (cols A) -> In k ul) /\ (In k (cols B) -> In k ur) /\ (In k (cols A) \/ In k (cols B))) as Hu.
  { intros k Ik.
    assert (In k w) as Ikw by (unfold w; apply in_app_iff; left; unfold ask; apply In_set_union; left; apply In_set_union; left; apply Iuu1, Ik).
    rewrite CA, CB. split; [intros X; apply Hl; assumption|]. split; [intros X; apply Hr; assumption|].
    pose proof (Iu k Ik) as X. unfold p in X. simpl in X. apply in_app_iff in X. destruct X as [X|X]; [left; exact X|right; apply filter_In in X; tauto]. }
  assert (join_terms true u ul ur = [] -> u = []) as ENil.
  { intros ET. destruct u as [|k0 ut]; [reflexivity|exfalso].
    destruct (Hu k0 (or_introl eq_refl)) as [H1 [H2 H3]].
    assert (In k0 (map fst (join_terms true (k0 :: ut) ul ur))) as X.
    { apply join_terms_keys_iff. destruct H3 as [H3|H3].
      - pose proof (H1 H3) as L. destruct (In_dec string_dec k0 ur) as [R|R]; [left; split; [exact L|split; [exact R|left; reflexivity]]|right; left; tauto].
      - pose proof (H2 H3) as R. destruct (In_dec string_dec k0 ul) as [L|L]; [left; split; [exact L|split; [exact R|left; reflexivity]]|right; right; tauto]. }
    rewrite ET in X. destruct X. }
  destruct (join_terms true u ul ur) as [|t0 tt] eqn:ET.
  - rewrite (ENil eq_refl). cbn [norm]. apply delivers_join_star; assumption.
  - cbn [norm]. rewrite <- ET.
    apply delivers_join; try assumption; try (rewrite CA; assumption); try (rewrite CB; assumption).
    rewrite ET. discriminate.
Qed.
End JoinNode.
