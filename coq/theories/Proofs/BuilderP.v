(* C26 -- proofs about Model/Builder.v against Model/BuilderSpec.v.
   Part 1: reflection of the boolean tests.  Part 2: each builder step on a bare column list is one conjunction of
   tests (`*_flat`).  Part 3: the conjunction fails iff a rule of BuilderSpec.violates is broken. *)
From Coq Require Import List Bool Arith String Lia.
Import ListNotations.
From DA Require Import Base.PyRT Model.Extend Gen.G_MergeOps Model.Builder Model.BuilderSpec Proofs.ListP.

(* ------------------------------------------------------------------ Part 1: reflection *)
Lemma nodupb_spec l : nodupb l = true <-> NoDup l.
Proof.
  induction l as [|x t IH]; simpl.
  - split; [constructor|reflexivity].
  - rewrite andb_true_iff, negb_true_iff, mem_false, IH. split.
    + intros [A B]. constructor; assumption.
    + intros N. inversion N; subst. split; assumption.
Qed.
Lemma nodupb_false l : nodupb l = false <-> ~ NoDup l.
Proof. rewrite <- nodupb_spec. destruct (nodupb l); split; congruence. Qed.

Lemma subset_false cols l : subset l cols = false <-> unknown_in cols l.
Proof.
  unfold subset, unknown_in. rewrite forallb_false. split.
  - intros [x [I E]]. exists x. split; [exact I|]. apply mem_false. exact E.
  - intros [x [I E]]. exists x. split; [exact I|]. apply mem_false. exact E.
Qed.

Lemma disjointb_false (a b : list string) : disjointb a b = false <-> exists x, In x a /\ In x b.
Proof.
  unfold disjointb. rewrite forallb_false. split.
  - intros [x [I E]]. exists x. split; [exact I|]. apply negb_false_iff in E. apply mem_In. exact E.
  - intros [x [I E]]. exists x. split; [exact I|]. apply negb_false_iff. apply mem_In. exact E.
Qed.

Lemma nonempty_true {A} (l : list A) : nonempty l = true <-> l <> [].
Proof. destruct l; simpl; split; congruence. Qed.
Lemma nonempty_false {A} (l : list A) : nonempty l = false <-> l = [].
Proof. destruct l; simpl; split; congruence. Qed.

Lemma notin_true l x : notin l x = true <-> ~ In x l.
Proof. unfold notin. rewrite negb_true_iff. apply mem_false. Qed.

Lemma strs_eqb_eq a : forall b, strs_eqb a b = true -> a = b.
Proof.
  induction a as [|x s IH]; intros [|y t] H; simpl in H; try discriminate; [reflexivity|].
  apply andb_true_iff in H. destruct H as [H1 H2]. apply String.eqb_eq in H1. subst. f_equal. apply IH, H2.
Qed.

Lemma finish_ok cols : cols <> [] -> NoDup cols -> finish cols = Accept cols.
Proof.
  intros NE N. unfold finish. apply nonempty_true in NE. apply nodupb_spec in N. rewrite NE, N. reflexivity.
Qed.
Lemma finish_accept cols c : finish cols = Accept c -> c = cols /\ cols <> [] /\ NoDup cols.
Proof.
  unfold finish. destruct (nonempty cols) eqn:E1; simpl; [|discriminate].
  destruct (nodupb cols) eqn:E2; [|discriminate]. intros [= <-].
  split; [reflexivity|]. split; [apply nonempty_true, E1|apply nodupb_spec, E2].
Qed.
Lemma finish_reject cols : finish cols = Reject <-> cols = [] \/ ~ NoDup cols.
Proof.
  unfold finish. destruct (nonempty cols) eqn:E1; simpl.
  - destruct (nodupb cols) eqn:E2.
    + split; [discriminate|]. intros [E|E]; [apply nonempty_true in E1; contradiction|apply nodupb_spec in E2; contradiction].
    + split; [|reflexivity]. intros _. right. apply nodupb_false, E2.
  - split; [|reflexivity]. intros _. left. apply nonempty_false, E1.
Qed.

Lemma NoDup_app_new (src ks : list string) : NoDup src -> NoDup ks -> NoDup (src ++ filter (notin src) ks).
Proof.
  intros N1 N2. apply NoDup_app_iff; repeat split; [exact N1|apply NoDup_filter, N2|].
  intros x I F. apply filter_In in F. destruct F as [_ F]. apply notin_true in F. contradiction.
Qed.

Lemma app_not_nil_l {A} (a b : list A) : a <> [] -> a ++ b <> [].
Proof. destruct a; simpl; congruence. Qed.

Ltac split_true := repeat match goal with X : _ && _ = true |- _ => apply andb_true_iff in X; destruct X end.

(* V says that a test fails which a hypothesis says passes *)
Ltac clash V := refine (eq_true_false_abs _ _ V); assumption.

(* a chain of tests *)
Ltac chain :=
  repeat match goal with
  | |- context[if negb ?b then Reject else _] => destruct b eqn:?; cbn [negb andb orb]; try reflexivity
  | |- context[if ?b then Reject else _] => destruct b eqn:?; cbn [negb andb orb]; try reflexivity
  end.

(* ------------------------------------------------------------------ Part 2: one conjunction of tests per step *)
Section Flat.
Variable T : tables.
Variable cols : list string.
Hypothesis Ncols : NoDup cols.
Hypothesis NEcols : cols <> [].

Definition win_ops_ok (ops : assignments) (part : pspec) (order : list string) : bool :=
  negb (windowed T ops part order && negb (forallb (fun ke => win_op_ok T cols (nonempty order) (snd ke)) ops)).

Definition extend_conform (ops : assignments) (part : pspec) (order rev : list string) : bool :=
  (nodupb (keys ops) && disjointb (keys ops) (used_elsewhere ops))
  && extend_pre cols (keys ops) part order rev
  && subset (ops_used ops) cols
  && (nodupb (plist part) && nodupb order && nodupb rev)
  && (subset (plist part) cols && subset order cols)
  && subset rev order
  && disjointb (keys ops) (plist part ++ order ++ rev)
  && win_ops_ok ops part order.

Lemma extend_flat ops part order rev : ops <> [] ->
  build_step T cols (SExtend ops part order rev) =
  if extend_conform ops part order rev then Accept (cols ++ filter (notin cols) (keys ops)) else Reject.
Proof.
  intros NE. unfold build_step, apply_step, do_extend, extend_conform, win_ops_ok, parse_ok.
  destruct (nodupb (keys ops) && disjointb (keys ops) (used_elsewhere ops)) eqn:P; cbn [negb andb]; [|reflexivity].
  cbn [extend_parsed declared]. apply nonempty_true in NE. rewrite NE. cbn [negb].
  destruct (extend_pre cols (keys ops) part order rev) eqn:E1; cbn [negb andb]; [|reflexivity].
  unfold extend_node.
  chain.
  apply finish_ok; [apply app_not_nil_l, NEcols|].
  apply andb_true_iff in P. destruct P as [P _]. apply nodupb_spec in P. apply NoDup_app_new; assumption.
Qed.

Definition project_conform (ops : assignments) (group : list string) : bool :=
  (nodupb (keys ops) && disjointb (keys ops) (used_elsewhere ops))
  && wcg cols group
  && negb (negb (nonempty ops) && negb (nonempty group))
  && disjointb (keys ops) group
  && subset (group ++ ops_used ops) cols
  && nodupb group
  && forallb (fun ke => proj_op_ok T (snd ke)) ops.

Lemma project_flat ops group :
  build_step T cols (SProject ops group) =
  if project_conform ops group then Accept (group ++ filter (notin group) (keys ops)) else Reject.
Proof.
  unfold build_step, apply_step, do_project, project_conform, parse_ok.
  destruct (nodupb (keys ops) && disjointb (keys ops) (used_elsewhere ops)) eqn:P; cbn [negb andb]; [|reflexivity].
  cbn [project_parsed declared]. unfold project_node.
  chain.
  assert (NoDup (keys ops)) as Nk by (apply andb_true_iff in P; destruct P as [P _]; apply nodupb_spec in P; exact P).
  match goal with H : nodupb group = true |- _ => apply nodupb_spec in H; rename H into Ng end.
  rewrite finish_ok.
  - destruct (forallb (fun ke => proj_op_ok T (snd ke)) ops); reflexivity.
  - match goal with H : negb (nonempty ops) && negb (nonempty group) = false |- _ => rename H into NB end.
    destruct group as [|g gt]; [|simpl; congruence]. destruct ops as [|o ot]; [discriminate NB|]. simpl. congruence.
  - apply NoDup_app_new; assumption.
Qed.

Lemma select_rows_flat e :
  build_step T cols (SSelectRows e) = if subset (cols_used e) cols then Accept cols else Reject.
Proof.
  unfold build_step, apply_step. cbn [do_select_rows declared]. unfold select_rows_node.
  destruct (subset (cols_used e) cols); cbn [negb]; [|reflexivity]. apply finish_ok; assumption.
Qed.

Lemma select_cols_flat cs :
  build_step T cols (SSelectCols cs) = if nonempty cs && subset cs cols && nodupb cs then Accept cs else Reject.
Proof.
  unfold build_step, apply_step. cbn [do_select_cols declared]. unfold select_node, finish.
  destruct (nonempty cs); cbn [negb andb]; [|reflexivity].
  destruct (subset cs cols); cbn [negb andb]; [|reflexivity]. reflexivity.
Qed.

Lemma drop_cols_flat cs :
  build_step T cols (SDropCols cs) =
  if negb (nonempty cs) then Accept cols
  else if subset cs cols && nonempty (filter (notin cs) cols) then Accept (filter (notin cs) cols) else Reject.
Proof.
  unfold build_step, apply_step. cbn [do_drop_cols declared]. unfold drop_node.
  destruct (nonempty cs); cbn [negb]; [|reflexivity].
  destruct (subset cs cols); cbn [negb andb]; [|reflexivity].
  unfold finish. rewrite (proj2 (nodupb_spec _) (NoDup_filter (notin cs) _ Ncols)).
  rewrite andb_true_r. reflexivity.
Qed.

Lemma rename_flat m :
  build_step T cols (SRename m) =
  if negb (nonempty m) then Accept cols
  else if subset (map snd m) cols && negb (nonempty (collisions cols (map fst m) (map snd m))) && nodupb (renamed cols m)
       then Accept (renamed cols m) else Reject.
Proof.
  unfold build_step, apply_step. cbn [do_rename declared]. unfold rename_node. fold (renamed cols m).
  destruct (nonempty m); cbn [negb]; [|reflexivity].
  destruct (subset (map snd m) cols); cbn [negb andb]; [|reflexivity].
  destruct (nonempty (collisions cols (map fst m) (map snd m))); cbn [negb andb]; [reflexivity|].
  unfold finish. assert (nonempty (renamed cols m) = true) as NEr.
  { unfold renamed. destruct cols; [congruence|reflexivity]. }
  rewrite NEr. reflexivity.
Qed.

Lemma map_flat m :
  build_step T cols (SMap m) =
  if negb (nonempty m) then Accept cols
  else if subset (map fst m) cols && negb (nonempty (collisions cols (map_new m) (map fst m)))
          && (nonempty (mapped cols m) && nodupb (mapped cols m))
       then Accept (mapped cols m) else Reject.
Proof.
  unfold build_step, apply_step. cbn [do_map declared]. unfold map_node. fold (mapped cols m).
  destruct (nonempty m); cbn [negb]; [|reflexivity].
  destruct (subset (map fst m) cols); cbn [negb andb]; [|reflexivity].
  destruct (nonempty (collisions cols (map_new m) (map fst m))); cbn [negb andb]; reflexivity.
Qed.

Definition no_order (cs : list string) (limit : option nat) : bool :=
  negb (nonempty cs) && match limit with None => true | Some _ => false end.

Lemma order_flat cs rev limit :
  build_step T cols (SOrder cs rev limit) =
  if no_order cs limit then Accept cols
  else if subset cs cols && subset rev cs then Accept cols else Reject.
Proof.
  unfold build_step, apply_step, no_order. cbn [do_order declared]. unfold order_node.
  destruct (negb (nonempty cs) && match limit with None => true | Some _ => false end); [reflexivity|].
  destruct (subset cs cols); cbn [negb andb]; [|reflexivity].
  destruct (subset rev cs); cbn [negb]; [|reflexivity]. apply finish_ok; assumption.
Qed.

Definition join_names (b : list string) : list string :=
  let all := cols ++ filter (notin cols) b in
  if subset all cols then cols else if subset all b && subset b all then b else all.

Definition join_conform (b : list string) (on : list (string * string)) (jt : string) (check : bool) : bool :=
  subset (map fst on) cols && subset (map snd on) b
  && negb (check && negb (subset (set_inter cols b) (set_inter (map fst on) (map snd on))))
  && mem jt join_types
  && negb (String.eqb jt "CROSS" && nonempty on).

Lemma join_flat b on jt check : NoDup b -> b <> [] ->
  build_step T cols (SJoin b on jt check) = if join_conform b on jt check then Accept (join_names b) else Reject.
Proof.
  intros Nb NEb. unfold build_step, apply_step, join_conform. cbn [do_join declared]. unfold join_node. fold (join_names b).
  chain.
  assert (finish (join_names b) = Accept (join_names b)) as F.
  { unfold join_names. destruct (subset (cols ++ filter (notin cols) b) cols); [apply finish_ok; assumption|].
    destruct (subset (cols ++ filter (notin cols) b) b && subset b (cols ++ filter (notin cols) b)); [apply finish_ok; assumption|].
    apply finish_ok; [apply app_not_nil_l, NEcols|apply NoDup_app_new; assumption]. }
  rewrite F. chain. reflexivity.
Qed.

Definition concat_conform (b : list string) (idc : option string) : bool :=
  (subset cols b && subset b cols) && match idc with None => true | Some c => negb (mem c cols) end.

Lemma concat_flat b idc :
  build_step T cols (SConcat b idc) =
  if concat_conform b idc then Accept (match idc with None => cols | Some c => cols ++ [c] end) else Reject.
Proof.
  unfold build_step, apply_step, concat_conform. cbn [do_concat declared]. unfold concat_node.
  destruct (subset cols b && subset b cols); cbn [negb andb]; [|reflexivity].
  destruct idc as [c|]; [|apply finish_ok; assumption].
  destruct (mem c cols) eqn:M; cbn [negb]; [reflexivity|].
  apply finish_ok; [apply app_not_nil_l, NEcols|]. apply NoDup_app_iff; repeat split; [exact Ncols|repeat constructor; simpl; tauto|].
  intros x I [<-|[]]. apply mem_false in M. contradiction.
Qed.
End Flat.

(* ------------------------------------------------------------------ Part 3: the conjunction fails iff a rule is broken *)
Lemma use_produce_false ops : disjointb (keys ops) (used_elsewhere ops) = false <-> used_by_other ops.
Proof.
  rewrite disjointb_false. unfold used_by_other, used_elsewhere. split.
  - intros [x [Ik Iu]]. apply in_flat_map in Iu. destruct Iu as [[k e] [Io Ir]]. simpl in Ir.
    apply In_remove_elem in Ir. destruct Ir as [Ic Ne]. exists k, e, x. tauto.
  - intros [k [e [k' [Io [Ik [Ne Ic]]]]]]. exists k'. split; [exact Ik|]. apply in_flat_map. exists (k, e).
    split; [exact Io|]. simpl. apply In_remove_elem. tauto.
Qed.

Lemma windowed_iff T ops part order : windowed T ops part order = true <-> windowed_spec T ops part order.
Proof.
  unfold windowed, windowed_spec, implies_windowed. rewrite !orb_true_iff, existsb_exists, !nonempty_true. split.
  - intros [[[[[k e] [I M]]|O]|P]|Q].
    + right. right. right. simpl in M. destruct e as [c| | |op args]; try discriminate. exists k, op, args.
      split; [exact I|apply mem_In, M].
    + left. destruct part; [reflexivity|discriminate].
    + right. left. exact P.
    + right. right. left. exact Q.
  - intros [O|[P|[Q|[k [op [args [I M]]]]]]].
    + left. left. right. subst. reflexivity.
    + left. right. exact P.
    + right. exact Q.
    + left. left. left. exists (k, EOp op args). split; [exact I|]. simpl. apply mem_In, M.
Qed.

Lemma is_val_true e : is_val e = true <-> e = EVal.
Proof. destruct e; simpl; split; congruence. Qed.

Lemma simple_arg_dec a : simple_arg a \/ ~ simple_arg a.
Proof.
  destruct a as [c| | |op args].
  - left. left. exists c. reflexivity.
  - left. right. reflexivity.
  - right. intros [[c E]|E]; discriminate.
  - right. intros [[c E]|E]; discriminate.
Qed.

(* what the per-assignment test of a windowed extend says *)
Lemma win_op_ok_true T src ordered e : win_op_ok T src ordered e = true ->
  exists op args, e = EOp op args /\ ~ too_complex_window e /\ ~ In op (t_cw T)
    /\ ~ (ordered = true /\ In op (t_co T)) /\ ~ (ordered = false /\ In op (t_ow T)).
Proof.
  destruct e as [c| | |op args]; simpl; try discriminate. intros H.
  repeat (apply andb_true_iff in H; destruct H as [H ?]).
  exists op, args. split; [reflexivity|]. repeat split.
  - intros [op' [args' [E [[a [t [Ea Ns]]]|[a [Ia Na]]]]]]; injection E as <- <-.
    + subst args. apply Ns. destruct a as [c| | |o l]; try discriminate; [left; exists c; reflexivity|right; reflexivity].
    + rewrite forallb_forall in H. apply Na, is_val_true, H, Ia.
  - match goal with X : negb (mem op (t_cw T)) = true |- _ => apply negb_true_iff, mem_false in X; exact X end.
  - intros [-> I]. match goal with X : negb (true && mem op (t_co T)) = true |- _ => apply negb_true_iff in X; simpl in X; apply mem_false in X; contradiction end.
  - intros [-> I]. match goal with X : negb (negb false && mem op (t_ow T)) = true |- _ => apply negb_true_iff in X; simpl in X; apply mem_false in X; contradiction end.
Qed.

Lemma win_op_ok_false T src ordered e : win_op_ok T src ordered e = false ->
  (forall op args, e <> EOp op args) \/ too_complex_window e \/ (exists c, In c (cols_used e) /\ ~ In c src)
  \/ (exists op args, e = EOp op args /\ (In op (t_cw T) \/ (ordered = true /\ In op (t_co T)) \/ (ordered = false /\ In op (t_ow T)))).
Proof.
  destruct e as [c| | |op args]; simpl; try (intros _; left; intros; discriminate). intros H.
  repeat (apply andb_false_iff in H; destruct H as [H|H]).
  - right. left. exists op, args. split; [reflexivity|]. right. apply forallb_false in H. destruct H as [a [Ia Na]].
    exists a. split; [exact Ia|]. intros E. apply is_val_true in E. congruence.
  - destruct args as [|a t]; [discriminate|]. destruct a as [c| | |o l]; try discriminate.
    + right. right. left. exists c. split; [simpl; left; reflexivity|apply mem_false, H].
    + right. left. exists op, (EColl :: t). split; [reflexivity|]. left. exists EColl, t. split; [reflexivity|]. intros [[c E]|E]; discriminate.
    + right. left. exists op, (EOp o l :: t). split; [reflexivity|]. left. exists (EOp o l), t. split; [reflexivity|]. intros [[c E]|E]; discriminate.
  - right. right. right. exists op, args. split; [reflexivity|]. left. apply negb_false_iff, mem_In in H. exact H.
  - right. right. right. exists op, args. split; [reflexivity|]. right. left. apply negb_false_iff, andb_true_iff in H. destruct H as [-> H]. split; [reflexivity|apply mem_In, H].
  - right. right. right. exists op, args. split; [reflexivity|]. right. right. apply negb_false_iff, andb_true_iff in H. destruct H as [O H].
    apply negb_true_iff in O. split; [exact O|apply mem_In, H].
Qed.

Lemma cols_used_in_ops (ops : assignments) k e c : In (k, e) ops -> In c (cols_used e) -> In c (ops_used ops).
Proof. intros I C. unfold ops_used. apply in_flat_map. exists (k, e). split; assumption. Qed.

Lemma key_in_keys (ops : assignments) k e : In (k, e) ops -> In k (keys ops).
Proof. intros I. unfold keys. apply in_map_iff. exists (k, e). split; [reflexivity|exact I]. Qed.

Lemma nonempty_order_true (order : list string) : nonempty order = true <-> order <> [].
Proof. apply nonempty_true. Qed.

Section ExtendIff.
Variable T : tables.
Variable cols : list string.

Lemma extend_nonconform_violates ops part order rev :
  extend_conform T cols ops part order rev = false -> violates_rule T cols (SExtend ops part order rev).
Proof.
  unfold extend_conform, extend_pre, wcg, win_ops_ok, violates_rule. intros H.
  repeat (apply andb_false_iff in H; destruct H as [H|H]).
  - exists X_duplicate_name. left. apply nodupb_false, H.
  - exists R_use_and_produce. apply use_produce_false, H.
  - exists X_duplicate_name. right. left. apply nodupb_false, H.
  - exists R_unknown_column. right. left. apply subset_false, H.
  - exists X_duplicate_name. right. right. left. apply nodupb_false, H.
  - exists R_unknown_column. right. right. left. apply subset_false, H.
  - exists X_duplicate_name. right. right. right. apply nodupb_false, H.
  - exists R_unknown_column. right. right. right. apply subset_false, H.
  - destruct (nonempty (plist part)); [|discriminate]. apply andb_false_iff in H. destruct H as [H|H]; apply disjointb_false in H; destruct H as [x [A B]].
    + exists R_change_window_column. exists x. split; [exact A|]. apply in_app_iff. left. exact B.
    + exists X_window_spec. right. exists x. split; assumption.
  - exists R_change_window_column. apply disjointb_false in H. destruct H as [x [A B]]. exists x. split; [exact A|]. rewrite !in_app_iff. tauto.
  - exists X_window_spec. left. apply subset_false in H. exact H.
  - exists R_unknown_column. left. apply subset_false, H.
  - exists X_duplicate_name. right. left. apply nodupb_false, H.
  - exists X_duplicate_name. right. right. left. apply nodupb_false, H.
  - exists X_duplicate_name. right. right. right. apply nodupb_false, H.
  - exists R_unknown_column. right. left. apply subset_false, H.
  - exists R_unknown_column. right. right. left. apply subset_false, H.
  - exists X_window_spec. left. apply subset_false in H. exact H.
  - exists R_change_window_column. apply disjointb_false in H. destruct H as [x [A B]]. exists x. split; assumption.
  - apply negb_false_iff, andb_true_iff in H. destruct H as [W F]. apply windowed_iff in W. apply negb_true_iff, forallb_false in F.
    destruct F as [[k e] [I F]]. simpl in F. apply win_op_ok_false in F. destruct F as [F|[F|[F|F]]].
    + exists R_not_aggregating. split; [exact W|]. exists k, e. split; [exact I|]. intros [op [args [E _]]]. exact (F op args E).
    + exists R_too_complex. split; [exact W|]. exists k, e. split; assumption.
    + exists R_unknown_column. left. destruct F as [c [C N]]. exists c. split; [eapply cols_used_in_ops; eassumption|exact N].
    + exists X_window_kind. split; [exact W|]. destruct F as [op [args [-> F]]]. exists k, op, args. split; [exact I|].
      destruct F as [F|[[O F]|[O F]]]; [left; exact F| |].
      * right. left. split; [apply nonempty_true, O|exact F].
      * right. right. split; [apply nonempty_false, O|exact F].
Qed.

Lemma extend_conform_no_violation ops part order rev :
  extend_conform T cols ops part order rev = true ->
  forall r, (r = R_not_aggregating -> catalogued T (SExtend ops part order rev)) -> ~ violates T cols (SExtend ops part order rev) r.
Proof.
  unfold extend_conform, extend_pre, wcg, win_ops_ok. intros H.
  split_true.
  match goal with X : negb (windowed _ _ _ _ && _) = true |- _ => apply negb_true_iff in X; rename X into HW end.
  assert (windowed_spec T ops part order -> forall k e, In (k, e) ops -> win_op_ok T cols (nonempty order) e = true) as WOK.
  { intros W k e I. apply windowed_iff in W. rewrite W in HW. simpl in HW. apply negb_false_iff in HW.
    rewrite forallb_forall in HW. exact (HW (k, e) I). }
  intros r G V. destruct r; simpl in V; try contradiction.
  - (* unknown column *)
    destruct V as [V|[V|[V|V]]]; apply subset_false in V; clash V.
  - (* change window column *)
    apply disjointb_false in V. clash V.
  - (* use and produce *)
    apply use_produce_false in V. clash V.
  - (* not aggregating *)
    destruct V as [W [k [e [I NA]]]]. destruct (win_op_ok_true _ _ _ _ (WOK W k e I)) as [op [args [-> _]]].
    apply NA. exists op, args. split; [reflexivity|]. exact (G eq_refl W k op args I).
  - (* too complex *)
    destruct V as [W [k [e [I TC]]]]. destruct (win_op_ok_true _ _ _ _ (WOK W k e I)) as [op [args [-> [NT _]]]]. exact (NT TC).
  - (* window kind *)
    destruct V as [W [k [op [args [I K]]]]]. destruct (win_op_ok_true _ _ _ _ (WOK W k _ I)) as [op' [args' [E [_ [N1 [N2 N3]]]]]].
    injection E as <- <-. destruct K as [K|[[O K]|[O K]]]; [exact (N1 K)| |].
    + apply N2. split; [apply nonempty_true, O|exact K].
    + apply N3. split; [apply nonempty_false, O|exact K].
  - (* duplicate name *)
    destruct V as [V|[V|[V|V]]]; apply nodupb_false in V; clash V.
  - (* window spec *)
    destruct V as [V|[c [I J]]].
    + apply subset_false in V. clash V.
    + destruct (nonempty (plist part)) eqn:NP.
      * assert (disjointb (plist part) order = false) as F by (apply disjointb_false; exists c; tauto).
        split_true. clash F.
      * apply nonempty_false in NP. rewrite NP in I. destruct I.
Qed.
End ExtendIff.

Lemma proj_op_ok_true T e : proj_op_ok T e = true ->
  exists op args, e = EOp op args /\ ~ too_complex_project e /\ ~ In op (t_ow T) /\ ~ In op (t_np T).
Proof.
  destruct e as [c| | |op args]; simpl; try discriminate. intros H. split_true.
  exists op, args. split; [reflexivity|]. repeat split.
  - intros [op' [args' [E [L|[a [t [Ea Ns]]]]]]]; injection E as <- <-.
    + match goal with X : (List.length args <=? 1) = true |- _ => apply Nat.leb_le in X; lia end.
    + subst args. apply Ns. destruct a as [c| | |o l]; try discriminate; [left; exists c; reflexivity|right; reflexivity].
  - match goal with X : negb (mem op (t_ow T)) = true |- _ => apply negb_true_iff, mem_false in X; exact X end.
  - match goal with X : negb (mem op (t_np T)) = true |- _ => apply negb_true_iff, mem_false in X; exact X end.
Qed.

Lemma proj_op_ok_false T e : proj_op_ok T e = false ->
  (forall op args, e <> EOp op args) \/ too_complex_project e
  \/ (exists op args, e = EOp op args /\ (In op (t_ow T) \/ In op (t_np T))).
Proof.
  destruct e as [c| | |op args]; simpl; try (intros _; left; intros; discriminate). intros H.
  repeat (apply andb_false_iff in H; destruct H as [H|H]).
  - right. left. exists op, args. split; [reflexivity|]. left. apply Nat.leb_gt in H. exact H.
  - destruct args as [|a t]; [discriminate|]. right. left. exists op, (a :: t). split; [reflexivity|]. right. exists a, t. split; [reflexivity|].
    destruct a as [c| | |o l]; try discriminate; intros [[c' E]|E]; discriminate.
  - right. right. exists op, args. split; [reflexivity|]. left. apply negb_false_iff, mem_In in H. exact H.
  - right. right. exists op, args. split; [reflexivity|]. right. apply negb_false_iff, mem_In in H. exact H.
Qed.

Section OtherIff.
Variable T : tables.
Variable cols : list string.

Lemma project_nonconform_violates ops group :
  project_conform T cols ops group = false -> violates_rule T cols (SProject ops group).
Proof.
  unfold project_conform, wcg, violates_rule. intros H.
  repeat (apply andb_false_iff in H; destruct H as [H|H]).
  - exists X_duplicate_name. left. apply nodupb_false, H.
  - exists R_use_and_produce. apply use_produce_false, H.
  - exists X_duplicate_name. right. apply nodupb_false, H.
  - exists R_unknown_column. right. apply subset_false, H.
  - exists X_empty_step. apply negb_false_iff in H. split_true.
    split; apply nonempty_false; apply negb_true_iff; assumption.
  - exists X_alter_group. apply disjointb_false, H.
  - exists R_unknown_column. apply subset_false in H. destruct H as [c [I N]]. apply in_app_iff in I. destruct I as [I|I]; [right|left]; exists c; tauto.
  - exists X_duplicate_name. right. apply nodupb_false, H.
  - apply forallb_false in H. destruct H as [[k e] [I F]]. simpl in F. apply proj_op_ok_false in F. destruct F as [F|[F|F]].
    + exists R_not_aggregating. exists k, e. split; [exact I|]. intros [op [args [E _]]]. exact (F op args E).
    + exists R_too_complex. exists k, e. split; assumption.
    + exists X_window_kind. destruct F as [op [args [-> F]]]. exists k, op, args. split; assumption.
Qed.

Lemma project_conform_no_violation ops group :
  project_conform T cols ops group = true ->
  forall r, (r = R_not_aggregating -> catalogued T (SProject ops group)) -> ~ violates T cols (SProject ops group) r.
Proof.
  unfold project_conform, wcg. intros H. split_true.
  match goal with X : forallb _ ops = true |- _ => rewrite forallb_forall in X; rename X into F end.
  intros r G V. destruct r; simpl in V; try contradiction.
  - destruct V as [[c [I N]]|[c [I N]]].
    + assert (subset (group ++ ops_used ops) cols = false) as X by (apply subset_false; exists c; rewrite in_app_iff; tauto). clash X.
    + assert (subset group cols = false) as X by (apply subset_false; exists c; tauto). clash X.
  - apply use_produce_false in V. clash V.
  - destruct V as [k [e [I NA]]]. destruct (proj_op_ok_true _ _ (F (k, e) I)) as [op [args [E _]]]. simpl in E. subst e.
    apply NA. exists op, args. split; [reflexivity|]. exact (G eq_refl k op args I).
  - destruct V as [k [e [I TC]]]. destruct (proj_op_ok_true _ _ (F (k, e) I)) as [op [args [E [NT _]]]]. simpl in E. subst e. exact (NT TC).
  - destruct V as [k [op [args [I K]]]]. destruct (proj_op_ok_true _ _ (F (k, EOp op args) I)) as [op' [args' [E [_ [N1 N2]]]]].
    simpl in E. injection E as <- <-. tauto.
  - destruct V as [V|V]; apply nodupb_false in V; clash V.
  - apply disjointb_false in V. clash V.
  - destruct V as [-> ->]. discriminate.
Qed.

Lemma mem_join_types jt : mem jt join_types = true <-> In jt join_types.
Proof. apply mem_In. Qed.

Lemma join_nonconform_violates b on jt check :
  join_conform cols b on jt check = false -> violates_rule T cols (SJoin b on jt check).
Proof.
  unfold join_conform, violates_rule. intros H.
  repeat (apply andb_false_iff in H; destruct H as [H|H]).
  - exists R_join_missing_key. left. apply subset_false, H.
  - exists R_join_missing_key. right. apply subset_false, H.
  - exists R_join_common_nonkey. apply negb_false_iff in H. split_true. split; [assumption|].
    match goal with X : negb (subset _ _) = true |- _ => apply negb_true_iff, subset_false in X; destruct X as [c [I N]] end.
    apply In_set_inter in I. exists c. split; [tauto|]. split; [tauto|]. intros J. apply N. apply In_set_inter. exact J.
  - exists X_join_type. left. apply mem_false, H.
  - exists X_join_type. right. apply negb_false_iff in H. split_true. split.
    + apply String.eqb_eq. assumption.
    + apply nonempty_true. assumption.
Qed.

Lemma join_conform_no_violation b on jt check :
  join_conform cols b on jt check = true -> forall r, ~ violates T cols (SJoin b on jt check) r.
Proof.
  unfold join_conform. intros H. split_true. intros r V. destruct r; cbn [violates] in V; try contradiction.
  - destruct V as [V|V]; apply subset_false in V; clash V.
  - destruct V as [-> [c [Ia [Ib N]]]].
    match goal with X : negb (true && negb (subset _ _)) = true |- _ => simpl in X; rewrite negb_involutive in X; rename X into S end.
    assert (subset (set_inter cols b) (set_inter (map fst on) (map snd on)) = false) as F.
    { apply subset_false. exists c. split; [apply In_set_inter; tauto|]. intros J. apply In_set_inter in J. exact (N J). }
    clash F.
  - destruct V as [V|[-> V]].
    + apply mem_false in V. clash V.
    + match goal with X : negb (_ && nonempty on) = true |- _ => apply negb_true_iff in X; simpl in X; apply nonempty_false in X; contradiction end.
Qed.

Lemma concat_nonconform_violates b idc :
  concat_conform cols b idc = false -> violates_rule T cols (SConcat b idc).
Proof.
  unfold concat_conform, violates_rule. intros H.
  repeat (apply andb_false_iff in H; destruct H as [H|H]).
  - exists R_concat_columns. left. apply subset_false in H. destruct H as [c [I N]]. exists c. tauto.
  - exists R_concat_columns. right. apply subset_false in H. destruct H as [c [I N]]. exists c. tauto.
  - destruct idc as [c|]; [|discriminate]. exists X_name_collision. exists c. split; [reflexivity|]. apply negb_false_iff, mem_In in H. exact H.
Qed.

Lemma concat_conform_no_violation b idc :
  concat_conform cols b idc = true -> forall r, ~ violates T cols (SConcat b idc) r.
Proof.
  unfold concat_conform. intros H. split_true. intros r V. destruct r; simpl in V; try contradiction.
  - destruct V as [[c [I N]]|[c [I N]]].
    + assert (subset cols b = false) as F by (apply subset_false; exists c; tauto). clash F.
    + assert (subset b cols = false) as F by (apply subset_false; exists c; tauto). clash F.
  - destruct V as [c [-> I]]. match goal with X : negb (mem c cols) = true |- _ => apply negb_true_iff, mem_false in X; contradiction end.
Qed.
End OtherIff.

(* ------------------------------------------------------------------ the remaining steps and the main statements *)
Lemma nonempty_exists {A} (l : list A) : nonempty l = true <-> exists x, In x l.
Proof. destruct l as [|a t]; simpl; split; try discriminate; [intros [x []]|intros _; exists a; tauto|reflexivity]. Qed.

Lemma collisions_nonempty (src new orig : list string) :
  nonempty (collisions src new orig) = true <-> exists n, In n new /\ In n src /\ ~ In n orig.
Proof.
  rewrite nonempty_exists. unfold collisions.
  split; intros [n H]; exists n; revert H; rewrite In_set_inter, In_set_diff, In_set_inter; tauto.
Qed.

Lemma filter_nil_all (f : string -> bool) l : filter f l = [] <-> forall x, In x l -> f x = false.
Proof.
  induction l as [|a t IH]; simpl; [tauto|]. destruct (f a) eqn:E.
  - split; [discriminate|]. intros H. specialize (H a (or_introl eq_refl)). congruence.
  - rewrite IH. split; [intros H x [<-|I]; auto|intros H x I; apply H; tauto].
Qed.

Lemma all_dropped (cs l : list string) : filter (notin cs) l = [] <-> forall c, In c l -> In c cs.
Proof.
  rewrite filter_nil_all. unfold notin.
  split; intros H c I; specialize (H c I); [apply negb_false_iff, mem_In in H; exact H|apply negb_false_iff, mem_In, H].
Qed.

Lemma filter_notin_nil (l : list string) : filter (notin []) l = l.
Proof. induction l as [|a t IH]; simpl; [reflexivity|]. rewrite IH. reflexivity. Qed.

Lemma no_order_false cs (limit : option nat) : no_order cs limit = false <-> cs <> [] \/ limit <> None.
Proof.
  unfold no_order. rewrite andb_false_iff, negb_false_iff, nonempty_true.
  destruct limit; split; intros [H|H]; try tauto; try discriminate; right; discriminate.
Qed.

Lemma result_iff (b : bool) (A : list string) (res : result) (P : Prop) :
  res = (if b then Accept A else Reject) -> (b = false -> P) -> (b = true -> ~ P) -> (res = Reject <-> P).
Proof. intros -> F Tt. destruct b; split; auto; try discriminate. intros p. exfalso. exact (Tt eq_refl p). Qed.

Section Main.
Variable T : tables.
Variable cols : list string.
Hypothesis Ncols : NoDup cols.
Hypothesis NEcols : cols <> [].

(* a step is rejected only if it breaks a rule: no guard needed *)
Lemma reject_violates s : step_wf s -> build_step T cols s = Reject -> violates_rule T cols s.
Proof.
  destruct s as [ops part order rev|ops group|e|cs|cs|m|m|cs rev limit|b on jt check|b idc]; intros W R; simpl in W.
  - rewrite extend_flat in R by assumption.
    destruct (extend_conform T cols ops part order rev) eqn:C; [discriminate|]. apply extend_nonconform_violates, C.
  - rewrite project_flat in R by assumption.
    destruct (project_conform T cols ops group) eqn:C; [discriminate|]. apply project_nonconform_violates, C.
  - rewrite select_rows_flat in R by assumption. destruct (subset (cols_used e) cols) eqn:C; [discriminate|].
    exists R_unknown_column. apply subset_false, C.
  - rewrite select_cols_flat in R. destruct (nonempty cs && subset cs cols && nodupb cs) eqn:C; [discriminate|].
    repeat (apply andb_false_iff in C; destruct C as [C|C]).
    + exists X_empty_result. apply nonempty_false, C.
    + exists R_unknown_column. apply subset_false, C.
    + exists X_duplicate_name. apply nodupb_false, C.
  - rewrite drop_cols_flat in R by assumption. destruct (nonempty cs) eqn:NE; cbn [negb] in R; [|discriminate].
    destruct (subset cs cols && nonempty (filter (notin cs) cols)) eqn:C; [discriminate|].
    apply andb_false_iff in C. destruct C as [C|C].
    + exists R_unknown_column. apply subset_false, C.
    + exists X_empty_result. split; [apply nonempty_true, NE|apply all_dropped, nonempty_false, C].
  - rewrite rename_flat in R by assumption. destruct (nonempty m) eqn:NE; cbn [negb] in R; [|discriminate].
    match type of R with (if ?b then _ else _) = _ => destruct b eqn:C; [discriminate|] end.
    repeat (apply andb_false_iff in C; destruct C as [C|C]).
    + exists R_unknown_column. apply subset_false, C.
    + exists X_name_collision. left. apply negb_false_iff, collisions_nonempty in C. exact C.
    + exists X_name_collision. right. apply nodupb_false, C.
  - rewrite map_flat in R. destruct (nonempty m) eqn:NE; cbn [negb] in R; [|discriminate].
    match type of R with (if ?b then _ else _) = _ => destruct b eqn:C; [discriminate|] end.
    repeat (apply andb_false_iff in C; destruct C as [C|C]).
    + exists R_unknown_column. apply subset_false, C.
    + exists X_name_collision. left. apply negb_false_iff, collisions_nonempty in C. exact C.
    + exists X_empty_result. split; [apply nonempty_true, NE|]. apply nonempty_false, map_eq_nil in C. apply all_dropped, C.
    + exists X_name_collision. right. apply nodupb_false, C.
  - rewrite order_flat in R by assumption. destruct (no_order cs limit) eqn:NO; [discriminate|]. apply no_order_false in NO.
    destruct (subset cs cols && subset rev cs) eqn:C; [discriminate|]. apply andb_false_iff in C. destruct C as [C|C].
    + exists R_unknown_column. split; [exact NO|]. left. apply subset_false, C.
    + exists X_window_spec. split; [exact NO|]. apply subset_false, C.
  - destruct W as [Nb NEb]. rewrite join_flat in R by assumption.
    destruct (join_conform cols b on jt check) eqn:C; [discriminate|]. apply join_nonconform_violates, C.
  - rewrite concat_flat in R by assumption.
    destruct (concat_conform cols b idc) eqn:C; [discriminate|]. apply concat_nonconform_violates, C.
Qed.
End Main.

Section Main2.
Variable T : tables.
Variable cols : list string.
Hypothesis Ncols : NoDup cols.
Hypothesis NEcols : cols <> [].

Lemma renamed_nil : renamed cols [] = cols.
Proof. unfold renamed. simpl. apply map_id. Qed.
Lemma mapped_nil : mapped cols [] = cols.
Proof. unfold mapped. simpl. rewrite filter_notin_nil. apply map_id. Qed.

(* a step that breaks a rule is rejected; the catalogue guard is needed for R_not_aggregating only *)
Lemma violates_rejected s r : step_wf s -> (r = R_not_aggregating -> catalogued T s) ->
  violates T cols s r -> build_step T cols s = Reject.
Proof.
  destruct s as [ops part order rev|ops group|e|cs|cs|m|m|cs rev limit|b on jt check|b idc]; intros W G V; simpl in W.
  - rewrite extend_flat by assumption. destruct (extend_conform T cols ops part order rev) eqn:C; [|reflexivity].
    exfalso. exact (extend_conform_no_violation T cols ops part order rev C r G V).
  - rewrite project_flat by assumption. destruct (project_conform T cols ops group) eqn:C; [|reflexivity].
    exfalso. exact (project_conform_no_violation T cols ops group C r G V).
  - rewrite select_rows_flat by assumption. destruct r; simpl in V; try contradiction.
    apply subset_false in V. rewrite V. reflexivity.
  - rewrite select_cols_flat. destruct r; simpl in V; try contradiction.
    + apply subset_false in V. rewrite V, andb_false_r. reflexivity.
    + apply nodupb_false in V. rewrite V, andb_false_r. reflexivity.
    + subst cs. reflexivity.
  - rewrite drop_cols_flat by assumption. destruct r; simpl in V; try contradiction.
    + destruct cs; [destruct V as [c [[] _]]|]. apply subset_false in V. rewrite V. reflexivity.
    + destruct V as [NE A]. apply nonempty_true in NE. apply all_dropped in A. rewrite NE, A, andb_false_r. reflexivity.
  - rewrite rename_flat by assumption. destruct (nonempty m) eqn:NE; cbn [negb].
    + destruct r; simpl in V; try contradiction.
      * apply subset_false in V. rewrite V. reflexivity.
      * destruct V as [V|V].
        -- apply collisions_nonempty in V. rewrite V, andb_false_r. reflexivity.
        -- apply nodupb_false in V. rewrite V, andb_false_r. reflexivity.
    + exfalso. apply nonempty_false in NE. subst m. destruct r; simpl in V; try contradiction.
      * destruct V as [c [[] _]].
      * destruct V as [[n [[] _]]|V]. apply V. rewrite renamed_nil. exact Ncols.
  - rewrite map_flat. destruct (nonempty m) eqn:NE; cbn [negb].
    + destruct r; simpl in V; try contradiction.
      * apply subset_false in V. rewrite V. reflexivity.
      * destruct V as [V|V].
        -- apply collisions_nonempty in V. rewrite V, andb_false_r. reflexivity.
        -- apply nodupb_false in V. rewrite V, !andb_false_r. reflexivity.
      * destruct V as [_ A]. apply all_dropped in A. unfold mapped. rewrite A. cbn [map nonempty andb]. rewrite andb_false_r. reflexivity.
    + exfalso. apply nonempty_false in NE. subst m. destruct r; simpl in V; try contradiction.
      * destruct V as [c [[] _]].
      * destruct V as [[n [[] _]]|V]. apply V. rewrite mapped_nil. exact Ncols.
      * destruct V as [V _]. exact (V eq_refl).
  - rewrite order_flat by assumption. destruct r; simpl in V; try contradiction; destruct V as [G0 V]; apply no_order_false in G0; rewrite G0.
    + destruct V as [V|[c [I N]]].
      * apply subset_false in V. rewrite V. reflexivity.
      * destruct (subset cs cols) eqn:S1; [|reflexivity]. cbn [andb].
        assert (subset rev cs = false) as S2.
        { apply subset_false. exists c. split; [exact I|]. intros J. apply N. rewrite subset_spec in S1. auto. }
        rewrite S2. reflexivity.
    + apply subset_false in V. rewrite V, andb_false_r. reflexivity.
  - destruct W as [Nb NEb]. rewrite join_flat by assumption. destruct (join_conform cols b on jt check) eqn:C; [|reflexivity].
    exfalso. exact (join_conform_no_violation T cols b on jt check C r V).
  - rewrite concat_flat by assumption. destruct (concat_conform cols b idc) eqn:C; [|reflexivity].
    exfalso. exact (concat_conform_no_violation T cols b idc C r V).
Qed.

Theorem rejects_iff_rule_violated s : step_wf s -> catalogued T s ->
  (build_step T cols s = Reject <-> violates_rule T cols s).
Proof.
  intros W G. split.
  - apply reject_violates; assumption.
  - intros [r V]. eapply violates_rejected; eauto.
Qed.
End Main2.

Section Accept.
Variable T : tables.
Variable cols : list string.
Hypothesis Ncols : NoDup cols.
Hypothesis NEcols : cols <> [].

Lemma accepted_flat (b : bool) X c (P : Prop) :
  (if b then Accept X else Reject) = Accept c -> (P -> c = X) /\ (forall x, In x c <-> In x X).
Proof. destruct b; [|discriminate]. intros [= <-]. split; [reflexivity|tauto]. Qed.

Lemma accept_is_finish_or_flat s c : step_wf s -> build_step T cols s = Accept c ->
  (order_fixed s = true -> c = spec_cols cols s) /\ (forall x, In x c <-> In x (spec_cols cols s)).
Proof.
  destruct s as [ops part order rev|ops group|e|cs|cs|m|m|cs rev limit|b on jt check|b idc]; intros W A; simpl in W; cbn [order_fixed spec_cols].
  - rewrite extend_flat in A by assumption. exact (accepted_flat _ _ _ _ A).
  - rewrite project_flat in A by assumption. exact (accepted_flat _ _ _ _ A).
  - rewrite select_rows_flat in A by assumption. exact (accepted_flat _ _ _ _ A).
  - rewrite select_cols_flat in A. exact (accepted_flat _ _ _ _ A).
  - rewrite drop_cols_flat in A by assumption. destruct (nonempty cs) eqn:NE; cbn [negb] in A; [exact (accepted_flat _ _ _ _ A)|].
    injection A as <-. apply nonempty_false in NE. subst cs. rewrite filter_notin_nil. split; [reflexivity|tauto].
  - rewrite rename_flat in A by assumption. destruct (nonempty m) eqn:NE; cbn [negb] in A; [exact (accepted_flat _ _ _ _ A)|].
    injection A as <-. apply nonempty_false in NE. subst m. rewrite renamed_nil. split; [reflexivity|tauto].
  - rewrite map_flat in A. destruct (nonempty m) eqn:NE; cbn [negb] in A; [exact (accepted_flat _ _ _ _ A)|].
    injection A as <-. apply nonempty_false in NE. subst m. rewrite mapped_nil. split; [reflexivity|tauto].
  - rewrite order_flat in A by assumption. destruct (no_order cs limit); [injection A as <-; split; [reflexivity|tauto]|].
    exact (accepted_flat _ _ _ _ A).
  - destruct W as [Nb NEb]. rewrite join_flat in A by assumption. destruct (join_conform cols b on jt check); [|discriminate]. injection A as <-.
    split; [discriminate|]. intros x. unfold join_names.
    destruct (subset (cols ++ filter (notin cols) b) cols) eqn:S1.
    + rewrite subset_spec in S1. split; [intros I; apply in_app_iff; tauto|apply S1].
    + destruct (subset (cols ++ filter (notin cols) b) b && subset b (cols ++ filter (notin cols) b)) eqn:S2; [|tauto].
      apply andb_true_iff in S2. destruct S2 as [S2 S3]. rewrite subset_spec in S2, S3. split; [apply S3|apply S2].
  - rewrite concat_flat in A by assumption. exact (accepted_flat _ _ _ _ A).
Qed.

(* every accepted step yields a valid column list again, distinct and non-empty: whatever a builder accepts is the column list
   it was given or has passed `finish` *)
Definition valid_result (r : result) : Prop := forall c, r = Accept c -> NoDup c /\ c <> [].

Lemma valid_accept c : NoDup c /\ c <> [] -> valid_result (Accept c).
Proof. intros V c' [= <-]. exact V. Qed.
Lemma valid_reject : valid_result Reject.
Proof. intros c E. discriminate E. Qed.
Lemma valid_finish X : valid_result (finish X).
Proof. intros c F. apply finish_accept in F. destruct F as [-> [A B]]. tauto. Qed.
Lemma valid_if (b : bool) r1 r2 : valid_result r1 -> valid_result r2 -> valid_result (if b then r1 else r2).
Proof. destruct b; tauto. Qed.
Lemma valid_after_finish X (k : list string -> result) :
  (forall c, NoDup c /\ c <> [] -> valid_result (k c)) -> valid_result (match finish X with Reject => Reject | Accept c => k c end).
Proof. intros H. destruct (finish X) as [|c] eqn:F; [apply valid_reject|]. apply H, (valid_finish X c F). Qed.

Local Hint Resolve valid_accept valid_reject valid_finish valid_if : valid.

Lemma accept_valid s c : build_step T cols s = Accept c -> NoDup c /\ c <> [].
Proof.
  revert c. change (valid_result (build_step T cols s)).
  assert (valid_result (Accept cols)) as Vc by (apply valid_accept; tauto).
  destruct s as [ops part order rev|ops group|e|cs|cs|m|m|cs rev limit|b on jt check|b idc]; unfold build_step, apply_step.
  - unfold do_extend. cbn [extend_parsed declared]. unfold extend_node. auto 12 with valid.
  - unfold do_project. cbn [project_parsed declared]. unfold project_node. do 6 (apply valid_if; [apply valid_reject|]).
    apply valid_after_finish. auto with valid.
  - cbn [do_select_rows declared]. unfold select_rows_node. auto with valid.
  - cbn [do_select_cols declared]. unfold select_node. auto 8 with valid.
  - cbn [do_drop_cols declared]. unfold drop_node. auto with valid.
  - cbn [do_rename declared]. unfold rename_node. auto with valid.
  - cbn [do_map declared]. unfold map_node. auto with valid.
  - cbn [do_order declared]. unfold order_node. auto with valid.
  - cbn [do_join declared]. unfold join_node. do 3 (apply valid_if; [apply valid_reject|]).
    apply valid_after_finish. auto with valid.
  - cbn [do_concat declared]. unfold concat_node. destruct idc; auto with valid.
Qed.
End Accept.
