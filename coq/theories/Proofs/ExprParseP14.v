(* Proofs/ExprParseP14.v -- C13, part 3: dict displays, unary minus, k-ary and two-argument operators, calls, and the
   round trip of every printable expression. *)
From Coq Require Import List Bool String Arith Lia.
Import ListNotations.
From DA Require Import Model.PyExpr Model.ExprPrint Model.ExprParse Model.ExprAst Model.ExprRoundtrip
  Proofs.ExprParseP1 Proofs.ExprParseP2 Proofs.ExprParseP9 Proofs.ExprParseP10 Proofs.ExprParseP12.
Local Open Scope string_scope.
Local Open Scope bool_scope.
Local Open Scope list_scope.

(* ------------------------------------------------------------------ dict_combine on distinct keys *)
Lemma pdict_set_fresh acc k v : existsb (fun a => py_eq k (fst a)) acc = false -> pdict_set acc k v = acc ++ [(k, v)].
Proof. induction acc as [|[k' v'] acc IH]; intros H; [reflexivity|]. cbn [existsb fst] in H. apply orb_false_elim in H as [H1 H2].
  cbn [pdict_set app]. rewrite H1, (IH H2). reflexivity. Qed.

Lemma dict_combine_singles : forall kvs acc,
  distinct_keys kvs = true ->
  (forall kv, In kv kvs -> existsb (fun a => py_eq (fst kv) (fst a)) acc = false) ->
  existsb (fun kv => pval_eqb (fst kv) PNone) kvs = false ->
  dict_combine acc (map (fun kv => EDict [kv]) kvs) = Some (acc ++ kvs).
Proof. induction kvs as [|[k v] kvs IH]; intros acc Hd Hf Hn; [simpl; rewrite app_nil_r; reflexivity|].
  cbn [distinct_keys] in Hd. apply andb_prop in Hd as [Hd1 Hd2]. apply negb_true_iff in Hd1.
  cbn [existsb fst] in Hn. apply orb_false_elim in Hn as [Hn1 Hn2].
  cbn [map dict_combine existsb fst]. rewrite Hn1. cbn [orb fold_left fst snd].
  rewrite (pdict_set_fresh acc k v (Hf (k, v) (or_introl eq_refl))).
  rewrite (IH (acc ++ [(k, v)]) Hd2); [rewrite <- app_assoc; reflexivity| |exact Hn2].
  intros kv Hkv. rewrite existsb_app. rewrite (Hf kv (or_intror Hkv)). cbn [existsb fst orb].
  rewrite orb_false_r. destruct (py_eq (fst kv) k) eqn:E; [|reflexivity].
  rewrite <- Hd1. symmetry. apply existsb_exists. exists kv. split; [exact Hkv|exact E]. Qed.

Section RT.
Variables (c : cfg) (dd : list string).

Lemma walk_key_value k v : is_inf k = false -> is_inf v = false ->
  walk c dd (LNode "key_value" [strip (dval k); strip (dval v)]) = Ok (EDict [(k, v)]).
Proof. intros Hk Hv. rewrite walk_node_eq, wn_key_value. cbn [map]. rewrite (walk_dval c dd k Hk), (walk_dval c dd v Hv). reflexivity. Qed.

Lemma rt_dict kvs : printable c dd (EDict kvs) = true -> rt_ok c dd (EDict kvs).
Proof. cbn [printable]. intros H. apply andb_prop in H as [H Hcv]. apply andb_prop in H as [H Hck]. apply andb_prop in H as [H Hd].
  apply andb_prop in H as [H Hn]. apply andb_prop in H as [Hne Hi]. apply negb_true_iff in Hi. apply negb_true_iff in Hn.
  assert (Hinf : forall kv, In kv kvs -> is_inf (fst kv) = false /\ is_inf (snd kv) = false).
  { intros kv Hkv. apply orb_false_elim. destruct (is_inf (fst kv) || is_inf (snd kv)) eqn:E; [|reflexivity].
    exfalso. assert (X : existsb (fun kv0 => is_inf (fst kv0) || is_inf (snd kv0)) kvs = true).
    { apply existsb_exists. exists kv. split; [exact Hkv|exact E]. }
    rewrite Hi in X. discriminate X. }
  constructor.
  - intros want. cbn [dtree_of to_py unparse fst]. rewrite commas_join, !map_map. cbn [fst snd].
    rewrite (map_ext (fun x : pval * pval => unparse (dval (fst x)) ++ TSym ":" :: unparse (dval (snd x)))
                     (fun kv => val_toks (fst kv) ++ TSym ":" :: val_toks (snd kv))); [reflexivity|].
    intros kv. rewrite !unparse_dval. reflexivity.
  - intros want. cbn [dtree_of wfn]. rewrite andb_true_r. rewrite forallb_forall. intros x Hx.
    apply in_map_iff in Hx as [kv [<- _]]. cbn [fst snd]. rewrite !wfn_dval. reflexivity.
  - intros want. cbn [dtree_of]. destruct kvs as [|kv0 kvs']; [discriminate Hne|].
    remember (kv0 :: kvs') as l.
    assert (Es : strip (DDict (map (fun kv => (dval (fst kv), dval (snd kv))) l) false)
                 = LNode "dict" [LNode "dict_comp" (map (fun kv => LNode "key_value" [strip (dval (fst kv)); strip (dval (snd kv))]) l)]).
    { subst l. cbn [map strip fst snd]. rewrite map_map. reflexivity. }
    rewrite Es. rewrite walk_node_eq, wn_dict. rewrite map_map.
    rewrite (all_ok_map_Ok _ (fun kv => EDict [kv])).
    2:{ intros [k v] Hkv. destruct (Hinf _ Hkv) as [Hk Hv]. apply walk_key_value; assumption. }
    rewrite (dict_combine_singles l [] Hd); [|intros; reflexivity|exact Hn].
    cbn [app]. rewrite Hck, Hcv. reflexivity. Qed.

(* ---- unary minus *)
Lemma rt_unary op m p a : printable c dd (EOp op true m p [a]) = true -> rt_ok c dd a -> rt_ok c dd (EOp op true m p [a]).
Proof. cbn [printable]. intros H Ra. apply andb_prop in H as [H Hx]. apply andb_prop in H as [Hp _].
  destruct p as [l|]; [discriminate Hp|]. clear Hp.
  apply andb_prop in Hx as [Hx Hy]. apply andb_prop in Hx as [Hm Hk]. apply negb_true_iff in Hm. subst m.
  apply andb_prop in Hy as [Hy Hv]. apply andb_prop in Hy as [Ho Ht]. apply String.eqb_eq in Ho. subst op.
  apply negb_true_iff in Hv.
  constructor.
  - intros want. rewrite dt_unary, tp_unary, unparse_par_when. cbn [unparse]. rewrite (rt_unparse c dd a Ra false).
    destruct want; reflexivity.
  - intros want. rewrite dt_unary, wfn_par_when. cbn [wfn]. exact (rt_wfn c dd a Ra false).
  - intros want. rewrite dt_unary, strip_par_when. cbn [strip]. rewrite walk_node_eq, wn_factor. cbn [map tok_text].
    rewrite (rt_walk c dd a Ra false). change (remap factor_remap "-") with "__neg__".
    unfold call_method. rewrite Ht. cbn [negb]. change (find_method "__neg__" method_table) with (Some MNeg). cbv iota beta.
    destruct a as [n|v|vs|kvs|o i m' p' args]; try discriminate Hv; try discriminate Ht;
      unfold uop_expr, mk_expr; cbn [is_none_value]; rewrite Hk; reflexivity. Qed.

(* ---- operands of an inline operator *)
Lemma operands_unparse op (xs : list expr) :
  (forall x, In x xs -> rt_ok c dd x) ->
  flat_map (fun p : string * dtree => TSym (fst p) :: unparse (snd p)) (map (fun x => (op, dtree_of true x)) xs)
  = flat_map (fun p => TSym op :: p) (map (fun x => fst (to_py true x)) xs).
Proof. induction xs as [|x xs IH]; intros H; [reflexivity|]. cbn [map flat_map fst snd].
  rewrite (rt_unparse c dd x (H x (or_introl eq_refl)) true), IH; [reflexivity|]. intros y Hy. apply H. right. exact Hy. Qed.

Lemma operands_wfn L op (xs : list expr) : L <= 9 -> is_binop_at L op = true ->
  (forall x, In x xs -> rt_ok c dd x) ->
  forallb (fun p : string * dtree => is_binop_at L (fst p) && at_least (S L) (snd p) && wfn (snd p))
          (map (fun x => (op, dtree_of true x)) xs) = true.
Proof. intros HL Ho H. rewrite forallb_forall. intros q Hq. apply in_map_iff in Hq as [x [<- Hx]]. cbn [fst snd].
  rewrite Ho, (rt_wfn c dd x (H x Hx) true), at_least_operand by lia. reflexivity. Qed.

Lemma operands_walk (xs : list expr) :
  (forall x, In x xs -> rt_ok c dd x) ->
  all_ok (map (walk c dd) (map (fun x => strip (dtree_of true x)) xs)) = Ok xs.
Proof. intros H. rewrite map_map. rewrite (all_ok_map_Ok _ (fun x => x)); [rewrite map_id; reflexivity|].
  intros x Hx. exact (rt_walk c dd x (H x Hx) true). Qed.

Lemma printable_inline_inv op m p args : printable c dd (EOp op true m p args) = true ->
  p = None /\ m = false /\ forallb (printable c dd) args = true /\ mem_str op (known c) = true.
Proof. cbn [printable]. intros H. apply andb_prop in H as [H Hx]. apply andb_prop in H as [Hp Ha].
  apply andb_prop in Hx as [Hx _]. apply andb_prop in Hx as [Hm Hk]. apply negb_true_iff in Hm.
  destruct p; [discriminate Hp|]. auto. Qed.

(* ---- k-ary + * and or: the node the walker rebuilds as one expression *)
Lemma walk_kop_node name op (ts : list ltree) t0 args :
  In name ["arith_expr"; "term"] -> mem_str op ["+"; "*"] = true -> ts <> [] ->
  all_ok (map (walk c dd) (t0 :: ts)) = Ok args ->
  walk c dd (LNode name (t0 :: inter op ts)) = mk_expr c op args true false.
Proof. intros Hn Ho Hne Hw. rewrite walk_node_eq, (wn_arith c name _ _ _ _ Hn).
  assert (Hlen : Nat.ltb (List.length (t0 :: inter op ts)) 3 || Nat.even (List.length (t0 :: inter op ts)) = false).
  { cbn [List.length]. rewrite length_inter. destruct ts as [|t ts]; [congruence|]. cbn [List.length].
    apply orb_false_intro; [apply Nat.ltb_ge; lia|]. rewrite Nat.even_succ, Nat.odd_mul. reflexivity. }
  rewrite Hlen. rewrite odds_inter, map_map. cbn [tok_text]. rewrite map_const_repeat.
  destruct ts as [|t ts]; [congruence|]. cbn [List.length]. rewrite (kopsel_repeat op _ Ho).
  rewrite evens_map, evens_inter, Hw. reflexivity. Qed.

Lemma walk_bool_node (is_or : bool) (ts : list ltree) t0 args : ts <> [] ->
  all_ok (map (walk c dd) (t0 :: ts)) = Ok args ->
  walk c dd (LNode (if is_or then "or_test" else "and_test") (t0 :: ts)) = mk_expr c (if is_or then "or" else "and") args true false.
Proof. intros Hne Hw. rewrite walk_node_eq, wn_bool, Hw. destruct ts; [congruence|reflexivity]. Qed.

Lemma rt_kop op m p a b more : printable c dd (EOp op true m p (a :: b :: more)) = true -> mem_str op kops = true ->
  (forall x, In x (a :: b :: more) -> rt_ok c dd x) -> rt_ok c dd (EOp op true m p (a :: b :: more)).
Proof. intros H Hk R. destruct (printable_inline_inv _ _ _ _ H) as [-> [-> [_ Hkn]]].
  destruct (kops_sym op Hk) as [Hsym Hpow].
  (* the level of the operator, and what the walker makes of a node of that level whose operators are all `op` *)
  assert (Hop : binop_level op <= 9 /\ is_binop_at (binop_level op) op = true /\ is_chain_level (binop_level op) = true
          /\ forall ts t0 args, ts <> [] -> all_ok (map (walk c dd) (t0 :: ts)) = Ok args ->
                walk c dd (LNode (level_name (binop_level op))
                                 (t0 :: if level_keeps (binop_level op) then inter op ts else ts))
                = mk_expr c op args true false).
  { apply mem_str_In in Hk. simpl in Hk.
    destruct Hk as [<-|[<-|[<-|[<-|[]]]]]; (split; [apply Nat.leb_le; reflexivity|split; [reflexivity|split; [reflexivity|]]]);
      intros ts t0 args.
    - apply (walk_kop_node "arith_expr" "+"); [simpl; tauto|reflexivity].
    - apply (walk_kop_node "term" "*"); [simpl; tauto|reflexivity].
    - apply (walk_bool_node false).
    - apply (walk_bool_node true). }
  destruct Hop as [HL [Hbin [Hcl Hnode]]].
  constructor.
  - intros want. rewrite (dt_chain want op false None a b more Hpow), tp_inline, unparse_par_when. cbn [unparse].
    rewrite (rt_unparse c dd a (R a (or_introl eq_refl)) true), operands_unparse; [|intros x Hx; apply R; right; exact Hx].
    rewrite (op_tok_sym op Hsym). cbn [map]. rewrite join_flat. destruct want; reflexivity.
  - intros want. rewrite (dt_chain want op false None a b more Hpow), wfn_par_when. cbn [wfn]. rewrite Hcl.
    rewrite (rt_wfn c dd a (R a (or_introl eq_refl)) true), at_least_operand by lia.
    rewrite (operands_wfn _ op (b :: more) HL Hbin); [reflexivity|intros x Hx; apply R; right; exact Hx].
  - intros want. rewrite (dt_chain want op false None a b more Hpow), strip_par_when. cbn [strip].
    rewrite map_map. cbn [fst snd]. rewrite mk_chain_ops by discriminate.
    rewrite (Hnode _ _ (a :: b :: more)); [unfold mk_expr; rewrite Hkn; reflexivity|discriminate|].
    exact (operands_walk (a :: b :: more) R). Qed.

(* ---- a node  operand op operand *)
Lemma walk_bin_arith name op sa sb a b :
  In name ["arith_expr"; "term"] -> mem_str op ["+"; "*"] = false ->
  walk c dd sa = Ok a -> walk c dd sb = Ok b ->
  walk c dd (LNode name [sa; LTok (TSym op); sb]) = call_method c (remap op_remap op) a [b].
Proof. intros Hn Ho Ha Hb. rewrite walk_node_eq, (wn_arith c name _ _ _ _ Hn).
  cbn [List.length Nat.ltb Nat.leb Nat.even orb map odds evens nth tok_text].
  unfold kopsel. cbn [all_some all_same forallb]. rewrite Ho. rewrite Ha, Hb. cbn [chain_fold]. reflexivity. Qed.

Lemma walk_bin_cmp op sa sb a b :
  walk c dd sa = Ok a -> walk c dd sb = Ok b ->
  walk c dd (LNode "comparison" [sa; LTok (TSym op); sb]) = call_method c (remap op_remap op) a [b].
Proof. intros Ha Hb. rewrite walk_node_eq, wn_comparison.
  cbn [List.length Nat.ltb Nat.leb Nat.even orb map odds evens nth tok_text].
  rewrite Ha, Hb. cbn [chain_fold]. reflexivity. Qed.

Lemma walk_power sa sb a b :
  walk c dd sa = Ok a -> walk c dd sb = Ok b ->
  walk c dd (LNode "power" [sa; sb]) = call_method c "__pow__" a [b].
Proof. intros Ha Hb. rewrite walk_node_eq, wn_power. cbn [List.length Nat.ltb Nat.leb map all_ok]. rewrite Ha, Hb.
  cbn [pow_fold]. destruct (call_method c "__pow__" a [b]); reflexivity. Qed.

Lemma rt_bin2 op m p a b : printable c dd (EOp op true m p [a; b]) = true -> mem_str op kops = false ->
  rt_ok c dd a -> rt_ok c dd b -> rt_ok c dd (EOp op true m p [a; b]).
Proof. intros H Hk Ra Rb. destruct (printable_inline_inv _ _ _ _ H) as [-> [-> [_ Hkn]]].
  cbn [printable] in H. rewrite Hk in H. apply andb_prop in H as [_ H]. apply andb_prop in H as [_ H].
  apply andb_prop in H as [H Hcall]. apply andb_prop in H as [Hmem _].
  apply res_expr_eqb_Ok in Hcall.
  pose proof (bin2_sym op Hmem) as Hsym.
  destruct (op ==s "**") eqn:Epow.
  - (* power *)
    apply String.eqb_eq in Epow. subst op.
    change (remap op_remap "**") with "__pow__" in Hcall.
    constructor.
    + intros want. rewrite dt_pow, tp_inline, unparse_par_when. cbn [unparse map join_with].
      rewrite (rt_unparse c dd a Ra true), (rt_unparse c dd b Rb true). destruct want; reflexivity.
    + intros want. rewrite dt_pow, wfn_par_when. cbn [wfn].
      rewrite (rt_wfn c dd a Ra true), (rt_wfn c dd b Rb true), !at_least_operand by lia. reflexivity.
    + intros want. rewrite dt_pow, strip_par_when. cbn [strip].
      rewrite (walk_power _ _ a b (rt_walk c dd a Ra true) (rt_walk c dd b Rb true)). exact Hcall.
  - (* the other eleven *)
    assert (Hlv : exists L, binop_level op = L /\ is_binop_at L op = true /\ is_chain_level L = true /\ L <= 9
                  /\ level_keeps L = true
                  /\ ((In (level_name L) ["arith_expr"; "term"] /\ mem_str op ["+"; "*"] = false) \/ level_name L = "comparison")).
    { apply mem_str_In in Hmem. simpl in Hmem.
      destruct Hmem as [<-|[<-|[<-|[<-|[<-|[<-|[<-|[<-|[<-|[<-|[<-|[<-|[]]]]]]]]]]]]]; try discriminate Epow;
        eexists; (split; [reflexivity|]); cbn; repeat split; try lia; try (left; split; [tauto|reflexivity]); try (right; reflexivity). }
    destruct Hlv as [L [HL [Hbin [Hcl [HL9 [Hkeep Hname]]]]]].
    constructor.
    + intros want. rewrite (dt_chain want op false None a b [] Epow), tp_inline, unparse_par_when. cbn [unparse map flat_map fst snd join_with].
      rewrite (rt_unparse c dd a Ra true), (rt_unparse c dd b Rb true), (op_tok_sym op Hsym), app_nil_r.
      destruct want; reflexivity.
    + intros want. rewrite (dt_chain want op false None a b [] Epow), wfn_par_when, HL. cbn [wfn map forallb fst snd].
      rewrite Hcl, Hbin, (rt_wfn c dd a Ra true), (rt_wfn c dd b Rb true), !at_least_operand by lia. reflexivity.
    + intros want. rewrite (dt_chain want op false None a b [] Epow), strip_par_when, HL. cbn [strip map fst snd].
      unfold mk_chain. rewrite Hkeep. cbn [flat_map fst snd app].
      destruct Hname as [[Hn Hnk]|Hn].
      * rewrite (walk_bin_arith _ op _ _ a b Hn Hnk (rt_walk c dd a Ra true) (rt_walk c dd b Rb true)). exact Hcall.
      * rewrite Hn, (walk_bin_cmp op _ _ a b (rt_walk c dd a Ra true) (rt_walk c dd b Rb true)). exact Hcall. Qed.

(* ---- calls *)
Lemma args_unparse (xs : list expr) : (forall x, In x xs -> rt_ok c dd x) ->
  map unparse (map (dtree_of false) xs) = map (fun x => fst (to_py false x)) xs.
Proof. intros H. rewrite map_map. apply map_ext_in. intros x Hx. exact (rt_unparse c dd x (H x Hx) false). Qed.

Lemma args_wfn (xs : list expr) : (forall x, In x xs -> rt_ok c dd x) -> forallb wfn (map (dtree_of false) xs) = true.
Proof. intros H. rewrite forallb_forall. intros d Hd. apply in_map_iff in Hd as [x [<- Hx]]. exact (rt_wfn c dd x (H x Hx) false). Qed.

Lemma args_walk (xs : list expr) : (forall x, In x xs -> rt_ok c dd x) ->
  all_ok (map (walk c dd) (map strip (map (dtree_of false) xs))) = Ok xs.
Proof. intros H. rewrite !map_map. rewrite (all_ok_map_Ok _ (fun x => x)); [rewrite map_id; reflexivity|].
  intros x Hx. exact (rt_walk c dd x (H x Hx) false). Qed.

(* the second child of a funccall node and what the walker makes of it *)
Definition args_node (ds : list dtree) : ltree :=
  match ds with [] => LNone | _ => LNode "arguments" (map strip ds) end.

Lemma call_args_node (xs : list expr) : (forall x, In x xs -> rt_ok c dd x) ->
  call_args [args_node (map (dtree_of false) xs)]
    (match args_node (map (dtree_of false) xs) with LNode _ acs => Some (map (walk c dd) acs) | _ => None end) = Ok xs.
Proof. intros H. destruct xs as [|x xs]; [reflexivity|]. cbn [map args_node call_args].
  exact (args_walk (x :: xs) H). Qed.

Lemma rt_method op p a0 rest : printable c dd (EOp op false true p (a0 :: rest)) = true ->
  (forall x, In x (a0 :: rest) -> rt_ok c dd x) -> rt_ok c dd (EOp op false true p (a0 :: rest)).
Proof. intros H R. cbn [printable] in H. apply andb_prop in H as [H Hx]. apply andb_prop in H as [Hp _].
  destruct p as [l|]; [discriminate Hp|]. clear Hp. apply andb_prop in Hx as [Hs Hcall]. apply andb_prop in Hs as [Hs Hdu].
  apply negb_true_iff in Hs. apply negb_true_iff in Hdu.
  apply res_expr_eqb_Ok in Hcall.
  pose proof (R a0 (or_introl eq_refl)) as R0.
  assert (Rr : forall x, In x rest -> rt_ok c dd x) by (intros x Hx; apply R; right; exact Hx).
  assert (Hrecv_u : unparse (recv_tree a0) = recv_toks a0).
  { unfold recv_tree, recv_toks. rewrite unparse_par_when, (rt_unparse c dd a0 R0 false). destruct (is_col a0); reflexivity. }
  assert (Hrecv_12 : dlvl (recv_tree a0) = 12).
  { unfold recv_tree. destruct a0; reflexivity. }
  constructor.
  - intros want. rewrite dt_method, tp_method. cbn [unparse]. rewrite Hrecv_u, (op_tok_name op Hs), commas_join, (args_unparse rest Rr).
    rewrite <- app_assoc. reflexivity.
  - intros want. rewrite dt_method. cbn [wfn]. unfold at_least. cbn [dlvl]. rewrite Hrecv_12. cbn [Nat.leb].
    unfold recv_tree. rewrite wfn_par_when, (rt_wfn c dd a0 R0 false), (args_wfn rest Rr). reflexivity.
  - intros want. rewrite dt_method.
    change (strip (DCall (DAttr (recv_tree a0) op) (map (dtree_of false) rest) false))
      with (LNode "funccall" [LNode "getattr" [strip (recv_tree a0); LTok (TName op)]; args_node (map (dtree_of false) rest)]).
    rewrite walk_node_eq, wn_funccall. cbn [List.length Nat.ltb Nat.leb map tok_text].
    change ("getattr" ==s "getattr") with true. cbv iota.
    unfold recv_tree at 1. rewrite strip_par_when, (rt_walk c dd a0 R0 false).
    rewrite (call_args_node rest Rr), Hdu. exact Hcall. Qed.

Lemma rt_fn op p args : printable c dd (EOp op false false p args) = true ->
  (forall x, In x args -> rt_ok c dd x) -> rt_ok c dd (EOp op false false p args).
Proof. intros H R. cbn [printable] in H. apply andb_prop in H as [H Hx]. apply andb_prop in H as [Hp _].
  destruct p as [l|]; [discriminate Hp|]. clear Hp. apply andb_prop in Hx as [Hs Hk]. apply negb_true_iff in Hs.
  constructor.
  - intros want. rewrite dt_fn, tp_fn. cbn [unparse]. rewrite (op_tok_name op Hs), commas_join, (args_unparse args R). reflexivity.
  - intros want. rewrite dt_fn. cbn [wfn]. rewrite (args_wfn args R). reflexivity.
  - intros want. rewrite dt_fn.
    change (strip (DCall (DName op) (map (dtree_of false) args) false))
      with (LNode "funccall" [LNode "var" [LTok (TName op)]; args_node (map (dtree_of false) args)]).
    rewrite walk_node_eq, wn_funccall. cbn [List.length Nat.ltb Nat.leb map tok_text].
    change ("var" ==s "getattr") with false. change (negb ("var" ==s "var")) with false. cbv iota.
    rewrite (call_args_node args R). unfold mk_expr. rewrite Hk. reflexivity. Qed.

(* ---- every printable expression *)
Lemma rt_all : forall e, printable c dd e = true -> rt_ok c dd e.
Proof. induction e as [e IH] using expr_size_ind. intros H.
  destruct e as [nm|v|vs|kvs|op i m p args].
  - apply rt_col. exact H.
  - apply rt_val. exact H.
  - apply rt_list. exact H.
  - apply rt_dict. exact H.
  - assert (R : forall x, In x args -> rt_ok c dd x).
    { intros x Hx. apply (IH x (esize_arg op i m p args x Hx)).
      cbn [printable] in H. apply andb_prop in H as [H _]. apply andb_prop in H as [_ Ha].
      rewrite forallb_forall in Ha. exact (Ha x Hx). }
    destruct i.
    + (* inline *)
      destruct args as [|a [|b more]].
      * cbn [printable] in H. rewrite !andb_false_r in H. discriminate H.
      * apply rt_unary; [exact H|apply R; left; reflexivity].
      * destruct (mem_str op kops) eqn:Hk; [apply rt_kop; assumption|].
        destruct more as [|x more].
        -- apply rt_bin2; [exact H|exact Hk|apply R; left; reflexivity|apply R; right; left; reflexivity].
        -- cbn [printable] in H. rewrite Hk in H. rewrite andb_false_r in H. cbn [andb] in H.
           rewrite !andb_false_r in H. discriminate H.
    + destruct m.
      * destruct args as [|a0 rest]; [cbn [printable] in H; rewrite !andb_false_r in H; discriminate H|].
        apply rt_method; assumption.
      * apply rt_fn; assumption. Qed.

Theorem printable_roundtrip e : printable c dd e = true -> is_term e = true -> parse c dd (to_python e) = Ok e.
Proof. intros H Ht. pose proof (rt_all e H) as R.
  unfold parse, to_python. rewrite <- (rt_unparse c dd e R false).
  rewrite (lark_of_unparse _ (rt_wfn c dd e R false)). unfold parse_tree. rewrite (rt_walk c dd e R false), Ht. reflexivity. Qed.

End RT.
