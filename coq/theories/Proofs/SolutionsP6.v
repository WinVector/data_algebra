(* C21, part 6: auxiliary facts for last_observed_carried_forward: the latest element of a list, counting with 0/1
   weights, strict monotonicity of counts, a left join with at most one match per row, set_cell as a map. *)
From Coq Require Import List QArith String Lia Permutation.
Import ListNotations.
From DA Require Import Base.PyRT Base.Val Model.Sem Model.Solutions
  Proofs.SolutionsP1 Proofs.SolutionsP3 Proofs.ListP Proofs.TabP.
Local Open Scope string_scope.
Local Open Scope list_scope.

Section Latest.
  Context {A : Type} (le : A -> A -> bool).
  Hypothesis le_total : forall a b, le a b = true \/ le b a = true.
  Hypothesis le_trans : forall a b c, le a b = true -> le b c = true -> le a c = true.
  Let step := (fun (best : option A) (c : A) => match best with None => Some c | Some b => if le b c then Some c else Some b end).

  Lemma latest_acc l : forall b, exists m, fold_left step l (Some b) = Some m /\ (m = b \/ In m l) /\ le b m = true /\ (forall y, In y l -> le y m = true).
  Proof. induction l as [|x l IH]; intros b.
    - exists b. split; [reflexivity|]. split; [left; reflexivity|]. split; [destruct (le_total b b); assumption|]. intros y [].
    - cbn [fold_left step]. destruct (le b x) eqn:E.
      + destruct (IH x) as [m [F [I [L M]]]]. exists m. split; [exact F|]. split; [right; destruct I as [->|I]; [left; reflexivity|right; exact I]|].
        split; [eapply le_trans; eassumption|]. intros y [<-|Iy]; [exact L|apply M, Iy].
      + destruct (IH b) as [m [F [I [L M]]]]. exists m. split; [exact F|]. split; [destruct I as [->|I]; [left; reflexivity|right; right; exact I]|].
        split; [exact L|]. intros y [<-|Iy]; [|apply M, Iy]. destruct (le_total b x) as [H|H]; [congruence|]. eapply le_trans; eassumption. Qed.
  Lemma latest_nil : latest le [] = None.
  Proof. reflexivity. Qed.
  Lemma latest_some l : l <> [] -> exists m, latest le l = Some m /\ In m l /\ (forall y, In y l -> le y m = true).
  Proof. destruct l as [|x l]; [congruence|]. intros _. unfold latest. cbn [fold_left]. destruct (latest_acc l x) as [m [F [I [L M]]]].
    exists m. split; [exact F|]. split; [destruct I as [->|I]; [left; reflexivity|right; exact I]|]. intros y [<-|Iy]; [exact L|apply M, Iy]. Qed.
  Lemma latest_none l : latest le l = None -> l = [].
  Proof. destruct l as [|x l]; [reflexivity|]. intros E. destruct (latest_some (x :: l)) as [m [Lm _]]; congruence. Qed.
End Latest.
Lemma latest_map {A B} (f : A -> B) (le : B -> B -> bool) l :
  latest le (map f l) = option_map f (latest (fun a b => le (f a) (f b)) l).
Proof. unfold latest. assert (forall acc, fold_left (fun best c => match best with None => Some c | Some b => if le b c then Some c else Some b end) (map f l) (option_map f acc)
    = option_map f (fold_left (fun best c => match best with None => Some c | Some b => if le (f b) (f c) then Some c else Some b end) l acc)) as G.
  { induction l as [|x l IH]; intros acc; [reflexivity|]. cbn [map fold_left]. rewrite <- IH. f_equal. destruct acc as [b|]; [|reflexivity]. cbn [option_map]. destruct (le (f b) (f x)); reflexivity. }
  apply (G None). Qed.

Lemma qsum_indicator {A} (p : A -> bool) (h : A -> Q) l : (forall y, In y l -> h y == if p y then 1 else 0) ->
  qsum (map h l) == inject_Z (Z.of_nat (List.length (filter p l))).
Proof. induction l as [|x l IH]; intros H; [reflexivity|]. cbn [map filter]. rewrite qsum_cons, (H x (or_introl eq_refl)), IH by (intros y I; apply H; right; exact I).
  destruct (p x); cbn [List.length]; [rewrite Nat2Z.inj_succ; unfold Z.succ; rewrite inject_Z_plus; ring|ring]. Qed.
Lemma filter_length_le {A} (p q : A -> bool) l : (forall y, In y l -> p y = true -> q y = true) -> (List.length (filter p l) <= List.length (filter q l))%nat.
Proof. induction l as [|x l IH]; intros H; [apply le_n|]. cbn [filter].
  assert (List.length (filter p l) <= List.length (filter q l))%nat as E by (apply IH; intros y I; apply H; right; exact I).
  pose proof (H x (or_introl eq_refl)) as Hx. destruct (p x), (q x); cbn [List.length]; try lia; try (specialize (Hx eq_refl); discriminate). Qed.
Lemma filter_length_lt {A} (p q : A -> bool) l z : (forall y, In y l -> p y = true -> q y = true) -> In z l -> p z = false -> q z = true ->
  (List.length (filter p l) < List.length (filter q l))%nat.
Proof. induction l as [|x l IH]; intros H I Pz Qz; [destruct I|]. cbn [filter].
  assert (forall y, In y l -> p y = true -> q y = true) as H' by (intros y Iy; apply H; right; exact Iy).
  pose proof (filter_length_le p q l H') as LE. pose proof (H x (or_introl eq_refl)) as Hx.
  destruct I as [->|I].
  - rewrite Pz, Qz. cbn [List.length]. lia.
  - specialize (IH H' I Pz Qz). destruct (p x), (q x); cbn [List.length]; try lia; try (specialize (Hx eq_refl); discriminate). Qed.
Lemma filter_singleton {A} (p : A -> bool) l x : NoDup l -> In x l -> p x = true -> (forall y, In y l -> p y = true -> y = x) -> filter p l = [x].
Proof. induction l as [|a l IH]; intros ND I Px U; [destruct I|]. inversion ND as [|? ? Na ND']; subst. cbn [filter]. destruct I as [->|I].
  - rewrite Px. f_equal. apply filter_none. intros y Iy. destruct (p y) eqn:E; [|reflexivity]. exfalso. apply Na. rewrite <- (U y (or_intror Iy) E). exact Iy.
  - destruct (p a) eqn:E; [exfalso; apply Na; rewrite (U a (or_introl eq_refl) E); exact I|]. apply IH; auto. intros y Iy. apply U. right. exact Iy. Qed.
Lemma existsb_filter {A} (p : A -> bool) l : existsb p l = negb (match filter p l with [] => true | _ => false end).
Proof. induction l as [|x l IH]; [reflexivity|]. cbn [existsb filter]. destruct (p x); [reflexivity|exact IH]. Qed.
Lemma flat_map_single_each {A B} (f : A -> list B) (g : A -> B) l : (forall a, In a l -> f a = [g a]) -> flat_map f l = map g l.
Proof. induction l as [|x l IH]; intros H; [reflexivity|]. cbn [flat_map map]. rewrite (H x (or_introl eq_refl)), IH; [reflexivity|]. intros a I. apply H. right. exact I. Qed.

Lemma left_join_one {I J} nm on_a on_b ca cb (FA : I -> list val) (FB : J -> list val) la lb (pick : I -> option J) :
  (forall i, In i la -> filter (fun j => keys_match nm (key_of ca on_a (FA i)) (key_of cb on_b (FB j))) lb
                        = match pick i with Some j => [j] | None => [] end) ->
  Permutation (rows (sem_join nm on_a on_b JLeft (mktable ca (map FA la)) (mktable cb (map FB lb))))
              (map (fun i => join_mk ca cb (ca ++ filter (fun c => negb (mem c ca)) cb) (Some (FA i)) (option_map FB (pick i))) la).
Proof. intros H. rewrite sem_join_left. cbn [cols rows]. rewrite app_nil_r, !flat_map_map.
  eapply perm_trans; [apply Permutation_sym, perm_flat_map_app|]. erewrite flat_map_single_each; [apply Permutation_refl|].
  intros i Ii. cbn beta. rewrite flat_map_map, flat_map_if, existsb_filter, filter_map_comm, (H i Ii). destruct (pick i); reflexivity. Qed.

Lemma set_nth_map (f : string -> val) v : forall cs i c, nth_error cs i = Some c -> NoDup cs ->
  set_nth i v (map f cs) = map (fun x => if String.eqb x c then v else f x) cs.
Proof. induction cs as [|x cs IH]; intros [|i] c E ND; simpl in *; try discriminate; inversion ND as [|? ? Nx ND']; subst.
  - inversion E; subst. rewrite String.eqb_refl. f_equal. apply map_ext_in. intros y Iy.
    destruct (String.eqb_spec y c) as [->|]; [contradiction|reflexivity].
  - assert (x <> c) as N by (intros ->; apply Nx; eapply nth_error_In, E).
    destruct (String.eqb_spec x c); [contradiction|]. f_equal. apply IH; assumption. Qed.
Lemma set_cell_as_map cs r k v : NoDup cs -> List.length r = List.length cs -> In k cs ->
  set_cell cs r k v = map (fun c => if String.eqb c k then v else get cs r c) cs.
Proof. intros ND L I. unfold set_cell. destruct (index_of_In k cs I) as [i E]. rewrite E.
  rewrite <- (get_map_self cs r ND L) at 1. apply set_nth_map; [eapply index_of_nth_error, E|exact ND]. Qed.

(* the two values of the where(0, 1) marker *)
Lemma vnat01_eq fl (b : bool) : truth (compare_vals fl CEq (if b then vnat 0 else vnat 1) (vnat 1)) = negb b.
Proof. destruct b; rewrite !vnat_eq; reflexivity. Qed.
Lemma qn_eqv_nat q1 q2 a b : q1 == inject_Z (Z.of_nat a) -> q2 == inject_Z (Z.of_nat b) -> v_eqv (qn q1) (qn q2) = Nat.eqb a b.
Proof. intros E1 E2. unfold qn, v_eqv, num_of. apply eq_true_iff_eq. rewrite Qeq_bool_iff, Nat.eqb_eq, !Qred_correct, E1, E2.
  unfold Qeq, inject_Z. simpl. lia. Qed.
