(* C09: row counts of project and of the steps that follow it *)
From Coq Require Import List Bool String.
Import ListNotations.
From DA Require Import Base.PyRT Base.Val Model.Sem Proofs.SemBasicP.

(* steps that work on columns only: they can overwrite, drop or rename every output of an earlier project *)
Inductive colstep :=
  | CExtend (ops : list (string * expr))
  | CWExtend (ops : list (string * expr)) (w : window)
  | CSelectCols (cs : list string)
  | CDropCols (cs : list string)
  | CRename (m : list (string * string))
  | CMapCols (m : list (string * string)) (dels : list string).

Definition apply_colstep (p : op) (s : colstep) : op :=
  match s with
  | CExtend ops => OExtend p ops false (mkwin [] [] [])
  | CWExtend ops w => OExtend p ops true w
  | CSelectCols cs => OSelectCols p cs
  | CDropCols cs => ODropCols p cs
  | CRename m => ORename p m
  | CMapCols m d => OMapCols p m d
  end.

Lemma colstep_row_count fl p s e t t' :
  sem_gen fl p e = Some t -> sem_gen fl (apply_colstep p s) e = Some t' -> List.length (rows t') = List.length (rows t).
Proof.
  intros H H'. destruct s; cbn [apply_colstep sem_gen] in H'; rewrite H in H'; cbn [option_map] in H'; inversion H' as [E]; clear H'.
  - apply extend_row_count.
  - apply wextend_row_count.
  - unfold sem_select_cols. cbn [rows]. apply map_length.
  - unfold sem_drop_cols, sem_select_cols. cbn [rows]. apply map_length.
  - reflexivity.
  - unfold sem_drop_cols, sem_select_cols, sem_rename. cbn [rows]. apply map_length.
Qed.

Lemma colsteps_undefined fl ss : forall p e, sem_gen fl p e = None -> sem_gen fl (fold_left apply_colstep ss p) e = None.
Proof.
  induction ss as [|s ss IH]; intros p e H; cbn [fold_left]; [exact H|].
  apply IH. destruct s; cbn [apply_colstep sem_gen]; rewrite H; reflexivity.
Qed.

Lemma colsteps_row_count fl p ss : forall e t t',
  sem_gen fl p e = Some t -> sem_gen fl (fold_left apply_colstep ss p) e = Some t' -> List.length (rows t') = List.length (rows t).
Proof.
  revert p. induction ss as [|s ss IH]; intros p e t t' H H'; cbn [fold_left] in H'.
  - rewrite H in H'. inversion H'. reflexivity.
  - destruct (sem_gen fl (apply_colstep p s) e) as [t1|] eqn:E1.
    + rewrite (IH _ e t1 t' E1 H'). eapply colstep_row_count; eassumption.
    + rewrite (colsteps_undefined fl ss _ e E1) in H'. discriminate.
Qed.

(* an ungrouped project returns exactly one row -- whatever its input (also empty), and whatever column steps follow *)
Lemma ungrouped_project_one_row fl src ops ss e t' :
  sem_gen fl (fold_left apply_colstep ss (OProject src ops [])) e = Some t' -> List.length (rows t') = 1%nat.
Proof.
  intros H'. destruct (sem_gen fl (OProject src ops []) e) as [t|] eqn:E.
  - rewrite (colsteps_row_count fl _ ss e t t' E H'). cbn [sem_gen] in E. destruct (sem_gen fl src e) as [u|]; [|discriminate].
    cbn [option_map] in E. inversion E. apply project_ungrouped_one_row.
  - rewrite (colsteps_undefined fl ss _ e E) in H'. discriminate.
Qed.

(* a grouped project returns one row per distinct key combination of its materialised input (null is a key value) *)
Lemma grouped_project_row_count fl src ops gb ss e u t' : gb <> [] ->
  sem_gen fl src e = Some u ->
  sem_gen fl (fold_left apply_colstep ss (OProject src ops gb)) e = Some t' ->
  List.length (rows t') = List.length (distinct_keys (map (key_of (cols u) gb) (rows u))).
Proof.
  intros N Hu H'.
  assert (sem_gen fl (OProject src ops gb) e = Some (sem_project fl ops gb u)) as E by (cbn [sem_gen]; rewrite Hu; reflexivity).
  rewrite (colsteps_row_count fl _ ss e _ t' E H'). apply project_grouped_row_count. exact N.
Qed.

(* distinct_keys really is "one per distinct combination": pairwise inequivalent, and every input key is represented *)
Lemma distinct_keys_spec ks :
  ForallOrdPairs (fun a b => keys_eqv a b = false) (distinct_keys ks)
  /\ (forall k, In k ks -> exists k', In k' (distinct_keys ks) /\ keys_eqv k' k = true)
  /\ (forall k, In k (distinct_keys ks) -> In k ks).
Proof. split; [apply distinct_keys_pairwise|split; [apply distinct_keys_complete|apply distinct_keys_sound]]. Qed.

(* windowed extend: every input row is kept, in place *)
Lemma windowed_extend_keeps_rows fl src ops w e u t :
  sem_gen fl src e = Some u -> sem_gen fl (OExtend src ops true w) e = Some t -> List.length (rows t) = List.length (rows u).
Proof. intros Hu H. cbn [sem_gen] in H. rewrite Hu in H. cbn [option_map] in H. inversion H. apply wextend_row_count. Qed.
