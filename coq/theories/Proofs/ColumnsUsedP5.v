(* C10, part 5: what columns_used() returns is closed under the per-node requests (so part 4 applies), also when node
   objects are shared; the end-to-end statements about perturbed inputs and about the narrowed rebuild. *)
From Coq Require Import List Bool QArith String Permutation.
Import ListNotations.
From DA Require Import Base.PyRT Base.Val Model.Sem Proofs.SemBasicP Model.ColumnsUsed
  Proofs.ColumnsUsedP1 Proofs.ColumnsUsedP2 Proofs.ColumnsUsedP3 Proofs.ColumnsUsedP4 Proofs.TabP Proofs.ListP.
Local Open Scope list_scope.

(* ------------------------------------------------------------------ records *)
Lemma rec_of_set_same {K} `{EqDec K} (d : list (K * list string)) k v : rec_of (dict_set d k v) k = v.
Proof. unfold rec_of. rewrite dict_get_set_same. reflexivity. Qed.
Lemma rec_of_set_other {K} `{EqDec K} (d : list (K * list string)) k k2 v : k2 <> k -> rec_of (dict_set d k v) k2 = rec_of d k2.
Proof. intros N. unfold rec_of. rewrite dict_get_set_other by exact N. reflexivity. Qed.

Definition tabs_le (t t' : list (string * list string)) : Prop := forall n c, In c (rec_of t n) -> In c (rec_of t' n).
Lemma tabs_le_refl t : tabs_le t t.
Proof. intros n c I. exact I. Qed.
Lemma tabs_le_trans a b c : tabs_le a b -> tabs_le b c -> tabs_le a c.
Proof. intros H1 H2 n x I. apply H2, H1, I. Qed.
Lemma tabs_le_set t n u : tabs_le t (dict_set t n (set_union (rec_of t n) u)).
Proof.
  intros n2 c I. destruct (string_dec n2 n) as [->|N].
  - rewrite rec_of_set_same. apply In_set_union. left. exact I.
  - rewrite rec_of_set_other by exact N. exact I.
Qed.

(* ------------------------------------------------------------------ tree-shaped pipelines *)
Lemma cu_tree_mono p : forall u t t', cu_tree p u t = Some t' -> tabs_le t t'.
Proof.
  induction p; intros u t t' H; cbn [cu_tree] in H; destruct (subset u _); try discriminate.
  1: { inversion H; subst. apply tabs_le_set. }
  1-8: exact (IHp _ _ _ H).
  all: destruct (cu_tree p1 _ t) as [t2|] eqn:E1; [|discriminate].
  all: exact (tabs_le_trans _ _ _ (IHp1 _ _ _ E1) (IHp2 _ _ _ H)).
Qed.

(* a table record only grows during the walk, so what the finished report contains was also asked of the leaf *)
Lemma covers_table F n cs u (t : list (string * list string)) :
  incl u cs -> (forall c, In c (rec_of (dict_set t n (set_union (rec_of t n) u)) n) -> In c (F n)) -> covers F (OTable n cs) u.
Proof.
  intros SB HF. split; [exact SB|]. intros c Hc. apply HF. rewrite rec_of_set_same. apply In_set_union. right. exact Hc.
Qed.

Lemma cu_tree_covers F p : forall u t t', cu_tree p u t = Some t' ->
  (forall n c, In c (rec_of t' n) -> In c (F n)) -> covers F p u.
Proof.
  induction p; intros u t t' H HF; cbn [cu_tree] in H; cbn [covers];
    destruct (subset u _) eqn:SB; try discriminate; pose proof (proj1 (subset_spec _ _) SB) as IU.
  1: { inversion H; subst. exact (covers_table F name tcols u t IU (HF name)). }
  all: exists u; split; [apply incl_refl|]; split; [exact IU|].
  1-8: exact (IHp _ _ _ H HF).
  all: destruct (cu_tree p1 _ t) as [t2|] eqn:E1; [|discriminate].
  all: split; [|exact (IHp2 _ _ _ H HF)].
  all: apply (IHp1 _ _ _ E1); intros n c I; apply HF; exact (cu_tree_mono _ _ _ _ H n c I).
Qed.

Lemma columns_used_tree_covers p cu : columns_used_tree p = Some cu -> covers (rec_of cu) p (column_names p).
Proof.
  unfold columns_used_tree. destruct (get_tables p) as [tb|]; [|discriminate]. intros H.
  eapply cu_tree_covers; [exact H|]. intros n c I. exact I.
Qed.

(* ------------------------------------------------------------------ shared node objects: records keyed by node id *)
Definition nodes_ok (cn : nat -> list string) (nd : list (nat * list string)) : Prop :=
  forall id c, In c (rec_of nd id) -> In c (cn id).

(* visiting node id with the request u: its record grows by u, stays within the node's columns and contains u *)
Lemma nodes_ok_visit cn nd id u :
  nodes_ok cn nd -> incl u (cn id) ->
  nodes_ok cn (dict_set nd id (set_union (rec_of nd id) u)) /\ incl u (set_union (rec_of nd id) u) /\ incl (set_union (rec_of nd id) u) (cn id).
Proof.
  intros N I. assert (incl (set_union (rec_of nd id) u) (cn id)) as IC.
  { intros c Hc. apply In_set_union in Hc. destruct Hc as [Hc|Hc]; [apply N, Hc|apply I, Hc]. }
  split; [|split; [intros c Hc; apply In_set_union; right; exact Hc|exact IC]].
  intros id2 c Hc. destruct (Nat.eq_dec id2 id) as [->|Ne].
  - rewrite rec_of_set_same in Hc. apply IC, Hc.
  - rewrite rec_of_set_other in Hc by exact Ne. apply N, Hc.
Qed.

Lemma cu_impl_mono p : forall i u st st', cu_impl p i u st = Some st' -> tabs_le (st_tabs st) (st_tabs st').
Proof.
  induction p; intros [id kids] u st st' H; cbn [cu_impl] in H; destruct (subset u _); try discriminate.
  1: { inversion H; subst. apply tabs_le_set. }
  1-8: destruct kids as [|k [|? ?]]; try discriminate; exact (IHp _ _ _ _ H).
  all: destruct kids as [|ka [|kb [|? ?]]]; try discriminate.
  all: destruct (cu_impl p1 ka _ _) as [st2|] eqn:E1; [|discriminate].
  all: exact (tabs_le_trans _ _ _ (IHp1 _ _ _ _ E1) (IHp2 _ _ _ _ H)).
Qed.

(* every inner node is covered with u' := its record after the visit; the eight one-source nodes go alike, and so do
   the two two-source nodes, where the first source's report is below the final one by monotonicity *)
Lemma cu_impl_covers cn F p : forall i u st st', cu_impl p i u st = Some st' -> ids_ok cn p i -> nodes_ok cn (st_nodes st) ->
  nodes_ok cn (st_nodes st') /\ ((forall n c, In c (rec_of (st_tabs st') n) -> In c (F n)) -> covers F p u).
Proof.
  induction p; intros [id kids] u st st' H IO NO; cbn [cu_impl] in H; cbn [ids_ok] in IO; cbn [covers];
    destruct (subset u _) eqn:SB; try discriminate; pose proof (proj1 (subset_spec _ _) SB) as IU.
  1: { inversion H; subst. split; [exact NO|]. intros HF. exact (covers_table F name tcols u _ IU (HF name)). }
  all: destruct IO as [CN IO]; rewrite <- CN in IU |- *.
  all: destruct (nodes_ok_visit cn _ id u NO IU) as [NO1 [I1 I2]].
  1-8: destruct kids as [|k [|? ?]]; try discriminate; try contradiction.
  1-8: destruct (IHp _ _ _ _ H IO NO1) as [N' CV].
  1-8: split; [exact N'|]; intros HF; eexists; split; [exact I1|]; split; [exact I2|exact (CV HF)].
  all: destruct kids as [|ka [|kb [|? ?]]]; try discriminate; try contradiction.
  all: destruct IO as [IOa IOb]; destruct (cu_impl p1 ka _ _) as [st2|] eqn:E1; [|discriminate].
  all: destruct (IHp1 _ _ _ _ E1 IOa NO1) as [N2 CVa]; destruct (IHp2 _ _ _ _ H IOb N2) as [N' CVb].
  all: split; [exact N'|]; intros HF; eexists; split; [exact I1|]; split; [exact I2|]; split; [|exact (CVb HF)].
  all: apply CVa; intros n c I; apply HF; exact (cu_impl_mono _ _ _ _ _ H n c I).
Qed.

Lemma columns_used_using_covers cn p i ou cu : columns_used_using p i ou = Some cu -> ids_ok cn p i ->
  covers (rec_of cu) p (match ou with Some u => u | None => column_names p end).
Proof.
  unfold columns_used_using. destruct (get_tables p) as [tb|]; [|discriminate].
  destruct (cu_impl p i _ _) as [st'|] eqn:E; [|discriminate]. cbn [option_map]. intros [= <-] IO.
  destruct (cu_impl_covers cn (rec_of (st_tabs st')) p _ _ _ _ E IO) as [_ CV]; [intros id c Hc; destruct Hc|].
  apply CV. intros n c I. exact I.
Qed.

Lemma columns_used_covers cn p i cu : columns_used p i = Some cu -> ids_ok cn p i -> covers (rec_of cu) p (column_names p).
Proof. intros H IO. exact (columns_used_using_covers cn p i None cu H IO). Qed.

Lemma ids_okb_ok cn p : forall i, ids_okb cn p i = true -> ids_ok cn p i.
Proof.
  induction p; intros [id kids] H; cbn [ids_okb] in H; cbn [ids_ok]; [exact I|..].
  all: apply andb_true_iff in H; destruct H as [H1 H2]; split; [apply eqb_true, H1|].
  1-8: destruct kids as [|k [|? ?]]; try discriminate; exact (IHp _ H2).
  all: destruct kids as [|ka [|kb [|? ?]]]; try discriminate.
  all: apply andb_true_iff in H2; destruct H2 as [Ha Hb]; exact (conj (IHp1 _ Ha) (IHp2 _ Hb)).
Qed.

(* ------------------------------------------------------------------ equal tables from agreement on every column *)

Lemma agree_full_eq T T' : cols T = cols T' -> NoDup (cols T) -> width_ok T -> width_ok T' -> agree (cols T) T T' -> T = T'.
Proof.
  destruct T as [cs rs], T' as [cs' rs']. unfold width_ok, agree. cbn [cols rows]. intros <- N W W' [_ [_ C]]. f_equal.
  induction C as [|r r' l l' R _ IH]; [reflexivity|]. inversion W; inversion W'; subst. f_equal; [|apply IH; assumption].
  apply (row_ext cs); assumption.
Qed.

Lemma narrow_all p : narrow (fun _ _ => true) p = p.
Proof. induction p; cbn [narrow]; rewrite ?filter_all, ?IHp, ?IHp1, ?IHp2 by reflexivity; reflexivity. Qed.

(* FIRST SENTENCE of the property, for any report closed under the per-node requests *)
Theorem covers_sound fl (F : string -> list string) p e e' :
  builder_ok p = true -> covers F p (column_names p) -> env_agree F e e' -> sem_gen fl p e = sem_gen fl p e'.
Proof.
  intros OK CV EA.
  pose proof (covers_agree F (fun _ _ => true) (fun _ _ _ => eq_refl) fl e e' EA p (column_names p) OK CV) as H.
  rewrite narrow_all in H. destruct (sem_gen fl p e) as [T|] eqn:E1, (sem_gen fl p e') as [T'|] eqn:E2; cbn [out_agree] in H; try contradiction; [|reflexivity].
  f_equal. pose proof (sem_cols _ _ _ _ E1) as C1. pose proof (sem_cols _ _ _ _ E2) as C2.
  apply agree_full_eq; [congruence|rewrite C1; apply builder_ok_nodup, OK|exact (sem_rows_width _ _ _ _ E1)|exact (sem_rows_width _ _ _ _ E2)|].
  rewrite C1. exact H.
Qed.

(* ------------------------------------------------------------------ the narrowed rebuild on restricted inputs *)
(* the same relation: same column set, as many rows, row by row the same cell under every column name *)
Definition table_equiv (T T' : table) : Prop :=
  (forall c, In c (cols T) <-> In c (cols T')) /\
  Forall2 (fun r r' => forall c, get (cols T) r c = get (cols T') r' c) (rows T) (rows T').

Lemma dict_get_restrict_env cu e n : dict_get (restrict_env cu e) n = option_map (restrict_table (rec_of cu n)) (dict_get e n).
Proof.
  unfold restrict_env. induction e as [|[k t] rest IH]; simpl; [reflexivity|].
  destruct (eq_dec n k) as [->|Ne]; [reflexivity|exact IH].
Qed.

Lemma F2_map_right {A B} (R : A -> B -> Prop) (g : A -> B) l : (forall x, R x (g x)) -> Forall2 R l (map g l).
Proof. intros H. induction l; simpl; constructor; auto. Qed.

Lemma input_agree_restrict U t : input_agree U t (restrict_table U t).
Proof.
  unfold input_agree, restrict_table, sem_select_cols. cbn [cols rows]. apply F2_map_right. intros r c Hc.
  rewrite get_map_cols, mem_filter. assert (mem c U = true) as -> by (apply mem_In, Hc). simpl. symmetry. apply guard_get.
Qed.

Lemma env_agree_restrict cu e : env_agree (rec_of cu) e (restrict_env cu e).
Proof.
  intros n. rewrite dict_get_restrict_env. destruct (dict_get e n) as [t|]; cbn [option_map]; [|exact I]. apply input_agree_restrict.
Qed.

Definition out_equiv (o o' : option table) : Prop :=
  match o, o' with Some T, Some T' => table_equiv T T' /\ NoDup (cols T) | None, None => True | _, _ => False end.

(* SECOND SENTENCE, semantic part: in the reference semantics the narrowed pipeline on the restricted inputs computes
   the same table (columns possibly in another order), for any report closed under the per-node requests *)
Theorem covers_narrow_sound fl cu p e :
  builder_ok p = true -> covers (rec_of cu) p (column_names p) ->
  out_equiv (sem_gen fl p e) (sem_gen fl (narrow_to cu p) (restrict_env cu e)).
Proof.
  intros OK CV.
  assert (forall n c, In c (rec_of cu n) -> keep_of cu n c = true) as KR by (intros n c I; unfold keep_of; apply mem_In, I).
  pose proof (covers_agree (rec_of cu) (keep_of cu) KR fl e (restrict_env cu e) (env_agree_restrict cu e) p (column_names p) OK CV) as H.
  unfold narrow_to. destruct (sem_gen fl p e) as [T|] eqn:E1, (sem_gen fl (narrow (keep_of cu) p) (restrict_env cu e)) as [T'|] eqn:E2;
    cbn [out_agree] in H; try contradiction; cbn [out_equiv]; [|exact I].
  pose proof (sem_cols _ _ _ _ E1) as C1. split; [|rewrite C1; apply builder_ok_nodup, OK].
  apply agree_all_columns. rewrite C1. exact H.
Qed.

(* SECOND SENTENCE as the property states it: IF the builders accept the narrowed rebuild, it computes the same table;
   both column lists are then duplicate free, so they are permutations of each other *)
Definition out_same (o o' : option table) : Prop :=
  match o, o' with Some T, Some T' => table_equiv T T' /\ Permutation (cols T) (cols T') | None, None => True | _, _ => False end.

Theorem covers_narrow_sound_guarded fl cu p e :
  builder_ok p = true -> covers (rec_of cu) p (column_names p) -> builder_ok (narrow_to cu p) = true ->
  out_same (sem_gen fl p e) (sem_gen fl (narrow_to cu p) (restrict_env cu e)).
Proof.
  intros OK CV OK'. pose proof (covers_narrow_sound fl cu p e OK CV) as H.
  destruct (sem_gen fl p e) as [T|] eqn:E1, (sem_gen fl (narrow_to cu p) (restrict_env cu e)) as [T'|] eqn:E2;
    cbn [out_equiv] in H; try contradiction; cbn [out_same]; [|exact I].
  destruct H as [[EQ R] N]. split; [split; assumption|].
  apply NoDup_Permutation; [exact N| |exact EQ].
  rewrite (sem_cols _ _ _ _ E2). apply builder_ok_nodup, OK'.
Qed.

(* ------------------------------------------------------------------ the statements of Props/C10.v *)
Lemma cu_sound fl p ids cn cu e e' :
  builder_ok p = true -> ids_ok cn p ids -> columns_used p ids = Some cu ->
  (forall name, match dict_get e name, dict_get e' name with
                | Some t, Some t' => input_agree (rec_of cu name) t t'
                | None, None => True
                | _, _ => False
                end) ->
  sem_gen fl p e = sem_gen fl p e'.
Proof. intros OK IO CU EA. exact (covers_sound fl (rec_of cu) p e e' OK (columns_used_covers cn p ids cu CU IO) EA). Qed.

Lemma cu_using_sound fl p ids cn u cu e e' :
  builder_ok p = true -> ids_ok cn p ids -> columns_used_using p ids (Some u) = Some cu ->
  env_agree (rec_of cu) e e' -> out_agree u (sem_gen fl p e) (sem_gen fl p e').
Proof.
  intros OK IO CU EA.
  pose proof (covers_agree (rec_of cu) (fun _ _ => true) (fun _ _ _ => eq_refl) fl e e' EA p u OK
                (columns_used_using_covers cn p ids (Some u) cu CU IO)) as H.
  rewrite narrow_all in H. exact H.
Qed.

Lemma cu_tree_sound fl p cu e e' :
  builder_ok p = true -> columns_used_tree p = Some cu -> env_agree (rec_of cu) e e' -> sem_gen fl p e = sem_gen fl p e'.
Proof. intros OK CU EA. exact (covers_sound fl (rec_of cu) p e e' OK (columns_used_tree_covers p cu CU) EA). Qed.

Lemma cu_narrow_meaning fl p ids cn cu e :
  builder_ok p = true -> ids_ok cn p ids -> columns_used p ids = Some cu ->
  out_equiv (sem_gen fl p e) (sem_gen fl (narrow_to cu p) (restrict_env cu e)).
Proof. intros OK IO CU. exact (covers_narrow_sound fl cu p e OK (columns_used_covers cn p ids cu CU IO)). Qed.

Lemma cu_narrow_sound fl p ids cn cu e :
  builder_ok p = true -> ids_ok cn p ids -> columns_used p ids = Some cu -> builder_ok (narrow_to cu p) = true ->
  out_same (sem_gen fl p e) (sem_gen fl (narrow_to cu p) (restrict_env cu e)).
Proof. intros OK IO CU OK'. exact (covers_narrow_sound_guarded fl cu p e OK (columns_used_covers cn p ids cu CU IO) OK'). Qed.

Local Open Scope string_scope.
Local Open Scope list_scope.
(* the witness of the rebuild defect: t[x,y,z].drop_columns([y]).extend({w: x + 1}).select_columns([w]) *)
Definition narrow_witness : op :=
  OSelectCols (OExtend (ODropCols (OTable "t" ["x"; "y"; "z"]) ["y"])
                       [("w", EOp "+" [ECol "x"; EConst (VNum 1)])] false (mkwin [] [] []))
              ["w"].
Definition narrow_witness_ids : idt := IdT 0 [IdT 1 [IdT 2 [IdT 3 []]]].
Lemma narrow_rebuild_refuted :
  exists (p : op) (ids : idt) (cu : list (string * list string)),
    builder_ok p = true /\ ids_ok (cn_of p ids) p ids /\ columns_used p ids = Some cu /\ cu = [("t", ["x"])] /\
    builder_ok (narrow_to cu p) = false.
Proof.
  exists narrow_witness, narrow_witness_ids, [("t", ["x"])].
  split; [vm_compute; reflexivity|]. split; [apply ids_okb_ok; vm_compute; reflexivity|].
  split; [vm_compute; reflexivity|]. split; [reflexivity|vm_compute; reflexivity].
Qed.
