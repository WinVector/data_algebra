(* C26 -- the verdict on a step does not depend on how the prefix was simplified:
   apply_step on the prefix as the builder sees it (skipping order_rows without limit, collapsing select_columns after
   select/drop, merging extends through the REGENERATED try_to_merge_ops) = build_step on the prefix's declared columns. *)
From Coq Require Import List Bool String .
Import ListNotations.
From DA Require Import Base.PyRT Model.Extend Gen.G_MergeOps Model.Builder Model.BuilderSpec Proofs.MergeOpsP Proofs.BuilderP.

Lemma wf_prefix_valid T p : wf_prefix T p -> NoDup (declared p) /\ declared p <> [].
Proof.
  induction p as [cols|src IH l|src IH cs|src IH cs|src IH ops np nw no nr]; simpl.
  - tauto.
  - exact IH.
  - tauto.
  - intros [W NE]. split; [apply NoDup_filter; apply IH; exact W|exact NE].
  - intros [W [Nk _]]. destruct (IH W) as [N NE]. split; [apply NoDup_app_new; assumption|apply app_not_nil_l, NE].
Qed.

(* ------------------------------------------------------------------ steps that only skip a trivial node *)
Lemma project_parsed_indep T p ops group : project_parsed T p ops group = project_parsed T (PNode (declared p)) ops group.
Proof.
  induction p as [cols|src IH l|src IH cs|src IH cs|src IH o np nw no nr]; try reflexivity.
  destruct l as [n|]; [reflexivity|]. cbn [project_parsed declared]. rewrite IH. cbn [project_parsed declared].
  destruct (negb (wcg (declared src) group)); [reflexivity|].
  destruct (negb (nonempty ops) && negb (nonempty group)); [reflexivity|].
  destruct (negb (disjointb (keys ops) group)); reflexivity.
Qed.

Lemma select_rows_indep p e : do_select_rows p e = do_select_rows (PNode (declared p)) e.
Proof.
  induction p as [cols|src IH l|src IH cs|src IH cs|src IH o np nw no nr]; try reflexivity.
  destruct l as [n|]; [reflexivity|]. cbn [do_select_rows declared]. rewrite IH. reflexivity.
Qed.

Lemma drop_cols_indep p cs : do_drop_cols p cs = do_drop_cols (PNode (declared p)) cs.
Proof.
  induction p as [cols|src IH l|src IH cs0|src IH cs0|src IH o np nw no nr]; try reflexivity.
  destruct l as [n|]; [reflexivity|]. cbn [do_drop_cols declared]. rewrite IH. cbn [do_drop_cols declared].
  destruct (negb (nonempty cs)); reflexivity.
Qed.

Lemma rename_indep p m : do_rename p m = do_rename (PNode (declared p)) m.
Proof.
  induction p as [cols|src IH l|src IH cs0|src IH cs0|src IH o np nw no nr]; try reflexivity.
  destruct l as [n|]; [reflexivity|]. cbn [do_rename declared]. rewrite IH. cbn [do_rename declared].
  destruct (negb (nonempty m)); reflexivity.
Qed.

Lemma map_indep p m : do_map p m = do_map (PNode (declared p)) m.
Proof.
  induction p as [cols|src IH l|src IH cs0|src IH cs0|src IH o np nw no nr]; try reflexivity.
  destruct l as [n|]; [reflexivity|]. cbn [do_map declared]. rewrite IH. cbn [do_map declared].
  destruct (negb (nonempty m)); reflexivity.
Qed.

Lemma order_indep p cs rev limit : do_order p cs rev limit = do_order (PNode (declared p)) cs rev limit.
Proof.
  induction p as [cols|src IH l|src IH cs0|src IH cs0|src IH o np nw no nr]; try reflexivity.
  destruct l as [n|]; [reflexivity|]. cbn [do_order declared]. rewrite IH. cbn [do_order declared].
  destruct (negb (nonempty cs) && match limit with None => true | Some _ => false end); reflexivity.
Qed.

Lemma join_indep p b on jt check : do_join p b on jt check = do_join (PNode (declared p)) b on jt check.
Proof.
  induction p as [cols|src IH l|src IH cs0|src IH cs0|src IH o np nw no nr]; try reflexivity.
  destruct l as [n|]; [reflexivity|]. cbn [do_join declared]. rewrite IH. reflexivity.
Qed.

Lemma concat_indep p b idc : do_concat p b idc = do_concat (PNode (declared p)) b idc.
Proof.
  induction p as [cols|src IH l|src IH cs0|src IH cs0|src IH o np nw no nr]; try reflexivity.
  destruct l as [n|]; [reflexivity|]. cbn [do_concat declared]. rewrite IH. reflexivity.
Qed.

(* ------------------------------------------------------------------ select_columns after select / drop *)
Lemma select_cols_indep T p cs : wf_prefix T p -> do_select_cols p cs = do_select_cols (PNode (declared p)) cs.
Proof.
  induction p as [cols|src IH l|src IH cs0|src IH cs0|src IH o np nw no nr]; intros W; try reflexivity.
  - destruct l as [n|]; [reflexivity|]. cbn [do_select_cols declared]. simpl in W. rewrite (IH W). cbn [do_select_cols declared].
    destruct (negb (nonempty cs)); [reflexivity|]. destruct (negb (subset cs (declared src))); reflexivity.
  - simpl in W. destruct W as [W [N0 [NE0 S0]]]. cbn [do_select_cols declared]. rewrite (IH W). cbn [do_select_cols declared].
    destruct (nonempty cs) eqn:NE; cbn [negb]; [|reflexivity].
    destruct (subset cs cs0) eqn:S; cbn [negb]; [|reflexivity].
    assert (subset cs (declared src) = true) as S'.
    { apply subset_spec. intros c I. apply S0. rewrite subset_spec in S. auto. }
    rewrite S'. cbn [negb]. unfold select_node. rewrite NE, S, S'. reflexivity.
  - simpl in W. destruct W as [W NE0]. cbn [do_select_cols declared]. rewrite (IH W). cbn [do_select_cols declared].
    destruct (nonempty cs) eqn:NE; cbn [negb]; [|reflexivity].
    destruct (subset cs (filter (notin cs0) (declared src))) eqn:S; cbn [negb]; [|reflexivity].
    assert (subset cs (declared src) = true) as S'.
    { apply subset_spec. intros c I. rewrite subset_spec in S. specialize (S c I). apply filter_In in S. tauto. }
    rewrite S'. cbn [negb]. unfold select_node. rewrite NE, S, S'. reflexivity.
Qed.

(* ------------------------------------------------------------------ extend: skipping and merging *)
Definition node_conform (T : tables) (src : list string) (ops : assignments) (part : pspec) (order rev : list string) : bool :=
  subset (ops_used ops) src
  && (nodupb (plist part) && nodupb order && nodupb rev)
  && (subset (plist part) src && subset order src)
  && subset rev order
  && disjointb (keys ops) (plist part ++ order ++ rev)
  && negb (windowed T ops part order && negb (forallb (fun ke => win_op_ok T src (nonempty order) (snd ke)) ops)).

Lemma extend_node_flat T src ops part order rev :
  extend_node T src ops part order rev =
  if node_conform T src ops part order rev then finish (src ++ filter (notin src) (keys ops)) else Reject.
Proof. unfold extend_node, node_conform. chain. Qed.

Lemma node_conform_true T src ops part order rev : node_conform T src ops part order rev = true ->
  (forall c, In c (ops_used ops) -> In c src) /\ subset (plist part) src = true /\ subset order src = true
  /\ (forall k, In k (keys ops) -> ~ In k (plist part ++ order ++ rev))
  /\ (windowed T ops part order = true -> forall ke, In ke ops -> win_op_ok T src (nonempty order) (snd ke) = true).
Proof.
  unfold node_conform. intros H. split_true.
  split; [apply subset_spec; assumption|]. split; [assumption|]. split; [assumption|]. split; [apply disjointb_spec; assumption|].
  intros W. match goal with X : negb (windowed _ _ _ _ && _) = true |- _ => rewrite W in X; apply negb_true_iff, negb_false_iff in X end.
  apply forallb_forall. assumption.
Qed.

Lemma same_outcome_refl r : same_outcome r r.
Proof. destruct r; simpl; tauto. Qed.

Lemma In_gcu (ops : assignments) x : In x (get_columns_used cols_used ops) <-> In x (ops_used ops).
Proof.
  unfold get_columns_used, ops_used. rewrite In_py_set, !in_flat_map. split.
  - intros [e [I C]]. unfold dict_values in I. apply in_map_iff in I. destruct I as [[k e'] [<- I]]. exists (k, e'). tauto.
  - intros [[k e] [I C]]. exists e. split; [|exact C]. unfold dict_values. apply in_map_iff. exists (k, e). tauto.
Qed.

Lemma win_op_ok_src T S D ordered e :
  (forall c, In c (cols_used e) -> (In c S <-> In c D)) -> win_op_ok T S ordered e = win_op_ok T D ordered e.
Proof.
  destruct e as [c| | |op args]; try reflexivity. intros H. simpl.
  destruct args as [|a t]; [reflexivity|]. destruct a as [c| | |o l]; try reflexivity.
  assert (mem c S = mem c D) as E.
  { specialize (H c). simpl in H. specialize (H (or_introl eq_refl)).
    destruct (mem c S) eqn:A, (mem c D) eqn:B; try reflexivity.
    - apply mem_In in A. apply mem_false in B. tauto.
    - apply mem_false in A. apply mem_In in B. tauto. }
  rewrite E. reflexivity.
Qed.

Lemma implies_windowed_iff T ops : implies_windowed T ops = true <-> exists k op args, In (k, EOp op args) ops /\ In op (t_w T).
Proof.
  unfold implies_windowed. rewrite existsb_exists. split.
  - intros [[k e] [I M]]. simpl in M. destruct e as [c| | |op args]; try discriminate. exists k, op, args. split; [exact I|apply mem_In, M].
  - intros [k [op [args [I M]]]]. exists (k, EOp op args). split; [exact I|]. simpl. apply mem_In, M.
Qed.

Lemma windowed_alt T ops part order :
  windowed T ops part order = implies_windowed T ops || (is_one part || nonempty (plist part) || nonempty order).
Proof. unfold windowed. rewrite !orb_assoc. reflexivity. Qed.

Lemma In_app_new (src ks : list string) x : In x (src ++ filter (notin src) ks) <-> In x src \/ In x ks.
Proof. rewrite in_app_iff, filter_In, notin_true. destruct (in_dec string_dec x src); tauto. Qed.

Section Merge.
Variable T : tables.
Variables S : list string.
Variables o1 o2 m : assignments.
Variables part1 part : pspec.
Variables order rev : list string.
Hypothesis NS : NoDup S.
Hypothesis NES : S <> [].
Hypothesis N1 : NoDup (keys o1).
Hypothesis N2 : NoDup (keys o2).
Hypothesis Node1 : node_conform T S o1 part1 order rev = true.
Hypothesis SamePart : plist part = plist part1.
Hypothesis SameWind : windowed T o2 part order = windowed T o1 part1 order.
Hypothesis Merged : merge_ops o1 o2 = Some m.

Let D := S ++ filter (notin S) (keys o1).

Lemma merge_facts :
  (forall k e, In (k, e) m <-> In (k, e) o2 \/ (~ In k (keys o2) /\ In (k, e) o1))
  /\ (forall x, In x (ops_used o2) -> ~ In x (keys o1))
  /\ NoDup (keys m)
  /\ (forall k, In k (keys m) <-> In k (keys o1) \/ In k (keys o2)).
Proof.
  destruct (merge_spec_holds cols_used o1 o2 m N1 N2 Merged) as (G & Dj & Nm & Km).
  split; [|split; [|split]].
  - intros k e. rewrite <- (dict_get_NoDup_iff m k e Nm). rewrite G.
    destruct (dict_get o2 k) as [v|] eqn:E2.
    + split.
      * intros [= <-]. left. apply dict_get_In, E2.
      * intros [I|[NI _]].
        -- apply (dict_get_NoDup_In o2 k e N2) in I. congruence.
        -- exfalso. apply NI. apply dict_get_Some_keys in E2. exact E2.
    + apply dict_get_None in E2. rewrite (dict_get_NoDup_iff o1 k e N1). split.
      * intros I. right. split; [exact E2|exact I].
      * intros [I|[_ I]]; [|exact I]. exfalso. apply E2. apply (key_in_keys o2 k e I).
  - intros x I. apply Dj. apply In_gcu. exact I.
  - exact Nm.
  - exact Km.
Qed.

Lemma In_D x : In x D <-> In x S \/ In x (keys o1).
Proof. apply In_app_new. Qed.

(* test by test: the merged assignments on the source of the node against the new step on the node's columns.  Only the columns
   used, the assigned keys and the per-assignment window tests differ, and the node merged into has passed its own (Node1). *)
Lemma merged_node_conform : node_conform T S m part order rev = node_conform T D o2 part order rev.
Proof.
  destruct merge_facts as (Em & Dj & Nm & Km).
  destruct (node_conform_true _ _ _ _ _ _ Node1) as (Sb & P1 & O1 & Dis1 & W1).
  assert (forall c, In c S -> In c D) as SD by (intros c I; apply In_D; tauto).
  assert (forall l, subset l S = true -> subset l D = true) as Sub.
  { intros l H. apply subset_spec. intros c I. apply SD. rewrite subset_spec in H. auto. }
  assert (forall c, In c (ops_used o2) -> (In c S <-> In c D)) as SDiff.
  { intros c I. rewrite In_D. specialize (Dj c I). tauto. }
  (* the window of the merged node = the window of the new step *)
  assert (windowed T m part order = windowed T o2 part order) as Wm.
  { rewrite !windowed_alt. destruct (is_one part || nonempty (plist part) || nonempty order) eqn:Fl.
    - rewrite !orb_true_r. reflexivity.
    - rewrite !orb_false_r.
      destruct (implies_windowed T o2) eqn:I2.
      + apply implies_windowed_iff. apply implies_windowed_iff in I2. destruct I2 as [k [op [args [I M]]]].
        exists k, op, args. split; [apply Em; left; exact I|exact M].
      + destruct (implies_windowed T m) eqn:Im; [|reflexivity]. exfalso.
        apply implies_windowed_iff in Im. destruct Im as [k [op [args [I M]]]]. apply Em in I. destruct I as [I|[_ I]].
        * assert (implies_windowed T o2 = true) as X by (apply implies_windowed_iff; exists k, op, args; tauto). congruence.
        * assert (implies_windowed T o1 = true) as X by (apply implies_windowed_iff; exists k, op, args; tauto).
          rewrite !windowed_alt in SameWind. rewrite I2, Fl, X in SameWind. discriminate SameWind. }
  assert (subset (ops_used m) S = subset (ops_used o2) D) as U.
  { apply Bool.eq_iff_eq_true. rewrite !subset_spec. split.
    - intros H c I. apply SD, H. unfold ops_used in *. apply in_flat_map in I. destruct I as [[k e] [I C]].
      apply in_flat_map. exists (k, e). split; [apply Em; left; exact I|exact C].
    - intros H c I. unfold ops_used in I. apply in_flat_map in I. destruct I as [[k e] [I C]]. simpl in C. apply Em in I. destruct I as [I|[_ I]].
      + assert (In c (ops_used o2)) as Iu by (eapply cols_used_in_ops; eassumption). apply SDiff; [exact Iu|]. apply H, Iu.
      + apply Sb. eapply cols_used_in_ops; eassumption. }
  assert (disjointb (keys m) (plist part1 ++ order ++ rev) = disjointb (keys o2) (plist part1 ++ order ++ rev)) as Dm.
  { apply Bool.eq_iff_eq_true. rewrite !disjointb_spec. split.
    - intros H x I. apply H, Km. tauto.
    - intros H x I. apply Km in I. destruct I as [I|I]; [apply Dis1, I|apply H, I]. }
  assert (windowed T o2 part order = true ->
          forallb (fun ke => win_op_ok T S (nonempty order) (snd ke)) m = forallb (fun ke => win_op_ok T D (nonempty order) (snd ke)) o2) as Fm.
  { intros W2. rewrite SameWind in W2. specialize (W1 W2). apply Bool.eq_iff_eq_true. rewrite !forallb_forall. split.
    - intros H [k e] I. simpl. rewrite <- (win_op_ok_src T S D).
      + apply (H (k, e)). apply Em. left. exact I.
      + intros c C. apply SDiff. eapply cols_used_in_ops; eassumption.
    - intros H [k e] I. simpl. apply Em in I. destruct I as [I|[_ I]].
      + rewrite (win_op_ok_src T S D); [apply (H (k, e) I)|]. intros c C. apply SDiff. eapply cols_used_in_ops; eassumption.
      + apply (W1 (k, e) I). }
  unfold node_conform. rewrite Wm, SamePart, U, Dm, P1, O1, (Sub _ P1), (Sub _ O1).
  destruct (windowed T o2 part order); [rewrite (Fm eq_refl)|]; reflexivity.
Qed.

Lemma merged_same_outcome : same_outcome (extend_node T S m part order rev) (extend_node T D o2 part order rev).
Proof.
  destruct merge_facts as (Em & Dj & Nm & Km).
  rewrite !extend_node_flat, merged_node_conform.
  destruct (node_conform T D o2 part order rev); [|exact I].
  assert (NoDup D) as ND by (apply NoDup_app_new; assumption).
  rewrite !finish_ok; try (apply app_not_nil_l; try exact NES; apply app_not_nil_l, NES); try (apply NoDup_app_new; assumption).
  simpl. intros c. rewrite !In_app_new, Km, In_D. tauto.
Qed.
End Merge.

Lemma merge_guard_facts T ops part order rev npart nwind norder nrev part1 :
  merge_guard T ops part order rev npart nwind norder nrev = true -> npart = plist part1 ->
  plist part = plist part1 /\ windowed T ops part order = nwind /\ order = norder /\ rev = nrev.
Proof.
  unfold merge_guard. intros G E.
  apply andb_true_iff in G. destruct G as [G Gr]. apply andb_true_iff in G. destruct G as [G Go].
  apply andb_true_iff in G. destruct G as [Gc Gw].
  apply strs_eqb_eq in Gr. apply strs_eqb_eq in Go. apply eqb_prop in Gw.
  split; [|tauto].
  apply orb_true_iff in Gc. destruct Gc as [Gc|Gc]; apply andb_true_iff in Gc; destruct Gc as [G1 G2].
  - apply strs_eqb_eq in G2. congruence.
  - apply negb_true_iff, nonempty_false in G2. rewrite <- E, G2.
    apply orb_true_iff in G1. destruct G1 as [G1|G1].
    + destruct part; [reflexivity|discriminate].
    + apply negb_true_iff, nonempty_false in G1. exact G1.
Qed.

Lemma extend_parsed_indep T p ops part order rev : wf_prefix T p -> NoDup (keys ops) ->
  same_outcome (extend_parsed T p ops part order rev) (extend_parsed T (PNode (declared p)) ops part order rev).
Proof.
  intros W Nk. induction p as [cols|src IH l|src IH cs0|src IH cs0|src IH o1 np nw no nr]; try apply same_outcome_refl.
  - destruct l as [n|]; [apply same_outcome_refl|]. simpl in W. specialize (IH W).
    cbn [extend_parsed declared] in *. destruct (negb (nonempty ops)); [apply same_outcome_refl|].
    destruct (negb (extend_pre (declared src) (keys ops) part order rev)); [exact I|]. exact IH.
  - clear IH. simpl in W. destruct W as [W [N1 [part1 [Enp [Enw Node]]]]].
    destruct (wf_prefix_valid T src W) as [NS NES].
    cbn [extend_parsed declared]. destruct (negb (nonempty ops)); [apply same_outcome_refl|].
    destruct (extend_pre (declared src ++ filter (notin (declared src)) (keys o1)) (keys ops) part order rev) eqn:Pre; cbn [negb]; [|exact I].
    destruct (merge_guard T ops part order rev np nw no nr) eqn:G; [|apply same_outcome_refl].
    destruct (merge_ops o1 ops) as [m|] eqn:M; [|apply same_outcome_refl].
    destruct (merge_guard_facts _ _ _ _ _ _ _ _ _ part1 G Enp) as [SP [SW [-> ->]]].
    rewrite extend_node_flat in Node. destruct (node_conform T (declared src) o1 part1 no nr) eqn:NC; [|congruence].
    apply (merged_same_outcome T (declared src) o1 ops m part1 part no nr NS NES N1 Nk NC SP); [congruence|exact M].
Qed.

(* ------------------------------------------------------------------ all steps *)
Theorem simplification_independent T p s : wf_prefix T p ->
  same_outcome (apply_step T p s) (build_step T (declared p) s).
Proof.
  intros W. unfold build_step. destruct s as [ops part order rev|ops group|e|cs|cs|m|m|cs rev limit|b on jt check|b idc]; cbn [apply_step].
  - unfold do_extend. destruct (parse_ok ops) eqn:P; cbn [negb]; [|exact I].
    apply extend_parsed_indep; [exact W|]. unfold parse_ok in P. apply andb_true_iff in P. destruct P as [P _]. apply nodupb_spec, P.
  - unfold do_project. destruct (negb (parse_ok ops)); [exact I|]. rewrite project_parsed_indep. apply same_outcome_refl.
  - rewrite select_rows_indep. apply same_outcome_refl.
  - rewrite (select_cols_indep T) by exact W. apply same_outcome_refl.
  - rewrite drop_cols_indep. apply same_outcome_refl.
  - rewrite rename_indep. apply same_outcome_refl.
  - rewrite map_indep. apply same_outcome_refl.
  - rewrite order_indep. apply same_outcome_refl.
  - rewrite join_indep. apply same_outcome_refl.
  - rewrite concat_indep. apply same_outcome_refl.
Qed.

(* except when two extends are merged, even the ORDER of the declared columns is the same *)
Definition no_extend_on_top (p : prefix) : Prop :=
  (fix go (p : prefix) : Prop :=
     match p with
     | PExtend _ _ _ _ _ _ => False
     | POrder src None => go src
     | _ => True
     end) p.

Lemma extend_parsed_indep_eq T p ops part order rev : no_extend_on_top p ->
  extend_parsed T p ops part order rev = extend_parsed T (PNode (declared p)) ops part order rev.
Proof.
  induction p as [cols|src IH l|src IH cs0|src IH cs0|src IH o1 np nw no nr]; intros NX; try reflexivity.
  - destruct l as [n|]; [reflexivity|]. simpl in NX. specialize (IH NX). cbn [extend_parsed declared] in *.
    destruct (negb (nonempty ops)); [reflexivity|].
    destruct (negb (extend_pre (declared src) (keys ops) part order rev)); [reflexivity|]. exact IH.
  - destruct NX.
Qed.

Theorem simplification_independent_eq T p s : wf_prefix T p ->
  (match s with SExtend _ _ _ _ => no_extend_on_top p | _ => True end) ->
  apply_step T p s = build_step T (declared p) s.
Proof.
  intros W NX. unfold build_step. destruct s as [ops part order rev|ops group|e|cs|cs|m|m|cs rev limit|b on jt check|b idc]; cbn [apply_step].
  - unfold do_extend. destruct (negb (parse_ok ops)); [reflexivity|]. apply extend_parsed_indep_eq, NX.
  - unfold do_project. destruct (negb (parse_ok ops)); [reflexivity|]. apply project_parsed_indep.
  - apply select_rows_indep.
  - apply (select_cols_indep T), W.
  - apply drop_cols_indep.
  - apply rename_indep.
  - apply map_indep.
  - apply order_indep.
  - apply join_indep.
  - apply concat_indep.
Qed.

(* ------------------------------------------------------------------ on every prefix *)
Theorem rejects_iff_rule_violated_on_prefix T p s : wf_prefix T p -> step_wf s -> catalogued T s ->
  (apply_step T p s = Reject <-> violates_rule T (declared p) s).
Proof.
  intros W Ws G. destruct (wf_prefix_valid T p W) as [N NE].
  rewrite <- (rejects_iff_rule_violated T (declared p) N NE s Ws G).
  pose proof (simplification_independent T p s W) as SO.
  destruct (apply_step T p s), (build_step T (declared p) s); simpl in SO; try contradiction; split; congruence.
Qed.

(* a small instance of the tables, for the non-vacuity examples of Props/C26.v (the real tables are read from /repo) *)
Definition T_example : tables :=
  mkT ["sum"; "mean"; "max"; "cumsum"; "shift"]%string ["cumsum"; "shift"; "_row_number"]%string ["_ngroup"; "cumsum"; "shift"; "_row_number"]%string
      [] ["sum"; "max"]%string ["sum"; "mean"; "max"; "cumsum"; "shift"; "_row_number"; "_size"]%string ["sum"; "mean"; "max"; "_size"]%string.

Theorem accept_gives_declared_columns (T : tables) (cols : list string) : NoDup cols -> cols <> [] ->
  forall (s : step) (c : list string), step_wf s -> build_step T cols s = Accept c ->
  (NoDup c /\ c <> []) /\ (order_fixed s = true -> c = spec_cols cols s) /\ (forall x, In x c <-> In x (spec_cols cols s)).
Proof.
  intros N NE s c W A. split.
  - eapply accept_valid; eauto.
  - eapply accept_is_finish_or_flat; eauto.
Qed.

(* the witnesses of the known finding C26-nonaggregating-operator *)
Lemma refuted_project :
  exists (T : tables) (cols : list string) (s : step), NoDup cols /\ cols <> [] /\ step_wf s /\
    violates T cols s R_not_aggregating /\ build_step T cols s <> Reject.
Proof.
  exists T_example, ["a"; "g"]%string, (SProject [("x", EOp "abs" [ECol "a"])]%string ["g"]%string).
  split; [repeat constructor; simpl; intuition congruence|]. split; [discriminate|]. split; [exact I|]. split.
  - simpl. exists "x"%string, (EOp "abs" [ECol "a"])%string. split; [left; reflexivity|].
    intros [op [args [E M]]]. injection E as <- <-. simpl in M. intuition congruence.
  - vm_compute. discriminate.
Qed.

Lemma refuted_window :
  exists (T : tables) (cols : list string) (s : step), NoDup cols /\ cols <> [] /\ step_wf s /\
    violates T cols s R_not_aggregating /\ build_step T cols s <> Reject.
Proof.
  exists T_example, ["a"; "g"]%string, (SExtend [("x", EOp "abs" [ECol "a"])]%string (PList ["g"]%string) [] []).
  split; [repeat constructor; simpl; intuition congruence|]. split; [discriminate|]. split; [discriminate|]. split.
  - simpl. split; [right; left; discriminate|]. exists "x"%string, (EOp "abs" [ECol "a"])%string. split; [left; reflexivity|].
    intros [op [args [E M]]]. injection E as <- <-. simpl in M. intuition congruence.
  - vm_compute. discriminate.
Qed.
