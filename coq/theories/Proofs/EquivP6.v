(* C11, part 6: the witnesses.  For the code as found (q_unchanged) each forgotten field yields two pipelines that compare
   equal although a field read by executors / SQL generation differs; two of them also differ in the reference semantics,
   and a nan constant breaks reflexivity.  With the repaired flags (q_fixed) every witness pair compares unequal.
   Plus: the erased fields (core) are invisible to the reference semantics. *)
From Coq Require Import List Bool QArith String .
Import ListNotations.
From DA Require Import Base.PyRT Base.Val Model.Sem Model.Equiv Proofs.EquivP1 Proofs.EquivP2 Proofs.EquivP4 Proofs.EquivP5.
Local Open Scope string_scope.
Local Open Scope list_scope.

Definition w_tab := ETable "d" ["a"; "b"; "c"] [].
Definition w_env : env := [("d", mktable ["a"; "b"; "c"; "z"] [[VNum 1; VNum 2; VNum 3; VNum 4]])].

(* 1. TableDescription.__eq__ compares only the key *)
Definition w_table_a := ETable "d" ["a"; "b"] [].
Definition w_table_b := ETable "d" ["a"; "z"] [].
Lemma refuted_table_columns :
  exists a b sa sb fl env, wfb a = true /\ wfb b = true /\ eop_eqb q_unchanged a b = true /\
    to_sem a = Some sa /\ to_sem b = Some sb /\ sem_gen fl sa env <> sem_gen fl sb env /\ eop_eqb q_fixed a b = false.
Proof. exists w_table_a, w_table_b, (OTable "d" ["a"; "b"]), (OTable "d" ["a"; "z"]), fl_spec, w_env.
  repeat split; try reflexivity. intros H. vm_compute in H. discriminate. Qed.

(* 2. extend assignments compared as an unordered mapping: same result, but the assignments (the SELECT list) come in a
      different order *)
Definition ext_keys (p : eop) : list string := match p with EExtend _ ops _ _ _ _ => map fst ops | _ => [] end.
Definition e_plus (c : string) (k : Z) : pexpr := POp "+" true false [PCol c; PVal (KInt k)].
Definition w_order_a := EExtend w_tab [("a", e_plus "b" 1); ("c", e_plus "b" 2)] [] [] [] false.
Definition w_order_b := EExtend w_tab [("c", e_plus "b" 2); ("a", e_plus "b" 1)] [] [] [] false.
Lemma refuted_assignment_order :
  exists a b, wfb a = true /\ wfb b = true /\ eop_eqb q_unchanged a b = true /\ ext_keys a <> ext_keys b /\ core a <> core b /\
    (forall sa sb, to_sem a = Some sa -> to_sem b = Some sb -> forall fl env, sem_gen fl sa env = sem_gen fl sb env) /\
    eop_eqb q_fixed a b = false.
Proof. exists w_order_a, w_order_b. repeat split; try reflexivity; try (intros H; vm_compute in H; discriminate).
  intros sa sb Ta Tb. apply (eop_sound q_unchanged w_order_a w_order_b sa sb); try assumption; reflexivity. Qed.

(* 3. Value.is_equal is Python ==: 1 = True (the SQL prints 1 / TRUE; the reference semantics has a number / a boolean) *)
Definition w_const_a := EExtend w_tab [("x", PVal (KInt 1))] [] [] [] false.
Definition w_const_b := EExtend w_tab [("x", PVal (KBool true))] [] [] [] false.
Lemma refuted_constant_type :
  exists a b sa sb fl env, wfb a = true /\ wfb b = true /\ eop_eqb q_unchanged a b = true /\ core a <> core b /\
    to_sem a = Some sa /\ to_sem b = Some sb /\ sem_gen fl sa env <> sem_gen fl sb env /\ eop_eqb q_fixed a b = false.
Proof. exists w_const_a, w_const_b.
  exists (OExtend (OTable "d" ["a"; "b"; "c"]) [("x", EConst (VNum 1))] false (mkwin [] [] [])),
         (OExtend (OTable "d" ["a"; "b"; "c"]) [("x", EConst (VBool true))] false (mkwin [] [] [])), fl_spec, w_env.
  repeat split; try reflexivity; intros H; vm_compute in H; discriminate. Qed.
(* ... and 1 = 1.0: same meaning, different SQL text *)
Definition w_float_b := EExtend w_tab [("x", PVal (KFloat 1))] [] [] [] false.
Lemma refuted_constant_int_float :
  exists a b, wfb a = true /\ wfb b = true /\ eop_eqb q_unchanged a b = true /\ core a <> core b /\ eop_eqb q_fixed a b = false.
Proof. exists w_const_a, w_float_b. repeat split; try reflexivity; intros H; vm_compute in H; discriminate. Qed.

(* 4. nan <> nan: a pipeline holding a nan constant is not equal to itself *)
Definition w_nan := EExtend w_tab [("x", PVal KNaN)] [] [] [] false.
Lemma refuted_reflexive : exists a, wfb a = true /\ eop_eqb q_unchanged a a = false /\ eop_eqb q_fixed a a = true.
Proof. exists w_nan. repeat split; reflexivity. Qed.

(* 5. ListTerm.is_equal on parsed list literals only compares the length *)
Definition e_is_in (xs : list pyconst) : pexpr := POp "is_in" false true [PCol "a"; PList true xs].
Definition w_list_a := ESelectRows w_tab (e_is_in [KInt 1; KInt 2]).
Definition w_list_b := ESelectRows w_tab (e_is_in [KInt 1; KInt 3]).
Lemma refuted_list_items :
  exists a b, wfb a = true /\ wfb b = true /\ eop_eqb q_unchanged a b = true /\ core a <> core b /\ eop_eqb q_fixed a b = false.
Proof. exists w_list_a, w_list_b. repeat split; try reflexivity; intros H; vm_compute in H; discriminate. Qed.

(* 6. RecordMap.__eq__ skips blocks_out when blocks_in is None: two different unpivot layouts *)
Definition w_rs (v1 v2 : string) : recspec :=
  mkrs ["id"] [("measure", [KStr "m1"; KStr "m2"]); ("value", [KStr v1; KStr v2])] ["measure"] true.
Definition w_wide := ETable "w" ["id"; "v1"; "v2"] [].
Definition w_recmap_a := EConvert w_wide (mkrm None (Some (w_rs "v1" "v2")) true).
Definition w_recmap_b := EConvert w_wide (mkrm None (Some (w_rs "v2" "v1")) true).
Lemma refuted_recmap_blocks_out :
  exists a b, wfb a = true /\ wfb b = true /\ eop_eqb q_unchanged a b = true /\ core a <> core b /\ eop_eqb q_fixed a b = false.
Proof. exists w_recmap_a, w_recmap_b. repeat split; try reflexivity; intros H; vm_compute in H; discriminate. Qed.

(* 7. rename maps compared with dict ==: same meaning, but the renamed columns are printed in the dict's order *)
Definition rename_entries (p : eop) : list (string * string) := match p with ERename _ m => m | EMapCols _ m _ => m | _ => [] end.
Definition w_rename_a := ERename w_tab [("x", "a"); ("y", "b")].
Definition w_rename_b := ERename w_tab [("y", "b"); ("x", "a")].
Lemma refuted_rename_map_order :
  exists a b, wfb a = true /\ wfb b = true /\ eop_eqb q_unchanged a b = true /\ rename_entries a <> rename_entries b /\ core a <> core b /\
    (forall sa sb, to_sem a = Some sa -> to_sem b = Some sb -> forall fl env, sem_gen fl sa env = sem_gen fl sb env) /\
    eop_eqb q_fixed a b = false.
Proof. exists w_rename_a, w_rename_b. repeat split; try reflexivity; try (intros H; vm_compute in H; discriminate).
  intros sa sb Ta Tb. apply (eop_sound q_unchanged w_rename_a w_rename_b sa sb); try assumption; reflexivity. Qed.

(* ------------------------------------------------------------------ corollaries for the repaired flags *)
Lemma eop_eqb_refl_fixed a : eop_eqb q_fixed a a = true.
Proof. apply eop_eqb_refl. intros Q. discriminate Q. Qed.

Lemma eop_sound_fixed a b sa sb : wfb a = true -> wfb b = true -> eop_eqb q_fixed a b = true ->
  to_sem a = Some sa -> to_sem b = Some sb -> forall fl env, sem_gen fl sa env = sem_gen fl sb env.
Proof. intros Wa Wb E. apply (eop_sound q_fixed a b sa sb Wa Wb E). apply ragree_fixed. Qed.

(* whatever reads only the core fields (an executor, a SQL generator for any dialect) cannot tell equal pipelines apart *)
Lemma any_reader q a b (X : Type) (f : eop -> X) : (forall x y, core x = core y -> f x = f y) ->
  wfb a = true -> eop_eqb q a b = true -> agree q a b = true -> f a = f b.
Proof. intros R W E G. apply R. apply (eop_same_core q a b W E G). Qed.
Lemma any_reader_fixed a b (X : Type) (f : eop -> X) : (forall x y, core x = core y -> f x = f y) ->
  wfb a = true -> eop_eqb q_fixed a b = true -> f a = f b.
Proof. intros R W E. apply R. apply (eop_same_core_fixed a b W E). Qed.

(* ------------------------------------------------------------------ the erased fields are invisible to the reference semantics *)
Lemma ops_sem_core ops : ops_sem (core_ops ops) = ops_sem ops.
Proof. unfold core_ops. induction ops as [|[k e] t IH]; simpl; [reflexivity|]. rewrite expr_sem_core, IH. reflexivity. Qed.
Lemma core_ops_keys ops : map fst (core_ops ops) = map fst ops.
Proof. unfold core_ops. rewrite map_map. reflexivity. Qed.
Lemma ecolumn_names_core a : ecolumn_names (core a) = ecolumn_names a.
Proof. induction a; cbn [core ecolumn_names]; rewrite ?core_ops_keys, ?IHa, ?IHa1, ?IHa2; reflexivity. Qed.
Lemma to_sem_core a : to_sem (core a) = to_sem a.
Proof. induction a; cbn [core to_sem]; rewrite ?core_ops_keys, ?ops_sem_core, ?expr_sem_core, ?ecolumn_names_core, ?IHa, ?IHa1, ?IHa2; reflexivity. Qed.

(* ------------------------------------------------------------------ the code as it is now (pipeline_eqb = eop_eqb q_fixed) *)
Lemma pipeline_eqb_refl a : pipeline_eqb a a = true.
Proof. exact (eop_eqb_refl_fixed a). Qed.
Lemma pipeline_eqb_sym a b : pipeline_eqb a b = pipeline_eqb b a.
Proof. exact (eop_eqb_sym q_fixed a b). Qed.
Lemma pipeline_same_core a b : wfb a = true -> pipeline_eqb a b = true -> core a = core b.
Proof. exact (eop_same_core_fixed a b). Qed.
Lemma pipeline_any_reader a b (X : Type) (f : eop -> X) : (forall x y, core x = core y -> f x = f y) ->
  wfb a = true -> pipeline_eqb a b = true -> f a = f b.
Proof. exact (any_reader_fixed a b X f). Qed.
Lemma pipeline_sound a b sa sb : wfb a = true -> wfb b = true -> pipeline_eqb a b = true ->
  to_sem a = Some sa -> to_sem b = Some sb -> forall fl env, sem_gen fl sa env = sem_gen fl sb env.
Proof. exact (eop_sound_fixed a b sa sb). Qed.

(* the witnesses of the seven repaired defects: the code as it is now tells every pair apart, and the nan pipeline equals itself *)
Lemma repaired_witnesses_distinguished :
  pipeline_eqb w_table_a w_table_b = false /\ pipeline_eqb w_order_a w_order_b = false /\ pipeline_eqb w_const_a w_const_b = false /\
  pipeline_eqb w_const_a w_float_b = false /\ pipeline_eqb w_nan w_nan = true /\ pipeline_eqb w_list_a w_list_b = false /\
  pipeline_eqb w_recmap_a w_recmap_b = false /\ pipeline_eqb w_rename_a w_rename_b = false.
Proof. repeat split; reflexivity. Qed.
