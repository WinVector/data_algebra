(* SQLGEN, part 4: one lemma per generated unary step: table / table_reference, select_rows, order_rows, un-windowed extend,
   rename_columns, map_columns, project (GROUP BY, aggregation without GROUP BY, pruning of aggregates): the step built by the
   generator over a sub-query that delivers the source's table delivers the node's table.  Also the terms and declared
   dependencies of an extend step (ext_terms, ext_deps), and: what a unary node asks of its source are its columns (cfs1_incl). *)
From Coq Require Import List Bool String.
Import ListNotations.
From DA Require Import Base.PyRT Base.Val Model.Sem Proofs.SemBasicP Model.ColumnsUsed Proofs.ColumnsUsedP1 Proofs.ColumnsUsedP2
  Proofs.ColumnsUsedP3 Proofs.ColumnsUsedP4 Proofs.ComposeP Model.SqlGen Model.SqlSem Proofs.SqlGenP1 Proofs.SqlGenP2 Proofs.SqlGenP3 Proofs.ListP Proofs.TabP.
Local Open Scope list_scope.

Section Nodes.
Variable fl : flavor.
Variable e : env.

Lemma sfx_rows_In sfx A r : In r (sfx_rows fl sfx A) -> In r (rows A).
Proof.
  destruct sfx as [|x|gb|keys lim]; simpl; try tauto.
  - intros I. apply filter_In in I. tauto.
  - unfold sort_limit. intros I. destruct lim; [apply firstn_In in I|]; apply stable_sort_In in I; exact I.
Qed.

Lemma norm_nonempty {A} (l : list A) : l <> [] -> norm l = Some l.
Proof. destruct l; [congruence|reflexivity]. Qed.

Lemma keys_pass u : map fst (pass_terms u) = u.
Proof. unfold pass_terms. rewrite map_map. simpl. apply map_id. Qed.
Lemma term_of_pass u k : term_of (pass_terms u) k = TmPass.
Proof.
  unfold term_of. destruct (dict_get (pass_terms u) k) as [t|] eqn:G; [|reflexivity].
  apply dict_get_In in G. unfold pass_terms in G. apply in_map_iff in G. destruct G as [x [E _]]. congruence.
Qed.
Lemma pass_scalar u kt : In kt (pass_terms u) -> scalar_term (snd kt) = true.
Proof. unfold pass_terms. intros I. apply in_map_iff in I. destruct I as [x [<- _]]. reflexivity. Qed.

(* a fresh step with plain terms whose rows are the suffix's rows of the pruned input, transformed one by one by g *)
Lemma fresh_scalar sub us S nm tms sfx mg dp u T T1 (g : list val -> list val) :
  Delivers fl e sub us S -> NoDup us ->
  NoDup (map fst tms) -> incl u (map fst tms) -> incl u (cols T) -> (tms = [] -> u = []) ->
  not_group sfx = true -> (forall kt, In kt tms -> scalar_term (snd kt) = true) ->
  (forall K, incl K u -> sel K T = sel K T1) ->
  rows T1 = map g (sfx_rows fl sfx (sel us S)) ->
  (forall r k, List.length r = List.length us -> In k u -> eval_item fl us r k (term_of tms k) = get (cols T1) (g r) k) ->
  (forall k, In k u -> incl (item_cols (k, term_of tms k)) us) -> incl (sfx_cols sfx) us ->
  Delivers fl e (TUnary nm (norm tms) sub (mk_tci (Some us) false None) sfx mg dp) u T.
Proof.
  intros D Nus ND Iu IuT Hnil NG HS Hpr Hrows Hcell Hloc Hsfx.
  assert (List.length (sfx_rows fl sfx (sel us S)) = List.length (rows T)) as L.
  { rewrite (sel_nil_inv _ _ (Hpr [] (incl_nil_l _))), Hrows. symmetry. apply map_length. }
  destruct tms as [|t0 tms'].
  - rewrite (Hnil eq_refl). apply (fresh_unary_star fl e sub us S); assumption.
  - change (norm (t0 :: tms')) with (Some (t0 :: tms')).
    apply (fresh_rowwise fl e sub us S); try assumption; try discriminate; [apply rowwise_scalar; assumption|].
    intros K NE NK IK. refine (eq_trans (sql_select_scalar fl true (t0 :: tms') K sfx (sel us S) NE NG HS) _).
    f_equal. rewrite (Hpr K IK). change (sel K T1) with (mktable K (map (fun r => map (get (cols T1) r) K) (rows T1))).
    f_equal. rewrite Hrows, map_map.
    apply map_ext_in. intros r Ir. apply map_ext_in. intros k Ik. cbn [cols].
    apply Hcell; [|apply IK, Ik]. apply sfx_rows_In in Ir. simpl in Ir. apply in_map_iff in Ir. destruct Ir as [r0 [<- _]]. apply map_length.
Qed.

(* ------------------------------------------------------------------ table descriptions *)
Definition wf_table_for (cs : list string) (st : table) : Prop := cols st = cs /\ width_ok st.

Lemma delivers_table name cs st u ts :
  dict_get e name = Some st -> wf_table_for cs st -> incl u ts -> incl ts cs -> NoDup ts ->
  Delivers fl e (TTable name (norm ts)) u st.
Proof.
  intros G [EC W] Iu It Nt.
  assert (tkeys (TTable name (norm ts)) = ts) as EK by (destruct ts; reflexivity).
  constructor.
  - rewrite EK. exact Nt.
  - rewrite EK. exact Iu.
  - rewrite EC. intros x Hx. apply It, Iu, Hx.
  - intros K NE NK IK. simpl. rewrite G. destruct K as [|k0 K']; [congruence|]. simpl. eexists. split; [reflexivity|]. split; [apply sel_nil_sel|]. split; [reflexivity|].
    intros C _ IC _. apply sel_sel, IC.
  - simpl. rewrite G. exists st. split; reflexivity.
  - intros n ts' [= <- _]. exists st. split; [exact G|reflexivity].
Qed.

Lemma sel_id_table cs st : wf_table_for cs st -> NoDup cs -> sel cs st = st.
Proof. intros [EC W] N. subst cs. apply select_cols_id; assumption. Qed.

(* table_reference_N : SELECT the requested columns FROM the stored table *)
Lemma delivers_table_reference name cs st u nm :
  dict_get e name = Some st -> wf_table_for cs st -> NoDup cs -> NoDup u -> incl u cs -> u <> [] ->
  Delivers fl e (TUnary nm (norm (map (fun k => (k, TmSelf)) u)) (TTable name (norm (filter (fun c => mem c u) cs)))
                        (mk_tci (Some u) false None) SfxNone false None) u st.
Proof.
  intros G WF N Nu Iu NE.
  assert (Delivers fl e (TTable name (norm (filter (fun c => mem c u) cs))) u st) as D.
  { apply (delivers_table name cs st u _ G WF).
    - intros x Hx. apply filter_In. split; [apply Iu, Hx|apply mem_In, Hx].
    - intros x Hx. apply filter_In in Hx. tauto.
    - apply NoDup_filter, N. }
  assert (map fst (map (fun k => (k, TmSelf)) u) = u) as EK by (rewrite map_map; apply map_id).
  apply (fresh_scalar _ u st nm _ SfxNone false None u st (sel u st) (fun r => r)); try assumption.
  - rewrite EK. exact Nu.
  - rewrite EK. apply incl_refl.
  - destruct WF as [EC _]. rewrite EC. exact Iu.
  - destruct u; [congruence|discriminate].
  - reflexivity.
  - intros kt I. apply in_map_iff in I. destruct I as [x [<- _]]. reflexivity.
  - intros K IK. symmetry. apply sel_sel, IK.
  - simpl. rewrite map_id. reflexivity.
  - intros r k L Ik. cbn [cols]. unfold term_of. destruct (dict_get _ k) as [t|] eqn:Gt; [|reflexivity].
    apply dict_get_In in Gt. apply in_map_iff in Gt. destruct Gt as [x [[= <- <-] _]]. reflexivity.
  - intros k Ik x Hx. unfold term_of in Hx. destruct (dict_get _ k) as [t|] eqn:Gt.
    + apply dict_get_In in Gt. apply in_map_iff in Gt. destruct Gt as [y [[= <- <-] _]]. simpl in Hx. destruct Hx as [<-|[]]. exact Ik.
    + simpl in Hx. destruct Hx as [<-|[]]. exact Ik.
  - intros x [].
Qed.

Lemma NoDup_set_union (a b : list string) : NoDup a -> NoDup (set_union a b).
Proof. intros N. unfold set_union. apply NoDup_fold_add_end, N. Qed.
Lemma NoDup_set_inter (a b : list string) : NoDup a -> NoDup (set_inter a b).
Proof. intros N. unfold set_inter. apply NoDup_filter, N. Qed.

Lemma node_select_rows s x sub u S nm :
  builder_ok (OSelectRows s x) = true -> sem_gen fl s e = Some S -> NoDup u -> incl u (column_names s) ->
  NoDup (cfs1 (OSelectRows s x) u) -> incl (cfs1 (OSelectRows s x) u) (column_names s) ->
  Delivers fl e sub (cfs1 (OSelectRows s x) u) S ->
  Delivers fl e (TUnary nm (norm (pass_terms u)) sub (mk_tci (Some (cfs1 (OSelectRows s x) u)) false None) (SfxWhere x) false None)
           u (sem_select_rows fl x S).
Proof.
  intros BO ES Nu Iu Nus Isu D. set (p := OSelectRows s x) in *. set (us := cfs1 p u) in *.
  pose proof (sem_cols fl s e S ES) as EC.
  assert (forall c, In c us <-> (In c (column_names s) /\ In c u) \/ In c (cols_used x)) as Hus.
  { intros c. unfold us, cfs1. simpl. rewrite In_set_union, In_set_inter. tauto. }
  assert (forall K, incl K u -> sel K (sem_select_rows fl x S) = sel K (sem_select_rows fl x (sel us S))) as Hpr
    by (apply (prune_node fl e p s us u S (sem_select_rows fl x) BO eq_refl Iu ES); try (simpl; rewrite ES; reflexivity); auto).
  apply (fresh_scalar sub us S nm (pass_terms u) (SfxWhere x) false None u _ (sem_select_rows fl x (sel us S)) (fun r => r)); try assumption.
  - rewrite keys_pass. exact Nu.
  - rewrite keys_pass. apply incl_refl.
  - simpl. rewrite EC. exact Iu.
  - destruct u; [reflexivity|discriminate].
  - reflexivity.
  - apply pass_scalar.
  - simpl. rewrite map_id. reflexivity.
  - intros r k L Ik. rewrite term_of_pass. reflexivity.
  - intros k Ik c Hc. rewrite term_of_pass in Hc. simpl in Hc. destruct Hc as [<-|[]]. apply Hus. left. split; [apply Iu, Ik|exact Ik].
  - intros c Hc. apply Hus. right. exact Hc.
Qed.

Lemma node_order s cs rev lim sub u S nm :
  builder_ok (OOrder s cs rev lim) = true -> sem_gen fl s e = Some S -> NoDup u -> incl u (column_names s) ->
  let us := filter (fun c => mem c (cfs1 (OOrder s cs rev lim) u)) (column_names s) in
  NoDup us -> Delivers fl e sub us S ->
  Delivers fl e (TUnary nm (norm (pass_terms us)) sub (mk_tci (Some us) false None) (SfxOrder (map (fun c => (c, mem c rev)) cs) lim) false None)
           u (sem_order fl cs rev lim S).
Proof.
  intros BO ES Nu Iu us Nus D. set (p := OOrder s cs rev lim) in *.
  pose proof BO as BO'. simpl in BO'. rewrite !andb_true_iff in BO'. destruct BO' as [[BOs Bc] Br]. pose proof (proj1 (subset_spec _ _) Bc) as Ic.
  pose proof (sem_cols fl s e S ES) as EC.
  assert (forall c, In c us <-> In c (column_names s) /\ (In c u \/ In c cs)) as Hus.
  { intros c. unfold us. rewrite filter_In. split.
    - intros [H1 H2]. apply mem_In in H2. unfold cfs1 in H2; simpl in H2. apply in_app_iff in H2.
      destruct H2 as [H2|H2]; [apply In_set_inter in H2|]; tauto.
    - intros [H1 H2]. split; [exact H1|]. apply mem_In. unfold cfs1; simpl. apply in_app_iff.
      destruct H2 as [H2|H2]; [left; apply In_set_inter; tauto|right; exact H2]. }
  assert (forall K, incl K u -> sel K (sem_order fl cs rev lim S) = sel K (sem_order fl cs rev lim (sel us S))) as Hpr.
  { apply (prune_node fl e p s us u S (sem_order fl cs rev lim) BO eq_refl Iu ES); try (simpl; rewrite ES; reflexivity).
    - intros c Hc. apply Hus. unfold cfs1 in Hc. simpl in Hc. apply in_app_iff in Hc. rewrite In_set_inter in Hc. destruct Hc as [[H H0]|H]; [tauto|]. split; [apply Ic, H|tauto].
    - intros c Hc. apply Hus in Hc. tauto. }
  assert (incl u us) as Iuus by (intros c Hc; apply Hus; split; [apply Iu, Hc|left; exact Hc]).
  apply (fresh_scalar sub us S nm (pass_terms us) _ false None u _ (sem_order fl cs rev lim (sel us S)) (fun r => r)); try assumption.
  - rewrite keys_pass. exact Nus.
  - rewrite keys_pass. exact Iuus.
  - simpl. rewrite EC. exact Iu.
  - intros X. assert (us = []) as X' by (destruct us; [reflexivity|discriminate]). destruct u as [|c0 u']; [reflexivity|]. specialize (Iuus c0 (or_introl eq_refl)). rewrite X' in Iuus. destruct Iuus.
  - reflexivity.
  - apply pass_scalar.
  - simpl. rewrite map_id. reflexivity.
  - intros r k L Ik. rewrite term_of_pass. reflexivity.
  - intros k Ik c Hc. rewrite term_of_pass in Hc. simpl in Hc. destruct Hc as [<-|[]]. apply Iuus, Ik.
  - simpl. rewrite map_map. simpl. rewrite map_id. intros c Hc. apply Hus. split; [apply Ic, Hc|right; exact Hc].
Qed.

End Nodes.

(* ------------------------------------------------------------------ dicts built by repeated dict_set *)
Section FoldSet.
Context {X V : Type}.
Variables (f : X -> string) (g : X -> V).

Lemma dict_get_fold_set_notin (l : list X) (d : pydict string V) k :
  ~ In k (map f l) -> dict_get (fold_left (fun acc x => dict_set acc (f x) (g x)) l d) k = dict_get d k.
Proof.
  revert d. induction l as [|x t IH]; intros d N; [reflexivity|]. simpl. rewrite IH.
  - apply dict_get_set_other. intros E. apply N. left. symmetry. exact E.
  - intros I. apply N. right. exact I.
Qed.
Lemma dict_get_fold_set_in (l : list X) (d : pydict string V) x :
  NoDup (map f l) -> In x l -> dict_get (fold_left (fun acc x => dict_set acc (f x) (g x)) l d) (f x) = Some (g x).
Proof.
  revert d. induction l as [|y t IH]; intros d N I; [destruct I|]. simpl. inversion N as [|? ? Ny Nt]; subst.
  destruct I as [->|I].
  - rewrite dict_get_fold_set_notin by exact Ny. apply dict_get_set_same.
  - apply IH; assumption.
Qed.
Lemma keys_fold_set (l : list X) (d : pydict string V) :
  dict_keys (fold_left (fun acc x => dict_set acc (f x) (g x)) l d) = fold_left add_end (map f l) (dict_keys d).
Proof. revert d. induction l as [|x t IH]; intros d; [reflexivity|]. simpl. rewrite IH, dict_keys_set. reflexivity. Qed.
Lemma values_fold_set (P : V -> Prop) (l : list X) (d : pydict string V) :
  (forall kv, In kv d -> P (snd kv)) -> (forall x, In x l -> P (g x)) ->
  forall kv, In kv (fold_left (fun acc x => dict_set acc (f x) (g x)) l d) -> P (snd kv).
Proof.
  revert d. induction l as [|x t IH]; intros d Hd Hl kv I; [apply Hd, I|]. simpl in I. apply (IH (dict_set d (f x) (g x))); [| |exact I].
  - clear IH I. intros kv' I'. induction d as [|[k0 v0] d' IHd]; simpl in I'.
    + destruct I' as [<-|[]]. apply Hl. left. reflexivity.
    + destruct (eq_dec (f x) k0).
      * destruct I' as [<-|I']; [apply Hl; left; reflexivity|apply Hd; right; exact I'].
      * destruct I' as [<-|I']; [apply (Hd (k0, v0)); left; reflexivity|]. apply IHd; [|exact I']. intros kv2 I2. apply Hd. right. exact I2.
  - intros y Iy. apply Hl. right. exact Iy.
Qed.
End FoldSet.

Lemma bok_extend_full s ops wd w : builder_ok (OExtend s ops wd w) = true ->
  builder_ok s = true /\ incl (ops_cols ops) (column_names s) /\ NoDup (map fst ops).
Proof.
  cbn [builder_ok]. rewrite !andb_true_iff. intros H. split; [tauto|]. split.
  - assert (subset (ops_cols ops) (column_names s) = true) as X by tauto. exact (proj1 (subset_spec _ _) X).
  - apply nodupb_NoDup. tauto.
Qed.

(* extend_to_near_sql writes the requested columns it does not assign as passed columns, then one item f(e) per used assignment
   (f = TmExpr, or the window item); wv = window_vars, the columns every such item is declared to read beside those of e *)
Definition ext_terms (f : expr -> tterm) (origcols : list string) (subops : list (string * expr)) : terms :=
  pass_terms origcols ++ map (fun ke => (fst ke, f (snd ke))) subops.
Definition ext_deps (wv origcols : list string) (subops : list (string * expr)) : depmap :=
  map (fun k => (k, [k])) origcols ++ map (fun ke => (fst ke, set_union (py_set (cols_used (snd ke))) wv)) subops.

Section ExtTerms.
Variables (f : expr -> tterm) (u : list string) (ops : list (string * expr)).
Let subops := sub_ops u ops.
Let origcols := filter (fun k => negb (mem k (map fst subops))) u.

Lemma ext_split : NoDup u -> NoDup (map fst ops) ->
  NoDup origcols /\ NoDup (map fst subops) /\ (forall k, In k origcols -> ~ In k (map fst subops)) /\
  (forall k, In k u <-> In k origcols \/ In k (map fst subops)).
Proof.
  intros Nu Nk. split; [apply NoDup_filter, Nu|]. split; [apply NoDup_map_filter, Nk|]. split.
  - intros k Hk. apply filter_In in Hk. destruct Hk as [_ Hk]. apply negb_true_iff, mem_false in Hk. exact Hk.
  - intros k. unfold origcols. rewrite filter_In, negb_true_iff, mem_false. split.
    + intros Ik. destruct (in_dec string_dec k (map fst subops)); tauto.
    + intros [[Ik _]|Ik]; [exact Ik|]. apply in_map_iff in Ik. destruct Ik as [ke [<- I]]. apply filter_In in I. destruct I as [_ I]. apply mem_In, I.
Qed.

Lemma ext_terms_keys oc so : map fst (ext_terms f oc so) = oc ++ map fst so.
Proof. unfold ext_terms. rewrite map_app, keys_pass, map_map. reflexivity. Qed.

Lemma ext_terms_nonempty oc so : so <> [] -> ext_terms f oc so <> [].
Proof. intros NE X. apply app_eq_nil in X. destruct X as [_ X]. apply map_eq_nil in X. contradiction. Qed.

Lemma ext_terms_all (P : tterm -> Prop) oc so : P TmPass -> (forall x, P (f x)) -> forall kt, In kt (ext_terms f oc so) -> P (snd kt).
Proof.
  intros H0 Hf kt I. apply in_app_iff in I. destruct I as [I|I]; apply in_map_iff in I; destruct I as [x [<- _]]; [exact H0|apply Hf].
Qed.

Lemma term_of_ext k : NoDup (map fst ops) -> In k u ->
  term_of (ext_terms f origcols subops) k = match last_for k ops with Some ke => f (snd ke) | None => TmPass end.
Proof.
  intros Nk Ik. unfold term_of, ext_terms. rewrite dict_get_app.
  assert (map fst (map (fun ke : string * expr => (fst ke, f (snd ke))) subops) = map fst subops) as EKS by (rewrite map_map; reflexivity).
  destruct (last_for k ops) as [ke|] eqn:L.
  - destruct (last_for_In _ _ _ L) as [Ike Ek].
    assert (In ke subops) as Isub by (apply in_sub_ops; [exact Ike|rewrite Ek; exact Ik]).
    assert (dict_get (pass_terms origcols) k = None) as G1.
    { apply dict_get_None. unfold dict_keys. rewrite keys_pass. unfold origcols. intros I. apply filter_In in I. destruct I as [_ I].
      apply negb_true_iff, mem_false in I. apply I. rewrite <- Ek. apply in_map, Isub. }
    rewrite G1.
    assert (dict_get (map (fun ke0 : string * expr => (fst ke0, f (snd ke0))) subops) k = Some (f (snd ke))) as G2.
    { apply dict_get_NoDup_In; [unfold dict_keys; rewrite EKS; apply NoDup_map_filter, Nk|]. apply in_map_iff. exists ke. rewrite Ek. tauto. }
    rewrite G2. reflexivity.
  - destruct (dict_get (pass_terms origcols) k) as [t|] eqn:G1.
    + apply dict_get_In in G1. unfold pass_terms in G1. apply in_map_iff in G1. destruct G1 as [x [[= _ <-] _]]. reflexivity.
    + destruct (dict_get (map _ subops) k) as [t|] eqn:G2; [|reflexivity]. exfalso. apply dict_get_Some_keys in G2. unfold dict_keys in G2. rewrite EKS in G2.
      apply (last_for_None _ _ L). apply in_map_iff in G2. destruct G2 as [ke [E1 I1]]. apply filter_In in I1. apply in_map_iff. exists ke. tauto.
Qed.
End ExtTerms.

Lemma bok_window s ops wd w : builder_ok (OExtend s ops wd w) = true ->
  incl (w_part w) (column_names s) /\ incl (w_order w) (column_names s) /\ incl (w_rev w) (w_order w).
Proof.
  cbn [builder_ok]. rewrite !andb_true_iff. intros [[[[_ B1] B2] B3] _].
  split; [exact (proj1 (subset_spec _ _) B1)|]. split; [exact (proj1 (subset_spec _ _) B2)|exact (proj1 (subset_spec _ _) B3)].
Qed.

Lemma sub_ops_nonempty u ops : sub_ops u ops <> [] -> u <> [].
Proof. intros H ->. apply H. clear H. unfold sub_ops. induction ops as [|a t IH]; [reflexivity|exact IH]. Qed.

Section Nodes2.
Variable fl : flavor.
Variable e : env.

(* ------------------------------------------------------------------ extend, no window *)
(* what the requested terms of an un-windowed extend read is requested from its source *)
Lemma extend_loc s ops u :
  builder_ok (OExtend s ops false no_window) = true -> incl u (column_names (OExtend s ops false no_window)) ->
  forall k, In k u ->
  incl (item_cols (k, term_of (ext_terms TmExpr (filter (fun k => negb (mem k (map fst (sub_ops u ops)))) u) (sub_ops u ops)) k))
       (cfs1 (OExtend s ops false no_window) u).
Proof.
  intros BO Iu k Ik c Hc. destruct (bok_extend_full _ _ _ _ BO) as [BOs [Ic Nk]].
  pose proof (wneeds_needs _ _ _ _ _ (extend_request s ops false no_window u (fun k _ H => H)) k Ik) as Need.
  rewrite (term_of_ext TmExpr u ops k Nk Ik) in Hc.
  destruct (last_for k ops) as [ke|] eqn:L; simpl in Hc.
  - destruct (last_for_In _ _ _ L) as [Ike Ek]. apply Need; [exact Hc|]. apply Ic. eapply cols_used_in_ops; eassumption.
  - destruct Hc as [<-|[]]. apply Need. specialize (Iu k Ik). simpl in Iu. apply In_ext_cols in Iu. destruct Iu as [H|H]; [exact H|].
    exfalso. apply (last_for_None _ _ L). exact H.
Qed.

Lemma node_extend s ops sub u S nm dp :
  builder_ok (OExtend s ops false no_window) = true -> sem_gen fl s e = Some S -> NoDup u ->
  incl u (column_names (OExtend s ops false no_window)) -> sub_ops u ops <> [] ->
  let p := OExtend s ops false no_window in
  let subops := sub_ops u ops in
  let origcols := filter (fun k => negb (mem k (map fst subops))) u in
  NoDup (cfs1 p u) -> incl (cfs1 p u) (column_names s) -> Delivers fl e sub (cfs1 p u) S ->
  Delivers fl e (TUnary nm (norm (ext_terms TmExpr origcols subops)) sub (mk_tci (Some (cfs1 p u)) false None) SfxNone true dp)
           u (sem_extend fl ops S).
Proof.
  intros BO ES Nu Iu NSub p subops origcols Nus Isu D. set (us := cfs1 p u) in *.
  destruct (bok_extend_full _ _ _ _ BO) as [BOs [Ic Nk]]. pose proof (sem_cols fl s e S ES) as EC.
  assert (forall K, incl K u -> sel K (sem_extend fl ops S) = sel K (sem_extend fl ops (sel us S))) as Hpr
    by (apply (prune_node fl e p s us u S (sem_extend fl ops) BO eq_refl Iu ES); try (simpl; rewrite ES; reflexivity); auto).
  destruct (ext_split u ops Nu Nk) as [No [Nsub [Dj Hu]]]. fold subops in No, Nsub, Dj, Hu. fold origcols in No, Dj, Hu.
  set (tms := ext_terms TmExpr origcols subops).
  apply (fresh_scalar fl e sub us S nm tms SfxNone true dp u _ (sem_extend fl ops (sel us S)) (extend_row fl us ops)); try assumption.
  - unfold tms. rewrite ext_terms_keys. apply NoDup_app_iff; repeat split; assumption.
  - unfold tms. rewrite ext_terms_keys. intros k Ik. apply in_app_iff, Hu, Ik.
  - simpl. rewrite EC. exact Iu.
  - intros X. destruct (ext_terms_nonempty TmExpr origcols subops NSub X).
  - reflexivity.
  - apply (ext_terms_all TmExpr (fun t => scalar_term t = true)); reflexivity.
  - reflexivity.
  - intros r k L Ik. change (cols (sem_extend fl ops (sel us S))) with (ext_cols us (map fst ops)). unfold extend_row.
    rewrite (fold_cells_get_full (fun ke => eval_expr fl us r (snd ke)) ops r us k L).
    unfold tms, origcols, subops. rewrite (term_of_ext TmExpr u ops k Nk Ik). destruct (last_for k ops) as [ke|]; reflexivity.
  - exact (extend_loc s ops u BO Iu).
  - intros x [].
Qed.

(* ------------------------------------------------------------------ rename_columns / map_columns *)
Definition rename_terms (m : list (string * string)) (unchanged : list string) : terms :=
  fold_left (fun acc c => dict_set acc c TmPass) unchanged
            (fold_left (fun acc no => dict_set acc (fst no) (TmCol (snd no))) m []).

Lemma rename_terms_keys_nodup m un : NoDup (map fst (rename_terms m un)).
Proof.
  unfold rename_terms. change (map fst ?d) with (dict_keys d). rewrite !keys_fold_set. apply NoDup_fold_add_end, NoDup_fold_add_end. constructor.
Qed.
Lemma rename_terms_keys m un k : In k (map fst (rename_terms m un)) <-> In k (map fst m) \/ In k un.
Proof.
  unfold rename_terms. change (map fst ?d) with (dict_keys d). rewrite !keys_fold_set. rewrite !In_fold_add_end. simpl. rewrite map_id. tauto.
Qed.
Lemma rename_terms_scalar m un kt : In kt (rename_terms m un) -> scalar_term (snd kt) = true.
Proof.
  unfold rename_terms. apply (values_fold_set (fun c => c) (fun _ => TmPass) (fun t => scalar_term t = true)); [|reflexivity].
  apply (values_fold_set fst (fun no => TmCol (snd no)) (fun t => scalar_term t = true)); [intros kv []|reflexivity].
Qed.
Lemma dict_get_fold_const (v : tterm) (l : list string) (d : pydict string tterm) k :
  In k l -> dict_get (fold_left (fun acc c => dict_set acc c v) l d) k = Some v.
Proof.
  revert d. induction l as [|c0 t IH]; intros d I; [destruct I|]. simpl.
  destruct (in_dec string_dec k t) as [i|n]; [apply IH, i|]. destruct I as [->|I]; [|contradiction].
  rewrite (dict_get_fold_set_notin (fun c : string => c) (fun _ => v) t _ k); [apply dict_get_set_same|rewrite map_id; exact n].
Qed.

Lemma rename_terms_term m un k :
  NoDup (map fst m) -> (forall c, In c un -> ~ In c (map fst m)) ->
  term_of (rename_terms m un) k = match dict_get m k with Some o => TmCol o | None => TmPass end.
Proof.
  intros N Dj. unfold term_of, rename_terms.
  destruct (in_dec string_dec k un) as [i|n].
  - rewrite (dict_get_fold_const TmPass un _ k i).
    assert (dict_get m k = None) as G by (apply dict_get_None; apply Dj, i). rewrite G. reflexivity.
  - rewrite (dict_get_fold_set_notin (fun c : string => c) (fun _ => TmPass) un _ k) by (rewrite map_id; exact n).
    destruct (dict_get m k) as [o|] eqn:G.
    + apply dict_get_In in G. pose proof (dict_get_fold_set_in fst (fun no : string * string => TmCol (snd no)) m [] (k, o) N G) as GG. simpl in GG. rewrite GG. reflexivity.
    + rewrite (dict_get_fold_set_notin fst (fun no : string * string => TmCol (snd no)) m [] k); [reflexivity|]. apply dict_get_None in G. exact G.
Qed.

(* a column of the renamed table that is not a new name is not an old name either *)
Lemma unchanged_not_old m cs k : rename_ok m cs -> In k (map (rename_col m) cs) -> ~ In k (map fst m) -> ~ In k (map snd m).
Proof.
  intros [N1 [N2 [I3 N4]]] Ik Nk Io. apply in_map_iff in Ik. destruct Ik as [x0 [E I0]].
  apply in_map_iff in Io. destruct Io as [[n o] [Eo Io]]. simpl in Eo. subst o.
  destruct (rename_col_spec m x0) as [[n0 [In0 E0]]|[No E0]].
  - apply Nk. rewrite <- E, E0. apply in_map_iff. exists (n0, x0). tauto.
  - rewrite E0 in E. subst x0. exact (No n Io).
Qed.

Lemma old_of_get m k : old_of m k = match dict_get m k with Some o => o | None => k end.
Proof. reflexivity. Qed.

Lemma node_rename s m sub u S nm :
  builder_ok (ORename s m) = true -> sem_gen fl s e = Some S -> NoDup u -> incl u (column_names (ORename s m)) ->
  let us := py_set (cfs1 (ORename s m) u) in
  let unchanged := filter (fun c => negb (mem c (map snd m ++ map fst m))) us in
  incl us (column_names s) -> Delivers fl e sub us S ->
  Delivers fl e (TUnary nm (norm (rename_terms m unchanged)) sub (mk_tci (Some us) false None) SfxNone false None) u (sem_rename m S).
Proof.
  intros BO ES Nu Iu us unchanged Isu D. set (p := ORename s m) in *.
  destruct (bok_rename _ _ BO) as [BOs OK]. pose proof (sem_cols fl s e S ES) as EC. rewrite <- EC in OK.
  pose proof OK as [N1 [N2 [I3 N4]]].
  assert (forall c, In c us <-> exists k, In k u /\ c = old_of m k) as Hus.
  { intros c. unfold us, cfs1, p. simpl. rewrite In_py_set, in_map_iff. split; intros [k [H1 H2]]; exists k; split; try assumption; symmetry; assumption. }
  assert (NoDup us) as Nus by apply NoDup_py_set.
  assert (incl u (map (rename_col m) (cols S))) as Iu' by (rewrite EC; exact Iu).
  assert (incl us (cols S)) as Ius by (rewrite EC; exact Isu).
  assert (forall K, incl K u -> sel K (sem_rename m S) = sel K (sem_rename m (sel us S))) as Hpr
    by (apply (prune_node fl e p s us u S (sem_rename m) BO eq_refl Iu ES); try (simpl; rewrite ES; reflexivity); try exact Isu; intros c Hc; apply In_py_set; exact Hc).
  assert (forall c, In c unchanged -> ~ In c (map fst m)) as Dj.
  { intros c Hc. unfold unchanged in Hc. apply filter_In in Hc. destruct Hc as [_ Hc]. apply negb_true_iff, mem_false in Hc. intros I. apply Hc. apply in_app_iff. right. exact I. }
  assert (incl u (map fst (rename_terms m unchanged))) as IuK.
  { intros k Ik. apply rename_terms_keys. destruct (in_dec string_dec k (map fst m)) as [i|n]; [left; exact i|right].
    unfold unchanged. apply filter_In. split.
    - apply Hus. exists k. split; [exact Ik|]. rewrite old_of_get. assert (dict_get m k = None) as G by (apply dict_get_None; exact n). rewrite G. reflexivity.
    - apply negb_true_iff, mem_false. intros I. apply in_app_iff in I. destruct I as [I|I]; [|contradiction].
      exact (unchanged_not_old m (cols S) k OK (Iu' k Ik) n I). }
  apply (fresh_scalar fl e sub us S nm (rename_terms m unchanged) SfxNone false None u _ (sem_rename m (sel us S)) (fun r => r)); try assumption.
  - apply rename_terms_keys_nodup.
  - intros X. rewrite X in IuK. destruct u as [|k0 u']; [reflexivity|]. destruct (IuK k0 (or_introl eq_refl)).
  - reflexivity.
  - apply rename_terms_scalar.
  - simpl. rewrite map_id. reflexivity.
  - intros r k L Ik. change (cols (sem_rename m (sel us S))) with (map (rename_col m) us).
    destruct (get_rename m (cols S) us r k OK Ius (Iu' k Ik)) as [E1 _]. rewrite E1.
    rewrite (rename_terms_term m unchanged k N1 Dj), old_of_get. destruct (dict_get m k); reflexivity.
  - intros k Ik c Hc. rewrite (rename_terms_term m unchanged k N1 Dj) in Hc. apply Hus. exists k. split; [exact Ik|]. rewrite old_of_get.
    destruct (dict_get m k); simpl in Hc; destruct Hc as [<-|[]]; reflexivity.
  - intros x [].
Qed.

Lemma node_map_cols s m dels sub u S nm :
  builder_ok (OMapCols s m dels) = true -> sem_gen fl s e = Some S -> NoDup u -> incl u (column_names (OMapCols s m dels)) ->
  let us := py_set (cfs1 (OMapCols s m dels) u) in
  let unchanged := filter (fun c => negb (mem c (map snd m ++ map fst m ++ dels))) us in
  incl us (column_names s) -> Delivers fl e sub us S ->
  Delivers fl e (TUnary nm (norm (rename_terms m unchanged)) sub (mk_tci (Some us) false None) SfxNone false None) u
           (sem_drop_cols dels (sem_rename m S)).
Proof.
  intros BO ES Nu Iu us unchanged Isu D. set (p := OMapCols s m dels) in *.
  destruct (bok_map_cols _ _ _ BO) as [BOs OK]. pose proof (sem_cols fl s e S ES) as EC. rewrite <- EC in OK.
  pose proof OK as [N1 [N2 [I3 N4]]].
  assert (forall c, In c us <-> (exists k, In k u /\ c = old_of m k) \/ In c dels) as Hus.
  { intros c. unfold us, cfs1, p. simpl. rewrite In_py_set, in_app_iff, in_map_iff. split.
    - intros [[k [E I]]|H]; [left; exists k; rewrite (old_of_dict_of_list m k N1) in E; split; [exact I|symmetry; exact E]|right; exact H].
    - intros [[k [I E]]|H]; [left; exists k; rewrite (old_of_dict_of_list m k N1); split; [symmetry; exact E|exact I]|right; exact H]. }
  assert (NoDup us) as Nus by apply NoDup_py_set.
  assert (forall k, In k u -> In k (map (rename_col m) (cols S)) /\ ~ In k dels) as Iu'.
  { intros k Ik. specialize (Iu k Ik). simpl in Iu. apply filter_In in Iu. destruct Iu as [A B]. rewrite EC. split; [exact A|]. apply negb_true_iff, mem_false in B. exact B. }
  assert (incl us (cols S)) as Ius by (rewrite EC; exact Isu).
  assert (forall K, incl K u -> sel K (sem_drop_cols dels (sem_rename m S)) = sel K (sem_drop_cols dels (sem_rename m (sel us S)))) as Hpr
    by (apply (prune_node fl e p s us u S (fun t => sem_drop_cols dels (sem_rename m t)) BO eq_refl Iu ES); try (simpl; rewrite ES; reflexivity); try exact Isu; intros c Hc; apply In_py_set; exact Hc).
  assert (forall c, In c unchanged -> ~ In c (map fst m)) as Dj.
  { intros c Hc. unfold unchanged in Hc. apply filter_In in Hc. destruct Hc as [_ Hc]. apply negb_true_iff, mem_false in Hc. intros I. apply Hc.
    apply in_app_iff. right. apply in_app_iff. left. exact I. }
  assert (incl u (map fst (rename_terms m unchanged))) as IuK.
  { intros k Ik. destruct (Iu' k Ik) as [A B]. apply rename_terms_keys. destruct (in_dec string_dec k (map fst m)) as [i|n]; [left; exact i|right].
    unfold unchanged. apply filter_In. split.
    - apply Hus. left. exists k. split; [exact Ik|]. rewrite old_of_get. assert (dict_get m k = None) as G by (apply dict_get_None; exact n). rewrite G. reflexivity.
    - apply negb_true_iff, mem_false. intros I. apply in_app_iff in I. destruct I as [I|I]; [exact (unchanged_not_old m (cols S) k OK A n I)|].
      apply in_app_iff in I. destruct I; contradiction. }
  set (C1 := filter (fun c => negb (mem c dels)) (map (rename_col m) us)).
  apply (fresh_scalar fl e sub us S nm (rename_terms m unchanged) SfxNone false None u _ (sem_drop_cols dels (sem_rename m (sel us S)))
                      (fun r => map (get (map (rename_col m) us) r) C1)); try assumption.
  - apply rename_terms_keys_nodup.
  - intros k Ik. destruct (Iu' k Ik) as [A B]. simpl. apply filter_In. split; [exact A|]. apply negb_true_iff, mem_false, B.
  - intros X. rewrite X in IuK. destruct u as [|k0 u']; [reflexivity|]. destruct (IuK k0 (or_introl eq_refl)).
  - reflexivity.
  - apply rename_terms_scalar.
  - reflexivity.
  - intros r k L Ik. destruct (Iu' k Ik) as [A B].
    change (cols (sem_drop_cols dels (sem_rename m (sel us S)))) with C1.
    destruct (get_rename m (cols S) us r k OK Ius A) as [E1 [E2 E3]].
    assert (In k C1) as IC.
    { unfold C1. apply filter_In. split; [|apply negb_true_iff, mem_false, B]. rewrite <- E3. apply in_map. apply Hus. left. exists k. tauto. }
    rewrite (get_sel_row _ r C1 k IC), E1.
    rewrite (rename_terms_term m unchanged k N1 Dj), old_of_get. destruct (dict_get m k); reflexivity.
  - intros k Ik c Hc. rewrite (rename_terms_term m unchanged k N1 Dj) in Hc. apply Hus. left. exists k. split; [exact Ik|]. rewrite old_of_get.
    destruct (dict_get m k); simpl in Hc; destruct Hc as [<-|[]]; reflexivity.
  - intros x [].
Qed.

End Nodes2.

Section Agg.
Variable fl : flavor.
Variable e : env.

Definition project_terms (subops : list (string * expr)) (gb : list string) : terms :=
  fold_left (fun acc g => dict_set acc g TmPass) gb (map (fun ke => (fst ke, TmAgg (snd ke))) subops).

Lemma project_terms_keys subops gb k : In k (map fst (project_terms subops gb)) <-> In k (map fst subops) \/ In k gb.
Proof.
  unfold project_terms. change (map fst ?d) with (dict_keys d). rewrite (keys_fold_set (fun g : string => g) (fun _ => TmPass)).
  rewrite In_fold_add_end, map_id. unfold dict_keys. rewrite map_map. simpl. tauto.
Qed.
Lemma project_terms_nodup subops gb : NoDup (map fst subops) -> NoDup (map fst (project_terms subops gb)).
Proof.
  intros N. unfold project_terms. change (map fst ?d) with (dict_keys d). rewrite (keys_fold_set (fun g : string => g) (fun _ => TmPass)).
  apply NoDup_fold_add_end. unfold dict_keys. rewrite map_map. exact N.
Qed.
Lemma project_terms_term subops gb k :
  (forall g, In g gb -> ~ In g (map fst subops)) ->
  term_of (project_terms subops gb) k =
  match dict_get subops k with Some x => TmAgg x | None => TmPass end.
Proof.
  intros Dj. unfold term_of, project_terms. destruct (in_dec string_dec k gb) as [i|n].
  - rewrite (dict_get_fold_const TmPass gb _ k i).
    assert (dict_get subops k = None) as G by (apply dict_get_None; apply Dj, i). rewrite G. reflexivity.
  - rewrite (dict_get_fold_set_notin (fun g : string => g) (fun _ => TmPass) gb _ k) by (rewrite map_id; exact n).
    rewrite (dict_get_map_val (fun x => TmAgg x)) by idtac.
    destruct (dict_get subops k); reflexivity.
Qed.

Definition group_count (gb : list string) (A : table) : nat :=
  List.length (match gb with [] => [[]] | _ => distinct_keys (map (key_of (cols A) gb) (rows A)) end).

Lemma get_map_assoc {X} (g : string * X -> val) (ops : list (string * X)) ke :
  NoDup (map fst ops) -> In ke ops -> get (map fst ops) (map g ops) (fst ke) = g ke.
Proof.
  intros N I. unfold get. induction ops as [|a t IH]; [destruct I|]. simpl. inversion N as [|? ? Na Nt]; subst.
  destruct (eq_dec (fst ke) (fst a)) as [E|NE].
  - simpl. destruct I as [->|I]; [reflexivity|]. exfalso. apply Na. rewrite <- E. apply in_map, I.
  - destruct I as [->|I]; [congruence|]. specialize (IH Nt I). destruct (index_of (fst ke) (map fst t)); simpl; exact IH.
Qed.

Lemma all_agg_has_agg (tms : terms) K :
  K <> [] -> (forall k, In k K -> is_agg_term (term_of tms k) = true) ->
  existsb (fun kt => is_agg_term (snd kt)) (map (item_of_terms tms) K) = true.
Proof. destruct K as [|k0 K']; [congruence|]. intros _ H. simpl. rewrite (H k0 (or_introl eq_refl)). reflexivity. Qed.
Lemma no_win_items (tms : terms) K :
  (forall k, In k K -> is_win_term (term_of tms k) = false) ->
  existsb (fun kt => is_win_term (snd kt)) (map (item_of_terms tms) K) = false.
Proof. intros H. apply existsb_false_map. intros k Ik. exact (H k Ik). Qed.

(* an aggregating SELECT, explicitly: GROUP BY gb, or no GROUP BY and only aggregates *)
Lemma sql_select_agg tms K gb A :
  K <> [] -> (forall k, In k K -> is_win_term (term_of tms k) = false) ->
  (gb = [] -> forall k, In k K -> is_agg_term (term_of tms k) = true) ->
  sql_select fl true (Some tms) (Some K) (match gb with [] => SfxNone | _ => SfxGroup gb end) A
  = Some (mktable K (agg_rows fl A gb (map (item_of_terms tms) K))).
Proof.
  intros NE NW AG. unfold sql_select. rewrite select_keys_some by exact NE. rewrite (no_win_items tms K NW).
  destruct gb as [|g0 gb']; [|reflexivity]. rewrite (all_agg_has_agg tms K NE (AG eq_refl)). reflexivity.
Qed.

Lemma NoDup_app_split (a b : list string) : NoDup (a ++ b) -> NoDup b /\ (forall x, In x a -> ~ In x b).
Proof.
  induction a as [|x t IH]; simpl; intros N; [split; [exact N|intros y []]|]. inversion N as [|? ? Nx Nt]; subst.
  destruct (IH Nt) as [A B]. split; [exact A|]. intros y [<-|Iy]; [intros I; apply Nx; apply in_app_iff; right; exact I|apply B, Iy].
Qed.

Lemma node_project s ops gb sub u u1 S nm :
  builder_ok (OProject s ops gb) = true -> negb (is_nil gb && is_nil ops) = true ->
  sem_gen fl s e = Some S -> incl u u1 -> incl u1 (column_names (OProject s ops gb)) ->
  (gb = [] -> sub_ops u1 ops <> []) ->
  let p := OProject s ops gb in
  let us := py_set (cfs1 p u1) in
  incl us (column_names s) -> Delivers fl e sub us S ->
  Delivers fl e (TUnary nm (norm (project_terms (sub_ops u1 ops) gb)) sub (mk_tci (Some us) false None)
                        (match gb with [] => SfxNone | _ => SfxGroup gb end) false None) u (sem_project fl ops gb S).
Proof.
  intros BO NE0 ES Iuu1 Iu1 Hsub p us Isu D.
  destruct (bok_project _ _ _ BO) as [BOs Nall].
  pose proof (sem_cols fl s e S ES) as EC.
  destruct (NoDup_app_split _ _ Nall) as [Nk Dj].
  set (subops := sub_ops u1 ops) in *.
  assert (NoDup (map fst subops)) as Nsub by (apply NoDup_map_filter, Nk).
  assert (forall g, In g gb -> ~ In g (map fst subops)) as Djs.
  { intros g Ig I. apply (Dj g Ig). apply in_map_iff in I. destruct I as [ke [E I]]. apply filter_In in I. apply in_map_iff. exists ke. tauto. }
  assert (forall c, In c us <-> In c gb \/ In c (ops_cols subops)) as Hus.
  { intros c. unfold us, cfs1, p. simpl. rewrite In_py_set, in_app_iff. reflexivity. }
  assert (NoDup us) as Nus by apply NoDup_py_set.
  assert (forall K, incl K u1 -> sel K (sem_project fl ops gb S) = sel K (sem_project fl ops gb (sel us S))) as Hpr
    by (apply (prune_node fl e p s us u1 S (sem_project fl ops gb) BO eq_refl Iu1 ES); try (simpl; rewrite ES; reflexivity); try exact Isu; intros c Hc; apply In_py_set; exact Hc).
  set (tms := project_terms subops gb).
  assert (forall k, term_of tms k = match dict_get subops k with Some x => TmAgg x | None => TmPass end) as Hterm
      by (intros k; apply project_terms_term; assumption).
  assert (forall k, is_win_term (term_of tms k) = false) as NW by (intros k; rewrite Hterm; destruct (dict_get subops k); reflexivity).
  assert (forall k, In k (map fst tms) <-> In k (map fst subops) \/ In k gb) as Hkeys by (intros k; apply project_terms_keys).
  assert (gb = [] -> forall K, incl K (map fst tms) -> forall k, In k K -> is_agg_term (term_of tms k) = true) as AG.
  { intros -> K IK k Ik. rewrite Hterm. specialize (IK k Ik). apply Hkeys in IK. destruct IK as [IK|[]].
    destruct (dict_get subops k) eqn:G; [reflexivity|]. apply dict_get_None in G. contradiction. }
  assert (tms <> []) as NT.
  { intros X. destruct gb as [|g0 gb'].
    - specialize (Hsub eq_refl). destruct subops as [|so0 sor] eqn:Es; [congruence|].
      assert (In (fst so0) (map fst tms)) as I by (apply Hkeys; left; left; reflexivity). rewrite X in I. destruct I.
    - assert (In g0 (map fst tms)) as I by (apply Hkeys; right; left; reflexivity). rewrite X in I. destruct I. }
  assert (norm tms = Some tms) as ENorm by (destruct tms; [congruence|reflexivity]). rewrite ENorm.
  assert (incl u (map fst tms)) as IuK.
  { intros k Ik. apply Hkeys. specialize (Iu1 k (Iuu1 k Ik)). simpl in Iu1. apply in_app_iff in Iu1. destruct Iu1 as [X|X]; [right; exact X|left].
    apply in_map_iff in X. destruct X as [ke [E I]]. apply in_map_iff. exists ke. split; [exact E|]. apply in_sub_ops; [exact I|rewrite E; apply Iuu1, Ik]. }
  (* one output cell *)
  assert (forall A key grp k, List.length key = List.length gb -> In k (map fst tms) ->
            agg_item fl (cols A) gb key grp k (term_of tms k)
            = get (gb ++ map fst ops) (key ++ map (fun ke => agg_value fl (cols A) grp (snd ke)) ops) k) as Hcell.
  { intros A key grp k L Ik. rewrite Hterm. apply Hkeys in Ik. destruct (dict_get subops k) as [x|] eqn:G.
    - apply dict_get_In in G. assert (In (k, x) ops) as Io by (apply filter_In in G; tauto).
      assert (~ In k gb) as Ng by (intros Ig; apply (Dj k Ig); apply in_map_iff; exists (k, x); tauto).
      rewrite (get_app_r gb (map fst ops) key _ k Ng L).
      pose proof (get_map_assoc (fun ke => agg_value fl (cols A) grp (snd ke)) ops (k, x) Nk Io) as GM. cbn [fst snd] in GM. rewrite GM. reflexivity.
    - destruct Ik as [Ik|Ik]; [apply dict_get_None in G; contradiction|].
      rewrite (get_app_l gb (map fst ops) key _ k Ik L). destruct (index_of_In k gb Ik) as [i Ei]. unfold agg_item, get. rewrite Ei. reflexivity. }
  assert (forall A key, In key (match gb with [] => [[]] | _ => distinct_keys (map (key_of (cols A) gb) (rows A)) end) -> List.length key = List.length gb) as LK.
  { intros A key I. destruct gb as [|g0 gb']; [destruct I as [<-|[]]; reflexivity|].
    apply distinct_keys_sound in I. apply in_map_iff in I. destruct I as [r0 [<- _]]. apply map_length. }
  assert (forall K A, K <> [] -> incl K (map fst tms) ->
            sql_select fl true (Some tms) (Some K) (match gb with [] => SfxNone | _ => SfxGroup gb end) A
            = Some (sel K (sem_project fl ops gb A))) as Hsel.
  { intros K A NK IK. rewrite (sql_select_agg tms K gb A NK (fun k _ => NW k) (fun E => AG E K IK)). f_equal.
    unfold sem_select_cols, sem_project, agg_rows. cbn [cols rows]. f_equal. rewrite map_map. apply map_ext_in. intros key Ikey.
    rewrite map_map. apply map_ext_in. intros k Ik. unfold item_of_terms. cbn [fst snd].
    apply Hcell; [apply (LK A key Ikey)|apply IK, Ik]. }
  apply (fresh_unary fl e (group_count gb) sub us S nm tms _ false None u (sem_project fl ops gb S)); try assumption.
  - apply project_terms_nodup, Nsub.
  - intros k Ik. simpl. apply in_app_iff. specialize (Iu1 k (Iuu1 k Ik)). simpl in Iu1. apply in_app_iff in Iu1. exact Iu1.
  - intros K NK NDK IK. refine (eq_trans (Hsel K (sel us S) NK (fun k Ik => IuK k (IK k Ik))) _). f_equal. symmetry. apply Hpr. intros k Ik. apply Iuu1, IK, Ik.
  - intros k Ik c Hc. apply Hus. rewrite Hterm in Hc. specialize (IuK k Ik). apply Hkeys in IuK.
    destruct (dict_get subops k) as [x|] eqn:G; simpl in Hc.
    + right. apply dict_get_In in G. unfold ops_cols. apply in_flat_map. exists (k, x). split; [exact G|exact Hc].
    + destruct Hc as [<-|[]]. left. destruct IuK as [X|X]; [apply dict_get_None in G; contradiction|exact X].
  - destruct gb; [intros x []|]. simpl. intros c Hc. apply Hus. left. exact Hc.
  - intros K A NK IK. exists (sel K (sem_project fl ops gb A)). split; [exact (Hsel K A NK IK)|]. unfold sem_select_cols, sem_project, group_count. cbn [rows]. rewrite !map_length. reflexivity.
  - intros A B R. unfold group_count. destruct gb as [|g0 gb']; [reflexivity|]. f_equal. f_equal.
    eapply F2_map_eq; [exact R|]. intros r r' Rr. apply key_of_local. intros x Hx. apply Rr. apply Hus. left. exact Hx.
  - pose proof (f_equal (fun t => List.length (rows t)) (Hpr [] (fun x (H : In x []) => match H with end))) as EL.
    unfold sem_select_cols, sem_project in EL. cbn [rows] in EL. rewrite !map_length in EL.
    unfold group_count, sem_project. cbn [rows]. rewrite map_length. symmetry. exact EL.
  - intros K C A R NC ICK IK E1.
    assert (K <> []) as NK by (destruct C as [|c0 C']; [congruence|]; intros X; specialize (ICK c0 (or_introl eq_refl)); rewrite X in ICK; destruct ICK).
    pose proof (eq_trans (eq_sym (Hsel K A NK IK)) E1) as X. injection X as <-.
    refine (eq_trans (Hsel C A NC (fun k Ik => IK k (ICK k Ik))) _). f_equal. symmetry. apply sel_sel, ICK.
Qed.

End Agg.

Lemma cfs1_incl p s u : builder_ok p = true -> sources p = [s] -> incl u (column_names p) -> incl (cfs1 p u) (column_names s).
Proof.
  intros BO Sr Iu c Hc. unfold cfs1 in Hc.
  destruct p as [n cs|s0 ops wd w|s0 ops gb|s0 x|s0 cs|s0 ds|s0 m|s0 m dels|s0 cs rev lim|a b on_a on_b jt|a b idc an bn];
    try discriminate Sr; injection Sr as ->; cbn [cols_from_sources nth] in Hc.
  - destruct (sub_ops u ops); [exact Hc|]. apply filter_In in Hc. tauto.
  - simpl in BO. rewrite !andb_true_iff in BO. destruct BO as [[_ B] _]. apply (proj1 (subset_spec _ _) B).
    apply in_app_iff in Hc. apply in_app_iff. destruct Hc as [Hc|Hc]; [left; exact Hc|right].
    unfold ops_cols in *. apply in_flat_map in Hc. destruct Hc as [ke [I1 I2]]. apply in_flat_map. exists ke. split; [|exact I2]. apply filter_In in I1. tauto.
  - simpl in BO. apply andb_true_iff in BO. destruct BO as [_ B].
    apply In_set_union in Hc. destruct Hc as [Hc|Hc]; [apply In_set_inter in Hc; tauto|exact (proj1 (subset_spec _ _) B c Hc)].
  - simpl in BO. rewrite !andb_true_iff in BO. destruct BO as [[_ B] _]. apply In_set_inter in Hc. exact (proj1 (subset_spec _ _) B c (proj1 Hc)).
  - apply filter_In in Hc. destruct Hc as [Hc _]. specialize (Iu c Hc). simpl in Iu. apply filter_In in Iu. tauto.
  - destruct (bok_rename _ _ BO) as [_ OK]. apply in_map_iff in Hc. destruct Hc as [k [<- Ik]].
    destruct (get_rename m (column_names s) (column_names s) [] k OK (incl_refl _) (Iu k Ik)) as [_ [X _]]. exact X.
  - destruct (bok_map_cols _ _ _ BO) as [_ OK]. pose proof OK as [N1 _].
    apply in_app_iff in Hc. destruct Hc as [Hc|Hc].
    + apply in_map_iff in Hc. destruct Hc as [k [<- Ik]]. rewrite (old_of_dict_of_list m k N1).
      specialize (Iu k Ik). simpl in Iu. apply filter_In in Iu. destruct Iu as [Iu _].
      destruct (get_rename m (column_names s) (column_names s) [] k OK (incl_refl _) Iu) as [_ [X _]]. exact X.
    + simpl in BO. rewrite !andb_true_iff in BO. destruct BO as [[[_ _] Bd] _]. exact (proj1 (subset_spec _ _) Bd c Hc).
  - simpl in BO. rewrite !andb_true_iff in BO. destruct BO as [[_ Bc] _].
    apply in_app_iff in Hc. destruct Hc as [Hc|Hc]; [apply In_set_inter in Hc; tauto|exact (proj1 (subset_spec _ _) Bc c Hc)].
Qed.
