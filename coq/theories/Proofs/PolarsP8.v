(* C03, part 8: the theorems.  Whenever the Polars executor model returns a frame, the frame has exactly the declared
   columns; and under the guard (outside the known findings and accepted conventions) it has the columns and the multiset
   of rows of the Pandas-flavoured reference semantics. *)
From Coq Require Import List Bool String Permutation.
Import ListNotations.
From DA Require Import Base.PyRT Base.PyStr Base.Val Model.Sem Model.PolarsExec Proofs.SemOrderP Proofs.SemBasicP
  Proofs.PolarsP1 Proofs.PolarsP2 Proofs.PolarsP3 Proofs.PolarsP4 Proofs.PolarsP5 Proofs.PolarsP6 Proofs.PolarsP7 Proofs.ListP Proofs.TabP.
Local Open Scope string_scope.
Local Open Scope list_scope.

(* ------------------------------------------------------------------ columns: no temporary survives, none is lost *)
(* the loops of _extend_step and _project_step: a state that has failed stays failed, and an iteration that succeeds adds
   one produced column under the name of its item and never drops a temporary *)
Section FoldNames.
  Context {X : Type}.
  Let state := res (list (string * colx) * list (string * X) * list string).
  Variable step : state -> string * expr -> state.
  Hypothesis step_failed : forall ke, step Raise ke = Raise /\ step Unmodelled ke = Unmodelled.
  Hypothesis step_names : forall temps acc names ke tm pr nm, step (Ok (temps, acc, names)) ke = Ok (tm, pr, nm) ->
    map fst pr = map fst acc ++ [fst ke] /\ (temps <> [] -> tm <> []).

  Lemma fold_failed (l : list (string * expr)) st : st = Raise \/ st = Unmodelled -> forall r, fold_left step l st <> Ok r.
  Proof.
    revert st. induction l as [|k t IH]; intros st [->| ->] r; cbn [fold_left]; try discriminate;
      rewrite ?(proj1 (step_failed k)), ?(proj2 (step_failed k)); apply IH; auto.
  Qed.

  Lemma fold_names (ops : list (string * expr)) temps acc names temps' produced names' :
    fold_left step ops (Ok (temps, acc, names)) = Ok (temps', produced, names') ->
    map fst produced = map fst acc ++ map fst ops /\ (temps <> [] -> temps' <> []).
  Proof.
    revert temps acc names. induction ops as [|ke t IH]; intros temps acc names H; cbn [fold_left] in H.
    - inversion H; subst. rewrite app_nil_r. auto.
    - destruct (step (Ok (temps, acc, names)) ke) as [[[tm pr] nm]| |] eqn:E.
      + destruct (IH _ _ _ H) as [A C]. destruct (step_names _ _ _ _ _ _ _ E) as [A1 C1].
        split; [rewrite A, A1, <- app_assoc; reflexivity|auto].
      + exfalso. exact (fold_failed t Raise (or_introl eq_refl) _ H).
      + exfalso. exact (fold_failed t Unmodelled (or_intror eq_refl) _ H).
  Qed.
End FoldNames.

Lemma extend_step_names one wd pb temps acc names ke tm pr nm :
  extend_fold_step one wd pb (Ok (temps, acc, names)) ke = Ok (tm, pr, nm) ->
  map fst pr = map fst acc ++ [fst ke] /\ (temps <> [] -> tm <> []).
Proof.
  unfold extend_fold_step. cbn [rbind]. intros E.
  destruct (if wd then _ else _) as [[tm0 opk] nm0] eqn:E0 in E. apply rbind_ok in E. destruct E as [x [_ E]]. inversion E; subst tm pr nm; clear E.
  split; [rewrite map_app; reflexivity|]. intros N. destruct wd; [|inversion E0; subst; exact N].
  destruct (promote _ _ _ _) as [[[nm1 v] e']|] in E0; inversion E0; subst; [|exact N]. destruct temps; discriminate.
Qed.

Lemma project_step_names one temps acc names ke tm pr nm :
  project_fold_step one (Ok (temps, acc, names)) ke = Ok (tm, pr, nm) ->
  map fst pr = map fst acc ++ [fst ke] /\ (temps <> [] -> tm <> []).
Proof.
  unfold project_fold_step. cbn [rbind]. intros E.
  destruct (match promote _ _ _ _ with Some _ => _ | None => _ end) as [[tm0 opk] nm0] eqn:E0 in E.
  apply rbind_ok in E. destruct E as [x [_ E]]. inversion E; subst tm pr nm; clear E.
  split; [rewrite map_app; reflexivity|]. intros N.
  destruct (promote _ _ _ _) as [[[nm1 v] e']|] in E0; inversion E0; subst; [|exact N]. destruct temps; discriminate.
Qed.

Lemma select_if_cols {A} (temps : list A) declared t t2 : select_if temps declared t = Ok t2 ->
  (temps = [] /\ t2 = t) \/ (temps <> [] /\ cols t2 = declared).
Proof.
  unfold select_if. destruct temps; intros H; [left; inversion H; auto|right].
  apply pl_select_ok in H. destruct H as [-> _]. split; [discriminate|reflexivity].
Qed.

Lemma with_columns_if_nil t : with_columns_if t [] = t.
Proof. reflexivity. Qed.

Lemma extend_step_cols ops wd w t t2 : pl_extend_step (ext_cols (cols t) (map fst ops)) ops wd w t = Ok t2 ->
  cols t2 = ext_cols (cols t) (map fst ops).
Proof.
  unfold pl_extend_step. intros H. apply rbind_ok in H. destruct H as [[[temps produced] nms] [Hf H]].
  destruct (fold_names _ (fun _ => conj eq_refl eq_refl) (extend_step_names _ _ _) _ _ _ _ _ _ _ Hf) as [MF NE]. cbn [map app] in MF.
  apply select_if_cols in H. destruct H as [[-> ->]|[_ C]]; [|exact C].
  rewrite cols_with_columns, MF. cbn [with_columns_if]. destruct (w_order w); reflexivity.
Qed.

Lemma project_step_cols declared src (ops : list (string * expr)) gb t t2 : declared = gb ++ map fst ops ->
  pl_project_step declared src ops gb t = Ok t2 -> cols t2 = declared.
Proof.
  intros -> H. unfold pl_project_step in H. apply rbind_ok in H. destruct H as [[[temps produced] nms] [Hf H]].
  destruct (fold_names _ (fun _ => conj eq_refl eq_refl) (project_step_names _) _ _ _ _ _ _ _ Hf) as [MF NE]. cbn [map app] in MF.
  apply rbind_ok in H. destruct H as [r2 [H2 H]]. apply rbind_ok in H. destruct H as [r3 [H3 H]].
  assert (cols r3 = gb ++ map fst ops) as C3.
  { apply select_if_cols in H3. destruct H3 as [[-> ->]|[_ C]]; [|exact C].
    unfold pl_group_agg in H2. destruct (negb _) in H2; [discriminate|]. inversion H2; subst r2. cbn [cols]. rewrite MF.
    destruct gb as [|g gb']; [|reflexivity]. exfalso. cbn [app] in NE. apply NE; [discriminate|reflexivity]. }
  destruct gb as [|g gb'], (rows r3); inversion H; subst t2; cbn [cols]; exact C3.
Qed.

Lemma select_rows_step_cols e t t2 : pl_select_rows_step (cols t) e t = Ok t2 -> cols t2 = cols t.
Proof.
  unfold pl_select_rows_step. intros H. apply rbind_ok in H. destruct H as [px [_ H]].
  apply select_if_cols in H. destruct H as [[E ->]|[_ C]]; [|exact C]. rewrite E. reflexivity.
Qed.

Lemma rbind_select_cols {A} (x : res A) (f : A -> table) declared t :
  rbind x (fun r => pl_select declared (f r)) = Ok t -> cols t = declared.
Proof. intros H. apply rbind_ok in H. destruct H as [r [_ H]]. apply pl_select_ok in H. destruct H as [-> _]. reflexivity. Qed.

Lemma rename_step_cols declared m t t2 : pl_rename_step declared m t = Ok t2 -> cols t2 = declared.
Proof. apply (rbind_select_cols (pl_rename m t) (fun r => r)). Qed.

Lemma join_step_cols declared ca cb on_a on_b jt a b t : pl_join_step declared ca cb on_a on_b jt a b = Ok t -> cols t = declared.
Proof. unfold pl_join_step. destruct jt; apply rbind_select_cols. Qed.

Lemma concat_step_cols idc an bn a b t : pl_concat_step (cols a) idc an bn a b = Ok t ->
  cols t = cols a ++ match idc with Some c => [c] | None => [] end.
Proof.
  unfold pl_concat_step. destruct (match idc with Some c => mem c (cols a) | None => false end) eqn:Ei; [discriminate|].
  intros H. apply rbind_ok in H. destruct H as [a1 [Ea H]]. apply rbind_ok in H. destruct H as [b1 [Eb H]].
  apply pl_select_ok in Ea. destruct Ea as [-> _]. inversion H; subst t. cbn [cols].
  destruct idc as [c|]; [|cbn [sem_select_cols cols]; rewrite app_nil_r; reflexivity].
  rewrite cols_with_columns. cbn [sem_select_cols cols map fst]. apply ext_cols_fresh. apply mem_false. exact Ei.
Qed.

Lemma plexec_columns p : forall e t, plexec p e = Ok t -> cols t = column_names p.
Proof.
  induction p as [n cs|s IHp ops wd w|s IHp ops gb|s IHp x|s IHp cs|s IHp cs|s IHp m|s IHp m dels|s IHp cs rev lim|a IHa b IHb on_a on_b jt|a IHa b IHb idc an bn];
    intros env t H; cbn [plexec] in H.
  1: destruct (dict_get env n); [|discriminate].
  2-9: apply rbind_ok in H; destruct H as [t0 [H0 H]]; specialize (IHp _ _ H0).
  10-11: apply rbind_ok in H; destruct H as [ta [Ha H]]; apply rbind_ok in H; destruct H as [tb [Hb H]];
    specialize (IHa _ _ Ha); specialize (IHb _ _ Hb).
  - apply pl_select_ok in H. destruct H as [-> _]. reflexivity.
  - cbn [column_names] in *. rewrite <- IHp in *. apply (extend_step_cols _ _ _ _ _ H).
  - apply (project_step_cols _ _ _ _ _ _ eq_refl H).
  - cbn [column_names] in *. rewrite <- IHp in *. apply (select_rows_step_cols _ _ _ H).
  - apply pl_select_ok in H. destruct H as [-> _]. reflexivity.
  - apply pl_select_ok in H. destruct H as [-> _]. reflexivity.
  - apply (rename_step_cols _ _ _ _ H).
  - apply (rename_step_cols _ _ _ _ H).
  - unfold pl_order_step in H. inversion H; subst t. cbn [column_names]. destruct lim; exact IHp.
  - apply (join_step_cols _ _ _ _ _ _ _ _ _ H).
  - cbn [column_names]. rewrite <- IHa in *. apply (concat_step_cols _ _ _ _ _ _ H).
Qed.

(* ------------------------------------------------------------------ agreement with the Pandas-flavoured reference semantics *)
Lemma width_perm t t' : cols t = cols t' -> Permutation (rows t) (rows t') -> width_ok t' -> width_ok t.
Proof.
  unfold width_ok. intros C P W. rewrite Forall_forall in *. intros r I. rewrite C. apply W. eapply Permutation_in; eassumption.
Qed.

Lemma forallb_map' {A B} (f : B -> bool) (g : A -> B) l : forallb f (map g l) = forallb (fun x => f (g x)) l.
Proof. induction l as [|x t IH]; simpl; [reflexivity|]. rewrite IH. reflexivity. Qed.

Lemma in_all_causes c : In c all_causes.
Proof. destruct c; simpl; tauto. Qed.
Lemma guard_all p e : agree_guardb p e = true -> forall c, guard_for c p e = true.
Proof. unfold agree_guardb. rewrite forallb_forall. intros H c. apply H, in_all_causes. Qed.

Lemma guard_for_unary c p s e : sources_of p = [s] ->
  guard_for c p e = guard_for c s e && match sem_gen fl_pandas s e with Some t => step_guard c p [t] | None => true end.
Proof.
  destruct p; cbn [sources_of]; intros E; inversion E; subst; cbn [guard_for map]; destruct (sem_gen fl_pandas s e); reflexivity.
Qed.
Lemma guard_for_binary c p a b e : sources_of p = [a; b] ->
  guard_for c p e = guard_for c a e && guard_for c b e &&
                    match sem_gen fl_pandas a e, sem_gen fl_pandas b e with Some ta, Some tb => step_guard c p [ta; tb] | _, _ => true end.
Proof.
  destruct p; cbn [sources_of]; intros E; inversion E; subst; cbn [guard_for map];
    destruct (sem_gen fl_pandas a e), (sem_gen fl_pandas b e); reflexivity.
Qed.

Lemma cols_exist_spec p srcs : step_guard CColumnsExist p srcs = true ->
  forall c, In c (step_cols_needed p) -> In c (step_source_cols p).
Proof.
  intros H c I. assert (forallb (fun c0 => mem c0 (step_source_cols p)) (step_cols_needed p) = true) as H' by (destruct p; exact H).
  rewrite forallb_forall in H'. apply mem_In. apply H'. exact I.
Qed.

Lemma rows_nulls_ok_spec sens t es : rows_nulls_ok sens t es = true ->
  forall r e, In r (rows t) -> In e es -> expr_nulls_ok sens (cols t) r e = true.
Proof. unfold rows_nulls_ok. rewrite forallb_forall. intros H r e Ir Ie. specialize (H r Ir). rewrite forallb_forall in H. auto. Qed.

Lemma nulls_ok3_from t t' es r e :
  cols t = cols t' -> Permutation (rows t) (rows t') ->
  rows_nulls_ok is_cmp_op t' es = true -> rows_nulls_ok is_logic_op t' es = true ->
  In r (rows t) -> In e es -> nulls_ok3 (cols t) r e.
Proof.
  intros C P A B Ir Ie. assert (In r (rows t')) as Ir' by (eapply Permutation_in; eassumption).
  unfold nulls_ok3. rewrite C. repeat split; eapply rows_nulls_ok_spec; eassumption.
Qed.

Lemma rename_col_cases m c : In (rename_col m c) (map fst m) \/ rename_col m c = c.
Proof.
  unfold rename_col. destruct (find (fun no => String.eqb (snd no) c) m) as [no|] eqn:E; [|right; reflexivity].
  left. apply find_some in E. apply in_map. tauto.
Qed.

Definition agrees (t t' : table) : Prop := good t /\ cols t = cols t' /\ Permutation (rows t) (rows t').
Definition agrees_on (p : op) : Prop := forall e t t',
  plexec p e = Ok t -> (forall c, guard_for c p e = true) -> sem_gen fl_pandas p e = Some t' -> agrees t t'.

(* a node with one source: the guard splits into the guard of the source and the guard of the step; what is left to show is
   that the step takes agreeing inputs to agreeing outputs *)
Lemma agree_unary p s stepP stepS : sources_of p = [s] ->
  (forall e, plexec p e = rbind (plexec s e) stepP) ->
  (forall e, sem_gen fl_pandas p e = option_map stepS (sem_gen fl_pandas s e)) ->
  agrees_on s ->
  (forall ts ts' t, agrees ts ts' -> width_ok ts' -> cols ts' = column_names s -> (forall c, step_guard c p [ts'] = true) ->
     stepP ts = Ok t -> agrees t (stepS ts')) ->
  agrees_on p.
Proof.
  intros Sp HP HS IH Step e t t' H G S. rewrite HP in H. rewrite HS in S.
  apply rbind_ok in H. destruct H as [ts [Hs H]].
  destruct (sem_gen fl_pandas s e) as [ts'|] eqn:Es; [|discriminate]. inversion S; subst t'.
  assert ((forall c, guard_for c s e = true) /\ (forall c, step_guard c p [ts'] = true)) as [Gs Gp].
  { split; intros c; pose proof (G c) as Gc; rewrite (guard_for_unary c p s e Sp), Es in Gc; apply andb_true_iff in Gc; tauto. }
  apply (Step ts ts' t); [apply (IH e); assumption|exact (sem_rows_width _ _ _ _ Es)|exact (sem_cols _ _ _ _ Es)|exact Gp|exact H].
Qed.

Lemma agree_binary p a b stepP stepS : sources_of p = [a; b] ->
  (forall e, plexec p e = rbind (plexec a e) (fun ta => rbind (plexec b e) (stepP ta))) ->
  (forall e, sem_gen fl_pandas p e = match sem_gen fl_pandas a e, sem_gen fl_pandas b e with Some ta, Some tb => Some (stepS ta tb) | _, _ => None end) ->
  agrees_on a -> agrees_on b ->
  (forall ta ta' tb tb' t, agrees ta ta' -> agrees tb tb' -> cols ta' = column_names a -> cols tb' = column_names b ->
     (forall c, step_guard c p [ta'; tb'] = true) -> stepP ta tb = Ok t -> agrees t (stepS ta' tb')) ->
  agrees_on p.
Proof.
  intros Sp HP HS IHa IHb Step e t t' H G S. rewrite HP in H. rewrite HS in S.
  apply rbind_ok in H. destruct H as [ta [Ha H]]. apply rbind_ok in H. destruct H as [tb [Hb H]].
  destruct (sem_gen fl_pandas a e) as [ta'|] eqn:Ea; [|discriminate]. destruct (sem_gen fl_pandas b e) as [tb'|] eqn:Eb; [|discriminate].
  inversion S; subst t'.
  assert (forall c, guard_for c a e = true /\ guard_for c b e = true /\ step_guard c p [ta'; tb'] = true) as G3.
  { intros c. pose proof (G c) as Gc. rewrite (guard_for_binary c p a b e Sp), Ea, Eb in Gc.
    apply andb_true_iff in Gc. destruct Gc as [Gc G2]. apply andb_true_iff in Gc. tauto. }
  apply (Step ta ta' tb tb' t); [apply (IHa e)|apply (IHb e)|exact (sem_cols _ _ _ _ Ea)|exact (sem_cols _ _ _ _ Eb)|apply G3|exact H];
    try assumption; intros c; apply G3.
Qed.

Lemma agree_main p : agrees_on p.
Proof.
  induction p as [n cs|s IHp ops wd w|s IHp ops gb|s IHp x|s IHp cs|s IHp cs|s IHp m|s IHp m dels|s IHp cs rev lim|a IHa b IHb on_a on_b jt|a IHa b IHb idc an bn].
  2-9: eapply agree_unary; [reflexivity|intros; reflexivity|intros; reflexivity|exact IHp|];
    intros ts ts' t [[NDs Ws] [Cs Ps]] Ws' Cn Gp H.
  10-11: eapply agree_binary; [reflexivity|intros; reflexivity|intros; reflexivity|exact IHa|exact IHb|];
    intros ta ta' tb tb' t [[NDa Wa] [Ca Pa]] [[NDb Wb] [Cb Pb]] Cna Cnb Gp H.
  - (* table *)
    intros e t t' H G S. cbn [plexec sem_gen] in H, S. destruct (dict_get e n) as [t0|]; [|discriminate]. inversion S; subst t'.
    apply pl_select_ok in H. destruct H as [-> [ND _]].
    split; [split; [exact ND|apply width_select_cols]|]. split; [reflexivity|apply Permutation_refl].
  - (* extend *)
    pose proof (cols_exist_spec _ _ (Gp CColumnsExist)) as NR. cbn [step_cols_needed step_source_cols] in NR.
    cbn [column_names] in H. rewrite <- Cn, <- Cs in H.
    destruct wd.
    + (* windowed: group aggregates over a partition *)
      pose proof (Gp CVocab) as V. cbn [step_guard] in V. rewrite <- forallb_map' in V.
      destruct (wextend_step_perm _ ops w ts ts' t (conj NDs Ws) Cs Ps eq_refl V) as [C2 P2]; [|exact H|].
      * intros c [I|I]; rewrite Cs, Cn; apply NR.
        -- apply in_or_app. left. exact I.
        -- apply in_or_app. right. apply in_or_app. left. exact I.
      * assert (cols t = cols (sem_wextend fl_pandas ops w ts')) as CC by (rewrite C2; cbn [sem_wextend cols]; rewrite Cs; reflexivity).
        split; [split|split; [exact CC|exact P2]].
        -- rewrite C2. apply NoDup_ext_cols. exact NDs.
        -- eapply width_perm; [exact CC|exact P2|apply width_wextend; exact Ws'].
    + (* row-wise *)
      pose proof (Gp CVocab) as V. cbn [step_guard] in V. apply andb_true_iff in V. destruct V as [V Vw]. rewrite <- forallb_map' in V.
      assert (w_order w = []) as Wo by (destruct (w_part w), (w_order w); try discriminate; reflexivity).
      assert (t = sem_extend fl_pandas ops ts) as ->.
      { apply (extend_step_ok _ ops w ts t (conj NDs Ws) Wo eq_refl V); [| |exact H].
        - intros c I. rewrite Cs, Cn. apply NR. apply in_or_app. left. exact I.
        - intros r e0 Ir Ie. apply (nulls_ok3_from ts ts' (map snd ops) r e0 Cs Ps); try assumption.
          + exact (Gp CCmpNull).
          + exact (Gp CLogicNull). }
      destruct (extend_perm fl_pandas ops ts ts' Cs Ps) as [CC PP].
      split; [split; [cbn [sem_extend cols]; apply NoDup_ext_cols; exact NDs|apply width_extend; exact Ws]|]. auto.
  - (* project *)
    pose proof (cols_exist_spec _ _ (Gp CColumnsExist)) as NR. cbn [step_cols_needed step_source_cols] in NR.
    pose proof (Gp CVocab) as V. cbn [step_guard] in V. rewrite <- forallb_map' in V.
    cbn [column_names] in H. rewrite <- Cn, <- Cs in H.
    pose proof (project_step_nodup _ _ ops gb ts t V H) as NDp.
    assert (t = sem_project fl_pandas ops gb ts) as ->.
    { apply (project_step_same _ ops gb ts t (conj NDs Ws) eq_refl V); [| |exact H].
      - intros c [I|I]; rewrite Cs, Cn; apply NR; apply in_or_app; [right|left]; exact I.
      - intros -> Er. pose proof (Gp CEmptyProject) as GE. cbn [step_guard] in GE.
        assert (rows ts' = []) as Er' by (rewrite Er in Ps; apply Permutation_nil in Ps; exact Ps). rewrite Er' in GE.
        apply negb_true_iff in GE. apply forallb_forall. intros ke Ike. apply negb_true_iff.
        destruct (mem (agg_of (snd ke)) _) eqn:M; [|reflexivity].
        assert (existsb (fun ke0 => mem (agg_of (snd ke0)) ["sum"; "count"; "size"; "_size"]) ops = true); [|congruence].
        apply existsb_exists. eauto. }
    split; [split; [exact NDp|apply width_project]|]. split; [reflexivity|].
    apply project_perm; try assumption.
    pose proof (Gp CGroupKeyRepr) as GK. cbn [step_guard] in GK. rewrite forallb_forall in GK.
    intros r1 r2 I1 I2 E. specialize (GK r1 I1). rewrite forallb_forall in GK. specialize (GK r2 I2).
    rewrite E in GK. cbn [negb orb] in GK. apply (proj1 (eqb_true _ _)) in GK. exact GK.
  - (* select_rows *)
    pose proof (Gp CVocab) as V. cbn [step_guard] in V.
    assert (t = sem_select_rows fl_pandas x ts) as ->.
    { apply (select_rows_step_filter (column_names (OSelectRows s x)) x ts t V); [|exact H]. intros r Ir.
      assert (In r (rows ts')) as Ir' by (eapply Permutation_in; eassumption).
      pose proof (Gp CCmpNull) as G1. pose proof (Gp CLogicNull) as G2.
      cbn [step_guard] in G1, G2. unfold filter_rows_ok in G1, G2. rewrite forallb_forall in G1, G2.
      unfold filter_ok3. rewrite Cs. auto. }
    split; [split; [exact NDs|apply width_select_rows; exact Ws]|]. split; [exact Cs|apply select_rows_perm; assumption].
  - (* select_columns *)
    apply pl_select_ok in H. destruct H as [-> [ND _]]. cbn [column_names] in *.
    split; [split; [exact ND|apply width_select_cols]|]. split; [reflexivity|apply select_cols_perm; assumption].
  - (* drop_columns *)
    apply pl_select_ok in H. destruct H as [-> [ND _]]. cbn [column_names] in *.
    unfold sem_drop_cols. rewrite Cn.
    split; [split; [exact ND|apply width_select_cols]|]. split; [reflexivity|apply select_cols_perm; assumption].
  - (* rename_columns *)
    unfold pl_rename_step in H. apply rbind_ok in H. destruct H as [t1 [H1 H]].
    unfold pl_rename in H1. destruct (forallb _ m && nodupb _) in H1; [|discriminate]. inversion H1; subst t1.
    apply pl_select_ok in H. destruct H as [-> [ND _]]. cbn [column_names] in *.
    assert (map (rename_col m) (column_names s) = cols (sem_rename m ts)) as CR by (cbn [sem_rename cols]; rewrite Cs, Cn; reflexivity).
    rewrite CR in *. rewrite select_self by (try exact ND; apply width_rename; exact Ws).
    split; [split; [exact ND|apply width_rename; exact Ws]|]. split; [cbn [sem_rename cols]; rewrite Cs; reflexivity|].
    apply rename_perm; assumption.
  - (* map_columns *)
    unfold pl_rename_step in H. apply rbind_ok in H. destruct H as [t1 [H1 H]].
    unfold pl_rename in H1. destruct (forallb _ m && nodupb _) in H1; [|discriminate]. inversion H1; subst t1.
    apply pl_select_ok in H. destruct H as [-> [ND _]]. cbn [column_names] in *.
    unfold sem_drop_cols. cbn [sem_rename cols]. rewrite Cn.
    split; [split; [exact ND|apply width_select_cols]|]. split; [reflexivity|].
    apply select_cols_perm; [cbn [sem_rename cols]; rewrite Cs; reflexivity|exact Ps].
  - (* order_rows *)
    destruct (order_step_perm cs rev lim ts ts' t Cs Ps) as [C2 P2]; [|exact H|].
    + intros NL. destruct lim as [k|]; [|congruence]. split; [exact (Gp CSortNulls)|exact (Gp CSortTies)].
    + split; [split|split; [exact C2|exact P2]].
      * rewrite C2. cbn [sem_order cols]. rewrite <- Cs. exact NDs.
      * eapply width_perm; [exact C2|exact P2|apply width_order; exact Ws'].
  - (* natural_join *)
    cbn [f_join_null_match fl_pandas].
    pose proof (Gp CJoinKeyed) as GN. cbn [step_guard] in GN.
    assert (on_a <> []) as NE by (destruct on_a; discriminate).
    cbn [column_names] in H. rewrite <- Cna, <- Cnb, <- Ca, <- Cb in H.
    destruct (join_step_perm _ on_a on_b jt ta tb t (conj NDa Wa) (conj NDb Wb) NE eq_refl H) as [C2 P2].
    assert (cols t = cols (sem_join false on_a on_b jt ta' tb')) as CC by (rewrite C2; cbn [sem_join cols]; rewrite Ca, Cb; reflexivity).
    assert (Permutation (rows t) (rows (sem_join false on_a on_b jt ta' tb'))) as PP.
    { eapply perm_trans; [exact P2|]. apply join_perm; assumption. }
    split; [split|split; [exact CC|exact PP]].
    + rewrite C2. apply NoDup_join_cols; assumption.
    + eapply width_perm; [exact CC|exact PP|apply width_join].
  - (* concat_rows *)
    assert (cols ta = column_names a) as Cta by (rewrite Ca; exact Cna).
    assert (match idc with Some c => mem c (column_names a) | None => false end = false) as Ei.
    { unfold pl_concat_step in H. destruct (match idc with Some c => mem c (column_names a) | None => false end); [discriminate|reflexivity]. }
    assert (t = sem_concat idc an bn ta tb) as -> by (apply (concat_step_ok (column_names a) idc an bn ta tb t (conj NDa Wa) Cta H)).
    split; [split|split].
    + unfold sem_concat. destruct idc as [c|]; cbn [cols]; [|exact NDa]. apply NoDup_snoc; [exact NDa|]. apply mem_false. rewrite Cta. exact Ei.
    + apply width_concat. exact Wa.
    + unfold sem_concat. destruct idc; cbn [cols]; rewrite Ca; reflexivity.
    + apply concat_perm; assumption.
Qed.

Theorem polars_agrees_or_raises p e t t' :
  plexec p e = Ok t -> agree_guardb p e = true -> sem_gen fl_pandas p e = Some t' ->
  cols t = cols t' /\ Permutation (rows t) (rows t').
Proof. intros H G S. destruct (agree_main p e t t' H (guard_all p e G) S) as [_ [A B]]. auto. Qed.
