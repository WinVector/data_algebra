(* SQLGEN, part 12: the invariant of the steps extend_to_near_sql may merge into; a fresh extend step satisfies it (ext_deps_ok);
   what an accepted try_sql_merge says of its result (try_sql_merge_inv). *)
From Coq Require Import List Bool String.
Import ListNotations.
From DA Require Import Base.PyRT Base.Val Model.Sem Proofs.SemBasicP Model.ColumnsUsed Proofs.ColumnsUsedP1 Proofs.ColumnsUsedP2
  Proofs.ColumnsUsedP4 Model.SqlGen Model.SqlSem Proofs.SqlGenP1 Proofs.SqlGenP2 Proofs.SqlGenP3 Proofs.SqlGenP4 Proofs.SqlGenP11 Proofs.ListP.
Local Open Scope list_scope.

(* what extend_to_near_sql may assume of a step it is allowed to merge into *)
Definition merge_ok (l : terms) (dp : depmap) : Prop :=
  l <> [] /\ (forall kt, In kt l -> scalar_term (snd kt) = true) /\ NoDup (map fst l) /\
  incl (map fst l) (map fst dp) /\ NoDup (map fst dp) /\ deps_describe l dp.
Definition MergeInv (q : tnear) : Prop :=
  forall n ts s0 ci sfx dp, q = TUnary n ts s0 ci sfx true (Some dp) -> sfx = SfxNone /\ exists l, ts = Some l /\ merge_ok l dp.

(* The same invariant for any class P of terms: narrowing a step only removes terms, so it stays in whatever class it was. *)
Definition merge_okP (P : tterm -> Prop) (l : terms) (dp : depmap) : Prop :=
  l <> [] /\ (forall kt, In kt l -> P (snd kt)) /\ NoDup (map fst l) /\
  incl (map fst l) (map fst dp) /\ NoDup (map fst dp) /\ deps_describe l dp.
Definition MergeInvP (P : tterm -> Prop) (q : tnear) : Prop :=
  forall n ts s0 ci sfx dp, q = TUnary n ts s0 ci sfx true (Some dp) -> sfx = SfxNone /\ exists l, ts = Some l /\ merge_okP P l dp.

Lemma merge_inv_not_mergeable n ts s0 ci sfx dp : MergeInv (TUnary n ts s0 ci sfx false dp).
Proof. intros n' ts' s0' ci' sfx' dp' E. discriminate. Qed.
Lemma merge_inv_table n ts : MergeInv (TTable n ts).
Proof. intros n' ts' s0' ci' sfx' dp' E. discriminate. Qed.

Lemma merge_invP_restrict P q K q' : MergeInvP P q -> restrict_terms q K = Some q' -> K <> [] -> NoDup K -> MergeInvP P q'.
Proof.
  intros M E NE NK n ts s0 ci sfx dp Eq. subst q'.
  destruct q as [nm tt|nm l s ci0 sfx0 mg dp0|nm l s1 c1 j s2 c2 on]; simpl in E.
  - destruct (subset K _); discriminate.
  - destruct (subset K _) eqn:Sb; [|discriminate]. injection E as E1 E2 E3 E4 E5 E6 E7. subst n ts s0 ci sfx mg dp0.
    destruct (M nm l s ci0 sfx0 dp eq_refl) as [-> [l0 [-> [NL [SC [ND [IK [NDd DD]]]]]]]]. split; [reflexivity|].
    pose proof (proj1 (subset_spec _ _) Sb) as Sb'. cbn in Sb'.
    eexists. split; [reflexivity|]. repeat split.
    + destruct K as [|k0 K']; [congruence|]. cbn [flat_map]. specialize (Sb' k0 (or_introl eq_refl)).
      destruct (dict_get l0 k0) eqn:G; [discriminate|]. apply dict_get_None in G. contradiction.
    + intros kt I. apply in_flat_map in I. destruct I as [k [_ I]]. destruct (dict_get l0 k) as [v|] eqn:G; [|destruct I]. destruct I as [<-|[]].
      apply dict_get_In in G. exact (SC _ G).
    + rewrite (keys_restrict l0 K Sb'). exact NK.
    + rewrite (keys_restrict l0 K Sb'). intros k Ik. apply IK, Sb', Ik.
    + exact NDd.
    + intros k t I. apply in_flat_map in I. destruct I as [k1 [_ I]]. destruct (dict_get l0 k1) as [v|] eqn:G; [|destruct I]. destruct I as [[= <- <-]|[]].
      apply dict_get_In in G. exact (DD _ _ G).
  - destruct (subset K _); discriminate.
Qed.

Lemma merge_invP_empty P q : terms_is_none q = true -> MergeInvP P q -> MergeInvP P (empty_terms q).
Proof.
  intros TN M n ts s0 ci sfx dp Eq. destruct q as [nm tt|nm l s ci0 sfx0 mg dp0|nm l s1 c1 j s2 c2 on]; simpl in Eq; try discriminate.
  injection Eq as E1 E2 E3 E4 E5 E6 E7. subst n ts s0 ci sfx mg dp0. destruct l; [discriminate|].
  destruct (M nm None s ci0 sfx0 dp eq_refl) as [_ [l0 [X _]]]. discriminate.
Qed.

Lemma merge_invP_narrow P q K q' : MergeInvP P q -> NoDup K ->
  (if terms_is_none q then (match K with [] => Some (empty_terms q) | _ => None end) else narrow_or_first q K) = Some q' -> MergeInvP P q'.
Proof.
  intros M NK E. destruct (terms_is_none q) eqn:TN.
  - destruct K; [|discriminate]. injection E as <-. apply merge_invP_empty; assumption.
  - unfold narrow_or_first in E. destruct K as [|k1 K'].
    + destruct (tkeys q) as [|k0 rest] eqn:EK.
      * (* terms = Some [] : cannot be a mergeable step *)
        intros n ts s0 ci sfx dp Eq. subst q'. destruct q as [nm tt|nm l s ci0 sfx0 mg dp0|nm l s1 c1 j s2 c2 on]; simpl in E; try discriminate.
        injection E as E1 E2 E3 E4 E5 E6 E7. subst n ts s0 ci sfx mg dp0. destruct l as [l|]; [|discriminate]. destruct (M nm (Some l) s ci0 sfx0 dp eq_refl) as [_ [l0 [X [NL _]]]].
        injection X as <-. simpl in EK. destruct l; [congruence|discriminate].
      * apply (merge_invP_restrict P q [k0] q' M E); [discriminate|]. constructor; [intros []|constructor].
    + assert (restrict_terms q (k1 :: K') = Some q') as E' by (destruct (tkeys q); exact E).
      apply (merge_invP_restrict P q (k1 :: K') q' M E'); [discriminate|exact NK].
Qed.

Lemma merge_inv_narrow q K q' : MergeInv q -> NoDup K ->
  (if terms_is_none q then (match K with [] => Some (empty_terms q) | _ => None end) else narrow_or_first q K) = Some q' -> MergeInv q'.
Proof. exact (merge_invP_narrow (fun t => scalar_term t = true) q K q'). Qed.

(* ------------------------------------------------------------------ a fresh extend step satisfies the invariant *)
(* ... when every item f(x) is declared to read what it reads *)
Lemma ext_deps_ok (P : tterm -> Prop) (f : expr -> tterm) (wv origcols : list string) (subops : list (string * expr)) :
  NoDup origcols -> NoDup (map fst subops) -> (forall k, In k origcols -> ~ In k (map fst subops)) -> subops <> [] ->
  P TmPass -> (forall x, P (f x)) -> (forall k x, incl (item_cols (k, f x)) (set_union (py_set (cols_used x)) wv)) ->
  merge_okP P (ext_terms f origcols subops) (ext_deps wv origcols subops) /\
  map fst (ext_terms f origcols subops) = map fst (ext_deps wv origcols subops).
Proof.
  intros No Ns Dj NE H0 Hf Hr.
  pose proof (ext_terms_keys f origcols subops) as EK1.
  assert (map fst (ext_deps wv origcols subops) = origcols ++ map fst subops) as EK2.
  { unfold ext_deps. rewrite map_app, !map_map. simpl. rewrite map_id. reflexivity. }
  assert (NoDup (origcols ++ map fst subops)) as NA by (apply NoDup_app_iff; repeat split; assumption).
  split; [|rewrite EK1, EK2; reflexivity].
  split; [apply ext_terms_nonempty, NE|]. split; [apply ext_terms_all; assumption|].
  split; [rewrite EK1; exact NA|]. split; [rewrite EK1, EK2; apply incl_refl|]. split; [rewrite EK2; exact NA|].
  intros k t I. unfold deps_of.
  set (dp := ext_deps wv origcols subops).
  assert (NoDup (dict_keys dp)) as ND by (unfold dict_keys, dp; rewrite EK2; exact NA).
  apply in_app_iff in I. destruct I as [I|I].
  - unfold pass_terms in I. apply in_map_iff in I. destruct I as [x [[= <- <-] Ix]].
    assert (In (x, [x]) dp) as Id by (unfold dp, ext_deps; apply in_app_iff; left; apply in_map_iff; exists x; tauto).
    rewrite (dict_get_NoDup_In dp x [x] ND Id). simpl. apply incl_refl.
  - apply in_map_iff in I. destruct I as [ke [[= <- <-] Ike]].
    assert (In (fst ke, set_union (py_set (cols_used (snd ke))) wv) dp) as Id
        by (unfold dp, ext_deps; apply in_app_iff; right; apply in_map_iff; exists ke; tauto).
    rewrite (dict_get_NoDup_In dp _ _ ND Id). apply Hr.
Qed.

Lemma extend_deps_ok (P : tterm -> Prop) (origcols : list string) (subops : list (string * expr)) :
  NoDup origcols -> NoDup (map fst subops) -> (forall k, In k origcols -> ~ In k (map fst subops)) -> subops <> [] ->
  P TmPass -> (forall x, P (TmExpr x)) ->
  merge_okP P (ext_terms TmExpr origcols subops) (ext_deps [] origcols subops) /\
  map fst (ext_terms TmExpr origcols subops) = map fst (ext_deps [] origcols subops).
Proof. intros No Ns Dj NE H0 Hf. apply ext_deps_ok; try assumption. intros k x c Hc. apply In_py_set. exact Hc. Qed.

Lemma try_sql_merge_inv sub tms deps m : try_sql_merge sub tms deps = Some (Ok m) ->
  exists n0 ts s0 ci ds, sub = TUnary n0 (Some ts) s0 ci SfxNone true (Some ds) /\
    contention (non_trivial_terms deps tms) (needs deps (non_trivial_terms deps tms)) (non_trivial_terms ds ts) (needs ds (non_trivial_terms ds ts)) = [] /\
    m = TUnary n0 (Some (merged_terms (non_trivial_terms deps tms) tms deps ts)) s0 ci SfxNone true (Some (merged_deps (non_trivial_terms deps tms) tms deps ds)).
Proof.
  destruct sub as [nm tt|nm l s ci sfx mg dp|nm l s1 c1 j s2 c2 on]; simpl; try discriminate.
  destruct sfx; try discriminate. destruct mg; try discriminate. destruct dp as [ds|]; try discriminate. destruct l as [ts|]; try discriminate.
  destruct (contention _ _ _ _) eqn:C; try discriminate. intros [= <-]. exists nm, ts, s, ci, ds. split; [reflexivity|]. split; [exact C|reflexivity].
Qed.
