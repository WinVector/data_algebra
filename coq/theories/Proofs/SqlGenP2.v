(* SQLGEN, part 2: the invariant of the generator (`Delivers`): what a generated NearSQL step supplies to whoever wraps it in a
   container, how narrowing its terms (select_columns / drop_columns) preserves it, and the generic lemmas for a unary step. *)
From Coq Require Import List Bool String.
Import ListNotations.
From DA Require Import Base.PyRT Base.Val Model.Sem Proofs.SemBasicP Model.ColumnsUsed Proofs.ColumnsUsedP1 Proofs.ColumnsUsedP2
  Model.SqlGen Model.SqlSem Proofs.SqlGenP1.
Local Open Scope list_scope.

Section Inv.
Variable fl : flavor.
Variable e : env.

(* q, generated for the request u, against the table T the pipeline denotes:
   - asked (through a container's `columns`) for any non-empty part K of its own terms it returns as many rows as T has,
     and exactly the projection of T when K is part of the request u;
   - asked for no column at all it still returns as many rows as T has;
   - a table step referred to by name stands for a stored table with as many rows as T. *)
Record Delivers (q : tnear) (u : list string) (T : table) : Prop := {
  dv_nodup : NoDup (tkeys q);
  dv_incl : incl u (tkeys q);
  dv_cols : incl u (cols T);
  dv_sel : forall K, K <> [] -> NoDup K -> incl K (tkeys q) ->
           exists R, qsem fl e q (Some K) = Some R /\ sel [] R = sel [] T /\ (incl K u -> R = sel K T) /\
                     (forall C, NoDup C -> incl C K -> incl C u -> sel C R = sel C T);
  dv_nil : exists R, qsem fl e q (Some []) = Some R /\ sel [] R = sel [] T;
  dv_table : forall n ts, q = TTable n ts -> exists st, dict_get e n = Some st /\ sel [] st = sel [] T
}.

Lemma delivers_mono q u u' T : Delivers q u T -> incl u' u -> Delivers q u' T.
Proof.
  intros D I. destruct D as [A B C0 C D0 E0]. constructor; try assumption.
  - intros x Hx. apply B, I, Hx.
  - intros x Hx. apply C0, I, Hx.
  - intros K NE N IK. destruct (C K NE N IK) as [R [E1 [E2 [E3 E4]]]]. exists R. split; [exact E1|]. split; [exact E2|]. split.
    + intros IKu. apply E3. intros x Hx. apply I, IKu, Hx.
    + intros C1 N1 I1 I2. apply E4; [exact N1|exact I1|]. intros x Hx. apply I, I2, Hx.
Qed.

(* what the parent sees through a container asking for the columns C *)
Lemma deliver_csem q u T C f pub :
  Delivers q u T -> NoDup C -> incl C u ->
  exists S', csem fl e q (mk_tci (Some C) f pub) = Some S' /\ RA C T S' /\
             (C <> [] -> by_name q (mk_tci (Some C) f pub) = false -> S' = sel C T).
Proof.
  intros D N I. unfold csem. destruct (by_name q (mk_tci (Some C) f pub)) eqn:BN.
  - destruct q as [n ts| |]; try discriminate. destruct (dv_table _ _ _ D n ts eq_refl) as [st [E1 E2]].
    rewrite E1. exists st. split; [reflexivity|]. split; [|intros _ X; discriminate].
    destruct C as [|c0 C'].
    + apply sel_eq_RA. symmetry. exact E2.
    + assert (incl (c0 :: C') (tkeys (TTable n ts))) as IK by (intros x Hx; apply (dv_incl _ _ _ D), I, Hx).
      destruct (dv_sel _ _ _ D (c0 :: C') ltac:(discriminate) N IK) as [R [Q1 [Q2 [Q3 _]]]].
      simpl in Q1. rewrite E1 in Q1. injection Q1 as Q1. apply sel_eq_RA. rewrite <- (Q3 I), <- Q1. reflexivity.
  - cbn [tc_cols]. destruct C as [|c0 C'].
    + destruct (dv_nil _ _ _ D) as [R [E1 E2]]. exists R. split; [exact E1|]. split; [|intros X; congruence].
      apply sel_eq_RA. symmetry. exact E2.
    + assert (incl (c0 :: C') (tkeys q)) as IK by (intros x Hx; apply (dv_incl _ _ _ D), I, Hx).
      destruct (dv_sel _ _ _ D (c0 :: C') ltac:(discriminate) N IK) as [R [Q1 [Q2 [Q3 _]]]].
      exists R. split; [exact Q1|]. rewrite (Q3 I). split; [apply RA_sel|reflexivity].
Qed.

(* ------------------------------------------------------------------ reading qsem *)
Lemma qsem_unary nm tms s ci sfx mg dp want :
  qsem fl e (TUnary nm tms s ci sfx mg dp) want =
  match csem fl e s ci with Some t => sql_select fl true tms want sfx t | None => None end.
Proof. reflexivity. Qed.

Lemma select_keys_own_nil l : l <> [] -> select_keys true (Some l) (Some []) = select_keys true (Some l) (Some (map fst l)).
Proof. destruct l as [|a t]; [congruence|]. reflexivity. Qed.
Lemma select_keys_none_own own l : l <> [] -> select_keys own (Some l) None = select_keys own (Some l) (Some (map fst l)).
Proof. destruct l as [|a t]; [congruence|]. intros _. unfold select_keys. reflexivity. Qed.
Lemma select_keys_some own l K : K <> [] -> select_keys own (Some l) (Some K) = Some K.
Proof. destruct K as [|k0 K']; [congruence|]. intros _. unfold select_keys. simpl. rewrite andb_false_r. reflexivity. Qed.

Lemma sql_select_keys_eq own tms want want' sfx t :
  select_keys own tms want = select_keys own tms want' -> sql_select fl own tms want sfx t = sql_select fl own tms want' sfx t.
Proof. intros E. unfold sql_select. rewrite E. reflexivity. Qed.

(* the SELECT list depends on the terms only through the entries of the selected keys *)
Lemma sql_select_terms_eq own l l' K sfx t :
  K <> [] -> (forall k, In k K -> term_of l k = term_of l' k) ->
  sql_select fl own (Some l) (Some K) sfx t = sql_select fl own (Some l') (Some K) sfx t.
Proof.
  intros NE H. unfold sql_select. rewrite !select_keys_some by exact NE.
  assert (map (item_of_terms l) K = map (item_of_terms l') K) as EM.
  { apply map_ext_in. intros k Ik. unfold item_of_terms. rewrite (H k Ik). reflexivity. }
  rewrite EM. reflexivity.
Qed.

(* the whole query: columns=None means the step's own terms *)
Lemma qsem_none_own q : tkeys q <> [] -> qsem fl e q None = qsem fl e q (Some (tkeys q)).
Proof.
  destruct q as [n0 ts|nm l s ci sfx mg dp|nm l s1 c1 j s2 c2 on]; simpl; intros NE.
  - destruct ts as [ts|]; [|congruence]. destruct (dict_get e n0); reflexivity.
  - destruct l as [l|]; [|congruence].
    assert (l <> []) as NL by (intros ->; apply NE; reflexivity).
    destruct (if by_name s ci then _ else _); [|reflexivity]. apply sql_select_keys_eq, select_keys_none_own, NL.
  - destruct l as [l|]; [|congruence].
    assert (l <> []) as NL by (intros ->; apply NE; reflexivity).
    destruct (if by_name s1 c1 then _ else _); [|reflexivity]. destruct (if by_name s2 c2 then _ else _); [|reflexivity].
    destruct j.
    + destruct l as [|a l']; [congruence|reflexivity].
    + destruct (union_all t t0); [|reflexivity]. apply sql_select_keys_eq, select_keys_none_own, NL.
Qed.

(* ------------------------------------------------------------------ narrowing the terms of a step *)
Lemma term_of_restrict l K k : In k K -> In k (map fst l) ->
  term_of (flat_map (fun k => match dict_get l k with Some v => [(k, v)] | None => [] end) K) k = term_of l k.
Proof.
  intros Ik Il. unfold term_of. induction K as [|x K' IH]; [destruct Ik|]. cbn [flat_map].
  destruct (dict_get l x) as [v|] eqn:Ex.
  - cbn [app dict_get]. destruct (eq_dec k x) as [->|n].
    + rewrite Ex. reflexivity.
    + apply IH. destruct Ik; [congruence|assumption].
  - cbn [app]. destruct (eq_dec k x) as [->|n].
    + exfalso. apply dict_get_None in Ex. apply Ex. exact Il.
    + apply IH. destruct Ik; [congruence|assumption].
Qed.

Lemma keys_restrict (l : terms) K : incl K (map fst l) ->
  map fst (flat_map (fun k => match dict_get l k with Some v => [(k, v)] | None => [] end) K) = K.
Proof.
  induction K as [|x K' IH]; intros I; [reflexivity|]. simpl.
  destruct (dict_get l x) as [v|] eqn:Ex.
  - simpl. f_equal. apply IH. intros y Hy. apply I. right. exact Hy.
  - exfalso. apply dict_get_None in Ex. apply Ex. apply I. left. reflexivity.
Qed.

Lemma restrict_terms_keys q K q' : restrict_terms q K = Some q' -> tkeys q' = K /\ incl K (tkeys q).
Proof.
  destruct q as [n ts|nm l s ci sfx mg dp|nm l s1 c1 j s2 c2 on]; simpl.
  - destruct (subset K _) eqn:Sb; [|discriminate]. intros [= <-]. pose proof (proj1 (subset_spec _ _) Sb) as Sb'. split; [reflexivity|]. destruct ts; exact Sb'.
  - destruct (subset K _) eqn:Sb; [|discriminate]. intros [= <-]. pose proof (proj1 (subset_spec _ _) Sb) as Sb'. split.
    + simpl. destruct l as [l|]; [apply keys_restrict; exact Sb'|]. destruct K as [|k0 K']; [reflexivity|]. destruct (Sb' k0 (or_introl eq_refl)).
    + destruct l; exact Sb'.
  - destruct (subset K _) eqn:Sb; [|discriminate]. intros [= <-]. pose proof (proj1 (subset_spec _ _) Sb) as Sb'. split.
    + simpl. destruct l as [l|]; [apply keys_restrict; exact Sb'|]. destruct K as [|k0 K']; [reflexivity|]. destruct (Sb' k0 (or_introl eq_refl)).
    + destruct l; exact Sb'.
Qed.

(* a narrowed step answers a request inside its remaining terms as the original step does *)
Lemma restrict_qsem q K q' C : restrict_terms q K = Some q' -> C <> [] -> incl C K ->
  qsem fl e q' (Some C) = qsem fl e q (Some C).
Proof.
  intros E NE I. destruct (restrict_terms_keys _ _ _ E) as [_ IK].
  destruct q as [n ts|nm l s ci sfx mg dp|nm l s1 c1 j s2 c2 on]; simpl in E.
  - destruct (subset K _); [|discriminate]. injection E as <-. simpl. destruct C; [congruence|]. reflexivity.
  - destruct (subset K _) eqn:Sb; [|discriminate]. injection E as <-. rewrite !qsem_unary.
    destruct (csem fl e s ci); [|reflexivity]. destruct l as [l|].
    + apply sql_select_terms_eq; [exact NE|]. intros k Ik. apply term_of_restrict; [apply I, Ik|]. apply IK, I, Ik.
    + simpl in IK. destruct C as [|c0 C']; [congruence|]. exfalso. apply (IK c0). apply I. left. reflexivity.
  - destruct (subset K _) eqn:Sb; [|discriminate]. injection E as <-. simpl.
    destruct (if by_name s1 c1 then _ else _); [|reflexivity]. destruct (if by_name s2 c2 then _ else _); [|reflexivity].
    destruct l as [l|].
    2:{ simpl in IK. destruct C as [|c0 C']; [congruence|]. exfalso. apply (IK c0). apply I. left. reflexivity. }
    assert (forall k, In k C -> term_of (flat_map (fun k => match dict_get l k with Some v => [(k, v)] | None => [] end) K) k = term_of l k) as TE.
    { intros k Ik. apply term_of_restrict; [apply I, Ik|]. apply IK, I, Ik. }
    destruct j.
    + unfold sql_join_select. rewrite !select_keys_some by exact NE.
      assert (map (item_of_terms (flat_map (fun k => match dict_get l k with Some v => [(k, v)] | None => [] end) K)) C = map (item_of_terms l) C) as EM.
      { apply map_ext_in. intros k Ik. unfold item_of_terms. rewrite (TE k Ik). reflexivity. }
      rewrite EM. reflexivity.
    + destruct (union_all t t0); [|reflexivity]. apply sql_select_terms_eq; [exact NE|exact TE].
Qed.

(* asked for nothing: a unary step writes its own terms; a table is read whole; a binary step writes "*" whatever its terms *)
Lemma restrict_qsem_nil q K q' : restrict_terms q K = Some q' -> K <> [] -> tkeys q <> [] ->
  qsem fl e q' (Some []) = match q with
                           | TUnary _ _ _ _ _ _ _ => qsem fl e q (Some K)
                           | _ => qsem fl e q (Some [])
                           end.
Proof.
  intros E NE NQ. pose proof (restrict_qsem q K q' K E NE (incl_refl K)) as RQ.
  destruct (restrict_terms_keys _ _ _ E) as [EK IK].
  destruct q as [n ts|nm l s ci sfx mg dp|nm l s1 c1 j s2 c2 on]; simpl in E.
  - destruct (subset K _); [|discriminate]. injection E as <-. reflexivity.
  - rewrite <- RQ. destruct (subset K _) eqn:Sb; [|discriminate]. injection E as <-. rewrite !qsem_unary.
    destruct (csem fl e s ci); [|reflexivity]. apply sql_select_keys_eq.
    simpl in EK. remember (flat_map _ K) as L' eqn:EL in *.
    assert (L' <> []) as NL' by (intros X; rewrite X in EK; simpl in EK; congruence).
    pose proof (select_keys_own_nil L' NL') as X. rewrite EK in X. exact X.
  - destruct (subset K _) eqn:Sb; [|discriminate]. injection E as <-. simpl.
    destruct (if by_name s1 c1 then _ else _); [|reflexivity]. destruct (if by_name s2 c2 then _ else _); [|reflexivity].
    destruct l as [l|]; [|simpl in NQ; congruence].
    assert (l <> []) as NL by (intros ->; apply NQ; reflexivity).
    assert (flat_map (fun k => match dict_get l k with Some v => [(k, v)] | None => [] end) K <> []) as NL'.
    { intros X. simpl in EK. rewrite X in EK. simpl in EK. congruence. }
    destruct j.
    + unfold sql_join_select. destruct l; [congruence|]. destruct (flat_map _ K); [congruence|]. reflexivity.
    + destruct (union_all t t0); [|reflexivity]. unfold sql_select. destruct l; [congruence|]. destruct (flat_map _ K); [congruence|]. reflexivity.
Qed.

(* select_columns / drop_columns narrow the step to K; the pipeline's table changes from T to T' (a projection of T) *)
Lemma delivers_narrow q u T K q' u' T' :
  Delivers q u T -> restrict_terms q K = Some q' -> K <> [] -> NoDup K ->
  incl u' K -> incl u' u -> incl u' (cols T') ->
  sel [] T' = sel [] T -> (forall C, incl C u' -> sel C T' = sel C T) ->
  Delivers q' u' T'.
Proof.
  intros D E NE N IuK Iuu IuT E0 EC. destruct (restrict_terms_keys _ _ _ E) as [EK IK].
  assert (tkeys q <> []) as NQ. { destruct K as [|k0 K']; [congruence|]. intros X. specialize (IK k0 (or_introl eq_refl)). rewrite X in IK. destruct IK. }
  constructor.
  - rewrite EK. exact N.
  - rewrite EK. exact IuK.
  - exact IuT.
  - intros C NC NDC IC. rewrite EK in IC. rewrite (restrict_qsem q K q' C E NC IC).
    assert (incl C (tkeys q)) as ICq by (intros x Hx; apply IK, IC, Hx).
    destruct (dv_sel _ _ _ D C NC NDC ICq) as [R [Q1 [Q2 [Q3 Q4]]]]. exists R. split; [exact Q1|]. split; [congruence|]. split.
    + intros ICu. rewrite (EC C ICu). apply Q3. intros x Hx. apply Iuu, ICu, Hx.
    + intros C1 N1 I1 I2. rewrite (EC C1 I2). apply Q4; [exact N1|exact I1|]. intros x Hx. apply Iuu, I2, Hx.
  - rewrite (restrict_qsem_nil q K q' E NE NQ). destruct q as [n ts|nm l s ci sfx mg dp|nm l s1 c1 j s2 c2 on].
    + destruct (dv_nil _ _ _ D) as [R [Q1 Q2]]. exists R. split; [exact Q1|congruence].
    + destruct (dv_sel _ _ _ D K NE N IK) as [R [Q1 [Q2 _]]]. exists R. split; [exact Q1|congruence].
    + destruct (dv_nil _ _ _ D) as [R [Q1 Q2]]. exists R. split; [exact Q1|congruence].
  - intros n ts Eq. subst q'. destruct q as [n0 ts0| |]; simpl in E; try (destruct (subset K _); discriminate).
    destruct (subset K _); [|discriminate]. injection E as <- _. destruct (dv_table _ _ _ D n0 ts0 eq_refl) as [st [A B]].
    exists st. split; [exact A|congruence].
Qed.

(* the step had no terms at all and gets the empty dict (`subsql.terms = []`): it still supplies the rows *)
Lemma delivers_empty_terms q T T' :
  Delivers q [] T -> tkeys q = [] -> sel [] T' = sel [] T -> Delivers (empty_terms q) [] T'.
Proof.
  intros D EK E0.
  assert (tkeys (empty_terms q) = []) as EK' by (destruct q; reflexivity).
  assert (qsem fl e (empty_terms q) (Some []) = qsem fl e q (Some [])) as EQ.
  { destruct q as [n ts|nm l s ci sfx mg dp|nm l s1 c1 j s2 c2 on]; simpl in *.
    - reflexivity.
    - destruct (if by_name s ci then _ else _); [|reflexivity]. destruct l as [[|a t0]|]; try reflexivity. discriminate.
    - destruct (if by_name s1 c1 then _ else _); [|reflexivity]. destruct (if by_name s2 c2 then _ else _); [|reflexivity].
      destruct l as [[|a t1]|]; reflexivity. }
  constructor.
  - rewrite EK'. constructor.
  - intros x [].
  - intros x [].
  - intros K NE _ IK. rewrite EK' in IK. destruct K as [|k0 K']; [congruence|]. destruct (IK k0 (or_introl eq_refl)).
  - rewrite EQ. destruct (dv_nil _ _ _ D) as [R [Q1 Q2]]. exists R. split; [exact Q1|congruence].
  - intros n ts Eq. destruct q as [n0 ts0| |]; simpl in Eq; try discriminate. injection Eq as <- _.
    destruct (dv_table _ _ _ D n0 ts0 eq_refl) as [st [A B]]. exists st. split; [exact A|congruence].
Qed.

(* Over the input X its container yields: any own keys can be selected and give as many rows as T has; a selection inside
   the request u is the projection of T; a selection inside a selection is its projection. *)
Lemma unary_delivers nm tms s ci sfx mg dp X u T :
  csem fl e s ci = Some X -> tms <> [] -> NoDup (map fst tms) -> incl u (map fst tms) -> incl u (cols T) ->
  (forall K, K <> [] -> incl K (map fst tms) ->
     exists R, sql_select fl true (Some tms) (Some K) sfx X = Some R /\ List.length (rows R) = List.length (rows T)) ->
  (forall K, K <> [] -> NoDup K -> incl K u -> sql_select fl true (Some tms) (Some K) sfx X = Some (sel K T)) ->
  (forall K C R, C <> [] -> incl C K -> incl K (map fst tms) ->
     sql_select fl true (Some tms) (Some K) sfx X = Some R -> sql_select fl true (Some tms) (Some C) sfx X = Some (sel C R)) ->
  Delivers (TUnary nm (Some tms) s ci sfx mg dp) u T.
Proof.
  intros EX NT ND Iu IuT Hcnt Exact Hsub.
  assert (forall K, K <> [] -> NoDup K -> incl K (map fst tms) ->
          exists R, sql_select fl true (Some tms) (Some K) sfx X = Some R /\ sel [] R = sel [] T /\ (incl K u -> R = sel K T) /\
                    (forall C, NoDup C -> incl C K -> incl C u -> sel C R = sel C T)) as Main.
  { intros K NE NK IK. destruct (Hcnt K NE IK) as [R [E1 E2]]. exists R. split; [exact E1|].
    pose proof (sel_nil_length R T E2) as ER0. split; [exact ER0|]. split.
    - intros IKu. rewrite (Exact K NE NK IKu) in E1. congruence.
    - intros C NC IC ICu. destruct C as [|c0 C']; [exact ER0|].
      pose proof (Hsub K (c0 :: C') R ltac:(discriminate) IC IK E1) as E4.
      rewrite (Exact (c0 :: C') ltac:(discriminate) NC ICu) in E4. congruence. }
  constructor.
  - exact ND.
  - exact Iu.
  - exact IuT.
  - intros K NE NK IK. rewrite qsem_unary, EX. apply Main; assumption.
  - rewrite qsem_unary, EX. rewrite (sql_select_keys_eq true (Some tms) (Some []) (Some (map fst tms))) by (apply select_keys_own_nil, NT).
    destruct (Main (map fst tms)) as [R [E1 [E2 _]]]; [destruct tms; [congruence|discriminate]|exact ND|apply incl_refl|].
    exists R. split; assumption.
  - intros n ts X0. discriminate.
Qed.

(* A freshly built step over a sub-query that delivers S on us.  What the container yields agrees with the PRUNED input sel us S on
   us, and the step reads only us: so it is enough to know the SELECT on sel us S.  cnt is the number of rows the step returns. *)
Lemma fresh_unary (cnt : table -> nat) sub us S nm tms sfx mg dp u T :
  Delivers sub us S -> NoDup us ->
  tms <> [] -> NoDup (map fst tms) -> incl u (map fst tms) -> incl u (cols T) ->
  (forall K, K <> [] -> NoDup K -> incl K u -> sql_select fl true (Some tms) (Some K) sfx (sel us S) = Some (sel K T)) ->
  (forall k, In k u -> incl (item_cols (k, term_of tms k)) us) -> incl (sfx_cols sfx) us ->
  (forall K A, K <> [] -> incl K (map fst tms) -> exists R, sql_select fl true (Some tms) (Some K) sfx A = Some R /\ List.length (rows R) = cnt A) ->
  (forall A B, RA us A B -> cnt A = cnt B) -> cnt (sel us S) = List.length (rows T) ->
  (forall K C A R, C <> [] -> incl C K -> incl K (map fst tms) ->
     sql_select fl true (Some tms) (Some K) sfx A = Some R -> sql_select fl true (Some tms) (Some C) sfx A = Some (sel C R)) ->
  Delivers (TUnary nm (Some tms) sub (mk_tci (Some us) false None) sfx mg dp) u T.
Proof.
  intros D Nus NT ND Iu IuT Hex Hloc Hsfx Hcnt Hcl HcT Hsub.
  destruct (deliver_csem sub us S us false None D Nus (incl_refl us)) as [S' [ES [RS _]]].
  assert (RA us (sel us S) S') as RS1 by (eapply RA_trans; [apply RA_sym, RA_sel|exact RS]).
  apply (unary_delivers nm tms sub _ sfx mg dp S' u T ES NT ND Iu IuT).
  - intros K NE IK. destruct (Hcnt K S' NE IK) as [R [E1 E2]]. exists R. split; [exact E1|]. rewrite E2, <- (Hcl _ _ RS1). exact HcT.
  - intros K NE NK IKu. rewrite <- (Hex K NE NK IKu). symmetry.
    apply (sql_select_local fl us); [exact RS1|exact NE| |exact Hsfx]. intros k Ik. apply Hloc, IKu, Ik.
  - intros K C R. apply Hsub.
Qed.

(* the same step with no terms (written SELECT * ): nothing was requested *)
Lemma fresh_unary_star sub us S nm sfx mg dp T :
  Delivers sub us S -> NoDup us -> not_group sfx = true -> incl (sfx_cols sfx) us ->
  List.length (sfx_rows fl sfx (sel us S)) = List.length (rows T) ->
  Delivers (TUnary nm None sub (mk_tci (Some us) false None) sfx mg dp) [] T.
Proof.
  intros D Nus NG Hsfx L.
  destruct (deliver_csem sub us S us false None D Nus (incl_refl us)) as [S' [ES [RS _]]].
  assert (RA us (sel us S) S') as RS1 by (eapply RA_trans; [apply RA_sym, RA_sel|exact RS]).
  constructor.
  - constructor.
  - intros x [].
  - intros x [].
  - intros K NE _ IK. destruct K as [|k0 K']; [congruence|]. destruct (IK k0 (or_introl eq_refl)).
  - rewrite qsem_unary, ES, (star_is fl (Some []) sfx S' NG). eexists. split; [reflexivity|]. apply sel_nil_length. cbn [rows].
    rewrite <- L. symmetry. exact (F2_length _ _ _ (sfx_rows_local fl us sfx _ _ RS1 Hsfx)).
  - intros n ts X. discriminate.
Qed.

End Inv.
