(* Basic facts about the reference semantics Model/Sem.v: result columns, row shapes, key equivalence and distinct_keys, row
   counts of project / windowed extend, where sem_gen is defined (sem_defined), stable_sort_ext_in. *)
From Coq Require Import List Bool QArith String Lia .
Import ListNotations.
From DA Require Import Base.PyRT Base.Val Model.Sem Proofs.SemOrderP Proofs.TabP.

(* ---------- auxiliary: widths of rows *)
Definition width_ok (t : table) : Prop := Forall (fun r => List.length r = List.length (cols t)) (rows t).

Lemma set_cell_length ccs row k v :
  List.length row = List.length ccs -> List.length (set_cell ccs row k v) = List.length (add_end ccs k).
Proof.
  intros L. unfold set_cell, add_end. destruct (index_of k ccs) as [i|] eqn:E.
  - rewrite (index_of_Some_mem _ _ _ E), set_nth_length. exact L.
  - apply index_of_None in E. rewrite E, !app_length, L. reflexivity.
Qed.

Lemma set_cell_get_other ccs row k v c :
  List.length row = List.length ccs -> In c ccs -> c <> k ->
  get (add_end ccs k) (set_cell ccs row k v) c = get ccs row c.
Proof.
  intros L I N. unfold set_cell, add_end, get. destruct (index_of k ccs) as [i|] eqn:Ek.
  - rewrite (index_of_Some_mem _ _ _ Ek). destruct (index_of c ccs) as [j|] eqn:Ec; [|reflexivity].
    apply nth_set_nth_other. intros ->. apply index_of_nth_error in Ek, Ec. congruence.
  - apply index_of_None in Ek. rewrite Ek. destruct (index_of_In c ccs I) as [j Ec].
    rewrite (index_of_app_l _ _ _ _ Ec), Ec. apply app_nth1. rewrite L. eapply index_of_lt; eassumption.
Qed.

Section FoldCells.
  Context {X : Type} (F : string * X -> val).
  Let step := (fun (acc : list val * list string) (ke : string * X) =>
                 let '(row, ccs) := acc in (set_cell ccs row (fst ke) (F ke), add_end ccs (fst ke))).

  Lemma fold_cells_inv l row ccs :
    List.length row = List.length ccs ->
    List.length (fst (fold_left step l (row, ccs))) = List.length (snd (fold_left step l (row, ccs)))
    /\ snd (fold_left step l (row, ccs)) = ext_cols ccs (map fst l).
  Proof.
    revert row ccs. induction l as [|ke l IH]; intros row ccs L; simpl; [split; [exact L|reflexivity]|].
    apply IH. apply set_cell_length. exact L.
  Qed.

  Lemma fold_cells_get l row ccs c :
    List.length row = List.length ccs -> In c ccs -> ~ In c (map fst l) ->
    get (ext_cols ccs (map fst l)) (fst (fold_left step l (row, ccs))) c = get ccs row c.
  Proof.
    revert row ccs. induction l as [|ke l IH]; intros row ccs L I N; simpl; [reflexivity|].
    simpl in N. unfold ext_cols in *. simpl. rewrite IH.
    - apply set_cell_get_other; [exact L|exact I|]. intros ->. apply N. left. reflexivity.
    - apply set_cell_length. exact L.
    - apply In_add_end. left. exact I.
    - intros H. apply N. right. exact H.
  Qed.
End FoldCells.

Lemma tag_from_In n rs ir : In ir (tag_from n rs) -> In (snd ir) rs.
Proof. revert n. induction rs as [|r t IH]; intros n; simpl; [tauto|]. intros [<-|H]; [left; reflexivity|right; eapply IH; eassumption]. Qed.

Lemma tag_from_length n rs : List.length (tag_from n rs) = List.length rs.
Proof. revert n. induction rs as [|r t IH]; intros n; simpl; [reflexivity|]. rewrite IH. reflexivity. Qed.

Lemma tag_from_nth_error n rs i r : nth_error rs i = Some r -> nth_error (tag_from n rs) i = Some ((n + i)%nat, r).
Proof.
  revert n i. induction rs as [|x t IH]; intros n [|i] E; simpl in *; try discriminate.
  - inversion E; subst. rewrite Nat.add_0_r. reflexivity.
  - rewrite (IH (S n) i E). f_equal. f_equal. lia.
Qed.

Lemma width_select_cols cs t : width_ok (sem_select_cols cs t).
Proof. unfold width_ok. simpl. apply Forall_forall. intros r H. apply in_map_iff in H. destruct H as [r0 [<- _]]. apply map_length. Qed.
Lemma select_self t : NoDup (cols t) -> width_ok t -> sem_select_cols (cols t) t = t.
Proof.
  intros N W. destruct t as [cs rs]. unfold sem_select_cols. simpl in *. f_equal.
  rewrite <- (map_id rs) at 2. apply map_ext_in. intros r I. apply get_map_self; [exact N|].
  unfold width_ok in W. simpl in W. rewrite Forall_forall in W. auto.
Qed.

Lemma extend_row_width fl cs ops r : List.length r = List.length cs ->
  List.length (extend_row fl cs ops r) = List.length (ext_cols cs (map fst ops)).
Proof.
  intros L. unfold extend_row.
  destruct (fold_cells_inv (fun ke => eval_expr fl cs r (snd ke)) ops r cs L) as [H1 H2].
  rewrite <- H2. exact H1.
Qed.

Lemma width_extend fl ops t : width_ok t -> width_ok (sem_extend fl ops t).
Proof.
  unfold width_ok. simpl. rewrite !Forall_forall. intros W r H. apply in_map_iff in H. destruct H as [r0 [<- I]].
  apply extend_row_width. apply W. exact I.
Qed.

Lemma map_fst_tagged {A B C} (g : A * B -> C) (ops : list (A * B)) :
  map fst (map (fun ke => (fst ke, g ke)) ops) = map fst ops.
Proof. induction ops as [|a l IH]; simpl; [reflexivity|]. rewrite IH. reflexivity. Qed.

Lemma width_wextend fl ops w t : width_ok t -> width_ok (sem_wextend fl ops w t).
Proof.
  unfold width_ok. simpl. rewrite !Forall_forall. intros W r H. apply in_map_iff in H. destruct H as [ir [<- I]].
  apply tag_from_In in I. apply W in I.
  destruct (fold_cells_inv (fun kc : string * list (nat * val) => lookup_pos (snd kc) (fst ir))
              (map (fun ke => (fst ke, window_column fl w t (snd ke))) ops) (snd ir) (cols t) I) as [H1 H2].
  rewrite (map_fst_tagged (fun ke => window_column fl w t (snd ke))) in H2. rewrite <- H2. exact H1.
Qed.

Lemma filter_In_sub {A} (f : A -> bool) l x : In x (filter f l) -> In x l.
Proof. intros H. apply filter_In in H. tauto. Qed.

Lemma distinct_keys_sound ks k : In k (distinct_keys ks) -> In k ks.
Proof.
  induction ks as [|a t IH]; simpl; [tauto|]. intros [->|I]; [left; reflexivity|].
  right. apply IH. apply filter_In in I. tauto.
Qed.

Lemma width_project fl ops gb t : width_ok (sem_project fl ops gb t).
Proof.
  unfold width_ok. simpl. apply Forall_forall. intros r H. apply in_map_iff in H. destruct H as [k [<- I]].
  rewrite !app_length, !map_length. f_equal.
  destruct gb as [|g gb]; [destruct I as [<-|[]]; reflexivity|].
  apply distinct_keys_sound in I. apply in_map_iff in I. destruct I as [r0 [<- _]]. apply map_length.
Qed.

Lemma width_select_rows fl x t : width_ok t -> width_ok (sem_select_rows fl x t).
Proof.
  unfold width_ok. simpl. rewrite !Forall_forall. intros W r H. apply W. eapply filter_In_sub. exact H.
Qed.

Lemma width_rename m t : width_ok t -> width_ok (sem_rename m t).
Proof. unfold width_ok. simpl. rewrite map_length. tauto. Qed.

Lemma insert_sorted_In {A} (le : A -> A -> bool) x l y : In y (insert_sorted le x l) -> y = x \/ In y l.
Proof.
  induction l as [|a t IH]; simpl; [intros [<-|[]]; left; reflexivity|].
  destruct (le x a); simpl; intros [<-|H]; auto. destruct (IH H); auto.
Qed.

Lemma stable_sort_In {A} (le : A -> A -> bool) l y : In y (stable_sort le l) -> In y l.
Proof.
  induction l as [|a t IH]; simpl; [tauto|]. intros H. apply insert_sorted_In in H. destruct H as [->|H]; auto.
Qed.

Lemma insert_sorted_ext_in {A} (le1 le2 : A -> A -> bool) x l :
  (forall y, In y l -> le1 x y = le2 x y) -> insert_sorted le1 x l = insert_sorted le2 x l.
Proof.
  induction l as [|y t IH]; intros H; simpl; [reflexivity|].
  rewrite <- (H y (or_introl eq_refl)). destruct (le1 x y); [reflexivity|]. f_equal. apply IH. intros z I. apply H. right. exact I.
Qed.

Lemma stable_sort_ext_in {A} (le1 le2 : A -> A -> bool) l :
  (forall a b, In a l -> In b l -> le1 a b = le2 a b) -> stable_sort le1 l = stable_sort le2 l.
Proof.
  induction l as [|a t IH]; intros H; simpl; [reflexivity|].
  rewrite <- IH by (intros x y Ix Iy; apply H; right; assumption).
  apply insert_sorted_ext_in. intros y Iy. apply H; [left; reflexivity|right; eapply stable_sort_In; exact Iy].
Qed.

Lemma firstn_In {A} n (l : list A) y : In y (firstn n l) -> In y l.
Proof. revert l. induction n as [|n IH]; intros [|a t]; simpl; try tauto. intros [<-|H]; auto. Qed.

Lemma width_order fl cs rev lim t : width_ok t -> width_ok (sem_order fl cs rev lim t).
Proof.
  unfold width_ok. simpl. rewrite !Forall_forall. intros W r H. apply W.
  destruct lim; [apply firstn_In in H|]; eapply stable_sort_In; exact H.
Qed.

Lemma width_join nm on_a on_b jt a b : width_ok (sem_join nm on_a on_b jt a b).
Proof.
  unfold width_ok, sem_join. cbn [cols rows]. apply Forall_forall. intros r H.
  set (out := cols a ++ filter (fun c => negb (mem c (cols a))) (cols b)) in *.
  rewrite !in_app_iff in H. destruct H as [H|[H|H]].
  - apply in_flat_map in H. destruct H as [ra [_ H]]. apply in_flat_map in H. destruct H as [rb [_ H]].
    destruct (keys_match _ _ _); [destruct H as [<-|[]]; apply map_length|destruct H].
  - destruct jt; try destruct H; apply in_flat_map in H; destruct H as [ra [_ H]];
      destruct (existsb _ _); try destruct H as [<-|[]]; try destruct H; apply map_length.
  - destruct jt; try destruct H; apply in_flat_map in H; destruct H as [rb [_ H]];
      destruct (existsb _ _); try destruct H as [<-|[]]; try destruct H; apply map_length.
Qed.

Lemma width_concat idc an bn a b : width_ok a -> width_ok (sem_concat idc an bn a b).
Proof.
  unfold width_ok, sem_concat. intros W. rewrite Forall_forall in W. destruct idc as [c|]; cbn [cols rows]; apply Forall_forall; intros r H;
    rewrite in_app_iff in H.
  - destruct H as [H|H]; apply in_map_iff in H; destruct H as [r0 [<- H]]; rewrite !app_length; simpl; f_equal.
    + apply W. exact H.
    + apply in_map_iff in H. destruct H as [r1 [<- _]]. apply map_length.
  - destruct H as [H|H]; [apply W; exact H|]. apply in_map_iff in H. destruct H as [r1 [<- _]]. apply map_length.
Qed.

(* ---------- C08: the result has exactly the declared columns, in the declared order; rows have that width *)
Lemma sem_cols fl p e t : sem_gen fl p e = Some t -> cols t = column_names p.
Proof.
  revert t. induction p; intros t H; cbn [sem_gen] in H; cbn [column_names].
  - destruct (dict_get e name); inversion H; reflexivity.
  - destruct (sem_gen fl p e) as [t0|]; simpl in H; inversion H. rewrite <- (IHp _ eq_refl). destruct windowed; reflexivity.
  - destruct (sem_gen fl p e) as [t0|]; simpl in H; inversion H. reflexivity.
  - destruct (sem_gen fl p e) as [t0|]; simpl in H; inversion H. rewrite <- (IHp _ eq_refl). reflexivity.
  - destruct (sem_gen fl p e) as [t0|]; simpl in H; inversion H. reflexivity.
  - destruct (sem_gen fl p e) as [t0|]; simpl in H; inversion H. rewrite <- (IHp _ eq_refl). reflexivity.
  - destruct (sem_gen fl p e) as [t0|]; simpl in H; inversion H. rewrite <- (IHp _ eq_refl). reflexivity.
  - destruct (sem_gen fl p e) as [t0|]; simpl in H; inversion H. rewrite <- (IHp _ eq_refl). reflexivity.
  - destruct (sem_gen fl p e) as [t0|]; simpl in H; inversion H. rewrite <- (IHp _ eq_refl). reflexivity.
  - destruct (sem_gen fl p1 e) as [ta|]; [|discriminate]. destruct (sem_gen fl p2 e) as [tb|]; inversion H.
    rewrite <- (IHp1 _ eq_refl), <- (IHp2 _ eq_refl). reflexivity.
  - destruct (sem_gen fl p1 e) as [ta|]; [|discriminate]. destruct (sem_gen fl p2 e) as [tb|]; inversion H.
    rewrite <- (IHp1 _ eq_refl). destruct idcol; simpl; [reflexivity|]. rewrite app_nil_r. reflexivity.
Qed.

Lemma sem_rows_width fl p e t : sem_gen fl p e = Some t -> Forall (fun r => List.length r = List.length (cols t)) (rows t).
Proof.
  change (sem_gen fl p e = Some t -> width_ok t).
  revert t. induction p; intros t H; cbn [sem_gen] in H.
  - destruct (dict_get e name); inversion H. apply width_select_cols.
  - destruct (sem_gen fl p e) as [t0|]; simpl in H; inversion H.
    destruct windowed; [apply width_wextend|apply width_extend]; apply IHp; reflexivity.
  - destruct (sem_gen fl p e) as [t0|]; simpl in H; inversion H. apply width_project.
  - destruct (sem_gen fl p e) as [t0|]; simpl in H; inversion H. apply width_select_rows. apply IHp; reflexivity.
  - destruct (sem_gen fl p e) as [t0|]; simpl in H; inversion H. apply width_select_cols.
  - destruct (sem_gen fl p e) as [t0|]; simpl in H; inversion H. apply width_select_cols.
  - destruct (sem_gen fl p e) as [t0|]; simpl in H; inversion H. apply width_rename. apply IHp; reflexivity.
  - destruct (sem_gen fl p e) as [t0|]; simpl in H; inversion H. apply width_select_cols.
  - destruct (sem_gen fl p e) as [t0|]; simpl in H; inversion H. apply width_order. apply IHp; reflexivity.
  - destruct (sem_gen fl p1 e) as [ta|]; [|discriminate]. destruct (sem_gen fl p2 e) as [tb|]; inversion H. apply width_join.
  - destruct (sem_gen fl p1 e) as [ta|]; [|discriminate]. destruct (sem_gen fl p2 e) as [tb|]; inversion H.
    apply width_concat. apply IHp1; reflexivity.
Qed.

(* the pipeline is defined as soon as every table it mentions is supplied *)
Fixpoint tables_of (p : op) : list string :=
  match p with
  | OTable n _ => [n]
  | OExtend s _ _ _ | OProject s _ _ | OSelectRows s _ | OSelectCols s _ | ODropCols s _ | ORename s _ | OMapCols s _ _ | OOrder s _ _ _ => tables_of s
  | OJoin a b _ _ _ | OConcat a b _ _ _ => tables_of a ++ tables_of b
  end.
Lemma sem_defined fl p e : (forall n, In n (tables_of p) -> dict_get e n <> None) -> exists t, sem_gen fl p e = Some t.
Proof.
  induction p; intros H; cbn [sem_gen]; cbn [tables_of] in H.
  - destruct (dict_get e name) eqn:E; [eexists; reflexivity|]. exfalso. apply (H name); [left; reflexivity|exact E].
  - destruct (IHp H) as [t0 E]. rewrite E. eexists; reflexivity.
  - destruct (IHp H) as [t0 E]. rewrite E. eexists; reflexivity.
  - destruct (IHp H) as [t0 E]. rewrite E. eexists; reflexivity.
  - destruct (IHp H) as [t0 E]. rewrite E. eexists; reflexivity.
  - destruct (IHp H) as [t0 E]. rewrite E. eexists; reflexivity.
  - destruct (IHp H) as [t0 E]. rewrite E. eexists; reflexivity.
  - destruct (IHp H) as [t0 E]. rewrite E. eexists; reflexivity.
  - destruct (IHp H) as [t0 E]. rewrite E. eexists; reflexivity.
  - destruct IHp1 as [ta Ea]; [intros n I; apply H; apply in_app_iff; left; exact I|].
    destruct IHp2 as [tb Eb]; [intros n I; apply H; apply in_app_iff; right; exact I|].
    rewrite Ea, Eb. eexists; reflexivity.
  - destruct IHp1 as [ta Ea]; [intros n I; apply H; apply in_app_iff; left; exact I|].
    destruct IHp2 as [tb Eb]; [intros n I; apply H; apply in_app_iff; right; exact I|].
    rewrite Ea, Eb. eexists; reflexivity.
Qed.

(* ---------- equivalence of keys *)

Lemma v_eqv_trans a b c : v_eqv a b = true -> v_eqv b c = true -> v_eqv a c = true.
Proof.
  destruct a as [|[]| | |], b as [|[]| | |], c as [|[]| | |]; cbn [v_eqv num_of]; intros H1 H2;
    try discriminate; try reflexivity; try exact (Qeq_bool_trans _ _ _ H1 H2).
  apply String.eqb_eq in H1, H2. subst. apply String.eqb_refl.
Qed.
Lemma keys_eqv_refl k : keys_eqv k k = true.
Proof. induction k as [|x t IH]; simpl; [reflexivity|]. rewrite v_eqv_refl, IH. reflexivity. Qed.
Lemma keys_eqv_sym a b : keys_eqv a b = keys_eqv b a.
Proof. revert b. induction a as [|x t IH]; intros [|y u]; simpl; try reflexivity. rewrite v_eqv_sym, IH. reflexivity. Qed.
Lemma keys_eqv_trans a b c : keys_eqv a b = true -> keys_eqv b c = true -> keys_eqv a c = true.
Proof.
  revert b c. induction a as [|x t IH]; intros [|y u] [|z v]; simpl; intros H1 H2; try discriminate; try reflexivity.
  apply andb_true_iff in H1, H2. destruct H1 as [A1 B1], H2 as [A2 B2].
  apply andb_true_iff. split; [eapply v_eqv_trans; eassumption|eapply IH; eassumption].
Qed.
Lemma keys_eqv_cong_l a b c : keys_eqv a b = true -> keys_eqv a c = keys_eqv b c.
Proof.
  intros E. apply eq_true_iff_eq. split; intros H.
  - eapply keys_eqv_trans; [|exact H]. rewrite keys_eqv_sym. exact E.
  - eapply keys_eqv_trans; eassumption.
Qed.

Lemma v_eqv_null_same a b : v_eqv a b = true -> is_null a = is_null b.
Proof. destruct a as [|[]| | |], b as [|[]| | |]; simpl; intros; try discriminate; reflexivity. Qed.
Lemma keys_eqv_null_same ka kb : keys_eqv ka kb = true -> existsb is_null ka = existsb is_null kb.
Proof.
  revert kb. induction ka as [|x t IH]; intros [|y u]; simpl; intros H; try discriminate; [reflexivity|].
  apply andb_true_iff in H. destruct H as [H1 H2]. rewrite (v_eqv_null_same x y H1), (IH u H2). reflexivity.
Qed.

(* distinct_keys keeps exactly one representative of every class of equivalent keys (null is a key value of its own) *)
Lemma distinct_keys_complete ks k : In k ks -> exists k', In k' (distinct_keys ks) /\ keys_eqv k' k = true.
Proof.
  induction ks as [|a t IH]; simpl; [tauto|]. intros [->|I].
  - exists k. split; [left; reflexivity|apply keys_eqv_refl].
  - destruct (IH I) as [k' [I' E]]. destruct (keys_eqv a k') eqn:Ea.
    + exists a. split; [left; reflexivity|]. eapply keys_eqv_trans; eassumption.
    + exists k'. split; [|exact E]. right. apply filter_In. split; [exact I'|]. rewrite Ea. reflexivity.
Qed.

Lemma FOP_filter {A} (R : A -> A -> Prop) (f : A -> bool) l : ForallOrdPairs R l -> ForallOrdPairs R (filter f l).
Proof.
  induction 1 as [|a l Ha Hl IH]; simpl; [constructor|]. destruct (f a); [|exact IH].
  constructor; [|exact IH]. rewrite Forall_forall in *. intros x Hx. apply Ha. apply filter_In in Hx. tauto.
Qed.

Lemma distinct_keys_pairwise ks : ForallOrdPairs (fun a b => keys_eqv a b = false) (distinct_keys ks).
Proof.
  induction ks as [|a t IH]; simpl; constructor.
  - apply Forall_forall. intros x Hx. apply filter_In in Hx. destruct Hx as [_ Hx]. apply negb_true_iff in Hx. exact Hx.
  - apply FOP_filter. exact IH.
Qed.

(* ---------- C09: project *)
(* without group_by: exactly one row, also on an empty input *)
Lemma project_ungrouped_one_row fl ops t : List.length (rows (sem_project fl ops [] t)) = 1%nat.
Proof. reflexivity. Qed.
(* with group_by: one row per distinct key combination of the input *)
Lemma project_grouped_row_count fl ops gb t : gb <> [] ->
  List.length (rows (sem_project fl ops gb t)) = List.length (distinct_keys (map (key_of (cols t) gb) (rows t))).
Proof. intros N. destruct gb as [|g gb]; [congruence|]. unfold sem_project. cbn [rows]. apply map_length. Qed.
(* every output row starts with its group key and aggregates exactly the input rows with an equivalent key *)
Lemma project_row_content fl ops gb t r : In r (rows (sem_project fl ops gb t)) ->
  exists k, r = k ++ map (fun ke => agg_value fl (cols t) (filter (fun r0 => keys_eqv k (key_of (cols t) gb r0)) (rows t)) (snd ke)) ops
            /\ (gb <> [] -> In k (map (key_of (cols t) gb) (rows t))).
Proof.
  unfold sem_project. cbn [rows]. intros H. apply in_map_iff in H. destruct H as [k [<- I]].
  exists k. split; [reflexivity|]. intros N. destruct gb as [|g gb]; [congruence|]. apply distinct_keys_sound. exact I.
Qed.
(* a row whose key contains a null still belongs to a group of the output *)
Lemma project_null_key_has_group fl ops gb t r0 : gb <> [] -> In r0 (rows t) ->
  exists r k, In r (rows (sem_project fl ops gb t)) /\ firstn (List.length gb) r = k /\ keys_eqv k (key_of (cols t) gb r0) = true.
Proof.
  intros N I.
  destruct (distinct_keys_complete (map (key_of (cols t) gb) (rows t)) (key_of (cols t) gb r0)) as [k [Ik E]].
  { apply in_map. exact I. }
  exists (k ++ map (fun ke => agg_value fl (cols t) (filter (fun r => keys_eqv k (key_of (cols t) gb r)) (rows t)) (snd ke)) ops), k.
  split; [|split; [|exact E]].
  - unfold sem_project. cbn [rows]. destruct gb as [|g gb]; [congruence|].
    apply in_map_iff. exists k. split; [reflexivity|exact Ik].
  - assert (List.length k = List.length gb) as L.
    { apply distinct_keys_sound in Ik. apply in_map_iff in Ik. destruct Ik as [r1 [<- _]]. apply map_length. }
    rewrite <- L. rewrite firstn_app, Nat.sub_diag, firstn_all. simpl. apply app_nil_r.
Qed.

(* ---------- C09: windowed extend keeps every input row *)
Lemma wextend_row_count fl ops w t : List.length (rows (sem_wextend fl ops w t)) = List.length (rows t).
Proof. unfold sem_wextend. cbn [rows]. rewrite map_length. apply tag_from_length. Qed.
Lemma extend_row_count fl ops t : List.length (rows (sem_extend fl ops t)) = List.length (rows t).
Proof. unfold sem_extend. cbn [rows]. apply map_length. Qed.
(* ... and leaves the columns it does not assign untouched *)
Lemma wextend_keeps_other_columns fl ops w t i r r' c :
  NoDup (cols t) -> Forall (fun r => List.length r = List.length (cols t)) (rows t) ->
  nth_error (rows t) i = Some r -> nth_error (rows (sem_wextend fl ops w t)) i = Some r' ->
  In c (cols t) -> ~ In c (map fst ops) ->
  get (ext_cols (cols t) (map fst ops)) r' c = get (cols t) r c.
Proof.
  intros _ W Hr Hr' Ic Nc. unfold sem_wextend in Hr'. cbn [rows] in Hr'.
  rewrite nth_error_map, (tag_from_nth_error 0 _ _ _ Hr) in Hr'. simpl in Hr'. inversion Hr' as [E]. clear Hr'.
  rewrite Forall_forall in W. assert (List.length r = List.length (cols t)) as L by (apply W; eapply nth_error_In; eassumption).
  pose proof (fold_cells_get (fun kc : string * list (nat * val) => lookup_pos (snd kc) i)
              (map (fun ke => (fst ke, window_column fl w t (snd ke))) ops) r (cols t) c L Ic) as G.
  rewrite (map_fst_tagged (fun ke => window_column fl w t (snd ke))) in G. apply G. exact Nc.
Qed.

