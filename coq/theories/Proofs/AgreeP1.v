(* C01 / C02, part 1: scalar functions, expressions, aggregates and window functions give the same value under every
   flavour whenever Model/SemStrict.v lists no cause. *)
From Coq Require Import List Bool QArith String .
Import ListNotations.
From DA Require Import Base.PyRT Base.Val Model.Sem Model.SemStrict Proofs.ListP Proofs.TabP.
Local Open Scope string_scope.
Local Open Scope list_scope.

Lemma nil_flat_map {A B} (f : A -> list B) l : (forall x, In x l -> f x = []) -> flat_map f l = [].
Proof. exact (flat_map_nil f l). Qed.

Lemma flat_map_nil_inv {A B} (f : A -> list B) l : flat_map f l = [] -> forall x, In x l -> f x = [].
Proof.
  induction l as [|a t IH]; simpl; intros E x I; [destruct I|].
  apply app_eq_nil in E. destruct E as [E1 E2]. destruct I as [<-|I]; [exact E1|apply IH; assumption].
Qed.
Lemma if_nil {A} (b : bool) (x : A) : (if b then [x] else []) = [] -> b = false.
Proof. destruct b; [discriminate|reflexivity]. Qed.
Lemma smem_app s a b : smem s (a ++ b) = smem s a || smem s b.
Proof. unfold smem. apply existsb_app. Qed.
Lemma is_nil_true {A} (l : list A) : is_nil l = true -> l = [].
Proof. destruct l; [reflexivity|discriminate]. Qed.

Lemma expr_causes_EOp fl cs r op args :
  expr_causes fl cs r (EOp op args) = flat_map (expr_causes fl cs r) args ++ scalar_causes op (map (eval_expr fl cs r) args).
Proof. reflexivity. Qed.

(* Walking a match on a string, one stuck bit at a time.  The two sides and the side condition are kept folded (F o = G o
   under H : C o = false), so every goal and every motive is as small as the prefix of o decided so far; the next variable
   to split is read off the head normal form of the left side.  A leaf is closed by conversion when the sides agree there
   and by H when the name is one of the excluded ones. *)
Ltac walk H :=
  first [ reflexivity | discriminate H |
    lazymatch goal with |- ?l = _ =>
      let t := eval hnf in l in
      lazymatch t with match ?x with _ => _ end => is_var x; destruct x; walk H end end ].

(* ---------- one application of a scalar function *)
(* a function that is not among the twelve convention-dependent ones never looks at the flavour *)
Lemma scalar_op_indep fl fl' op args : smem op sens_ops = false -> scalar_op fl op args = scalar_op fl' op args.
Proof.
  set (F := scalar_op fl). set (G := scalar_op fl'). set (C := fun o => smem o sens_ops).
  change (C op = false -> F op args = G op args). intros H. walk H.
Qed.

Lemma compare_vals_nonnull fl fl' c a b : is_null a = false -> is_null b = false -> compare_vals fl c a b = compare_vals fl' c a b.
Proof. destruct a, b; simpl; intros; try discriminate; reflexivity. Qed.
Lemma null_truth a : is_null a = true -> truth a = false.
Proof. destruct a; simpl; intros; try discriminate; reflexivity. Qed.
Lemma ignore_null2_nonnull f a b : is_null a = false -> is_null b = false -> ignore_null2 f a b = num2 f a b.
Proof. intros Ha Hb. unfold ignore_null2. rewrite Ha, Hb. reflexivity. Qed.

Lemma smem_cases op l : smem op l = true -> In op l.
Proof. unfold smem. intros H. apply existsb_exists in H. destruct H as [x [I E]]. apply String.eqb_eq in E. subst. exact I. Qed.

Ltac args2 args := destruct args as [|?a [|?b [|?c ?l]]]; try reflexivity.

(* without a null argument every one of the twelve gives the same value under every flavour *)
Lemma scalar_op_nonnull fl fl' op args : existsb is_null args = false -> scalar_op fl op args = scalar_op fl' op args.
Proof.
  intros N. destruct (smem op sens_ops) eqn:HS; [|apply scalar_op_indep; exact HS].
  apply smem_cases in HS. unfold sens_ops, cmp_ops, logic_ops, minmax_ops, fminmax_ops in HS. simpl in HS.
  repeat (destruct HS as [<-|HS]); [..|destruct HS]; args2 args; simpl in N; apply orb_false_iff in N; destruct N as [Na N];
    apply orb_false_iff in N; destruct N as [Nb _]; cbn [scalar_op];
    try (apply compare_vals_nonnull; assumption).
  - rewrite (and3_nonnull _ _ Na Nb). destruct (f_logic3 fl), (f_logic3 fl'); reflexivity.
  - rewrite (or3_nonnull _ _ Na Nb). destruct (f_logic3 fl), (f_logic3 fl'); reflexivity.
  - rewrite (ignore_null2_nonnull _ _ _ Na Nb). destruct (f_minmax_ignore_null fl), (f_minmax_ignore_null fl'); reflexivity.
  - rewrite (ignore_null2_nonnull _ _ _ Na Nb). destruct (f_minmax_ignore_null fl), (f_minmax_ignore_null fl'); reflexivity.
  - rewrite (ignore_null2_nonnull _ _ _ Na Nb). destruct (f_fminmax_propagate fl), (f_fminmax_propagate fl'); reflexivity.
  - rewrite (ignore_null2_nonnull _ _ _ Na Nb). destruct (f_fminmax_propagate fl), (f_fminmax_propagate fl'); reflexivity.
Qed.

Lemma scalar_stable fl fl' op args : scalar_causes op args = [] -> scalar_op fl op args = scalar_op fl' op args.
Proof.
  unfold scalar_causes. destruct (existsb is_null args) eqn:N; [|intros _; apply scalar_op_nonnull; exact N].
  intros H. apply scalar_op_indep. unfold sens_ops. rewrite !smem_app.
  destruct (smem op cmp_ops); [discriminate|]. destruct (smem op logic_ops); [discriminate|].
  destruct (smem op minmax_ops); [discriminate|]. destruct (smem op fminmax_ops); [discriminate|]. reflexivity.
Qed.

(* ---------- the VALUE of an expression *)
Lemma expr_stable fl0 cs r e : expr_causes fl0 cs r e = [] -> forall fl, eval_expr fl cs r e = eval_expr fl0 cs r e.
Proof.
  induction e as [c|v|op args IH] using expr_ind2; intros H fl; try reflexivity.
  rewrite expr_causes_EOp in H. apply app_eq_nil in H. destruct H as [H1 H2].
  rewrite !eval_expr_EOp.
  assert (map (eval_expr fl cs r) args = map (eval_expr fl0 cs r) args) as E.
  { apply map_ext_in. intros a I. rewrite Forall_forall in IH. apply IH; [exact I|]. eapply flat_map_nil_inv; eassumption. }
  rewrite E. apply scalar_stable. exact H2.
Qed.

(* ---------- the TRUTH of an expression (row filters) *)
Lemma truth_and fl a b : truth (scalar_op fl "and" [a; b]) = truth a && truth b.
Proof.
  cbn [scalar_op]. destruct (f_logic3 fl); [|reflexivity]. unfold and3.
  destruct (is_null a) eqn:Na; destruct (is_null b) eqn:Nb; simpl;
    try rewrite (null_truth a Na); try rewrite (null_truth b Nb); simpl;
    destruct (truth a); destruct (truth b); reflexivity.
Qed.
Lemma truth_or fl a b : truth (scalar_op fl "or" [a; b]) = truth a || truth b.
Proof.
  cbn [scalar_op]. destruct (f_logic3 fl); [|reflexivity]. unfold or3.
  destruct (is_null a) eqn:Na; destruct (is_null b) eqn:Nb; simpl;
    try rewrite (null_truth a Na); try rewrite (null_truth b Nb); simpl;
    destruct (truth a); destruct (truth b); reflexivity.
Qed.
(* a comparison other than != with a null operand is False or null: not true, under every flavour *)
Lemma truth_compare_null fl fl' c a b : c <> CNe -> truth (compare_vals fl c a b) = truth (compare_vals fl' c a b).
Proof.
  intros N. destruct (is_null a) eqn:Na; [|destruct (is_null b) eqn:Nb].
  - destruct a; try discriminate. simpl. destruct (f_cmp3 fl), (f_cmp3 fl'), c; simpl; congruence.
  - destruct b; try discriminate. destruct a; simpl; destruct (f_cmp3 fl), (f_cmp3 fl'), c; simpl; congruence.
  - rewrite (compare_vals_nonnull fl fl' c a b Na Nb). reflexivity.
Qed.

Lemma truth_stable fl0 cs r e : truth_causes fl0 cs r e = [] ->
  forall fl, truth (eval_expr fl cs r e) = truth (eval_expr fl0 cs r e).
Proof.
  induction e as [c|v|op args IH] using expr_ind2; intros H fl; try reflexivity.
  destruct args as [|a [|b [|c l]]];
    try (rewrite (expr_stable fl0 cs r _ H fl); reflexivity).
  cbn [truth_causes] in H. rewrite Forall_forall in IH.
  destruct (smem op logic_ops) eqn:L.
  - apply app_eq_nil in H. destruct H as [Ha Hb].
    assert (truth (eval_expr fl cs r a) = truth (eval_expr fl0 cs r a)) as Ea by (apply IH; [left; reflexivity|exact Ha]).
    assert (truth (eval_expr fl cs r b) = truth (eval_expr fl0 cs r b)) as Eb by (apply IH; [right; left; reflexivity|exact Hb]).
    apply smem_cases in L. rewrite !eval_expr_EOp. simpl map.
    destruct L as [<-|[<-|[]]]; rewrite ?truth_and, ?truth_or, Ea, Eb; reflexivity.
  - destruct (smem op cmp_ops) eqn:C; [|rewrite (expr_stable fl0 cs r _ H fl); reflexivity].
    apply app_eq_nil in H. destruct H as [Ha H]. apply app_eq_nil in H. destruct H as [Hb Hn].
    rewrite !eval_expr_EOp. simpl map.
    rewrite (expr_stable fl0 cs r a Ha fl), (expr_stable fl0 cs r b Hb fl).
    apply if_nil in Hn. apply smem_cases in C.
    destruct C as [<-|[<-|[<-|[<-|[<-|[<-|[]]]]]]]; cbn [scalar_op];
      try (apply truth_compare_null; discriminate).
    simpl in Hn. apply orb_false_iff in Hn. destruct Hn as [Na Nb].
    rewrite (compare_vals_nonnull fl fl0 CNe _ _ Na Nb). reflexivity.
Qed.

(* ---------- aggregates *)
Lemma agg_fn_indep fl fl' op vs : String.eqb op "sum" = false -> smem op ["count"; "size"; "_size"] = false ->
  agg_fn fl op vs = agg_fn fl' op vs.
Proof.
  set (F := fun o => agg_fn fl o vs). set (G := fun o => agg_fn fl' o vs). set (C := fun o => String.eqb o "sum" || smem o ["count"; "size"; "_size"]).
  intros H1 H2. assert (C op = false) as H by (unfold C; rewrite H1, H2; reflexivity). clear H1 H2.
  change (F op = G op). walk H.
Qed.
Lemma agg_stable fl fl' op vs : agg_causes op vs = [] -> agg_fn fl op vs = agg_fn fl' op vs.
Proof.
  unfold agg_causes. destruct (String.eqb op "sum") eqn:Hs.
  - apply String.eqb_eq in Hs. subst. cbn [agg_fn]. destruct (nums vs); [discriminate|reflexivity].
  - destruct (smem op ["count"; "size"; "_size"]) eqn:C; [|intros _; apply agg_fn_indep; assumption].
    apply smem_cases in C. destruct C as [<-|[<-|[<-|[]]]]; cbn [agg_fn]; destruct vs; try discriminate; reflexivity.
Qed.

(* ---------- window functions *)
Lemma running_no_null c c' f acc vs : existsb no_num vs = false -> running c f acc vs = running c' f acc vs.
Proof.
  revert acc. induction vs as [|v t IH]; intros acc H; simpl; [reflexivity|].
  simpl in H. apply orb_false_iff in H. destruct H as [Hv Ht]. unfold no_num in Hv.
  destruct (num_of v); [|discriminate]. rewrite (IH _ Ht). reflexivity.
Qed.
(* win_fn looks at the flavour in two places only: the carry of the three running functions, and the group aggregate that
   every name it does not know falls through to.  With both abstracted, the walk over the names of Model/Sem.v (brute force,
   so that flavour-independent additions to win_fn do not disturb the proof) never unfolds agg_fn. *)
Definition win_gen (carry : bool) (agg : val) (op : string) (extra vs : list val) : list val :=
  match op with
  | "cumsum" => running carry Qplus None vs
  | "cummax" => running carry qmax None vs
  | "cummin" => running carry qmin None vs
  | "cumprod" => running false Qmult None vs
  | "cumcount" => number_from 0 vs
  | "_count" => number_from 1 vs
  | "rank" => map (rank_val vs) vs
  | "first" => let a := first_nonnull vs in map (fun _ => a) vs
  | "last" => let a := last_nonnull vs in map (fun _ => a) vs
  | "ffill" => ffill_from VNull vs
  | "bfill" => bfill_list vs
  | "median" => let a := median_val vs in map (fun _ => a) vs
  | "nunique" => let a := nunique_val vs in map (fun _ => a) vs
  | "var" => let a := var_val vs in map (fun _ => a) vs
  | "_row_number" | "row_number" => number_from 1 vs
  | "shift" =>
      match extra with
      | [] => shift_right 1 vs
      | VNum q :: _ => let z := Qnum q in if Z.leb 0 z then shift_right (Z.to_nat z) vs else shift_left (Z.to_nat (Z.opp z)) vs
      | _ => map (fun _ => VNull) vs
      end
  | _ => map (fun _ => agg) vs
  end.
Lemma win_fn_gen fl op extra vs : win_fn fl op extra vs = win_gen (f_running_carry fl) (agg_fn fl op vs) op extra vs.
Proof. reflexivity. Qed.
Lemma win_gen_carry c c' agg op extra vs : smem op running_ops = false -> win_gen c agg op extra vs = win_gen c' agg op extra vs.
Proof.
  set (F := fun o => win_gen c agg o extra vs). set (G := fun o => win_gen c' agg o extra vs). set (C := fun o => smem o running_ops).
  change (C op = false -> F op = G op). intros H. walk H.
Qed.
Lemma win_fn_indep fl fl' op extra vs : smem op running_ops = false -> agg_causes op vs = [] ->
  win_fn fl op extra vs = win_fn fl' op extra vs.
Proof. intros R A. rewrite !win_fn_gen, (agg_stable fl fl' op vs A). apply win_gen_carry. exact R. Qed.
Lemma win_stable fl fl' op extra vs : win_causes op vs = [] -> win_fn fl op extra vs = win_fn fl' op extra vs.
Proof.
  unfold win_causes. destruct (smem op running_ops) eqn:R.
  - intros H. apply if_nil in H. apply smem_cases in R.
    destruct R as [<-|[<-|[<-|[]]]]; cbn [win_fn]; apply running_no_null; exact H.
  - destruct (smem op positional_ops) eqn:P.
    + intros _. apply smem_cases in P. destruct P as [<-|[<-|[<-|[]]]]; reflexivity.
    + intros H. apply win_fn_indep; assumption.
Qed.
