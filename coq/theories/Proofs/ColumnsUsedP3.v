(* C10, part 3: the per-operator agreement lemmas for select_rows, select_columns, drop_columns, rename_columns,
   map_columns, order_rows, natural_join, concat_rows. *)
From Coq Require Import List Bool String .
Import ListNotations.
From DA Require Import Base.PyRT Base.Val Model.Sem Proofs.SemBasicP Model.ColumnsUsed Proofs.ColumnsUsedP1 Proofs.ColumnsUsedP2 Proofs.ListP Proofs.TabP.
Local Open Scope list_scope.

Lemma mem_eq_of_iff (c : string) l l' : (In c l <-> In c l') -> mem c l = mem c l'.
Proof.
  intros H. destruct (mem c l) eqn:M, (mem c l') eqn:M'; try reflexivity.
  - apply mem_In in M. apply H in M. apply mem_false in M'. contradiction.
  - apply mem_In in M'. apply H in M'. apply mem_false in M. contradiction.
Qed.

Lemma guard_get cs r c : (if mem c cs then get cs r c else VNull) = get cs r c.
Proof. destruct (mem c cs) eqn:M; [reflexivity|]. symmetry. apply get_absent, mem_false, M. Qed.

(* ------------------------------------------------------------------ select_rows *)
Lemma agree_select_rows fl e u us S S' :
  agree us S S' ->
  (forall x, In x (cols_used e) -> In x (cols S) -> In x us) ->
  (forall c, In c u -> In c (cols S) -> In c us) ->
  agree u (sem_select_rows fl e S) (sem_select_rows fl e S').
Proof.
  intros [A [B C]] He Hu. unfold agree, sem_select_rows. cbn [cols rows]. split; [exact A|]. split.
  - intros c Hc I. apply B; [apply Hu|]; assumption.
  - eapply F2_weaken.
    + eapply F2_filter; [exact C|]. intros r r' R. cbv beta. f_equal. apply eval_expr_local.
      intros x Hx. apply (src_get us S S'); [exact A|exact R|apply He, Hx].
    + intros r r' R c Hc. apply (src_get us S S'); [exact A|exact R|apply Hu, Hc].
Qed.

(* ------------------------------------------------------------------ select_columns *)
Lemma agree_select_cols cs u us S S' :
  agree us S S' -> (forall c, In c u -> In c cs -> In c (cols S) -> In c us) ->
  agree u (sem_select_cols cs S) (sem_select_cols cs S').
Proof.
  intros [A [B C]] Hu. unfold agree, sem_select_cols. cbn [cols rows]. split; [apply incl_refl|]. split; [tauto|].
  eapply F2_map; [exact C|]. intros r r' R c Hc. rewrite !get_map_cols. destruct (mem c cs) eqn:M; [|reflexivity].
  apply (src_get us S S'); [exact A|exact R|]. apply Hu; [exact Hc|apply mem_In, M].
Qed.

(* ------------------------------------------------------------------ drop_columns *)
Lemma mem_filter (f : string -> bool) c l : mem c (filter f l) = f c && mem c l.
Proof.
  induction l as [|x t IH]; simpl; [rewrite andb_false_r; reflexivity|].
  destruct (f x) eqn:Fx; simpl; destruct (eq_dec c x) as [->|n].
  - rewrite Fx. reflexivity.
  - exact IH.
  - rewrite IH, Fx. reflexivity.
  - exact IH.
Qed.

Lemma agree_drop_cols ds u us S S' :
  agree us S S' -> (forall c, In c u -> ~ In c ds -> In c (cols S) -> In c us) ->
  agree u (sem_drop_cols ds S) (sem_drop_cols ds S').
Proof.
  intros [A [B C]] Hu. unfold agree, sem_drop_cols, sem_select_cols. cbn [cols rows]. split; [|split].
  - intros c Hc. apply filter_In in Hc. apply filter_In. split; [apply A|]; tauto.
  - intros c Hc I. apply filter_In in I. destruct I as [I N]. apply filter_In. split; [|exact N].
    apply B; [|exact I]. apply Hu; [exact Hc| |exact I]. apply negb_true_iff in N. apply mem_false. exact N.
  - eapply F2_map; [exact C|]. intros r r' R c Hc. rewrite !get_map_cols, !mem_filter.
    destruct (mem c ds) eqn:D; simpl; [reflexivity|]. rewrite !guard_get.
    apply (src_get us S S'); [exact A|exact R|]. apply Hu; [exact Hc|apply mem_false, D].
Qed.

(* ------------------------------------------------------------------ rename_columns *)
Definition rename_ok (m : list (string * string)) (cs : list string) : Prop :=
  NoDup (map fst m) /\ NoDup (map snd m) /\ incl (map snd m) cs /\ NoDup (map (rename_col m) cs).

Lemma rename_okb_ok m cs : rename_okb m cs = true -> rename_ok m cs.
Proof.
  unfold rename_okb, rename_ok. rewrite !andb_true_iff. intros [[[H1 H2] H3] H4].
  repeat split; try (apply nodupb_NoDup; assumption). unfold incl. apply (proj1 (subset_spec _ _)). exact H3.
Qed.

Lemma rename_col_spec m x :
  (exists n, In (n, x) m /\ rename_col m x = n) \/ ((forall n, ~ In (n, x) m) /\ rename_col m x = x).
Proof.
  unfold rename_col. destruct (find (fun no => String.eqb (snd no) x) m) as [[n o]|] eqn:F.
  - left. apply find_some in F. destruct F as [I E]. simpl in E. apply String.eqb_eq in E. subst o. exists n. split; [exact I|reflexivity].
  - right. split; [|reflexivity]. intros n I. pose proof (find_none _ _ F _ I) as E. simpl in E. rewrite String.eqb_refl in E. discriminate.
Qed.

Lemma NoDup_snd_unique (m : list (string * string)) a b o : NoDup (map snd m) -> In (a, o) m -> In (b, o) m -> a = b.
Proof.
  induction m as [|[n x] t IH]; simpl; intros N I1 I2; [contradiction|]. inversion N as [|? ? Nx Nt]; subst.
  destruct I1 as [E1|I1], I2 as [E2|I2].
  - congruence.
  - inversion E1; subst. exfalso. apply Nx. apply in_map_iff. exists (b, o). split; [reflexivity|exact I2].
  - inversion E2; subst. exfalso. apply Nx. apply in_map_iff. exists (a, o). split; [reflexivity|exact I1].
  - apply IH; assumption.
Qed.

Lemma old_of_rename m cs x0 : rename_ok m cs -> In x0 cs -> old_of m (rename_col m x0) = x0.
Proof.
  intros [N1 [N2 [I3 N4]]] I0. unfold old_of. destruct (rename_col_spec m x0) as [[n [I E]]|[No E]]; rewrite E.
  - rewrite (dict_get_NoDup_In m n x0 N1 I). reflexivity.
  - destruct (dict_get m x0) as [o|] eqn:G; [|reflexivity]. apply dict_get_In in G.
    assert (In o cs) as Io by (apply I3; apply in_map_iff; exists (x0, o); split; [reflexivity|exact G]).
    assert (rename_col m o = x0) as Eo.
    { destruct (rename_col_spec m o) as [[n' [I' E']]|[No' _]]; [|exfalso; exact (No' _ G)].
      rewrite E'. eapply NoDup_snd_unique; eassumption. }
    assert (o = x0) as <- by (apply (NoDup_map_inj (rename_col m) cs); [exact N4|exact Io|exact I0|congruence]).
    exfalso. exact (No _ G).
Qed.

Lemma get_rename m cs cs' r c :
  rename_ok m cs -> incl cs' cs -> In c (map (rename_col m) cs) ->
  get (map (rename_col m) cs') r c = get cs' r (old_of m c) /\ In (old_of m c) cs /\ rename_col m (old_of m c) = c.
Proof.
  intros OK I Hc. apply in_map_iff in Hc. destruct Hc as [x0 [<- I0]]. rewrite (old_of_rename m cs x0 OK I0).
  split; [|split; [exact I0|reflexivity]]. unfold get. rewrite index_of_map_inj; [reflexivity|].
  intros x Ix E. destruct OK as [_ [_ [_ N4]]]. apply (NoDup_map_inj (rename_col m) cs); [exact N4|apply I, Ix|exact I0|exact E].
Qed.

Lemma agree_rename m u us S S' :
  rename_ok m (cols S) -> incl u (map (rename_col m) (cols S)) ->
  agree us S S' -> (forall c, In c u -> In (old_of m c) us) ->
  agree u (sem_rename m S) (sem_rename m S').
Proof.
  intros OK Iu [A [B C]] Hu. unfold agree, sem_rename. cbn [cols rows]. split; [|split].
  - apply incl_map. exact A.
  - intros c Hc _. destruct (get_rename m (cols S) (cols S) [] c OK (incl_refl _) (Iu c Hc)) as [_ [I0 E0]].
    rewrite <- E0. apply in_map. apply B; [apply Hu, Hc|exact I0].
  - eapply F2_weaken; [exact C|]. intros r r' R c Hc.
    destruct (get_rename m (cols S) (cols S) r c OK (incl_refl _) (Iu c Hc)) as [E1 _].
    destruct (get_rename m (cols S) (cols S') r' c OK A (Iu c Hc)) as [E2 _].
    rewrite E1, E2. apply R. apply Hu, Hc.
Qed.

(* ------------------------------------------------------------------ map_columns = rename, then drop *)
Lemma old_of_dict_of_list m k : NoDup (map fst m) -> old_of (dict_of_list m) k = old_of m k.
Proof. intros N. unfold old_of. rewrite (dict_get_of_list m k N). reflexivity. Qed.

Lemma agree_map_cols m dels u us S S' :
  rename_ok m (cols S) -> incl u (filter (fun c => negb (mem c dels)) (map (rename_col m) (cols S))) ->
  agree us S S' -> (forall c, In c u -> In (old_of m c) us) ->
  agree u (sem_drop_cols dels (sem_rename m S)) (sem_drop_cols dels (sem_rename m S')).
Proof.
  intros OK Iu Ag Hu. apply (agree_drop_cols dels u u); [|tauto].
  apply (agree_rename m u us); try assumption. intros c Hc. apply Iu in Hc. apply filter_In in Hc. tauto.
Qed.

(* ------------------------------------------------------------------ order_rows *)
Lemma agree_order fl cs rev lim u us S S' :
  agree us S S' ->
  (forall x, In x cs -> In x (cols S) -> In x us) ->
  (forall c, In c u -> In c (cols S) -> In c us) ->
  agree u (sem_order fl cs rev lim S) (sem_order fl cs rev lim S').
Proof.
  intros [A [B C]] Hk Hu. unfold agree, sem_order. cbn [cols rows]. split; [exact A|]. split.
  - intros c Hc I. apply B; [apply Hu|]; assumption.
  - assert (Forall2 (rowrel us (cols S) (cols S'))
              (stable_sort (row_le fl (cols S) (map (fun c => (c, mem c rev)) cs)) (rows S))
              (stable_sort (row_le fl (cols S') (map (fun c => (c, mem c rev)) cs)) (rows S'))) as HS.
    { apply F2_stable_sort; [|exact C]. intros a b c d R1 R2. apply row_le_local; intros x I; rewrite map_map in I; simpl in I; rewrite map_id in I.
      - apply (src_get us S S'); [exact A|exact R1|apply Hk, I].
      - apply (src_get us S S'); [exact A|exact R2|apply Hk, I]. }
    eapply F2_weaken.
    + destruct lim as [n|]; [apply F2_firstn|]; exact HS.
    + intros r r' R c Hc. apply (src_get us S S'); [exact A|exact R|apply Hu, Hc].
Qed.

(* ------------------------------------------------------------------ natural_join *)
Definition join_cell (ca cb : list string) (ra rb : option (list val)) (c : string) : val :=
  let va := match ra with Some r => if mem c ca then get ca r c else VNull | None => VNull end in
  let vb := match rb with Some r => if mem c cb then get cb r c else VNull | None => VNull end in
  if is_null va then vb else va.
Definition join_out (ca cb : list string) : list string := ca ++ filter (fun c => negb (mem c ca)) cb.
Definition join_mk (ca cb : list string) (ra rb : option (list val)) : list val := map (join_cell ca cb ra rb) (join_out ca cb).

Lemma sem_join_unfold nm on_a on_b jt a b :
  sem_join nm on_a on_b jt a b =
  let ca := cols a in let cb := cols b in
  mktable (join_out ca cb)
    (flat_map (fun ra => flat_map (fun rb => if keys_match nm (key_of ca on_a ra) (key_of cb on_b rb) then [join_mk ca cb (Some ra) (Some rb)] else []) (rows b)) (rows a)
     ++ (match jt with JLeft | JFull => flat_map (fun ra => if existsb (fun rb => keys_match nm (key_of ca on_a ra) (key_of cb on_b rb)) (rows b) then [] else [join_mk ca cb (Some ra) None]) (rows a) | _ => [] end)
     ++ (match jt with JRight | JFull => flat_map (fun rb => if existsb (fun ra => keys_match nm (key_of ca on_a ra) (key_of cb on_b rb)) (rows a) then [] else [join_mk ca cb None (Some rb)]) (rows b) | _ => [] end)).
Proof. reflexivity. Qed.

Definition orel (R : list val -> list val -> Prop) (o o' : option (list val)) : Prop :=
  match o, o' with Some x, Some y => R x y | None, None => True | _, _ => False end.

Lemma side_cell us S S' o o' c :
  incl (cols S') (cols S) -> orel (rowrel us (cols S) (cols S')) o o' -> (In c (cols S) -> In c us) ->
  match o with Some r => if mem c (cols S) then get (cols S) r c else VNull | None => VNull end
  = match o' with Some r => if mem c (cols S') then get (cols S') r c else VNull | None => VNull end.
Proof.
  intros I R H. destruct o as [r|], o' as [r'|]; simpl in R; try contradiction; [|reflexivity].
  rewrite !guard_get. apply (src_get us S S'); assumption.
Qed.

Lemma agree_join nm on_a on_b jt u ua ub A A' B B' :
  agree ua A A' -> agree ub B B' ->
  (forall x, In x (u ++ on_a ++ on_b) -> In x (cols A) -> In x ua) ->
  (forall x, In x (u ++ on_a ++ on_b) -> In x (cols B) -> In x ub) ->
  agree u (sem_join nm on_a on_b jt A B) (sem_join nm on_a on_b jt A' B').
Proof.
  intros [Aa [Ba Ca]] [Ab [Bb Cb]] Ha Hb. rewrite !sem_join_unfold. cbv zeta. unfold agree. cbn [cols rows].
  set (ca := cols A) in *. set (cb := cols B) in *. set (ca' := cols A') in *. set (cb' := cols B') in *.
  assert (incl (join_out ca' cb') (join_out ca cb)) as IO.
  { intros c Hc. unfold join_out in *. apply in_app_iff in Hc. apply in_app_iff.
    destruct (in_dec string_dec c ca) as [i|n]; [left; exact i|right].
    destruct Hc as [Hc|Hc]; [exfalso; apply n, Aa, Hc|]. apply filter_In in Hc. apply filter_In. split; [apply Ab; tauto|].
    apply negb_true_iff, mem_false. exact n. }
  assert (forall c, In c u -> In c (join_out ca cb) -> In c (join_out ca' cb')) as PO.
  { intros c Hu Hc. unfold join_out in *. apply in_app_iff in Hc. apply in_app_iff. destruct Hc as [Hc|Hc].
    - left. apply Ba; [|exact Hc]. apply Ha; [apply in_app_iff; left; exact Hu|exact Hc].
    - right. apply filter_In in Hc. destruct Hc as [Hc N]. apply filter_In. split.
      + apply Bb; [|exact Hc]. apply Hb; [apply in_app_iff; left; exact Hu|exact Hc].
      + apply negb_true_iff in N. apply mem_false in N. apply negb_true_iff, mem_false. intros I. apply N, Aa, I. }
  split; [exact IO|]. split; [exact PO|].
  assert (forall ra ra' rb rb', orel (rowrel ua ca ca') ra ra' -> orel (rowrel ub cb cb') rb rb' ->
            rowrel u (join_out ca cb) (join_out ca' cb') (join_mk ca cb ra rb) (join_mk ca' cb' ra' rb')) as MK.
  { intros ra ra' rb rb' Ra Rb c Hc. unfold join_mk. rewrite !get_map_cols.
    rewrite (mem_eq_of_iff c (join_out ca cb) (join_out ca' cb')) by (split; [apply PO, Hc|apply IO]).
    destruct (mem c (join_out ca' cb')); [|reflexivity]. unfold join_cell.
    assert (In c (u ++ on_a ++ on_b)) as Hc' by (apply in_app_iff; left; exact Hc).
    pose proof (side_cell ua A A' ra ra' c Aa Ra (Ha c Hc')) as Ea.
    pose proof (side_cell ub B B' rb rb' c Ab Rb (Hb c Hc')) as Eb. fold ca ca' in Ea. fold cb cb' in Eb.
    rewrite Ea, Eb. reflexivity. }
  assert (forall ra ra' rb rb', rowrel ua ca ca' ra ra' -> rowrel ub cb cb' rb rb' ->
            keys_match nm (key_of ca on_a ra) (key_of cb on_b rb) = keys_match nm (key_of ca' on_a ra') (key_of cb' on_b rb')) as KM.
  { intros ra ra' rb rb' Ra Rb. f_equal; apply key_of_local; intros x I.
    - apply (src_get ua A A'); [exact Aa|exact Ra|]. apply Ha. apply in_app_iff. right. apply in_app_iff. left. exact I.
    - apply (src_get ub B B'); [exact Ab|exact Rb|]. apply Hb. apply in_app_iff. right. apply in_app_iff. right. exact I. }
  apply Forall2_app; [|apply Forall2_app].
  - eapply F2_flat_map; [exact Ca|]. intros ra ra' Ra. eapply F2_flat_map; [exact Cb|]. intros rb rb' Rb.
    rewrite (KM ra ra' rb rb' Ra Rb). destruct (keys_match _ _ _); [|constructor].
    constructor; [|constructor]. apply MK; simpl; assumption.
  - (* left rows without a partner (left and full joins) *)
    destruct jt; try constructor.
    all: eapply F2_unmatched; [exact Ca|exact Cb|intros; apply KM; assumption|].
    all: intros ra ra' Ra; apply MK; simpl; auto.
  - (* right rows without a partner (right and full joins) *)
    destruct jt; try constructor.
    all: eapply F2_unmatched; [exact Cb|exact Ca|intros; apply KM; assumption|].
    all: intros rb rb' Rb; apply MK; simpl; auto.
Qed.

(* ------------------------------------------------------------------ concat_rows *)
Lemma agree_concat idc an bn u ua ub A A' B B' :
  width_ok A -> width_ok A' -> agree ua A A' -> agree ub B B' ->
  (forall c, In c u -> In c (cols A) -> In c ua) ->
  (forall c, In c u -> In c (cols A) -> In c (cols B) -> In c ub) ->
  agree u (sem_concat idc an bn A B) (sem_concat idc an bn A' B').
Proof.
  intros W W' [Aa [Ba Ca]] [Ab [Bb Cb]] Ha Hb.
  set (ca := cols A) in *. set (cb := cols B) in *. set (ca' := cols A') in *. set (cb' := cols B') in *.
  assert (forall c, In c u -> mem c ca = mem c ca') as ME.
  { intros c Hc. apply mem_eq_of_iff. split; [intros I; apply Ba; [apply Ha|]; assumption|apply Aa]. }
  (* both blocks of rows, A's own and B's re-read under A's columns, agree on u and have the width of A's columns *)
  set (wrel := fun r r' => List.length r = List.length ca /\ List.length r' = List.length ca' /\ rowrel u ca ca' r r').
  assert (Forall2 wrel (rows A) (rows A')) as RA.
  { apply (F2_with_widths _ A A' W W'). eapply F2_weaken; [exact Ca|].
    intros r r' R c Hc. apply (src_get ua A A'); [exact Aa|exact R|apply Ha, Hc]. }
  assert (Forall2 wrel (map (fun r => map (get cb r) ca) (rows B)) (map (fun r => map (get cb' r) ca') (rows B'))) as RB.
  { eapply F2_map; [exact Cb|]. intros r r' R. split; [apply map_length|]. split; [apply map_length|].
    intros c Hc. rewrite !get_map_cols, <- (ME c Hc).
    destruct (mem c ca) eqn:M; [|reflexivity]. apply (src_get ub B B'); [exact Ab|exact R|]. apply Hb; [exact Hc|apply mem_In, M]. }
  unfold agree, sem_concat. fold ca cb ca' cb'. destruct idc as [ic|]; cbn [cols rows].
  - split; [|split].
    + apply incl_app; [apply incl_appl; exact Aa|apply incl_appr, incl_refl].
    + intros c Hc I. apply in_app_iff in I. apply in_app_iff. destruct I as [I|I]; [left; apply Ba; [apply Ha|]; assumption|right; exact I].
    + assert (forall v r r', wrel r r' -> rowrel u (ca ++ [ic]) (ca' ++ [ic]) (r ++ [v]) (r' ++ [v])) as EXT.
      { intros v r r' [L [L' R]] c Hc. destruct (mem c ca) eqn:M.
        - pose proof M as M'. rewrite (ME c Hc) in M'. apply mem_In in M, M'. rewrite !get_app_l by assumption. apply R, Hc.
        - pose proof M as M'. rewrite (ME c Hc) in M'. apply mem_false in M, M'. rewrite !get_app_r by assumption. reflexivity. }
      apply Forall2_app; (eapply F2_map; [eassumption|]); apply EXT.
  - split; [exact Aa|]. split.
    + intros c Hc I. apply Ba; [apply Ha|]; assumption.
    + apply Forall2_app; (eapply F2_weaken; [eassumption|]); intros r r' [_ [_ R]]; exact R.
Qed.
