(* Proofs about the REGENERATED quoting code (Gen/G_Quote.v, Gen/G_QuoteMySQL.v) against the lexing rules of Model/Lex.v. *)
From Coq Require Import List Bool Ascii String .
Import ListNotations.
From DA Require Import Base.PyRT Base.PyStr Model.Lex Gen.G_Quote Gen.G_QuoteMySQL.
Local Open Scope string_scope.

Definition dbl (q : ascii) : string := String q (String q "").

Lemma quote_string_shape (q : ascii) (s rest : string) :
  quote_string (q1 q) s ++ rest = String q (replace_char q (dbl q) s ++ String q rest).
Proof.
  unfold quote_string, q1. rewrite str_replace_char.
  rewrite !str_append_assoc. reflexivity.
Qed.

Lemma lit_body_std_close (q : ascii) (rest : string) :
  starts_with_char q rest = false -> lit_body_std q (String q rest) = Some ("", rest).
Proof.
  intros H. cbn [lit_body_std]. rewrite Ascii.eqb_refl.
  destruct rest as [|c2 r]; [reflexivity|]. simpl in H. rewrite H. reflexivity.
Qed.

Lemma lit_body_std_double (q : ascii) (s rest : string) :
  starts_with_char q rest = false ->
  lit_body_std q (replace_char q (dbl q) s ++ String q rest) = Some (s, rest).
Proof.
  intros H. induction s as [|c s IH].
  - apply lit_body_std_close; assumption.
  - cbn [replace_char]. destruct (Ascii.eqb q c) eqn:E.
    + apply Ascii.eqb_eq in E. subst c.
      change (dbl q ++ replace_char q (dbl q) s) with (String q (String q (replace_char q (dbl q) s))).
      cbn [append lit_body_std]. rewrite Ascii.eqb_refl. rewrite IH. reflexivity.
    + cbn [append lit_body_std]. rewrite Ascii.eqb_sym, E. rewrite IH. reflexivity.
Qed.

Lemma lit_body_bs_close (q : ascii) (rest : string) :
  q <> "\"%char -> starts_with_char q rest = false -> lit_body_bs q (String q rest) = Some ("", rest).
Proof.
  intros Hq H. cbn [lit_body_bs]. rewrite Ascii.eqb_refl.
  apply Ascii.eqb_neq in Hq. rewrite Hq.
  destruct rest as [|c2 r]; [reflexivity|]. simpl in H. rewrite H. reflexivity.
Qed.

Lemma lit_body_bs_double (q : ascii) (s rest : string) :
  q <> "\"%char -> has_char (Ascii.eqb "\"%char) s = false -> starts_with_char q rest = false ->
  lit_body_bs q (replace_char q (dbl q) s ++ String q rest) = Some (s, rest).
Proof.
  intros Hq Hs H. induction s as [|c s IH].
  - apply lit_body_bs_close; assumption.
  - cbn [has_char] in Hs. apply orb_false_iff in Hs. destruct Hs as [Hc Hs].
    specialize (IH Hs).
    pose proof Hq as Hq'. apply Ascii.eqb_neq in Hq'.
    cbn [replace_char]. destruct (Ascii.eqb q c) eqn:E.
    + apply Ascii.eqb_eq in E. subst c.
      change (dbl q ++ replace_char q (dbl q) s) with (String q (String q (replace_char q (dbl q) s))).
      cbn [append lit_body_bs]. rewrite Hq', Ascii.eqb_refl. rewrite IH. reflexivity.
    + cbn [append lit_body_bs]. rewrite (Ascii.eqb_sym c "\"%char), Hc.
      rewrite (Ascii.eqb_sym c q), E. rewrite IH. reflexivity.
Qed.

Lemma str_contains_char (q : ascii) (n : string) : str_contains (q1 q) n = has_char (Ascii.eqb q) n.
Proof.
  unfold q1. induction n as [|c n IH]; [reflexivity|].
  cbn [str_contains has_char]. rewrite strip_prefix_char.
  destruct (Ascii.eqb q c); simpl; [reflexivity | exact IH].
Qed.

Lemma ident_body_plain (q : ascii) (n rest : string) :
  has_char (Ascii.eqb q) n = false -> ident_body q (n ++ String q rest) = Some (n, rest).
Proof.
  induction n as [|c n IH]; intros H.
  - cbn [append ident_body]. rewrite Ascii.eqb_refl. reflexivity.
  - cbn [has_char] in H. apply orb_false_iff in H. destruct H as [Hc Hn].
    cbn [append ident_body]. rewrite Ascii.eqb_sym, Hc. rewrite (IH Hn). reflexivity.
Qed.

Lemma has_char_app (p : ascii -> bool) (a b : string) :
  has_char p (a ++ b) = has_char p a || has_char p b.
Proof. induction a as [|x a IH]; simpl; [reflexivity | now rewrite IH, orb_assoc]. Qed.

Lemma is_eol_is_ws (c : ascii) : is_eol c = true -> is_ws c = true.
Proof.
  unfold is_eol. intros H. apply orb_true_iff in H.
  destruct H as [H|H]; apply Ascii.eqb_eq in H; subst c; reflexivity.
Qed.

Lemma not_ws_not_eol (c : ascii) : is_ws c = false -> is_eol c = false.
Proof.
  intros H. destruct (is_eol c) eqn:E; [|reflexivity].
  apply is_eol_is_ws in E. congruence.
Qed.

Lemma re_sub_ws_no_eol (s : string) : forall b, has_char is_eol (re_sub_ws_plus_aux b " " s) = false.
Proof.
  induction s as [|c s IH]; intros b; [reflexivity|].
  cbn [re_sub_ws_plus_aux]. destruct (is_ws c) eqn:W.
  - destruct b; [apply IH|]. rewrite has_char_app, IH. reflexivity.
  - cbn [has_char]. rewrite (not_ws_not_eol c W), IH. reflexivity.
Qed.

Lemma replace_percent_no_eol (s : string) :
  has_char is_eol s = false -> has_char is_eol (replace_char "%"%char "percent" s) = false.
Proof.
  induction s as [|c s IH]; intros H; [reflexivity|].
  cbn [has_char] in H. apply orb_false_iff in H. destruct H as [Hc Hs].
  cbn [replace_char]. destruct (Ascii.eqb "%"%char c).
  - rewrite has_char_app, (IH Hs). reflexivity.
  - cbn [has_char]. rewrite Hc, (IH Hs). reflexivity.
Qed.

Lemma replace_percent_no_percent (s : string) :
  has_char (Ascii.eqb "%"%char) (replace_char "%"%char "percent" s) = false.
Proof.
  induction s as [|c s IH]; [reflexivity|].
  cbn [replace_char]. destruct (Ascii.eqb "%"%char c) eqn:E.
  - rewrite has_char_app, IH. reflexivity.
  - cbn [has_char]. rewrite E, IH. reflexivity.
Qed.

Lemma lstrip_no_char (p : ascii -> bool) (s : string) :
  has_char p s = false -> has_char p (lstrip s) = false.
Proof.
  induction s as [|c s IH]; intros H; [reflexivity|].
  cbn [lstrip]. destruct (is_ws c); [|exact H].
  cbn [has_char] in H. apply orb_false_iff in H. apply IH, H.
Qed.

Lemma rstrip_no_char (p : ascii -> bool) (s : string) :
  has_char p s = false -> has_char p (rstrip s) = false.
Proof.
  induction s as [|c s IH]; intros H; [reflexivity|].
  cbn [rstrip]. destruct (all_ws (String c s)); [reflexivity|].
  cbn [has_char] in *. apply orb_false_iff in H. destruct H as [Hc Hs].
  rewrite Hc, (IH Hs). reflexivity.
Qed.

Lemma strip_no_char (p : ascii -> bool) (s : string) :
  has_char p s = false -> has_char p (str_strip s) = false.
Proof. intros H. unfold str_strip. apply rstrip_no_char, lstrip_no_char, H. Qed.

Lemma clean_annotation_shape (a : string) :
  _clean_annotation (Some a) =
  Some (str_strip (replace_char "%"%char "percent" (re_sub_ws_plus " " (str_strip a)))).
Proof. unfold _clean_annotation. cbv zeta. rewrite str_replace_char. reflexivity. Qed.

Lemma skip_line_no_eol (c rest : string) :
  has_char is_eol c = false -> skip_line (c ++ String "010"%char rest) = rest.
Proof.
  induction c as [|x c IH]; intros H; [reflexivity|].
  cbn [has_char] in H. apply orb_false_iff in H. destruct H as [Hx Hc].
  cbn [append skip_line]. rewrite Hx. apply IH, Hc.
Qed.

(* every string, whatever it contains, reads back verbatim in the standard family, with the following text untouched *)
Lemma quote_string_roundtrip_std (q : ascii) (s rest : string) :
  starts_with_char q rest = false ->
  read_literal_std q (quote_string (q1 q) s ++ rest) = Some (s, rest).
Proof.
  intros H. rewrite quote_string_shape. unfold read_literal_std. rewrite Ascii.eqb_refl.
  apply lit_body_std_double, H.
Qed.

(* the same holds in the backslash family for strings without a backslash ... *)
Lemma quote_string_roundtrip_bs_partial (q : ascii) (s rest : string) :
  q <> "\"%char -> has_char (Ascii.eqb "\"%char) s = false -> starts_with_char q rest = false ->
  read_literal_bs q (quote_string (q1 q) s ++ rest) = Some (s, rest).
Proof.
  intros Hq Hs H. rewrite quote_string_shape. unfold read_literal_bs. rewrite Ascii.eqb_refl.
  apply lit_body_bs_double; assumption.
Qed.

(* ... and FAILS with one: the literal for the one-character string `\` swallows its closing quote *)
Lemma quote_string_backslash_family_refuted :
  read_literal_bs "'"%char (quote_string (q1 "'"%char) "\") = None /\
  exists v r, read_literal_bs "'"%char (quote_string (q1 "'"%char) "\" ++ " OR 1=1 --'") = Some (v, r) /\ v <> "\".
Proof.
  split; [vm_compute; reflexivity|].
  eexists. eexists. split; [vm_compute; reflexivity|]. discriminate.
Qed.

(* identifiers: accepted exactly when they do not contain the quote character, and then they read back verbatim *)
Lemma quote_identifier_accepts_iff (q : ascii) (n : string) :
  quote_identifier (q1 q) n = None <-> has_char (Ascii.eqb q) n = true.
Proof.
  unfold quote_identifier. rewrite str_contains_char.
  destruct (has_char (Ascii.eqb q) n); split; intros H; try reflexivity; discriminate.
Qed.
Lemma quote_identifier_roundtrip (q : ascii) (n t rest : string) :
  quote_identifier (q1 q) n = Some t -> read_ident q (t ++ rest) = Some (n, rest).
Proof.
  unfold quote_identifier. rewrite str_contains_char.
  destruct (has_char (Ascii.eqb q) n) eqn:E; [discriminate|].
  intros H. injection H as <-. unfold q1. cbn [append read_ident]. rewrite Ascii.eqb_refl, str_append_assoc.
  cbn [append]. apply ident_body_plain, E.
Qed.
Lemma mysql_quote_identifier_same (q n : string) : mysql_quote_identifier q n = quote_identifier q n.
Proof. reflexivity. Qed.

(* annotations: the cleaned text contains no end-of-line character and no percent sign, so the comment it is put in
   ends exactly at the newline the generator adds after it *)
Lemma clean_annotation_no_eol (a c : string) :
  _clean_annotation (Some a) = Some c -> has_char is_eol c = false /\ has_char (Ascii.eqb "%"%char) c = false.
Proof.
  rewrite clean_annotation_shape. intros H. injection H as <-. split.
  - apply strip_no_char, replace_percent_no_eol. unfold re_sub_ws_plus. apply re_sub_ws_no_eol.
  - apply strip_no_char, replace_percent_no_percent.
Qed.
Lemma comment_is_inert (a c rest : string) :
  _clean_annotation (Some a) = Some c ->
  skip_comment ("-- " ++ c ++ String "010"%char rest) = Some rest.
Proof.
  intros H. apply clean_annotation_no_eol in H. destruct H as [H _].
  change ("-- " ++ c ++ String "010"%char rest)
    with (String "-" (String "-" (String " " (c ++ String "010"%char rest)))).
  cbn [skip_comment]. f_equal.
  change (skip_line (String " " (c ++ String "010"%char rest)))
    with (skip_line (c ++ String "010"%char rest)).
  apply skip_line_no_eol, H.
Qed.
Lemma clean_annotation_none : _clean_annotation None = None.
Proof. reflexivity. Qed.

