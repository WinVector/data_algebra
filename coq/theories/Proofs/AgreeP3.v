(* C01 / C02, part 3: whole pipelines, by induction over the operator tree.
   agree_core : no cause met along the conventions fl0  ->  every flavour computes the very same table.
   agree_bag  : no cause met by the multiset walk       ->  every flavour computes the same columns and a permutation of the rows. *)
From Coq Require Import List Bool String Permutation.
Import ListNotations.
From DA Require Import Base.PyRT Base.Val Model.Sem Model.SemStrict Proofs.SemBasicP Proofs.SemOrderP Proofs.AgreeP1 Proofs.AgreeP2.
Local Open Scope string_scope.
Local Open Scope list_scope.

Theorem agree_core fl0 p e : causes fl0 p e = [] -> forall fl, sem_gen fl p e = sem_gen fl0 p e.
Proof.
  induction p as [n tc|s IH ops wd w|s IH ops gb|s IH x|s IH cs|s IH cs|s IH m|s IH m dels|s IH cs rev lim
                  |a IHa b IHb on_a on_b jt|a IHa b IHb idc an bn]; intros H fl; cbn [causes] in H; cbn [sem_gen].
  - reflexivity.
  - apply app_eq_nil in H. destruct H as [H1 H2]. rewrite (IH H1 fl).
    destruct (sem_gen fl0 s e) as [t|]; [|reflexivity]. simpl in *. f_equal.
    destruct wd; [apply wextend_agree|apply extend_agree]; exact H2.
  - apply app_eq_nil in H. destruct H as [H1 H2]. rewrite (IH H1 fl).
    destruct (sem_gen fl0 s e) as [t|]; [|reflexivity]. simpl in *. f_equal. apply project_agree. exact H2.
  - apply app_eq_nil in H. destruct H as [H1 H2]. rewrite (IH H1 fl).
    destruct (sem_gen fl0 s e) as [t|]; [|reflexivity]. simpl in *. f_equal. apply select_agree. exact H2.
  - rewrite (IH H fl). reflexivity.
  - rewrite (IH H fl). reflexivity.
  - rewrite (IH H fl). reflexivity.
  - rewrite (IH H fl). reflexivity.
  - apply app_eq_nil in H. destruct H as [H1 H2]. rewrite (IH H1 fl).
    destruct (sem_gen fl0 s e) as [t|]; [|reflexivity]. simpl in *. f_equal. apply order_agree. exact H2.
  - apply app_eq_nil in H. destruct H as [H1 H]. apply app_eq_nil in H. destruct H as [H2 H3].
    rewrite (IHa H1 fl), (IHb H2 fl).
    destruct (sem_gen fl0 a e) as [ta|]; [|reflexivity]. destruct (sem_gen fl0 b e) as [tb|]; [|reflexivity].
    f_equal. apply join_agree. exact H3.
  - apply app_eq_nil in H. destruct H as [H1 H2]. rewrite (IHa H1 fl), (IHb H2 fl). reflexivity.
Qed.

(* the instrumented evaluator: when it returns a table, every backend's model returns that table *)
Theorem sem_strict_all_flavours p e t : sem_strict p e = Some t -> forall fl, sem_gen fl p e = Some t.
Proof.
  unfold sem_strict, insensitive. intros H fl. destruct (is_nil (causes fl_pandas p e)) eqn:N; [|discriminate].
  rewrite (agree_core fl_pandas p e (is_nil_true _ N) fl). exact H.
Qed.

Theorem sem_strict_same_columns_and_rows p e t : sem_strict p e = Some t ->
  forall fl, exists t', sem_gen fl p e = Some t' /\ cols t' = cols t /\ Permutation (rows t') (rows t).
Proof.
  intros H fl. exists t. split; [apply (sem_strict_all_flavours p e t H)|]. split; [reflexivity|apply Permutation_refl].
Qed.

(* after a final order_rows the rows come in the same order *)
Theorem sem_strict_final_order s cs rev lim e t : sem_strict (OOrder s cs rev lim) e = Some t ->
  forall fl, exists t', sem_gen fl (OOrder s cs rev lim) e = Some t' /\ cols t' = cols t /\ rows t' = rows t.
Proof.
  intros H fl. exists t. split; [apply (sem_strict_all_flavours _ e t H)|]. split; reflexivity.
Qed.

(* sem_strict is defined exactly on the insensitive inputs on which the pipeline is defined *)
Lemma sem_strict_defined p e : insensitive p e = true -> sem_strict p e = sem_gen fl_pandas p e.
Proof. unfold sem_strict. intros ->. reflexivity. Qed.

(* ---------- the multiset walk *)
Definition same_bag (o o0 : option table) : Prop :=
  match o, o0 with
  | Some t, Some t0 => cols t = cols t0 /\ Permutation (rows t) (rows t0)
  | None, None => True
  | _, _ => False
  end.
Lemma same_bag_refl o : same_bag o o.
Proof. destruct o as [t|]; simpl; [split; [reflexivity|apply Permutation_refl]|exact I]. Qed.
Lemma same_bag_eq o o0 : o = o0 -> same_bag o o0.
Proof. intros ->. apply same_bag_refl. Qed.

Lemma join_cols nm on_a on_b jt a b : cols (sem_join nm on_a on_b jt a b) = cols a ++ filter (fun c => negb (mem c (cols a))) (cols b).
Proof. reflexivity. Qed.
Lemma concat_cols idc an bn a b : cols (sem_concat idc an bn a b) = cols a ++ match idc with Some c => [c] | None => [] end.
Proof. unfold sem_concat. destruct idc; simpl; [reflexivity|rewrite app_nil_r; reflexivity]. Qed.

Theorem agree_bag fl0 p e : causes_bag fl0 p e = [] -> forall fl, same_bag (sem_gen fl p e) (sem_gen fl0 p e).
Proof.
  induction p as [n tc|s IH ops wd w|s IH ops gb|s IH x|s IH cs|s IH cs|s IH m|s IH m dels|s IH cs rev lim
                  |a IHa b IHb on_a on_b jt|a IHa b IHb idc an bn]; intros H fl.
  - apply same_bag_eq. apply agree_core. exact H.
  - destruct wd; [apply same_bag_eq; apply agree_core; exact H|].
    cbn [causes_bag] in H. apply app_eq_nil in H. destruct H as [H1 H2]. specialize (IH H1 fl). cbn [sem_gen].
    destruct (sem_gen fl s e) as [t|], (sem_gen fl0 s e) as [t0|]; cbn [option_map same_bag on_table] in *; try tauto. destruct IH as [C P].
    rewrite <- (extend_agree fl0 ops t0 H2 fl). apply extend_perm; assumption.
  - apply same_bag_eq. apply agree_core. exact H.
  - cbn [causes_bag] in H. apply app_eq_nil in H. destruct H as [H1 H2]. specialize (IH H1 fl). cbn [sem_gen].
    destruct (sem_gen fl s e) as [t|], (sem_gen fl0 s e) as [t0|]; cbn [option_map same_bag on_table] in *; try tauto. destruct IH as [C P].
    rewrite <- (select_agree fl0 x t0 H2 fl). split; [exact C|]. apply select_rows_perm; assumption.
  - cbn [causes_bag] in H. specialize (IH H fl). cbn [sem_gen].
    destruct (sem_gen fl s e) as [t|], (sem_gen fl0 s e) as [t0|]; cbn [option_map same_bag on_table] in *; try tauto. destruct IH as [C P].
    split; [reflexivity|]. apply select_cols_perm; assumption.
  - cbn [causes_bag] in H. specialize (IH H fl). cbn [sem_gen].
    destruct (sem_gen fl s e) as [t|], (sem_gen fl0 s e) as [t0|]; cbn [option_map same_bag on_table] in *; try tauto. destruct IH as [C P].
    unfold sem_drop_cols. rewrite C. split; [reflexivity|]. apply select_cols_perm; assumption.
  - cbn [causes_bag] in H. specialize (IH H fl). cbn [sem_gen].
    destruct (sem_gen fl s e) as [t|], (sem_gen fl0 s e) as [t0|]; cbn [option_map same_bag on_table] in *; try tauto. destruct IH as [C P].
    unfold sem_rename; cbn [cols rows]. rewrite C. split; [reflexivity|exact P].
  - cbn [causes_bag] in H. specialize (IH H fl). cbn [sem_gen].
    destruct (sem_gen fl s e) as [t|], (sem_gen fl0 s e) as [t0|]; cbn [option_map same_bag on_table] in *; try tauto. destruct IH as [C P].
    assert (cols (sem_rename m t) = cols (sem_rename m t0)) as C2 by (unfold sem_rename; cbn [cols]; rewrite C; reflexivity).
    unfold sem_drop_cols. rewrite C2. split; [reflexivity|]. apply select_cols_perm; [exact C2|exact P].
  - destruct lim as [n|]; [apply same_bag_eq; apply agree_core; exact H|].
    cbn [causes_bag] in H. specialize (IH H fl). cbn [sem_gen].
    destruct (sem_gen fl s e) as [t|], (sem_gen fl0 s e) as [t0|]; cbn [option_map same_bag on_table] in *; try tauto. destruct IH as [C P].
    split; [exact C|].
    eapply perm_trans; [apply (order_rows_is_permutation fl cs rev t)|].
    eapply perm_trans; [exact P|]. apply Permutation_sym. apply (order_rows_is_permutation fl0 cs rev t0).
  - cbn [causes_bag] in H. apply app_eq_nil in H. destruct H as [H1 H]. apply app_eq_nil in H. destruct H as [H2 H3].
    specialize (IHa H1 fl). specialize (IHb H2 fl). cbn [sem_gen].
    destruct (sem_gen fl a e) as [ta|], (sem_gen fl0 a e) as [ta0|]; cbn [same_bag] in IHa; try tauto;
      destruct (sem_gen fl b e) as [tb|], (sem_gen fl0 b e) as [tb0|]; cbn [same_bag] in IHb; try tauto; cbn [same_bag].
    destruct IHa as [Ca Pa], IHb as [Cb Pb].
    rewrite <- (join_agree on_a on_b jt ta0 tb0 H3 (f_join_null_match fl) (f_join_null_match fl0)).
    split; [rewrite !join_cols, Ca, Cb; reflexivity|]. apply join_perm; assumption.
  - cbn [causes_bag] in H. apply app_eq_nil in H. destruct H as [H1 H2].
    specialize (IHa H1 fl). specialize (IHb H2 fl). cbn [sem_gen].
    destruct (sem_gen fl a e) as [ta|], (sem_gen fl0 a e) as [ta0|]; cbn [same_bag] in IHa; try tauto;
      destruct (sem_gen fl b e) as [tb|], (sem_gen fl0 b e) as [tb0|]; cbn [same_bag] in IHb; try tauto; cbn [same_bag].
    destruct IHa as [Ca Pa], IHb as [Cb Pb].
    split; [rewrite !concat_cols, Ca; reflexivity|]. apply concat_perm; assumption.
Qed.

Theorem insensitive_bag_same_columns_and_rows p e t : insensitive_bag p e = true -> sem_gen fl_pandas p e = Some t ->
  forall fl, exists t', sem_gen fl p e = Some t' /\ cols t' = cols t /\ Permutation (rows t') (rows t).
Proof.
  unfold insensitive_bag. intros N E fl. pose proof (agree_bag fl_pandas p e (is_nil_true _ N) fl) as B.
  rewrite E in B. destruct (sem_gen fl p e) as [t'|]; simpl in B; [|destruct B].
  exists t'. split; [reflexivity|exact B].
Qed.

(* the strict walk implies the multiset walk: what `causes` accepts, `causes_bag` accepts *)
Lemma causes_bag_sub fl p e : causes fl p e = [] -> causes_bag fl p e = [].
Proof.
  induction p as [n tc|s IH ops wd w|s IH ops gb|s IH x|s IH cs|s IH cs|s IH m|s IH m dels|s IH cs rev lim
                  |a IHa b IHb on_a on_b jt|a IHa b IHb idc an bn]; intros H; cbn [causes_bag]; try exact H; cbn [causes] in H.
  - destruct wd; [exact H|]. apply app_eq_nil in H. destruct H as [H1 H2]. rewrite (IH H1). exact H2.
  - apply app_eq_nil in H. destruct H as [H1 H2]. rewrite (IH H1). exact H2.
  - apply IH, H.
  - apply IH, H.
  - apply IH, H.
  - apply IH, H.
  - destruct lim; [exact H|]. apply app_eq_nil in H. destruct H as [H1 H2]. apply IH, H1.
  - apply app_eq_nil in H. destruct H as [H1 H]. apply app_eq_nil in H. destruct H as [H2 H3]. rewrite (IHa H1), (IHb H2). exact H3.
  - apply app_eq_nil in H. destruct H as [H1 H2]. rewrite (IHa H1), (IHb H2). reflexivity.
Qed.

(* ---------- the boolean comparison of model tables is reflexive (so equal tables `agree`) *)
Lemma row_eqv_refl r : row_eqv r r = true.
Proof. induction r as [|x t IH]; simpl; [reflexivity|]. rewrite SemOrderP.v_eqv_refl, IH. reflexivity. Qed.
Lemma rows_eqv_refl l : rows_eqv l l = true.
Proof. induction l as [|x t IH]; simpl; [reflexivity|]. rewrite row_eqv_refl, IH. reflexivity. Qed.
Lemma bag_eqv_refl l : bag_eqv l l = true.
Proof. induction l as [|x t IH]; simpl; [reflexivity|]. rewrite row_eqv_refl. exact IH. Qed.
Lemma tables_agree_refl ordered o : tables_agree ordered o o = true.
Proof.
  destruct o as [t|]; simpl; [|reflexivity]. rewrite eqb_refl. simpl.
  destruct ordered; [apply rows_eqv_refl|apply bag_eqv_refl].
Qed.

Theorem insensitive_tables_agree p e : insensitive p e = true ->
  forall fl fl' ordered, tables_agree ordered (sem_gen fl p e) (sem_gen fl' p e) = true.
Proof.
  unfold insensitive. intros N fl fl' ordered. apply is_nil_true in N.
  rewrite (agree_core fl_pandas p e N fl), (agree_core fl_pandas p e N fl'). apply tables_agree_refl.
Qed.
