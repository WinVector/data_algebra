(* Proofs/ExprParseP1.v -- C13, part 1 (the tree built by the walker computes Python's meaning of the parse tree: walk_meaning,
   in P4): list facts, lsize, the inversions of the _expr_Ok functions, the operator tables, `agrees` and the chain lemmas. *)
From Coq Require Import List Bool String Lia.
Import ListNotations.
From DA Require Import Model.PyExpr Model.ExprParse Model.ExprSem.
Local Open Scope string_scope.
Local Open Scope bool_scope.
Local Open Scope list_scope.

Lemma mem_str_In s l : mem_str s l = true <-> In s l.
Proof. unfold mem_str. rewrite existsb_exists. split.
  - intros [x [Hx E]]. apply String.eqb_eq in E. subst. exact Hx.
  - intros H. exists s. split; [exact H|apply String.eqb_refl]. Qed.

(* one branch of a chain of tests that ends in None *)
Lemma if_Some_inv {A} (b : bool) (x y : option A) v : (if b then x else y) = Some v -> b = true \/ y = Some v.
Proof. destruct b; [left; reflexivity|right; assumption]. Qed.

Lemma list_ind2 {A} (P : list A -> Prop) :
  P [] -> (forall x, P [x]) -> (forall x y l, P l -> P (x :: y :: l)) -> forall l, P l.
Proof. intros H0 H1 H2. fix IH 1. intros [|x [|y l]]; [exact H0|apply H1|apply H2, IH]. Qed.

Lemma evens_cons2 {A} (x y : A) l : evens (x :: y :: l) = x :: evens l.
Proof. reflexivity. Qed.
Lemma odds_cons2 {A} (x y : A) l : odds (x :: y :: l) = y :: odds l.
Proof. reflexivity. Qed.

Lemma evens_map {A B} (f : A -> B) l : evens (map f l) = map f (evens l).
Proof. induction l as [|x|x y l IH] using list_ind2; [reflexivity|reflexivity|].
  cbn [map]. rewrite !evens_cons2. cbn [map]. rewrite IH. reflexivity. Qed.
Lemma odds_map {A B} (f : A -> B) l : odds (map f l) = map f (odds l).
Proof. induction l as [|x|x y l IH] using list_ind2; [reflexivity|reflexivity|].
  cbn [map]. rewrite !odds_cons2. cbn [map]. rewrite IH. reflexivity. Qed.

Lemma evens_In {A} (x : A) l : In x (evens l) -> In x l.
Proof. induction l as [|y|y z l IH] using list_ind2; simpl; intros H; tauto. Qed.

Lemma all_some_inv {A} (l : list (option A)) r : all_some l = Some r -> l = map Some r.
Proof. revert r. induction l as [|[x|] l IH]; simpl; intros r H; try discriminate H.
  - inversion H. reflexivity.
  - destruct (all_some l) eqn:E; [|discriminate H]. inversion H; subst. simpl. rewrite (IH _ eq_refl). reflexivity. Qed.

Lemma all_some_map_Some {A} (l : list A) : all_some (map Some l) = Some l.
Proof. induction l as [|x l IH]; simpl; [reflexivity|]. rewrite IH. reflexivity. Qed.

Fixpoint lsize (t : ltree) : nat :=
  match t with
  | LNode _ cs => S (fold_right (fun c n => lsize c + n) 0 cs)
  | _ => 1
  end.

Lemma lsize_child d cs x : In x cs -> lsize x < lsize (LNode d cs).
Proof. simpl. induction cs as [|y cs IH]; simpl; intros H; [destruct H|].
  destruct H as [->|H]; [lia|]. specialize (IH H). lia. Qed.

Lemma walk_node_eq c dd d cs :
  walk c dd (LNode d cs) =
  walk_node c d cs (map (walk c dd) cs)
    (match cs with LNode _ gcs :: _ => Some (map (walk c dd) gcs) | _ => None end)
    (match cs with _ :: LNode _ acs :: _ => Some (map (walk c dd) acs) | _ => None end).
Proof. reflexivity. Qed.

Lemma py_node_eq fsem en d cs :
  py_meaning fsem en (LNode d cs) =
  py_node fsem d cs (map (py_meaning fsem en) cs)
    (match cs with LNode _ gcs :: _ => Some (map (py_meaning fsem en) gcs) | _ => None end)
    (match cs with _ :: LNode _ acs :: _ => Some (map (py_meaning fsem en) acs) | _ => None end).
Proof. reflexivity. Qed.

(* ------------------------------------------------------------------ the methods reached by operators *)
Lemma mk_expr_Ok c op args i m e : mk_expr c op args i m = Ok e -> e = EOp op i m None args.
Proof. unfold mk_expr. destruct (negb (mem_str op (known c))); [discriminate|].
  destruct (i && m); [discriminate|]. intros H. inversion H. reflexivity. Qed.

Lemma op_expr_Ok c op a b i m chk e : op_expr c op a b i m chk = Ok e -> e = EOp op i m None [a; b].
Proof. unfold op_expr. destruct (is_none_value a || is_none_value b); [discriminate|].
  destruct (chk && obvious_type_problem a b); [discriminate|]. apply mk_expr_Ok. Qed.

Lemma uop_expr_Ok c op a i e : uop_expr c op a i = Ok e -> e = EOp op i (negb i) None [a].
Proof. unfold uop_expr. destruct (is_none_value a); [discriminate|]. apply mk_expr_Ok. Qed.

Lemma triop_expr_Ok c op a x y i m e : triop_expr c op a x y i m = Ok e -> e = EOp op i m None [a; x; y].
Proof. unfold triop_expr. destruct (is_none_value a); [discriminate|]. apply mk_expr_Ok. Qed.

(* a method given by `MBin op i m chk` applied to one argument *)
Lemma call_method_bin c name op i m chk a b e :
  find_method name method_table = Some (MBin op i m chk) ->
  call_method c name a [b] = Ok e -> e = EOp op i m None [a; b].
Proof. intros F. unfold call_method. destruct (negb (is_term a)); [discriminate|]. rewrite F. apply op_expr_Ok. Qed.

(* ------------------------------------------------------------------ evaluation of the built expressions *)
Lemma eval_EOp fsem en op i m p args vs :
  all_some (map (eval fsem en) args) = Some vs -> eval fsem en (EOp op i m p args) = eval_op fsem op vs.
Proof. intros H. simpl. rewrite H. reflexivity. Qed.

Lemma eval_bin fsem en op i m p a b va vb :
  eval fsem en a = Some va -> eval fsem en b = Some vb ->
  eval fsem en (EOp op i m p [a; b]) = eval_op fsem op [va; vb].
Proof. intros Ha Hb. apply eval_EOp. simpl. rewrite Ha, Hb. reflexivity. Qed.

(* the six arithmetic operators: text -> method -> operator of the built node -> arith *)
Lemma arith_ops_walk o :
  mem_str o ["+"; "-"; "*"; "/"; "//"; "%"] = true ->
  find_method (remap op_remap o) method_table = Some (MBin o true false true)
  /\ forall fsem a b, eval_op fsem o [a; b] = arith o a b.
Proof. intros H. apply mem_str_In in H. simpl in H.
  destruct H as [<-|[<-|[<-|[<-|[<-|[<-|[]]]]]]]; split; reflexivity. Qed.

Lemma cmp_Some_op o x y b : cmp o x y = Some b -> In o ["=="; "!="; "<>"; "<"; "<="; ">"; ">="].
Proof. unfold cmp. intros H.
  destruct (o ==s "==") eqn:E1; [apply String.eqb_eq in E1; subst; simpl; tauto|].
  destruct (o ==s "!=") eqn:E2; [apply String.eqb_eq in E2; subst; simpl; tauto|].
  destruct (o ==s "<>") eqn:E3; [apply String.eqb_eq in E3; subst; simpl; tauto|].
  destruct (o ==s "<") eqn:E4; [apply String.eqb_eq in E4; subst; simpl; tauto|].
  destruct (o ==s "<=") eqn:E5; [apply String.eqb_eq in E5; subst; simpl; tauto|].
  destruct (o ==s ">") eqn:E6; [apply String.eqb_eq in E6; subst; simpl; tauto|].
  destruct (o ==s ">=") eqn:E7; [apply String.eqb_eq in E7; subst; simpl; tauto|].
  exfalso. cbn [orb] in H. destruct (ord_q x), (ord_q y); discriminate H. Qed.

Lemma cmp_ne_alias x y : cmp "<>" x y = cmp "!=" x y.
Proof. unfold cmp. simpl. reflexivity. Qed.

(* the seven comparison operators; the node built for <> carries != *)
Lemma cmp_ops_walk o :
  In o ["=="; "!="; "<>"; "<"; "<="; ">"; ">="] ->
  exists o', find_method (remap op_remap o) method_table = Some (MBin o' true false true)
          /\ forall fsem a b, eval_op fsem o' [a; b] = option_map PBool (cmp o a b).
Proof. intros H. simpl in H.
  destruct H as [<-|[<-|[<-|[<-|[<-|[<-|[<-|[]]]]]]]]; eexists; (split; [reflexivity|intros; reflexivity]). Qed.

(* ------------------------------------------------------------------ agreement of the two meanings *)
Section Meaning.
Variables (c : cfg) (dd : list string) (fsem : fsem_t) (en : env).

Definition agrees (t : ltree) : Prop :=
  forall e v, walk c dd t = Ok e -> py_meaning fsem en t = Some v -> eval fsem en e = Some v.

Lemma agrees_tok tk : agrees (LTok tk).
Proof. intros e v Hw Hp. destruct tk as [s|n|[m|]|s|s|b ty]; simpl in *; try discriminate.
  - destruct (mem_str s dd); [|discriminate]. inversion Hw; subst. simpl. exact Hp.
  - inversion Hw; inversion Hp; subst. reflexivity.
  - inversion Hw; inversion Hp; subst. reflexivity.
  - inversion Hw; inversion Hp; subst. reflexivity. Qed.

Lemma children_agree cs : forall args vals,
  (forall x, In x cs -> agrees x) ->
  all_ok (map (walk c dd) cs) = Ok args -> all_some (map (py_meaning fsem en) cs) = Some vals ->
  all_some (map (eval fsem en) args) = Some vals.
Proof. induction cs as [|x cs IH]; cbn [map all_ok all_some]; intros args vals IHc Hw Hp.
  - inversion Hw; inversion Hp; subst. reflexivity.
  - destruct (walk c dd x) as [a|] eqn:Wx; [|discriminate Hw].
    destruct (all_ok (map (walk c dd) cs)) as [args'|]; [|discriminate Hw].
    destruct (py_meaning fsem en x) as [v|] eqn:Px; [|discriminate Hp].
    destruct (all_some (map (py_meaning fsem en) cs)) as [vals'|]; [|discriminate Hp].
    inversion Hw; inversion Hp; subst. cbn [map all_some].
    rewrite (IHc x (or_introl eq_refl) a v Wx Px), (IH args' vals' (fun y Hy => IHc y (or_intror Hy)) eq_refl eq_refl).
    reflexivity. Qed.

Lemma chain_fold_Err ops rs e : chain_fold c Err ops rs = Ok e -> False.
Proof. destruct ops as [|o ops]; simpl; [discriminate|]. destruct rs; discriminate. Qed.

Lemma py_chain_arith_None ops vs v : py_chain_arith None ops vs = Some v -> False.
Proof. destruct ops as [|[o|] ops], vs as [|[x|] vs]; simpl; discriminate. Qed.

Lemma chain_arith_agree : forall (ops ccs : list ltree) acc va e v,
  (forall x, In x ccs -> agrees x) ->
  eval fsem en acc = Some va ->
  chain_fold c (Ok acc) (map tok_text ops) (map (walk c dd) ccs) = Ok e ->
  py_chain_arith (Some va) (map tok_text ops) (map (py_meaning fsem en) ccs) = Some v ->
  eval fsem en e = Some v.
Proof. induction ops as [|o ops IH]; intros ccs acc va e v IHc Ha Hw Hp.
  - destruct ccs; simpl in *; [|discriminate Hp]. inversion Hw; inversion Hp; subst. exact Ha.
  - destruct ccs as [|c1 ccs]; cbn [map chain_fold py_chain_arith] in Hw, Hp.
    { destruct (tok_text o); discriminate Hp. }
    destruct (tok_text o) as [os|] eqn:To; [|discriminate Hp].
    destruct (py_meaning fsem en c1) as [v1|] eqn:P1; [|discriminate Hp].
    destruct (mem_str os ["+"; "-"; "*"; "/"; "//"; "%"]) eqn:M; [|discriminate Hp].
    destruct (walk c dd c1) as [b|] eqn:W1; [|discriminate Hw].
    destruct (arith_ops_walk os M) as [Hf Hev].
    destruct (call_method c (remap op_remap os) acc [b]) as [e1|] eqn:Cm; [|exfalso; eapply chain_fold_Err; exact Hw].
    pose proof (call_method_bin _ _ _ _ _ _ _ _ _ Hf Cm) as ->.
    assert (Hb : eval fsem en b = Some v1). { apply (IHc c1); [left; reflexivity|exact W1|exact P1]. }
    destruct (arith os va v1) as [v2|] eqn:Ar; [|exfalso; eapply py_chain_arith_None; exact Hp].
    eapply (IH ccs _ v2); [intros x Hx; apply IHc; right; exact Hx| |exact Hw|exact Hp].
    rewrite (eval_bin _ _ _ _ _ _ _ _ va v1 Ha Hb). rewrite Hev. exact Ar. Qed.

Lemma py_chain_all_same o : forall ops vs acc v,
  Forall (fun x => x = Some o) ops -> py_chain_arith acc ops vs = Some v ->
  exists rest, vs = map Some rest /\ fold_arith o acc rest = Some v.
Proof. induction ops as [|x ops IH]; intros vs acc v Hall Hp.
  - destruct vs; simpl in Hp; [|discriminate]. exists []. split; [reflexivity|exact Hp].
  - inversion Hall as [|? ? Hx Hrest]; subst. destruct vs as [|[v1|] vs]; cbn [py_chain_arith] in Hp; try discriminate Hp.
    destruct acc as [a|]; [|discriminate Hp].
    destruct (mem_str o ["+"; "-"; "*"; "/"; "//"; "%"]); [|discriminate Hp].
    destruct (IH vs _ v Hrest Hp) as [rest [-> Hf]]. exists (v1 :: rest). split; [reflexivity|exact Hf]. Qed.

End Meaning.
