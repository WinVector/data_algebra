(* SQLGEN, part 11: the SQL-level extend merge.  One SELECT with the merged terms over the inner step's input
   computes what the outer SELECT computes over the inner SELECT -- when the contention set of extend_to_near_sql is empty,
   its test run with the partition and order columns among the declared dependencies of every windowed term (window_vars). *)
From Coq Require Import List Bool String.
Import ListNotations.
From DA Require Import Base.PyRT Base.Val Model.Sem Proofs.SemBasicP Model.ColumnsUsed Proofs.ColumnsUsedP1 Proofs.ColumnsUsedP2
  Model.SqlGen Model.SqlSem Proofs.SqlGenP1 Proofs.SqlGenP2 Proofs.SqlGenP3 Proofs.SqlGenP4 Proofs.TabP.
Local Open Scope list_scope.

Lemma dict_get_filter_key {V} (p : string -> bool) (d : pydict string V) k :
  p k = true -> dict_get (filter (fun kv => p (fst kv)) d) k = dict_get d k.
Proof.
  intros P. induction d as [|[a v] t IH]; [reflexivity|]. simpl. destruct (p a) eqn:Pa; simpl.
  - destruct (eq_dec k a); [reflexivity|exact IH].
  - destruct (eq_dec k a) as [->|n]; [congruence|exact IH].
Qed.

Lemma non_trivial_in dep tms k : In k (non_trivial_terms dep tms) ->
  exists vi t, In (k, vi) dep /\ dict_get tms k = Some t /\ (negb (subset vi [k]) || negb (mem k vi) || negb (term_is_trivial t)) = true.
Proof.
  unfold non_trivial_terms. intros I. apply in_flat_map in I. destruct I as [[ki vi] [Id I]]. cbn [fst snd] in I.
  destruct (dict_get tms ki) as [t|] eqn:G; [|destruct I]. destruct (_ || _) eqn:C; [|destruct I]. destruct I as [<-|[]].
  exists vi, t. tauto.
Qed.
Lemma non_trivial_not dep tms k vi t : In (k, vi) dep -> dict_get tms k = Some t -> ~ In k (non_trivial_terms dep tms) ->
  subset vi [k] = true /\ mem k vi = true /\ term_is_trivial t = true.
Proof.
  intros Id G N. destruct (negb (subset vi [k]) || negb (mem k vi) || negb (term_is_trivial t)) eqn:C.
  - exfalso. apply N. unfold non_trivial_terms. apply in_flat_map. exists (k, vi). split; [exact Id|]. cbn [fst snd]. rewrite G, C. left. reflexivity.
  - apply orb_false_iff in C. destruct C as [C C3]. apply orb_false_iff in C. destruct C as [C1 C2].
    apply negb_false_iff in C1, C2, C3. tauto.
Qed.
Lemma NoDup_non_trivial dep tms : NoDup (map fst dep) -> NoDup (non_trivial_terms dep tms).
Proof.
  unfold non_trivial_terms. induction dep as [|[k vi] t IH]; intros N; simpl; [constructor|]. inversion N as [|? ? Nk Nt]; subst.
  destruct (dict_get tms k); [|apply IH, Nt]. destruct (_ || _); [|apply IH, Nt]. simpl. constructor; [|apply IH, Nt].
  intros I. apply in_flat_map in I. destruct I as [[k2 v2] [I2 I3]]. cbn [fst snd] in I3.
  destruct (dict_get tms k2); [|destruct I3]. destruct (_ || _); [|destruct I3]. destruct I3 as [<-|[]]. apply Nk. apply in_map_iff. exists (k2, v2). tauto.
Qed.

(* the entry of the merged dict for a key the outer step uses *)
Lemma term_of_merged our_nt tms deps ts k :
  NoDup our_nt -> In k (map fst tms ++ map fst deps) ->
  term_of (merged_terms our_nt tms deps ts) k = if mem k our_nt then term_of tms k else term_of ts k.
Proof.
  intros N I. unfold term_of at 1. unfold merged_terms.
  rewrite (dict_get_filter_key (fun c => mem c (map fst tms ++ map fst deps))) by (apply mem_In, I).
  destruct (mem k our_nt) eqn:M.
  - apply mem_In in M. pose proof (dict_get_fold_set_in (fun c : string => c) (fun c => term_of tms c) our_nt ts k) as G.
    rewrite map_id in G. rewrite (G N M). reflexivity.
  - apply mem_false in M. rewrite (dict_get_fold_set_notin (fun c : string => c) (fun c => term_of tms c) our_nt ts k) by (rewrite map_id; exact M).
    reflexivity.
Qed.

Definition deps_describe (tms : terms) (deps : depmap) : Prop :=
  forall k t, In (k, t) tms -> incl (item_cols (k, t)) (deps_of deps k).

Lemma merged_terms_all (P : tterm -> Prop) nt (tms : terms) deps (ts : terms) :
  (forall kt, In kt ts -> P (snd kt)) -> (forall kt, In kt tms -> P (snd kt)) -> P TmPass ->
  forall kt, In kt (merged_terms nt tms deps ts) -> P (snd kt).
Proof.
  intros Hs Ho H0 kt I. apply filter_In in I. destruct I as [I _]. revert kt I.
  apply (values_fold_set (fun c : string => c) (fun c => term_of tms c) P); [exact Hs|]. intros c _. apply term_of_all; assumption.
Qed.

Lemma F2_tagged_map (R : list val -> list val -> Prop) (f : nat * list val -> list val) l : forall n,
  (forall i r, R r (f (i, r))) -> Forall2 R l (map f (tag_from n l)).
Proof. induction l as [|x t IH]; intros n H; simpl; constructor; [apply H|apply IH, H]. Qed.

Section Merge.
Variable fl : flavor.

(* The composition: the outer SELECT (terms tms, request K) over the inner SELECT (terms ts, columns su') of X = the merged
   SELECT over X.  Either side may carry window items: an item the outer step overwrites reads -- argument, PARTITION and ORDER
   columns alike, by deps_describe -- only columns that the empty contention set shows the inner step to pass through unchanged. *)
Lemma merge_compose_nonagg (ts tms : terms) (ds deps : depmap) su' K X :
  (forall kt, In kt ts -> is_agg_term (snd kt) = false) -> (forall kt, In kt tms -> is_agg_term (snd kt) = false) ->
  NoDup (map fst ds) -> NoDup (map fst deps) -> NoDup (map fst tms) -> NoDup (map fst ts) ->
  incl (map fst ts) (map fst ds) -> map fst tms = map fst deps -> deps_describe tms deps ->
  contention (non_trivial_terms deps tms) (needs deps (non_trivial_terms deps tms))
             (non_trivial_terms ds ts) (needs ds (non_trivial_terms ds ts)) = [] ->
  su' <> [] -> incl su' (map fst ts) ->
  K <> [] -> incl K (map fst tms) -> (forall k, In k K -> incl (item_cols (k, term_of tms k)) su') ->
  forall Y, sql_select fl true (Some ts) (Some su') SfxNone X = Some Y ->
  sql_select fl true (Some (merged_terms (non_trivial_terms deps tms) tms deps ts)) (Some K) SfxNone X
  = sql_select fl true (Some tms) (Some K) SfxNone Y.
Proof.
  intros Ats Atms Nds Ndeps Ntms Nts Its Ekeys Hdesc Hcont NEs Isu NEK IK Hloc Y EY.
  set (our_nt := non_trivial_terms deps tms) in *. set (sub_nt := non_trivial_terms ds ts) in *.
  assert (NoDup our_nt) as Nour by (apply NoDup_non_trivial, Ndeps).
  assert (forall x, In x sub_nt -> ~ In x (needs deps our_nt)) as C3.
  { intros x I1 I2. assert (In x (contention our_nt (needs deps our_nt) sub_nt (needs ds sub_nt))) as I.
    { unfold contention. apply in_app_iff. right. apply in_app_iff. right. apply In_set_inter. tauto. } rewrite Hcont in I. destruct I. }
  assert (forall k, In k K -> term_of (merged_terms our_nt tms deps ts) k = if mem k our_nt then term_of tms k else term_of ts k) as TM.
  { intros k Ik. apply term_of_merged; [exact Nour|]. apply in_app_iff. left. apply IK, Ik. }
  pose proof (eq_trans (eq_sym (rowwise_select fl true ts su' SfxNone X (rowwise_nonagg ts Ats) NEs)) EY) as EYY. injection EYY as <-. clear EY.
  refine (eq_trans (rowwise_select fl true _ K SfxNone X (rowwise_nonagg _ (merged_terms_all (fun t => is_agg_term t = false) our_nt tms deps ts Ats Atms eq_refl)) NEK) _).
  refine (eq_trans _ (eq_sym (rowwise_select fl true tms K SfxNone _ (rowwise_nonagg tms Atms) NEK))).
  cbn [sfx_rows].
  set (G := fun ir : nat * list val => map (fun c => win_item fl X (fst ir) (snd ir) (c, term_of ts c)) su').
  set (Yt := mktable su' (map G (tag_from 0 (rows X)))).
  f_equal. f_equal. cbn [rows cols]. change (rows Yt) with (map G (tag_from 0 (rows X))).
  rewrite tag_from_map_tag, map_map. apply map_ext_in. intros [i r] Iir. cbn [fst snd]. apply map_ext_in. intros k Ik.
  rewrite (TM k Ik).
  assert (forall i0 r0 c, In c su' -> get su' (G (i0, r0)) c = win_item fl X i0 r0 (c, term_of ts c)) as GY.
  { intros i0 r0 c Ic. exact (get_map_in (fun c0 => win_item fl X i0 r0 (c0, term_of ts c0)) su' c Ic). }
  (* a column trivial in the inner step is passed through unchanged *)
  assert (forall i0 r0 c, In c su' -> ~ In c sub_nt -> win_item fl X i0 r0 (c, term_of ts c) = get (cols X) r0 c) as Triv.
  { intros i0 r0 c Ic Nc. pose proof (Isu c Ic) as Ict. pose proof (Its c Ict) as Icd.
    apply in_map_iff in Icd. destruct Icd as [[c' vi] [Ec Id]]. cbn [fst] in Ec. subst c'.
    unfold term_of. destruct (dict_get ts c) as [t|] eqn:G0; [|reflexivity].
    destruct (non_trivial_not ds ts c vi t Id G0 Nc) as [_ [_ T]]. destruct t; try discriminate; reflexivity. }
  specialize (Hloc k Ik).
  destruct (mem k our_nt) eqn:M.
  - (* overwritten by the outer step *)
    apply mem_In in M.
    assert (forall x, In x (item_cols (k, term_of tms k)) -> ~ In x sub_nt) as NS.
    { intros x Hx I2. apply (C3 x I2). unfold needs. apply in_flat_map. exists k. split; [exact M|].
      unfold term_of in Hx. destruct (dict_get tms k) as [t|] eqn:G0.
      - apply dict_get_In in G0. apply (Hdesc k t G0), Hx.
      - exfalso. apply dict_get_None in G0. apply G0. apply IK, Ik. }
    assert (forall i0 r0 x, In x (item_cols (k, term_of tms k)) -> get (cols X) r0 x = get (cols Yt) (G (i0, r0)) x) as Agree.
    { intros i0 r0 x Hx. cbn [cols Yt]. rewrite GY by (apply Hloc, Hx). symmetry. apply Triv; [apply Hloc, Hx|apply NS, Hx]. }
    destruct (is_win_term (term_of tms k)) eqn:W.
    + destruct (term_of tms k) as [| |c|ex|ex|ex pt ok|lf c]; try discriminate W.
      unfold win_item. cbn [fst snd]. f_equal. apply sql_window_column_local. change (rows Yt) with (map G (tag_from 0 (rows X))).
      apply F2_tagged_map. intros i0 r0 x Hx. apply Agree. exact Hx.
    + rewrite !win_item_plain by exact W. apply eval_item_local. apply Agree.
  - (* not touched by the outer step: the inner step's term *)
    apply mem_false in M. pose proof (IK k Ik) as Ikt. rewrite Ekeys in Ikt. apply in_map_iff in Ikt. destruct Ikt as [[k' vi] [Ek Id]]. cbn [fst] in Ek. subst k'.
    destruct (dict_get tms k) as [t|] eqn:G0.
    2:{ exfalso. apply dict_get_None in G0. apply G0, IK, Ik. }
    destruct (non_trivial_not deps tms k vi t Id G0 M) as [_ [_ T]].
    assert (term_of tms k = t) as ET by (unfold term_of; rewrite G0; reflexivity). rewrite ET in *.
    assert (In k su') as Iks by (destruct t; try discriminate; apply Hloc; left; reflexivity).
    rewrite <- (GY i r k Iks). destruct t; try discriminate; reflexivity.
Qed.

(* the same when both steps hold scalar terms only (no window item on either side) *)
Lemma merge_compose (ts tms : terms) (ds deps : depmap) su' K X :
  (forall kt, In kt ts -> scalar_term (snd kt) = true) -> (forall kt, In kt tms -> scalar_term (snd kt) = true) ->
  NoDup (map fst ds) -> NoDup (map fst deps) -> NoDup (map fst tms) -> NoDup (map fst ts) ->
  incl (map fst ts) (map fst ds) -> map fst tms = map fst deps -> deps_describe tms deps ->
  contention (non_trivial_terms deps tms) (needs deps (non_trivial_terms deps tms))
             (non_trivial_terms ds ts) (needs ds (non_trivial_terms ds ts)) = [] ->
  su' <> [] -> incl su' (map fst ts) ->
  K <> [] -> incl K (map fst tms) -> (forall k, In k K -> incl (item_cols (k, term_of tms k)) su') ->
  forall Y, sql_select fl true (Some ts) (Some su') SfxNone X = Some Y ->
  sql_select fl true (Some (merged_terms (non_trivial_terms deps tms) tms deps ts)) (Some K) SfxNone X
  = sql_select fl true (Some tms) (Some K) SfxNone Y.
Proof.
  intros Sts Stms. apply merge_compose_nonagg; intros kt I; apply scalar_flags; [apply Sts|apply Stms]; exact I.
Qed.

End Merge.
