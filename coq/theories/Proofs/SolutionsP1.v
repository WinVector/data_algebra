(* C21, part 1: list, row and join lemmas shared by the helper proofs. *)
From Coq Require Import List QArith Qcanon String Lia DecimalString DecimalNat.
Import ListNotations.
From DA Require Import Base.PyRT Base.Val Model.Sem Model.Solutions Proofs.ListP Proofs.TabP.
Local Open Scope string_scope.
Local Open Scope list_scope.

Lemma nodupb_NoDup l : nodupb l = true -> NoDup l.
Proof. induction l as [|x t IH]; simpl; intros H; [constructor|]. apply andb_true_iff in H as [H1 H2].
  constructor; [|apply IH, H2]. apply negb_true_iff in H1. apply mem_false in H1. exact H1. Qed.
Lemma widthb_ok t : widthb t = true -> forall r, In r (rows t) -> List.length r = List.length (cols t).
Proof. intros H r I. apply Nat.eqb_eq. eapply forallb_forall in H; [exact H|exact I]. Qed.
Lemma negb_mem_notin (c : string) l : negb (mem c l) = true -> ~ In c l.
Proof. intros H. apply negb_true_iff in H. apply mem_false in H. exact H. Qed.
Lemma seqb_neq (a b : string) : negb (String.eqb a b) = true -> a <> b.
Proof. intros H E. apply negb_true_iff in H. apply String.eqb_neq in H. contradiction. Qed.

Lemma get_notin cs r c : ~ In c cs -> get cs r c = VNull.
Proof. exact (get_absent cs r c). Qed.
Lemma get_head c cs v r : get (c :: cs) (v :: r) c = v.
Proof. unfold get. simpl. destruct (eq_dec c c); [reflexivity|congruence]. Qed.
Lemma get_tail c x cs v r : c <> x -> get (x :: cs) (v :: r) c = get cs r c.
Proof. intros N. unfold get. simpl. destruct (eq_dec c x); [congruence|]. destruct (index_of c cs); reflexivity. Qed.
Lemma index_of_nth cs : NoDup cs -> forall i c, nth_error cs i = Some c -> index_of c cs = Some i.
Proof. induction 1 as [|x l N ND IH]; intros [|i] c E; simpl in *; try discriminate.
  - inversion E; subst. destruct (eq_dec c c); [reflexivity|congruence].
  - destruct (eq_dec c x) as [->|_]; [exfalso; apply N; eapply nth_error_In, E|]. rewrite (IH i c E). reflexivity. Qed.
Lemma map_get_ext cs r cs' r' l : (forall c, In c l -> get cs r c = get cs' r' c) -> map (get cs r) l = map (get cs' r') l.
Proof. intros H. apply map_ext_in. exact H. Qed.
Lemma get_app_nth ks ds r vs c i : NoDup (ks ++ ds) -> List.length r = List.length ks -> nth_error ds i = Some c ->
  get (ks ++ ds) (r ++ vs) c = nth i vs VNull.
Proof. intros ND L E. rewrite get_app_r; [|intros Ik; apply (NoDup_app_disj ks ds c ND Ik); eapply nth_error_In, E|exact L].
  unfold get. rewrite (index_of_nth ds (NoDup_app_r _ _ ND) i c E). reflexivity. Qed.
Lemma map_get_app_l cs ds r s : NoDup cs -> List.length r = List.length cs -> map (get (cs ++ ds) (r ++ s)) cs = r.
Proof. intros ND L. rewrite <- (get_map_self cs r ND L) at 2. apply map_ext_in. intros c I. apply get_app_l; assumption. Qed.
Lemma flat_map_single {A B} (f : A -> list B) k l : NoDup l -> In k l -> (forall x, In x l -> x <> k -> f x = []) -> flat_map f l = f k.
Proof. induction l as [|x t IH]; simpl; intros ND I H; [destruct I|]. inversion ND as [|? ? Nx NDt]; subst.
  destruct I as [->|I].
  - rewrite flat_map_nil, app_nil_r; [reflexivity|]. intros y Iy. apply H; [right; exact Iy|]. intros ->. contradiction.
  - rewrite (H x (or_introl eq_refl)) by (intros ->; contradiction). simpl. apply IH; auto. Qed.
Lemma filter_ltb_seq c n : (c <= n)%nat -> filter (fun i => Nat.ltb i c) (seq 0 n) = seq 0 c.
Proof. intros L. replace n with (c + (n - c))%nat by lia. rewrite seq_app, filter_app. simpl.
  rewrite filter_all, filter_none, app_nil_r; [reflexivity| |].
  - intros x I. apply in_seq in I. apply Nat.ltb_ge. lia.
  - intros x I. apply in_seq in I. apply Nat.ltb_lt. lia. Qed.

Lemma drop_mid_cols (cs : list string) k1 k2 : ~ In k1 cs -> k2 <> k1 ->
  filter (fun c => negb (mem c [k1])) ((cs ++ [k1]) ++ [k2]) = cs ++ [k2].
Proof. intros N1 D. rewrite !filter_app. cbn [filter].
  assert (mem k1 [k1] = true) as M1 by (apply mem_In; left; reflexivity).
  assert (mem k2 [k1] = false) as M2 by (apply mem_false; intros [E|[]]; congruence).
  rewrite M1, M2. cbn [negb app]. rewrite app_nil_r. f_equal. apply filter_all. intros a Ia.
  apply negb_true_iff, mem_false. intros [E|[]]. subst a. contradiction. Qed.
Lemma drop_mid_row cs k1 k2 r x y : NoDup cs -> ~ In k2 cs -> k2 <> k1 -> List.length r = List.length cs ->
  map (get ((cs ++ [k1]) ++ [k2]) (r ++ [x; y])) (cs ++ [k2]) = r ++ [y].
Proof. intros ND N2 D L. rewrite <- app_assoc, map_app. cbn [app map]. f_equal.
  - apply map_get_app_l; assumption.
  - f_equal. rewrite (get_app_r cs _ r _ k2 N2 L), (get_tail k2 k1) by exact D. apply get_head. Qed.
Lemma is_null_VNull v : is_null v = true -> v = VNull.
Proof. destruct v; simpl; congruence. Qed.

(* the shape of a left join result (Sem.sem_join, unfolded once) *)
Definition join_mk (ca cb out : list string) (ra rb : option (list val)) : list val :=
  map (fun c => let va := match ra with Some r => if mem c ca then get ca r c else VNull | None => VNull end in
                let vb := match rb with Some r => if mem c cb then get cb r c else VNull | None => VNull end in
                if is_null va then vb else va) out.
Lemma sem_join_left nm on_a on_b a b :
  sem_join nm on_a on_b JLeft a b =
  let ca := cols a in let cb := cols b in
  let out := ca ++ filter (fun c => negb (mem c ca)) cb in
  mktable out
    (flat_map (fun ra => flat_map (fun rb => if keys_match nm (key_of ca on_a ra) (key_of cb on_b rb) then [join_mk ca cb out (Some ra) (Some rb)] else []) (rows b)) (rows a)
     ++ flat_map (fun ra => if existsb (fun rb => keys_match nm (key_of ca on_a ra) (key_of cb on_b rb)) (rows b) then [] else [join_mk ca cb out (Some ra) None]) (rows a)
     ++ []).
Proof. reflexivity. Qed.

Lemma left_join_In nm on_a on_b a b row :
  In row (rows (sem_join nm on_a on_b JLeft a b)) <->
  exists ra orb, In ra (rows a)
    /\ match orb with
       | Some rb => In rb (rows b) /\ keys_match nm (key_of (cols a) on_a ra) (key_of (cols b) on_b rb) = true
       | None => forall rb, In rb (rows b) -> keys_match nm (key_of (cols a) on_a ra) (key_of (cols b) on_b rb) = false
       end
    /\ row = join_mk (cols a) (cols b) (cols a ++ filter (fun c => negb (mem c (cols a))) (cols b)) (Some ra) orb.
Proof. rewrite sem_join_left. cbn [rows]. rewrite app_nil_r. split.
  - intros I. apply in_app_or in I as [I|I]; apply in_flat_map in I as [ra [Ia I]].
    + apply in_flat_map in I as [rb [Ib I]]. destruct (keys_match _ _ _) eqn:M; [|destruct I]. destruct I as [<-|[]].
      exists ra, (Some rb). auto.
    + destruct (existsb _ _) eqn:E; [destruct I|]. destruct I as [<-|[]]. exists ra, None. split; [exact Ia|]. split; [|reflexivity].
      intros rb Ib. destruct (keys_match nm (key_of (cols a) on_a ra) (key_of (cols b) on_b rb)) eqn:M; [|reflexivity].
      rewrite <- E. symmetry. apply existsb_exists. exists rb. auto.
  - intros [ra [[rb|] [Ia [P ->]]]]; apply in_or_app; [left|right]; apply in_flat_map; exists ra; (split; [exact Ia|]).
    + destruct P as [Ib M]. apply in_flat_map. exists rb. split; [exact Ib|]. rewrite M. left. reflexivity.
    + rewrite existsb_false by exact P. left. reflexivity.
Qed.

Lemma Qred_int z : Qred (z # 1) = z # 1.
Proof. apply Qred_identity. simpl. apply Z.gcd_1_r. Qed.
Lemma vnat_eq n : vnat n = VNum (Z.of_nat n # 1).
Proof. unfold vnat, qn, inject_Z. rewrite Qred_int. reflexivity. Qed.
Lemma nat_of_val_vnat n : nat_of_val (vnat n) = Some n.
Proof. rewrite vnat_eq. unfold nat_of_val, num_of. rewrite Qred_int. simpl.
  destruct (Z.leb_spec 0 (Z.of_nat n)); [|lia]. rewrite Nat2Z.id. reflexivity. Qed.
(* a value that denotes the natural number c is a non-null number equal to c *)
Lemma nat_of_val_num v c : nat_of_val v = Some c -> exists q, num_of v = Some q /\ q == inject_Z (Z.of_nat c).
Proof. unfold nat_of_val. destruct (num_of v) as [q|]; [|discriminate]. intros H. exists q. split; [reflexivity|].
  destruct (Pos.eqb (Qden (Qred q)) 1) eqn:D; [|discriminate]. destruct (Z.leb 0 (Qnum (Qred q))) eqn:Z0; [|discriminate].
  simpl in H. inversion H as [E]. apply Pos.eqb_eq in D. apply Z.leb_le in Z0. rewrite Z2Nat.id by exact Z0.
  pose proof (Qred_correct q) as RC. destruct (Qred q) as [a b]. simpl in *. subst b. rewrite <- RC. reflexivity. Qed.
Lemma dec_of_nat_inj a b : dec_of_nat a = dec_of_nat b -> a = b.
Proof. unfold dec_of_nat. intros H. apply Unsigned.to_uint_inj.
  assert (Some (Nat.to_uint a) = Some (Nat.to_uint b)) as E by (rewrite <- !NilEmpty.usu, H; reflexivity).
  inversion E. reflexivity. Qed.
Lemma append_inj_l p a b : String.append p a = String.append p b -> a = b.
Proof. induction p as [|x p IH]; simpl; intros H; [exact H|]. inversion H. auto. Qed.
Lemma ltb_vnat fl i v c : nat_of_val v = Some c -> truth (compare_vals fl CLt (vnat i) v) = Nat.ltb i c.
Proof. intros H. destruct (nat_of_val_num v c H) as [q [Hq Eq]]. rewrite vnat_eq.
  assert (cmp_num CLt (Z.of_nat i # 1) q = Nat.ltb i c) as C.
  { unfold cmp_num. apply eq_true_iff_eq. rewrite andb_true_iff, negb_true_iff, Qle_bool_iff, Nat.ltb_lt.
    assert (Qeq_bool (Z.of_nat i # 1) q = false <-> ~ (Z.of_nat i # 1) == q) as NE
      by (split; [intros F E; apply Qeq_bool_iff in E; congruence | intros F; destruct (Qeq_bool (Z.of_nat i # 1) q) eqn:B; [apply Qeq_bool_iff in B; contradiction|reflexivity]]).
    rewrite NE, Eq. unfold Qle, Qeq, inject_Z. simpl. lia. }
  destruct v as [|[|]|z|q'|s]; simpl in Hq; try discriminate; unfold compare_vals, num_of; inversion Hq; subst; simpl; exact C. Qed.
