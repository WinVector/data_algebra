(* C19, part 3: the node-by-node run used by the correspondence driver (Model/StoreCases.v) is the executor `pexec`:
   same result location, same final store, same trace.  So what the case files compare IS the object of the theorems.
   Then concrete instances: an environment that meets env_ok, and a pipeline with a random function that is not repeatable. *)
From Coq Require Import List Bool String.
Import ListNotations.
From DA Require Import Model.Store Model.StoreCases.
Local Open Scope list_scope.

Lemma observe_run k srcs callers prev (m : M loc) s l o s' e :
  observe k srcs callers prev m s = Some ((l, o), s', e) -> m s = Some (l, s', e).
Proof. unfold observe. destruct (m s) as [[[l0 s0] e0]|]; [|discriminate]. destruct (get s0 l0); [|discriminate].
  intros H. inversion H; subst. reflexivity. Qed.

Lemma un_run env k (mo : M (loc * list onode)) (m : M loc) (step : loc -> M loc) :
  (forall s l o s' e, mo s = Some ((l, o), s', e) -> m s = Some (l, s', e)) ->
  forall s l o s' e, un env k mo step s = Some ((l, o), s', e) -> bind m step s = Some (l, s', e).
Proof. intros IH s l o s' e. unfold un, bind. destruct (mo s) as [[[[l1 o1] s1] e1]|] eqn:R1; [|discriminate].
  rewrite (IH s l1 o1 s1 e1 R1). simpl.
  destruct (observe k [l1] (map snd env) o1 (step l1) s1) as [[[[l2 o2] s2] e2]|] eqn:R2; [|discriminate].
  rewrite (observe_run _ _ _ _ _ _ _ _ _ _ R2). intros H. inversion H; subst. reflexivity. Qed.

Lemma bin_run env k (ma mb : M (loc * list onode)) (pa pb : M loc) (step : loc -> loc -> M loc) :
  (forall s l o s' e, ma s = Some ((l, o), s', e) -> pa s = Some (l, s', e)) ->
  (forall s l o s' e, mb s = Some ((l, o), s', e) -> pb s = Some (l, s', e)) ->
  forall s l o s' e, bin env k ma mb step s = Some ((l, o), s', e) ->
    bind pa (fun la => bind pb (fun lb => step la lb)) s = Some (l, s', e).
Proof. intros IHa IHb s l o s' e. unfold bin, bind. destruct (ma s) as [[[[l1 o1] s1] e1]|] eqn:R1; [|discriminate].
  rewrite (IHa s l1 o1 s1 e1 R1). simpl.
  destruct (mb s1) as [[[[l2 o2] s2] e2]|] eqn:R2; [|discriminate]. rewrite (IHb s1 l2 o2 s2 e2 R2). simpl.
  destruct (observe k [l1; l2] (map snd env) (o1 ++ o2) (step l1 l2) s2) as [[[[l3 o3] s3] e3]|] eqn:R3; [|discriminate].
  rewrite (observe_run _ _ _ _ _ _ _ _ _ _ R3). intros H. inversion H; subst. reflexivity. Qed.

Lemma pexec_obs_is_pexec env p : forall s l o s' e, pexec_obs env p s = Some ((l, o), s', e) -> pexec env p s = Some (l, s', e).
Proof. induction p; simpl;
  try (apply un_run; exact IHp); try (apply bin_run; [exact IHp1|exact IHp2]).
  intros s l o s' e. apply observe_run. Qed.

(* ------------------------------------------------------------------ concrete instances *)
From DA Require Import Proofs.StoreP1 Proofs.StoreP2.
Local Open Scope string_scope.
Local Open Scope list_scope.

Definition ex_tables : list (string * frame) :=
  [("d1", mkframe IxOther ["a"; "b"; "g"; "extra"] 4 (PIn 1)); ("d2", mkframe IxRange ["g"; "b"; "z"] 3 (PIn 2))].
Definition ex_pipeline : op :=
  OrderRows
    (ConcatRows
       (NaturalJoin
          (Extend (Extend (Table "d1" ["a"; "b"; "g"]) "a + 1" ["x"] None false) "a.cumsum()" ["y"; "w"]
                  (Some (mkw ["data_algebra_extend_temp_col_0"] ["g"; "a"] true)) false)
          (Project (SelectRows (Table "d2" ["g"; "b"; "z"]) "z > 1" 2) "z.sum()" ["g"] ["b"] [] 2)
          ["g"] ["g"] "LEFT" true 4)
       (SelectRows (NaturalJoin
          (Extend (Extend (Table "d1" ["a"; "b"; "g"]) "a + 1" ["x"] None false) "a.cumsum()" ["y"; "w"]
                  (Some (mkw ["data_algebra_extend_temp_col_0"] ["g"; "a"] true)) false)
          (Project (SelectRows (Table "d2" ["g"; "b"; "z"]) "z > 1" 2) "z.sum()" ["g"] ["b"] [] 2)
          ["g"] ["g"] "LEFT" true 4) "a > 0" 0)
       (Some "src"))
    ["a"] [] (Some 2).
Definition ex_random : op := Extend (Table "d1" ["a"]) "_uniform()" ["u"] None true.

Lemma ex_env_ok : env_ok (init_store ex_tables) (init_env ex_tables).
Proof. intros n l H. simpl in H. destruct H as [H|[H|[]]]; inversion H; subst; simpl; auto. Qed.

Lemma random_not_repeatable :
  exists s p env s1 l1 e1 s2 l2 e2,
    (forall n l, In (n, l) env -> In l (dom s)) /\ pexec_st s p env = Some (s1, l1, e1) /\ pexec_st s1 p env = Some (s2, l2, e2) /\
    get s1 l1 <> get s2 l2.
Proof. exists (init_store ex_tables), ex_random, (init_env ex_tables). do 6 eexists.
  split; [exact ex_env_ok|]. split; [vm_compute; reflexivity|]. split; [vm_compute; reflexivity|]. vm_compute. discriminate. Qed.
