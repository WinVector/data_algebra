(* SQLGEN: regression witnesses -- the generator as it was BEFORE two repairs, evaluated by the SQL semantics. *)
From Coq Require Import List Bool QArith String.
Import ListNotations.
From DA Require Import Base.PyRT Base.Val Model.Sem Model.ColumnsUsed Model.SqlGen Model.SqlSem.
Local Open Scope string_scope.
Local Open Scope list_scope.

Definition rx_t := OTable "t" ["a"; "b"].
Definition rx_env : env := [("t", mktable ["a"; "b"] [[VNum 1; VNum 2]; [VNum 3; VNull]; [VNum 5; VNum 6]])].
Definition one : expr := EConst (VNum 1).

(* c520ee9.  t.project({s: a.sum()}).extend({c: 1}).select_columns([c]) : every output of the un-grouped project is pruned.
   Before the repair project_to_near_sql wrote a step without terms (SELECT * FROM t): no aggregation, one row per row of t. *)
Definition rx_proj_ops := [("s", EOp "sum" [ECol "a"])].
Definition rx_p1 := OSelectCols (OExtend (OProject rx_t rx_proj_ops []) [("c", one)] false no_window) ["c"].
Definition rx_q1_pre : tnear :=
  TUnary (mkvn "extend" 1) (Some [("c", TmExpr one)])
         (project_step_pre_c520ee9 (TTable "t" None) (OProject rx_t rx_proj_ops []) rx_proj_ops [] [] 0)
         (mk_tci (Some []) false None) SfxNone true (Some [("c", [])]).

Lemma c520ee9_regression :
  option_map (fun t => List.length (rows t)) (sem_gen fl_sqlite rx_p1 rx_env) = Some 1%nat /\
  option_map (fun t => List.length (rows t)) (nsem fl_sqlite rx_q1_pre rx_env) = Some 3%nat /\
  match to_near d_sqlite rx_p1 None 0 with Ok (q, _) => nsem fl_sqlite q rx_env = sem_gen fl_sqlite rx_p1 rx_env | _ => False end.
Proof. split; [vm_compute; reflexivity|]. split; vm_compute; reflexivity. Qed.

(* 6f11e66.  A final t.order_rows([a]) over a stored table that has a column the description does not declare.
   Before the repair order_to_near_sql wrote no terms for a final order_rows (SELECT * ... ORDER BY): the undeclared column
   came back with the result. *)
Definition rx_p2 := OOrder rx_t ["a"] ["a"] None.
Definition rx_env_wide : env := [("t", mktable ["a"; "b"; "zz"] [[VNum 1; VNum 2; VStr "x"]; [VNum 3; VNull; VStr "y"]])].
Definition rx_q2_pre : tnear := order_step_pre_6f11e66 (TTable "t" (Some ["a"; "b"])) ["a"; "b"] true ["a"] ["a"] None 0.

Lemma f6f11e66_regression :
  option_map cols (nsem fl_sqlite rx_q2_pre rx_env_wide) = Some ["a"; "b"; "zz"] /\
  match to_near d_sqlite rx_p2 None 0 with
  | Ok (q, _) => option_map cols (nsem fl_sqlite q rx_env_wide) = Some (column_names rx_p2) /\
                 nsem fl_sqlite q rx_env = sem_gen fl_sqlite rx_p2 rx_env
  | _ => False end.
Proof. split; [vm_compute; reflexivity|]. vm_compute. split; reflexivity. Qed.
