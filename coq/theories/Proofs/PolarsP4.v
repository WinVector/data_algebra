(* C03, part 4: order_rows (null placement and tie-breaking cannot matter when the keys are non-null and pairwise
   different), and the aggregates the Polars executor builds (sum / mean / min / max / count / size) as the Pandas-flavoured
   aggregate over the same values; frames extended by literal temporary columns. *)
From Coq Require Import List Bool QArith Qreduction String Permutation Sorted.
Import ListNotations.
From DA Require Import Base.PyRT Base.PyStr Base.Val Model.Sem Model.PolarsExec Proofs.SemBasicP Proofs.SemOrderP
  Proofs.PolarsP1 Proofs.PolarsP2 Proofs.PolarsP3 Proofs.ListP Proofs.TabP.
Local Open Scope string_scope.
Local Open Scope list_scope.

(* ------------------------------------------------------------------ sorting *)

Lemma row_le_nonnull fl1 fl2 cs keys r1 r2 :
  (forall c, In c (map fst keys) -> is_null (get cs r1 c) = false /\ is_null (get cs r2 c) = false) ->
  row_le fl1 cs keys r1 r2 = row_le fl2 cs keys r1 r2.
Proof.
  induction keys as [|[c d] t IH]; simpl; intros H; [reflexivity|].
  rewrite IH by (intros c0 I0; apply H; right; exact I0).
  destruct (H c (or_introl eq_refl)) as [A B]. rewrite (v_le_dir_nonnull (nulls_first fl1 d) (nulls_first fl2 d) d _ _ A B). reflexivity.
Qed.

Lemma row_le_both_eqv fl cs ks rev r1 r2 :
  row_le fl cs (map (fun c => (c, mem c rev)) ks) r1 r2 = true -> row_le fl cs (map (fun c => (c, mem c rev)) ks) r2 r1 = true ->
  keys_eqv (key_of cs ks r1) (key_of cs ks r2) = true.
Proof.
  induction ks as [|c t IH]; simpl; intros H1 H2; [reflexivity|].
  rewrite (SemOrderP.v_eqv_sym (get cs r2 c) (get cs r1 c)) in H2.
  destruct (v_eqv (get cs r1 c) (get cs r2 c)) eqn:E; simpl.
  - apply IH; assumption.
  - exfalso. eapply SemOrderP.v_le_dir_antisym; eassumption.
Qed.

Lemma keys_nonnull_spec cs ks rs : keys_nonnull cs ks rs = true ->
  forall r c, In r rs -> In c ks -> is_null (get cs r c) = false.
Proof.
  unfold keys_nonnull. rewrite forallb_forall. intros H r c Ir Ic. specialize (H r Ir). apply negb_true_iff in H.
  destruct (is_null (get cs r c)) eqn:E; [|reflexivity].
  assert (existsb is_null (key_of cs ks r) = true); [|congruence].
  apply existsb_exists. exists (get cs r c). split; [|exact E]. unfold key_of. apply in_map. exact Ic.
Qed.

Lemma keys_distinct_spec cs ks rs : keys_distinct cs ks rs = true ->
  forall a b, In a rs -> In b rs -> keys_eqv (key_of cs ks a) (key_of cs ks b) = true -> a = b.
Proof.
  induction rs as [|r t IH]; simpl; intros H a b Ia Ib E; [destruct Ia|].
  apply andb_true_iff in H. destruct H as [H1 H2]. apply negb_true_iff in H1.
  assert (forall x, In x t -> keys_eqv (key_of cs ks r) (key_of cs ks x) = false) as NX.
  { intros x Ix. destruct (keys_eqv (key_of cs ks r) (key_of cs ks x)) eqn:Ex; [|reflexivity].
    assert (existsb (fun r2 => keys_eqv (key_of cs ks r) (key_of cs ks r2)) t = true); [|congruence].
    apply existsb_exists. exists x. auto. }
  destruct Ia as [<-|Ia], Ib as [<-|Ib].
  - reflexivity.
  - rewrite (NX b Ib) in E. discriminate.
  - rewrite SemBasicP.keys_eqv_sym, (NX a Ia) in E. discriminate.
  - apply IH; assumption.
Qed.

Lemma forallb_perm {A} (f : A -> bool) l l' : Permutation l l' -> forallb f l = forallb f l'.
Proof.
  intros P. apply eq_true_iff_eq. rewrite !forallb_forall. split; intros H x I; apply H.
  - eapply Permutation_in; [apply Permutation_sym|]; eassumption.
  - eapply Permutation_in; eassumption.
Qed.

Lemma order_step_perm cs rev lim t t' t2 :
  cols t = cols t' -> Permutation (rows t) (rows t') ->
  (lim <> None -> keys_nonnull (cols t') cs (rows t') = true /\ keys_distinct (cols t') cs (rows t') = true) ->
  pl_order_step cs rev lim t = Ok t2 ->
  cols t2 = cols (sem_order fl_pandas cs rev lim t') /\ Permutation (rows t2) (rows (sem_order fl_pandas cs rev lim t')).
Proof.
  intros C P G H. unfold pl_order_step in H. inversion H; subst; clear H.
  set (keys := map (fun c => (c, mem c rev)) cs).
  destruct lim as [n|]; cbn [cols rows sem_order pl_sort]; fold keys.
  - split; [exact C|].
    destruct (G ltac:(discriminate)) as [Gn Gd].
    assert (stable_sort (row_le fl_plsort (cols t) keys) (rows t) = stable_sort (row_le fl_pandas (cols t') keys) (rows t')) as E.
    { rewrite C.
      rewrite (stable_sort_ext_in (row_le fl_plsort (cols t') keys) (row_le fl_pandas (cols t') keys)).
      - apply stable_sort_perm_invariant; [intros; apply row_le_total|intros; eapply row_le_trans; eassumption|exact P|].
        intros a b Ia Ib L1 L2. apply (keys_distinct_spec _ _ _ Gd).
        + eapply Permutation_in; eassumption.
        + eapply Permutation_in; eassumption.
        + eapply row_le_both_eqv; eassumption.
      - intros a b Ia Ib. apply row_le_nonnull. intros c Ic. unfold keys in Ic. rewrite map_map in Ic. cbn [fst] in Ic. rewrite map_id in Ic.
        split; apply (keys_nonnull_spec _ _ _ Gn); try assumption; eapply Permutation_in; eassumption. }
    rewrite E. apply Permutation_refl.
  - split; [exact C|].
    eapply perm_trans; [apply SemOrderP.stable_sort_perm|]. eapply perm_trans; [exact P|]. apply Permutation_sym, SemOrderP.stable_sort_perm.
Qed.

(* ------------------------------------------------------------------ counting with sums *)
Lemma qsum_ones {A} (l : list A) : qsum (nums (map (fun _ => qn (inject_Z 1)) l)) == inject_Z (Z.of_nat (List.length l)).
Proof.
  induction l as [|x t IH]; [reflexivity|].
  cbn [map nums flat_map num_of qn app]. change (flat_map (fun v => match num_of v with Some q => [q] | None => [] end) (map (fun _ => qn (inject_Z 1)) t)) with (nums (map (fun _ : A => qn (inject_Z 1)) t)).
  rewrite qsum_cons, IH. cbn [List.length]. rewrite Nat2Z.inj_succ. unfold Z.succ. rewrite inject_Z_plus. rewrite Qred_correct. ring.
Qed.

Definition count_cell (v : val) : val := pl_when (or3 (VBool (is_null v)) (pl_nan_like v)) (qn (inject_Z 0)) (qn (inject_Z 1)).
Lemma count_cell_val v : count_cell v = if is_null v then qn (inject_Z 0) else qn (inject_Z 1).
Proof. destruct v; reflexivity. Qed.

Lemma qsum_count (l : list val) :
  qsum (nums (map count_cell l)) == inject_Z (Z.of_nat (List.length (filter (fun v => negb (is_null v)) l))).
Proof.
  induction l as [|x t IH]; [reflexivity|].
  cbn [map filter]. rewrite count_cell_val.
  destruct (is_null x); cbn [negb nums flat_map num_of qn app];
    change (flat_map (fun v => match num_of v with Some q => [q] | None => [] end) (map count_cell t)) with (nums (map count_cell t));
    rewrite qsum_cons, IH.
  - rewrite Qred_correct. unfold inject_Z at 1. ring.
  - cbn [List.length]. rewrite Nat2Z.inj_succ. unfold Z.succ. rewrite inject_Z_plus. rewrite Qred_correct. ring.
Qed.

Lemma size_value {A} (grp : list A) :
  qn (qsum (nums (map (fun _ => qn (inject_Z 1)) grp))) = agg_fn fl_pandas "size" (map (fun _ => VBool true) grp).
Proof.
  cbn [agg_fn]. rewrite map_length. destruct (map (fun _ : A => VBool true) grp) eqn:E.
  - destruct grp; [reflexivity|discriminate].
  - apply qn_ext. apply qsum_ones.
Qed.
Lemma size_value_any {A} (grp : list A) (f : A -> val) : agg_fn fl_pandas "size" (map f grp) = agg_fn fl_pandas "size" (map (fun _ => VBool true) grp).
Proof. cbn [agg_fn]. rewrite !map_length. destruct grp; reflexivity. Qed.
Lemma count_value (vs : list val) : qn (qsum (nums (map count_cell vs))) = agg_fn fl_pandas "count" vs.
Proof.
  cbn [agg_fn]. destruct vs as [|v t] eqn:E; [reflexivity|]. rewrite <- E. apply qn_ext. apply qsum_count.
Qed.

(* ------------------------------------------------------------------ the aggregate expressions *)
(* the argument of a vocabulary aggregate, as Model/Sem.v reads it *)
Definition argval (e : expr) (cs : list string) (r : list val) : val :=
  match e with EOp _ [a] => eval_expr fl_pandas cs r a | _ => VBool true end.
Definition agg_name (e : expr) : string := match e with EOp op _ => op | _ => "" end.

Lemma agg_vocab_shape e : agg_vocab e = true ->
  (exists op, In op ["size"; "_size"] /\ e = EOp op []) \/
  (exists op c, In op ["sum"; "mean"; "min"; "max"; "count"; "size"] /\ e = EOp op [ECol c]).
Proof.
  destruct e as [c|v|op [|a [|b rest]]]; cbn [agg_vocab]; try discriminate; intros V.
  - left. exists op. split; [apply mem_In, V|reflexivity].
  - apply andb_true_iff in V. destruct V as [V S]. destruct a as [c| |]; try discriminate.
    right. exists op, c. split; [apply mem_In, V|reflexivity].
Qed.
(* V : agg_vocab e = true.  One goal per vocabulary aggregate, with e replaced by it. *)
Ltac agg_cases V :=
  destruct (agg_vocab_shape _ V) as [[?op [?I ->]]|[?op [?c [?I ->]]]];
  match goal with I : In _ _ |- _ => cbn [In] in I; repeat (destruct I as [<-|I]); try (exfalso; exact I) end.

Lemma agg_value_unfold e cs grp : agg_vocab e = true ->
  agg_value fl_pandas cs grp e = agg_fn fl_pandas (agg_name e) (map (argval e cs) grp).
Proof. intros V. destruct (agg_vocab_shape _ V) as [[op [_ ->]]|[op [c [_ ->]]]]; reflexivity. Qed.

Lemma plx_agg_col cs grp pos k c : plx_at cs grp pos (PAgg k (PCol c)) = pl_agg k (map (fun r => get cs r c) grp).
Proof. cbn [plx_at]. rewrite (map_nth_seq (fun r => get cs r c) grp). reflexivity. Qed.

(* a sum over the column of ones counts the rows *)
Lemma sum_ones_size cs one (grp : list (list val)) pos (f : list val -> val) :
  (forall r, In r grp -> get cs r one = qn (inject_Z 1)) ->
  plx_at cs grp pos (PAgg ASum (PCol one)) = agg_fn fl_pandas "size" (map f grp).
Proof.
  intros O. rewrite plx_agg_col, (map_ext_in _ (fun _ => qn (inject_Z 1)) _ O), (size_value_any grp f). apply size_value.
Qed.

(* the Polars expression of a vocabulary aggregate evaluates, over the rows of a group, to the Pandas-flavoured aggregate *)
Lemma agg_plx_value one e : agg_vocab e = true ->
  exists x, (forall ext, tr_expr one ext e = Ok x) /\
    forall cs grp pos, (needs_one e = true -> forall r, In r grp -> get cs r one = qn (inject_Z 1)) ->
      plx_at cs grp pos x = agg_fn fl_pandas (agg_name e) (map (argval e cs) grp).
Proof.
  intros V. agg_cases V.
  all: eexists; (split; [intros ext; destruct ext; reflexivity|]); intros cs grp pos O.
  (* size() _size() *)
  1-2: apply (sum_ones_size cs one grp pos (fun _ => VBool true)), O; reflexivity.
  (* sum mean min max of a column *)
  1-4: rewrite plx_agg_col; change (argval _ cs) with (fun r : list val => get cs r c); cbn [agg_name pl_agg agg_fn].
  1: destruct (nums _); reflexivity.
  1-3: reflexivity.
  (* count: a sum of zeros and ones *)
  - change (argval _ cs) with (fun r : list val => get cs r c). cbn [agg_name]. rewrite <- count_value, map_map.
    unfold count_expr. cbn [plx_at pl_agg lit_int]. do 3 f_equal. apply (map_nth_seq (fun r => count_cell (get cs r c)) grp).
  (* size of a column *)
  - apply (sum_ones_size cs one grp pos), O; reflexivity.
Qed.

(* vocabulary aggregates are never "promoted", and ask for no column of zeros *)
Lemma agg_vocab_promote prefix n names e : agg_vocab e = true -> promote prefix n names e = None.
Proof. intros V. destruct (agg_vocab_shape _ V) as [[op [_ ->]]|[op [c [_ ->]]]]; reflexivity. Qed.
Lemma agg_vocab_zero e : agg_vocab e = true -> needs_zero e = false.
Proof. intros V. agg_cases V; reflexivity. Qed.
Lemma agg_vocab_cols e c : agg_vocab e = true -> In c (expr_cols e) -> argval e = (fun cs r => get cs r c) /\ e = EOp (agg_name e) [ECol c].
Proof.
  intros V I. destruct (agg_vocab_shape _ V) as [[op [_ ->]]|[op [c0 [_ ->]]]]; [destruct I|].
  cbn in I. destruct I as [<-|[]]. split; reflexivity.
Qed.

(* ------------------------------------------------------------------ frames extended by literal temporary columns *)
Definition lit_temps (temps : list (string * colx)) : Prop := Forall (fun kx => exists v, snd kx = CPlain (PLit v)) temps.
Definition temps_row (t : table) (temps : list (string * colx)) (r : list val) : list val := wc_row t temps (0%nat, r).

Lemma wc_row_lits t temps i r : lit_temps temps -> wc_row t temps (i, r) = temps_row t temps r.
Proof.
  intros LT. unfold temps_row, wc_row. cbn [fst snd]. generalize (cols t). revert r.
  induction temps as [|kx tl IH]; intros r ccs; [reflexivity|].
  inversion LT as [|? ? [v Hv] LT']; subst. cbn [fold_left]. rewrite Hv. cbn [col_at plx_at]. apply IH. exact LT'.
Qed.

Lemma rows_with_lit_temps t temps : lit_temps temps -> rows (pl_with_columns t temps) = map (temps_row t temps) (rows t).
Proof. intros LT. rewrite rows_with_columns. apply map_tag_from_rowwise. intros i r _. apply wc_row_lits. exact LT. Qed.

Lemma temps_row_get t temps r c : lit_temps temps -> List.length r = List.length (cols t) ->
  get (ext_cols (cols t) (map fst temps)) (temps_row t temps r) c =
  match last_for c temps with Some kx => match snd kx with CPlain (PLit v) => v | _ => VNull end | None => get (cols t) r c end.
Proof.
  intros LT L. unfold temps_row. rewrite wc_row_get by exact L. destruct (last_for c temps) as [kx|] eqn:E; [|reflexivity].
  destruct (last_for_Some _ _ _ E) as [_ I]. unfold lit_temps in LT. rewrite Forall_forall in LT. destruct (LT kx I) as [v Hv].
  rewrite Hv. reflexivity.
Qed.

Lemma temps_row_len t temps r : List.length r = List.length (cols t) ->
  List.length (temps_row t temps r) = List.length (ext_cols (cols t) (map fst temps)).
Proof. intros L. apply wc_row_len. exact L. Qed.

Lemma temps_row_get_user t temps r c : lit_temps temps -> List.length r = List.length (cols t) ->
  ~ In c (map fst temps) ->
  get (ext_cols (cols t) (map fst temps)) (temps_row t temps r) c = get (cols t) r c.
Proof.
  intros LT L Nc. rewrite temps_row_get by assumption. rewrite last_for_None; [reflexivity|exact Nc].
Qed.
