(* Facts about lists that Coq's List and Permutation do not have: extensionality on the members of a list,
   filter / flat_map / combine / find algebra, NoDup of an append or an image, Permutation under filter and flat_map. *)
From Coq Require Import List Bool Permutation.
Import ListNotations.

Lemma flat_map_ext_in {A B} (f g : A -> list B) l : (forall x, In x l -> f x = g x) -> flat_map f l = flat_map g l.
Proof. intros E. rewrite !flat_map_concat_map. f_equal. apply map_ext_in, E. Qed.

Lemma existsb_ext_in {A} (f g : A -> bool) l : (forall x, In x l -> f x = g x) -> existsb f l = existsb g l.
Proof.
  induction l as [|x t IH]; intros E; simpl; [reflexivity|].
  rewrite (E x (or_introl eq_refl)), IH; [reflexivity|]. intros y I. apply E. right. exact I.
Qed.

Lemma forallb_ext_in {A} (f g : A -> bool) l : (forall x, In x l -> f x = g x) -> forallb f l = forallb g l.
Proof.
  induction l as [|x t IH]; intros E; simpl; [reflexivity|].
  rewrite (E x (or_introl eq_refl)), IH; [reflexivity|]. intros y I. apply E. right. exact I.
Qed.

Lemma fold_left_ext_in {A B} (f g : A -> B -> A) l : (forall a x, In x l -> f a x = g a x) -> forall a, fold_left f l a = fold_left g l a.
Proof.
  induction l as [|x t IH]; intros E a; simpl; [reflexivity|].
  rewrite (E a x (or_introl eq_refl)). apply IH. intros a' y I. apply E. right. exact I.
Qed.

Lemma filter_all {A} (f : A -> bool) l : (forall x, In x l -> f x = true) -> filter f l = l.
Proof.
  induction l as [|x t IH]; intros H; simpl; [reflexivity|].
  rewrite (H x (or_introl eq_refl)), IH; [reflexivity|]. intros y I. apply H. right. exact I.
Qed.

Lemma filter_none {A} (f : A -> bool) l : (forall x, In x l -> f x = false) -> filter f l = [].
Proof.
  induction l as [|x t IH]; intros H; simpl; [reflexivity|].
  rewrite (H x (or_introl eq_refl)). apply IH. intros y I. apply H. right. exact I.
Qed.

Lemma existsb_false {A} (f : A -> bool) l : (forall x, In x l -> f x = false) -> existsb f l = false.
Proof.
  intros H. apply not_true_iff_false. intros E. apply existsb_exists in E. destruct E as [x [I E]].
  rewrite (H x I) in E. discriminate.
Qed.

Lemma filter_filter {A} (p q : A -> bool) l : filter p (filter q l) = filter (fun x => q x && p x) l.
Proof.
  induction l as [|x t IH]; simpl; [reflexivity|].
  destruct (q x); simpl; [destruct (p x); rewrite IH; reflexivity|exact IH].
Qed.

Lemma filter_map_comm {A B} (p : B -> bool) (g : A -> B) l : filter p (map g l) = map g (filter (fun x => p (g x)) l).
Proof. induction l as [|x t IH]; simpl; [reflexivity|]. destruct (p (g x)); simpl; rewrite IH; reflexivity. Qed.

Lemma find_app {A} (f : A -> bool) l1 l2 : find f (l1 ++ l2) = match find f l1 with Some x => Some x | None => find f l2 end.
Proof. induction l1 as [|x t IH]; simpl; [reflexivity|]. destruct (f x); [reflexivity|exact IH]. Qed.

Lemma map_flat_map {A B C} (g : B -> C) (f : A -> list B) l : map g (flat_map f l) = flat_map (fun x => map g (f x)) l.
Proof. induction l as [|x t IH]; simpl; [reflexivity|]. rewrite map_app, IH. reflexivity. Qed.

Lemma flat_map_map {A B C} (f : B -> list C) (g : A -> B) l : flat_map f (map g l) = flat_map (fun x => f (g x)) l.
Proof. induction l as [|x t IH]; simpl; [reflexivity|]. rewrite IH. reflexivity. Qed.

Lemma filter_flat_map {A B} (p : B -> bool) (f : A -> list B) l : filter p (flat_map f l) = flat_map (fun x => filter p (f x)) l.
Proof. induction l as [|x t IH]; simpl; [reflexivity|]. rewrite filter_app, IH. reflexivity. Qed.

Lemma flat_map_flat_map {A B C} (g : B -> list C) (f : A -> list B) l : flat_map g (flat_map f l) = flat_map (fun x => flat_map g (f x)) l.
Proof. induction l as [|x t IH]; simpl; [reflexivity|]. rewrite flat_map_app, IH. reflexivity. Qed.

Lemma flat_map_singleton {A B} (f : A -> B) l : flat_map (fun x => [f x]) l = map f l.
Proof. induction l as [|x t IH]; simpl; [reflexivity|]. rewrite IH. reflexivity. Qed.

Lemma flat_map_if {A B} (p : A -> bool) (g : A -> B) l : flat_map (fun x => if p x then [g x] else []) l = map g (filter p l).
Proof. induction l as [|x t IH]; simpl; [reflexivity|]. destruct (p x); simpl; rewrite IH; reflexivity. Qed.

Lemma flat_map_nil {A B} (f : A -> list B) l : (forall x, In x l -> f x = []) -> flat_map f l = [].
Proof.
  induction l as [|x t IH]; intros H; simpl; [reflexivity|].
  rewrite (H x (or_introl eq_refl)). apply IH. intros y I. apply H. right. exact I.
Qed.

Lemma map_fst_combine {A B} (a : list A) (b : list B) : length a = length b -> map fst (combine a b) = a.
Proof.
  revert b. induction a as [|x t IH]; intros [|y u] L; try discriminate; [reflexivity|].
  simpl. f_equal. apply IH. injection L as L. exact L.
Qed.

Lemma map_snd_combine {A B} (a : list A) (b : list B) : length a = length b -> map snd (combine a b) = b.
Proof.
  revert b. induction a as [|x t IH]; intros [|y u] L; try discriminate; [reflexivity|].
  simpl. f_equal. apply IH. injection L as L. exact L.
Qed.

Lemma combine_app {A B} (l1 l2 : list A) (m1 m2 : list B) :
  length l1 = length m1 -> combine (l1 ++ l2) (m1 ++ m2) = combine l1 m1 ++ combine l2 m2.
Proof.
  revert m1. induction l1 as [|x t IH]; intros [|y u] L; try discriminate; [reflexivity|].
  simpl. f_equal. apply IH. injection L as L. exact L.
Qed.

Lemma map_nth_seq {A B} (g : A -> B) (l : list A) d : map (fun i => g (nth i l d)) (seq 0 (length l)) = map g l.
Proof. induction l as [|a t IH]; simpl; [reflexivity|]. f_equal. rewrite <- seq_shift, map_map. exact IH. Qed.

Lemma NoDup_app_iff {A} (a b : list A) : NoDup (a ++ b) <-> NoDup a /\ NoDup b /\ forall x, In x a -> ~ In x b.
Proof.
  induction a as [|y a IH]; simpl.
  - split; [intros N; repeat split; [constructor|exact N|intros x []]|intros (_ & N & _); exact N].
  - rewrite !NoDup_cons_iff, IH, in_app_iff. split.
    + intros (Hy & Na & Nb & D). repeat split; try tauto. intros x [<-|I]; [tauto|apply D, I].
    + intros ((Hy & Na) & Nb & D). repeat split; try tauto.
      * intros [I|I]; [tauto|exact (D y (or_introl eq_refl) I)].
      * intros x I. apply D. right; exact I.
Qed.

Lemma NoDup_app_l {A} (a b : list A) : NoDup (a ++ b) -> NoDup a.
Proof. intros N. apply NoDup_app_iff in N. tauto. Qed.

Lemma NoDup_app_r {A} (a b : list A) : NoDup (a ++ b) -> NoDup b.
Proof. intros N. apply NoDup_app_iff in N. tauto. Qed.

Lemma NoDup_app_disj {A} (a b : list A) x : NoDup (a ++ b) -> In x a -> ~ In x b.
Proof. intros N. apply NoDup_app_iff in N. apply N. Qed.

Lemma NoDup_map_inj {A B} (f : A -> B) l x y : NoDup (map f l) -> In x l -> In y l -> f x = f y -> x = y.
Proof.
  induction l as [|a t IH]; simpl; intros N Ix Iy E; [contradiction|]. inversion N as [|? ? Na Nt]; subst.
  destruct Ix as [<-|Ix], Iy as [<-|Iy]; try reflexivity.
  - exfalso. apply Na. rewrite E. apply in_map, Iy.
  - exfalso. apply Na. rewrite <- E. apply in_map, Ix.
  - apply IH; assumption.
Qed.

Lemma NoDup_map_inj_on {A B} (f : A -> B) l : NoDup l -> (forall a b, In a l -> In b l -> f a = f b -> a = b) -> NoDup (map f l).
Proof.
  induction 1 as [|x l N ND IH]; intros H; simpl; constructor.
  - intros I. apply in_map_iff in I as [y [E I]]. apply N. rewrite <- (H y x (or_intror I) (or_introl eq_refl) E). exact I.
  - apply IH. intros a b Ia Ib. apply H; right; assumption.
Qed.

Lemma NoDup_map_filter {A B} (f : A -> B) (p : A -> bool) l : NoDup (map f l) -> NoDup (map f (filter p l)).
Proof.
  induction l as [|x t IH]; simpl; intros N; [constructor|]. inversion N as [|? ? Nx Nt]; subst.
  destruct (p x); simpl; [|apply IH, Nt]. constructor; [|apply IH, Nt].
  intros I. apply Nx. apply in_map_iff in I. destruct I as [y [E I]]. apply filter_In in I. apply in_map_iff. exists y. tauto.
Qed.

Lemma Forall2_map_same {A B C} (R : B -> C -> Prop) (f : A -> B) (g : A -> C) l :
  (forall x, In x l -> R (f x) (g x)) -> Forall2 R (map f l) (map g l).
Proof.
  induction l as [|a t IH]; intros H; simpl; constructor; [apply H; left; reflexivity|].
  apply IH. intros x I. apply H. right. exact I.
Qed.

Lemma Forall2_trans {A B C} (R : A -> B -> Prop) (S : B -> C -> Prop) (T : A -> C -> Prop) l1 l2 l3 :
  (forall a b c, R a b -> S b c -> T a c) -> Forall2 R l1 l2 -> Forall2 S l2 l3 -> Forall2 T l1 l3.
Proof.
  intros H F. revert l3. induction F as [|a b l1 l2 Rab F IH]; intros l3 G; inversion G; subst; constructor; eauto.
Qed.

Lemma perm_partition {A} (p : A -> bool) l : Permutation l (filter p l ++ filter (fun x => negb (p x)) l).
Proof.
  induction l as [|x t IH]; simpl; [constructor|]. destruct (p x); simpl.
  - constructor. exact IH.
  - eapply perm_trans; [apply perm_skip, IH|]. apply Permutation_middle.
Qed.

Lemma perm_filter {A} (f : A -> bool) l l' : Permutation l l' -> Permutation (filter f l) (filter f l').
Proof.
  induction 1 as [|x l l' P IH|x y l|l l' l'' P1 IH1 P2 IH2]; simpl.
  - constructor.
  - destruct (f x); [constructor|]; exact IH.
  - destruct (f x), (f y); try apply Permutation_refl. apply perm_swap.
  - eapply perm_trans; eassumption.
Qed.

Lemma perm_flat_map_ext {A B} (f g : A -> list B) l :
  (forall x, In x l -> Permutation (f x) (g x)) -> Permutation (flat_map f l) (flat_map g l).
Proof.
  induction l as [|x t IH]; intros E; simpl; [constructor|].
  apply Permutation_app; [apply E; left; reflexivity|]. apply IH. intros y I. apply E. right. exact I.
Qed.

Lemma perm_flat_map_app {A B} (f g : A -> list B) l : Permutation (flat_map (fun x => f x ++ g x) l) (flat_map f l ++ flat_map g l).
Proof.
  induction l as [|x t IH]; simpl; [constructor|]. rewrite <- !app_assoc. apply Permutation_app_head.
  eapply perm_trans; [apply Permutation_app_head, IH|]. apply Permutation_app_swap_app.
Qed.

Lemma flat_map_swap {A B C} (f : A -> B -> list C) la lb :
  Permutation (flat_map (fun x => flat_map (fun y => f x y) lb) la) (flat_map (fun y => flat_map (fun x => f x y) la) lb).
Proof.
  induction la as [|x t IH]; simpl.
  - rewrite flat_map_nil; [constructor|reflexivity].
  - eapply perm_trans; [apply Permutation_app_head, IH|]. apply Permutation_sym.
    exact (perm_flat_map_app (fun y => f x y) (fun y => flat_map (fun x0 => f x0 y) t) lb).
Qed.
