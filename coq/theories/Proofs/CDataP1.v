(* C17, part 1: the order on key tuples is a total order on canonical keys; insertion sort by key is a permutation,
   commutes with key-preserving maps, and is a FUNCTION OF THE MULTISET when keys are pairwise distinct.
   List utilities (get/cells over appended and mapped rows, dedup, nodupb). *)
From Coq Require Import List Bool QArith String Lia Permutation.
Import ListNotations.
From DA Require Import Base.PyRT Base.Val Model.CData Proofs.TabP Proofs.SemOrderP.

(* ------------------------------------------------------------------ boolean reflection *)
Lemma nodupb_NoDup {A} `{EqDec A} (l : list A) : nodupb l = true <-> NoDup l.
Proof. induction l as [|x t IH]; simpl.
  - split; [constructor|reflexivity].
  - rewrite andb_true_iff, negb_true_iff, mem_false, IH. split.
    + intros [a b]. constructor; assumption.
    + intros N. inversion N; subst. split; assumption. Qed.

Lemma forallb_Forall {A} (f : A -> bool) l : forallb f l = true <-> Forall (fun x => f x = true) l.
Proof. rewrite forallb_forall, Forall_forall. reflexivity. Qed.

Lemma In_dedup {A} `{EqDec A} (l seen : list A) x : In x (dedup seen l) <-> In x l /\ ~ In x seen.
Proof. revert seen. induction l as [|y t IH]; intros seen; simpl; [tauto|].
  destruct (mem y seen) eqn:M.
  - apply mem_In in M. rewrite IH. split; [tauto|]. intros [[e|i] n]; [subst; contradiction|tauto].
  - apply mem_false in M. simpl. rewrite IH. simpl. split.
    + intros [e|[i n]]; [subst; tauto|]. split; [tauto|]. intros s. apply n. right. exact s.
    + intros [[e|i] n]; [left; exact e|]. destruct (eq_dec y x) as [e|ne]; [left; exact e|].
      right. split; [exact i|]. intros [e|s]; [contradiction|contradiction]. Qed.

Lemma NoDup_dedup {A} `{EqDec A} (l seen : list A) : NoDup (dedup seen l).
Proof. revert seen. induction l as [|y t IH]; intros seen; simpl; [constructor|].
  destruct (mem y seen) eqn:M; [apply IH|]. constructor; [|apply IH].
  rewrite In_dedup. simpl. tauto. Qed.

Lemma dedup_NoDup_id {A} `{EqDec A} (l seen : list A) :
  NoDup l -> (forall x, In x l -> ~ In x seen) -> dedup seen l = l.
Proof. revert seen. induction l as [|y t IH]; intros seen N D; simpl; [reflexivity|].
  inversion N as [|? ? Hy Nt]; subst.
  destruct (mem y seen) eqn:M; [apply mem_In in M; exfalso; exact (D y (or_introl eq_refl) M)|].
  f_equal. apply IH; [exact Nt|]. intros x Hx [e|s]; [subst; contradiction|]. exact (D x (or_intror Hx) s). Qed.

(* ------------------------------------------------------------------ get / cells *)

Lemma cells_cells cs0 r cs ks : (forall k, In k ks -> In k cs) -> cells cs (cells cs0 r cs) ks = cells cs0 r ks.
Proof. intros S. unfold cells. apply map_ext_in. intros k Hk. apply get_map_in. apply S, Hk. Qed.

Lemma cells_length cs r ks : List.length (cells cs r ks) = List.length ks.
Proof. apply map_length. Qed.

Lemma cells_app cs r a b : cells cs r (a ++ b) = cells cs r a ++ cells cs r b.
Proof. apply map_app. Qed.

Lemma cells_app_l a b ra rb ks : (forall k, In k ks -> In k a) -> List.length ra = List.length a ->
  cells (a ++ b) (ra ++ rb) ks = cells a ra ks.
Proof. intros S L. apply map_ext_in. intros k Hk. apply get_app_l; [apply S, Hk|exact L]. Qed.

Lemma cells_app_r a b ra rb ks : (forall k, In k ks -> ~ In k a) -> List.length ra = List.length a ->
  cells (a ++ b) (ra ++ rb) ks = cells b rb ks.
Proof. intros S L. apply map_ext_in. intros k Hk. apply get_app_r; [apply S, Hk|exact L]. Qed.

Lemma cells_self cs r : List.length r = List.length cs -> NoDup cs -> cells cs r cs = r.
Proof. revert r. induction cs as [|c t IH]; intros [|v r] L N; simpl in *; try discriminate; [reflexivity|].
  inversion N as [|? ? Hc Nt]; subst. unfold get at 1. simpl. destruct (eq_dec c c) as [_|n]; [|congruence]. simpl. f_equal.
  rewrite <- (IH r) at 2 by (try lia; assumption).
  apply map_ext_in. intros k Hk. unfold get. simpl.
  destruct (eq_dec k c) as [e|ne]; [subst; contradiction|]. destruct (index_of k t); reflexivity. Qed.

(* glueing named pieces: the cell of a name that occurs in exactly one piece *)
Lemma get_concat {K} (G : list K) (N : K -> list string) (V : K -> list val) k n :
  In k G -> In n (N k) -> (forall k', In k' G -> List.length (V k') = List.length (N k')) ->
  (forall k', In k' G -> In n (N k') -> k' = k) ->
  get (List.concat (map N G)) (List.concat (map V G)) n = get (N k) (V k) n.
Proof. induction G as [|k1 G IH]; intros Hk Hn HL HU; [destruct Hk|]. simpl.
  destruct (in_dec string_dec n (N k1)) as [i|ni].
  - rewrite get_app_l by (try assumption; apply HL; left; reflexivity).
    rewrite (HU k1 (or_introl eq_refl) i). reflexivity.
  - rewrite get_app_r by (try assumption; apply HL; left; reflexivity).
    apply IH.
    + destruct Hk as [e|Hk]; [subst; contradiction|exact Hk].
    + exact Hn.
    + intros k' Hk'. apply HL. right. exact Hk'.
    + intros k' Hk' Hn'. apply HU; [right; exact Hk'|exact Hn']. Qed.

(* ------------------------------------------------------------------ the order on values *)
Definition keyc (k : list val) : bool := forallb val_canon k.

Lemma key_ok_keyc k : key_ok k = true -> keyc k = true.
Proof. unfold key_ok, keyc. rewrite !forallb_forall. intros h v Hv. specialize (h v Hv).
  apply andb_true_iff in h. tauto. Qed.

Lemma bool_cmp_antisym a b : bool_cmp b a = CompOpp (bool_cmp a b).
Proof. destruct a, b; reflexivity. Qed.

Lemma val_cmp_antisym a b : val_cmp b a = CompOpp (val_cmp a b).
Proof. destruct a as [|x|x|x|x], b as [|y|y|y|y]; simpl; try reflexivity.
  - apply bool_cmp_antisym.
  - apply Z.compare_antisym.
  - symmetry. apply Qcompare_antisym.
  - apply String.compare_antisym. Qed.

Lemma scompare_refl s : String.compare s s = Eq.
Proof. induction s as [|a s IH]; simpl; [reflexivity|]. unfold Ascii.compare. rewrite N.compare_refl. exact IH. Qed.

Lemma val_cmp_refl a : val_cmp a a = Eq.
Proof. destruct a as [|x|x|x|x]; simpl; try reflexivity.
  - destruct x; reflexivity.
  - apply Z.compare_refl.
  - apply Qeq_alt. reflexivity.
  - apply scompare_refl. Qed.

Lemma val_cmp_eq a b : val_canon a = true -> val_canon b = true -> val_cmp a b = Eq -> a = b.
Proof. destruct a as [|x|x|x|x], b as [|y|y|y|y]; simpl; intros ca cb E; try discriminate; try reflexivity.
  - destruct x, y; try discriminate; reflexivity.
  - apply Z.compare_eq in E. congruence.
  - apply (proj1 (eqb_true _ _)) in ca. apply (proj1 (eqb_true _ _)) in cb. apply Qeq_alt in E. apply Qred_complete in E. congruence.
  - apply String.compare_eq_iff in E. congruence. Qed.

Lemma val_cmp_le_trans a b c : val_cmp a b <> Gt -> val_cmp b c <> Gt -> val_cmp a c <> Gt.
Proof. destruct a as [|x|x|x|x], b as [|y|y|y|y], c as [|z|z|z|z]; simpl; try congruence.
  - destruct x, y, z; simpl; congruence.
  - rewrite !Z.compare_le_iff. lia.
  - rewrite <- !Qle_alt. apply Qle_trans.
  - apply scompare_le_trans. Qed.

Definition keyc_all {A} (key : A -> list val) (l : list A) : Prop := Forall (fun x => keyc (key x) = true) l.

Lemma key_cmp_antisym a : forall b, key_cmp b a = CompOpp (key_cmp a b).
Proof. induction a as [|x a IH]; intros [|y b]; simpl; try reflexivity.
  rewrite (val_cmp_antisym x y). destruct (val_cmp x y); simpl; try reflexivity. apply IH. Qed.

Lemma key_cmp_refl a : key_cmp a a = Eq.
Proof. induction a as [|x a IH]; simpl; [reflexivity|]. rewrite val_cmp_refl. exact IH. Qed.

Lemma key_cmp_eq a : forall b, keyc a = true -> keyc b = true -> key_cmp a b = Eq -> a = b.
Proof. induction a as [|x a IH]; intros [|y b] ca cb E; simpl in *; try discriminate; [reflexivity|].
  apply andb_true_iff in ca. apply andb_true_iff in cb. destruct ca as [cx ca], cb as [cy cb].
  destruct (val_cmp x y) eqn:V; try discriminate.
  rewrite (val_cmp_eq x y cx cy V). f_equal. apply IH; assumption. Qed.

Lemma key_cmp_le_trans a : forall b c, keyc a = true -> keyc b = true -> keyc c = true ->
  key_cmp a b <> Gt -> key_cmp b c <> Gt -> key_cmp a c <> Gt.
Proof. induction a as [|x a IH]; intros [|y b] [|z c] ca cb cc; simpl; try congruence.
  apply andb_true_iff in ca. apply andb_true_iff in cb. apply andb_true_iff in cc.
  destruct ca as [cx ca], cb as [cy cb], cc as [cz cc].
  destruct (val_cmp x y) eqn:Vxy.
  - rewrite (val_cmp_eq x y cx cy Vxy). destruct (val_cmp y z) eqn:Vyz; try congruence.
    intros h1 h2. apply (IH b c); assumption.
  - intros _. destruct (val_cmp y z) eqn:Vyz.
    + rewrite <- (val_cmp_eq y z cy cz Vyz). rewrite Vxy. congruence.
    + intros _. destruct (val_cmp x z) eqn:Vxz; try congruence.
      * (* x = z: then y < x and x < y *)
        exfalso. rewrite (val_cmp_eq x z cx cz Vxz) in Vxy. rewrite (val_cmp_antisym y z), Vyz in Vxy. discriminate.
      * exfalso. apply (val_cmp_le_trans x y z); congruence.
    + congruence.
  - congruence. Qed.

(* ------------------------------------------------------------------ sort_by *)
Section SortFacts.
  Context {A : Type} (key : A -> list val).

  Lemma insert_by_perm x l : Permutation (insert_by key x l) (x :: l).
  Proof. induction l as [|y t IH]; simpl; [reflexivity|].
    destruct (cmp_leb _); [reflexivity|]. rewrite IH. apply perm_swap. Qed.

  Lemma sort_by_perm l : Permutation (sort_by key l) l.
  Proof. induction l as [|x t IH]; simpl; [reflexivity|]. rewrite insert_by_perm. constructor. exact IH. Qed.

  Lemma sort_by_In l x : In x (sort_by key l) <-> In x l.
  Proof. split; apply Permutation_in; [|symmetry]; apply sort_by_perm. Qed.

  (* inserting two elements with different canonical keys commutes, into ANY list.  Say a sorts strictly before b: an
     element b goes in front of has a in front of it too, and b never goes in front of a *)
  Lemma insert_by_comm_lt a b l : keyc (key a) = true -> keyc (key b) = true -> keyc_all key l ->
    key_cmp (key a) (key b) = Lt -> insert_by key a (insert_by key b l) = insert_by key b (insert_by key a l).
  Proof. intros ca cb cl Lt_ab.
    assert (Gt_ba : key_cmp (key b) (key a) = Gt) by (rewrite key_cmp_antisym, Lt_ab; reflexivity).
    induction l as [|y t IH]; simpl.
    - rewrite Lt_ab, Gt_ba. reflexivity.
    - inversion cl as [|? ? cy ct]; subst.
      destruct (cmp_leb (key_cmp (key b) (key y))) eqn:Lby.
      + assert (Lay : cmp_leb (key_cmp (key a) (key y)) = true).
        { destruct (key_cmp (key a) (key y)) eqn:C; try reflexivity. exfalso.
          apply (key_cmp_le_trans (key a) (key b) (key y) ca cb cy); [rewrite Lt_ab; discriminate| |exact C].
          destruct (key_cmp (key b) (key y)); discriminate. }
        rewrite Lay. simpl. rewrite Lt_ab, Gt_ba, Lby. reflexivity.
      + destruct (cmp_leb (key_cmp (key a) (key y))) eqn:Lay; simpl.
        * rewrite Lay, Gt_ba, Lby. reflexivity.
        * rewrite Lay, Lby, (IH ct). reflexivity. Qed.

  Lemma insert_by_comm a b l : keyc (key a) = true -> keyc (key b) = true -> keyc_all key l -> key a <> key b ->
    insert_by key a (insert_by key b l) = insert_by key b (insert_by key a l).
  Proof. intros ca cb cl ne. destruct (key_cmp (key a) (key b)) eqn:C.
    - exfalso. apply ne. apply key_cmp_eq; assumption.
    - apply insert_by_comm_lt; assumption.
    - symmetry. apply insert_by_comm_lt; try assumption. rewrite key_cmp_antisym, C. reflexivity. Qed.

  (* with pairwise distinct canonical keys the sorted list depends on the multiset only *)
  Lemma sort_by_perm_eq l1 l2 : Permutation l1 l2 -> NoDup (map key l1) -> keyc_all key l1 ->
    sort_by key l1 = sort_by key l2.
  Proof. induction 1 as [|x l l' P IH|x y l|l l' l'' P1 IH1 P2 IH2]; intros N C.
    - reflexivity.
    - simpl. inversion N; inversion C; subst. rewrite IH; auto.
    - simpl. inversion N as [|? ? Hy N']; inversion C as [|? ? cy C']; subst.
      inversion N' as [|? ? Hx N'']; inversion C' as [|? ? cx C'']; subst.
      apply insert_by_comm; try assumption.
      + eapply Permutation_Forall; [symmetry; apply sort_by_perm|exact C''].
      + intros E. apply Hy. left. symmetry. exact E.
    - rewrite IH1 by assumption. apply IH2.
      + eapply Permutation_NoDup; [apply Permutation_map; exact P1|exact N].
      + eapply Permutation_Forall; [exact P1|exact C]. Qed.

  Lemma sort_by_const l : (forall x, In x l -> key x = []) -> sort_by key l = l.
  Proof. induction l as [|x t IH]; intros K; simpl; [reflexivity|].
    rewrite IH by (intros y Hy; apply K; right; exact Hy).
    destruct t as [|y t']; simpl; [reflexivity|].
    rewrite (K x (or_introl eq_refl)), (K y (or_intror (or_introl eq_refl))). reflexivity. Qed.
End SortFacts.

Lemma insert_by_map_in {A B} (k1 : A -> list val) (k2 : B -> list val) (f : A -> B) x l :
  k2 (f x) = k1 x -> (forall a, In a l -> k2 (f a) = k1 a) -> insert_by k2 (f x) (map f l) = map f (insert_by k1 x l).
Proof. intros Kx K. induction l as [|y t IH]; simpl; [reflexivity|].
  rewrite Kx, (K y (or_introl eq_refl)). destruct (cmp_leb _); simpl; [reflexivity|].
  rewrite IH; [reflexivity|]. intros a Ha. apply K. right. exact Ha. Qed.

Lemma sort_by_map_in {A B} (k1 : A -> list val) (k2 : B -> list val) (f : A -> B) l :
  (forall a, In a l -> k2 (f a) = k1 a) -> sort_by k2 (map f l) = map f (sort_by k1 l).
Proof. induction l as [|x t IH]; intros K; simpl; [reflexivity|].
  rewrite IH by (intros a Ha; apply K; right; exact Ha).
  apply insert_by_map_in; [apply K; left; reflexivity|].
  intros a Ha. apply K. right. apply (sort_by_In k1 t a). exact Ha. Qed.

(* sorting by a key and then reading the keys = sorting the keys *)
Lemma map_key_sort_by {A} (key : A -> list val) l : map key (sort_by key l) = sort_by (fun k => k) (map key l).
Proof. symmetry. apply sort_by_map_in. reflexivity. Qed.

(* ------------------------------------------------------------------ permutations *)

(* row-major and column-major listings of a matrix of cells *)
Lemma perm_transpose {A B C} (f : A -> B -> C) (la : list A) (lb : list B) :
  Permutation (flat_map (fun a => map (fun b => f a b) lb) la) (flat_map (fun b => map (fun a => f a b) la) lb).
Proof. induction la as [|a ta IH]; simpl.
  - induction lb as [|b tb IHb]; simpl; [constructor|exact IHb].
  - rewrite IH. clear IH. induction lb as [|b tb IHb]; simpl; [constructor|].
    constructor. rewrite <- IHb. rewrite !app_assoc. apply Permutation_app_tail. apply Permutation_app_comm. Qed.

Lemma NoDup_perm_In {A} (l1 l2 : list A) : NoDup l1 -> NoDup l2 -> (forall x, In x l1 <-> In x l2) -> Permutation l1 l2.
Proof. intros. apply NoDup_Permutation; assumption. Qed.

Lemma filter_unique {A} (f : A -> bool) (l : list A) x :
  NoDup l -> In x l -> f x = true -> (forall y, In y l -> f y = true -> y = x) -> filter f l = [x].
Proof. induction l as [|y t IH]; intros N I Fx U; [destruct I|]. simpl.
  inversion N as [|? ? Hy Nt]; subst.
  destruct I as [e|I].
  - subst y. rewrite Fx. f_equal.
    assert (E : forall z, In z t -> f z = false).
    { intros z Hz. destruct (f z) eqn:Fz; [|reflexivity]. rewrite (U z (or_intror Hz) Fz) in Hz. contradiction. }
    clear -E. induction t as [|z t IH]; simpl; [reflexivity|]. rewrite (E z (or_introl eq_refl)). apply IH.
    intros w Hw. apply E. right. exact Hw.
  - destruct (f y) eqn:Fy.
    + rewrite (U y (or_introl eq_refl) Fy) in Hy. contradiction.
    + apply IH; try assumption. intros z Hz. apply U. right. exact Hz. Qed.

(* ------------------------------------------------------------------ hcat *)
Lemma hcat2_map {R} (f g : R -> list val) (l : list R) :
  hcat2 (map f l) (map g l) = map (fun x => f x ++ g x) l.
Proof. unfold hcat2. induction l as [|x t IH]; simpl; [reflexivity|]. rewrite IH. reflexivity. Qed.

Lemma hcat_all_map {R K} (g : K -> R -> list val) (G : list K) (l : list R) :
  hcat_all (List.length l) (map (fun k => map (g k) l) G) = map (fun x => List.concat (map (fun k => g k x) G)) l.
Proof. unfold hcat_all. induction G as [|k G IH]; simpl.
  - induction l as [|x t IHl]; simpl; [reflexivity|]. rewrite IHl. reflexivity.
  - rewrite IH. apply hcat2_map. Qed.
