(* C05 -- SQL templates compute the documented value (SQLite and PostgreSQL models), method by method *)
From Coq Require Import List Bool Qround Qabs String Lia Lqa.
Import ListNotations.
From DA Require Import Model.Scalar Model.SqlTemplates Model.ScalarBackends Model.ScalarCatalog Model.ScalarIndex Proofs.ScalarP0.
Local Open Scope string_scope.

Section SQL.
Variable mf : string -> Q -> option Q.
Variable mf2 : string -> Q -> Q -> option Q.

Definition documented_sql (vr : variant) (d : dialect) (m : string) (lits : list bool) (guard : list sval -> bool) : Prop :=
  forall args r, guard args = true -> spec_method mf mf2 m args = Some r ->
    exists r', sql_eval mf mf2 vr d m lits args = Some r' /\ sv_eqv r' r.

Definition anyargs (_ : list sval) : bool := true.

Lemma documented_sql_guard vr d m lits (g g' : list sval -> bool) :
  (forall args, g' args = true -> g args = true) -> documented_sql vr d m lits g -> documented_sql vr d m lits g'.
Proof. intros W D args r G H. exact (D args r (W args G) H). Qed.

(* ---------------------------------------------------------------- arithmetic operators *)
Lemma sql_add vr d lits : documented_sql vr d "+" lits anyargs.
Proof. intros args r _ H. change (spec_method mf mf2 "+") with spec_add in H. arity2 H args.
  destruct d, a, b; solve_val H. Qed.
Lemma sql_mul vr d lits : documented_sql vr d "*" lits anyargs.
Proof. intros args r _ H. change (spec_method mf mf2 "*") with spec_mul in H. arity2 H args.
  destruct d, a, b; solve_val H. Qed.
Lemma sql_sub vr d lits : documented_sql vr d "-" lits anyargs.
Proof. intros args r _ H. change (spec_method mf mf2 "-") with spec_sub in H.
  destruct args as [|a [|b [|c l]]]; try discriminate H.
  - destruct d, a; solve_val H.
  - destruct d, a, b; solve_val H. Qed.
Lemma sql_div vr d lits : documented_sql vr d "/" lits anyargs.
Proof. intros args r _ H. change (spec_method mf mf2 "/") with spec_div in H. arity2 H args.
  destruct d, a, b; solve_val H. Qed.
Lemma sql_fdiv vr d lits : documented_sql vr d "%/%" lits anyargs.
Proof. intros args r _ H. change (spec_method mf mf2 "%/%") with spec_div in H. arity2 H args. 
  destruct d, a, b; solve_val H. Qed.
Lemma sql_floordiv vr d lits : documented_sql vr d "//" lits anyargs.
Proof. intros args r _ H. change (spec_method mf mf2 "//") with spec_floordiv in H. arity2 H args.
  destruct d, a, b; solve_val H. Qed.

(* ---------------------------------------------------------------- comparisons, and / or *)
Lemma cmp3_enc d a b c : cmp3 a b = Some c ->
  exists c', cmp3 (enc d a) (enc d b) = Some c' /\ c' = c.
Proof. destruct d, a, b; cbn; intros H; try discriminate H; try (eexists; split; [reflexivity | congruence]).
  destruct b, b0; inversion H; subst; eexists; split; reflexivity. Qed.
Definition cmp_ops : list (string * cmpop) := [("==", CEq); ("!=", CNe); ("<", CLt); ("<=", CLe); (">", CGt); (">=", CGe)].
Lemma cmp_ops_spec m op : lookup m cmp_ops = Some op -> spec_method mf mf2 m = spec_cmp (cmp_test op).
Proof. intros L. apply lookup_In in L. simpl in L. repeat (destruct L as [L|L]; [inversion L; reflexivity|]). destruct L. Qed.
Lemma sql_cmp_op vr d lits m op : lookup m cmp_ops = Some op -> documented_sql vr d m lits anyargs.
Proof. intros L args r _ H. rewrite (cmp_ops_spec m op L) in H. arity2 H args.
  assert (fmt vr d m [QAtom (flag_at lits 0) "" (enc d a); QAtom (flag_at lits 1) "" (enc d b)]
          = Some (QCmp op (QAtom (flag_at lits 0) "" (enc d a)) (QAtom (flag_at lits 1) "" (enc d b)))) as F.
  { apply lookup_In in L. simpl in L. repeat (destruct L as [L|L]; [inversion L; reflexivity|]). destruct L. }
  unfold spec_cmp in H. destruct (cmp3 a b) as [c|] eqn:C; [|discriminate H]. inversion H; subst; clear H.
  destruct (cmp3_enc d a b c C) as [c' [C' ->]].
  unfold sql_eval, sql_eval_on. cbn [atoms_from]. rewrite F. cbn [sem]. unfold sql_cmp.
  assert (enc d a <> SNull /\ enc d b <> SNull) as [Na Nb].
  { destruct d, a, b; cbn in C; try discriminate C; split; cbn; try destruct b; try destruct b0; discriminate. }
  destruct (enc d a) eqn:Ea; try (exfalso; apply Na; reflexivity);
  destruct (enc d b) eqn:Eb; try (exfalso; apply Nb; reflexivity);
  rewrite C'; cbn [option_map]; eexists; (split; [reflexivity|]); apply mkb_eqv. Qed.
Definition cmp_names : list string := map fst cmp_ops.
Lemma cmp_names_op m : str_in m cmp_names = true -> exists op, lookup m cmp_ops = Some op.
Proof. intros I. apply str_in_In in I. simpl in I. repeat (destruct I as [<-|I]; [eexists; reflexivity|]). destruct I. Qed.
Lemma sql_cmp_ops vr d lits m : str_in m cmp_names = true -> documented_sql vr d m lits anyargs.
Proof. intros I. destruct (cmp_names_op m I) as [op L]. exact (sql_cmp_op vr d lits m op L). Qed.
Lemma sql_and vr d lits : documented_sql vr d "and" lits anyargs.
Proof. intros args r _ H. change (spec_method mf mf2 "and") with spec_and in H. arity2 H args.
  destruct a as [ | |x| | | | ], b as [ | |y| | | | ]; try discriminate H. destruct d, x, y; solve_val H. Qed.
Lemma sql_or vr d lits : documented_sql vr d "or" lits anyargs.
Proof. intros args r _ H. change (spec_method mf mf2 "or") with spec_or in H. arity2 H args.
  destruct a as [ | |x| | | | ], b as [ | |y| | | | ]; try discriminate H. destruct d, x, y; solve_val H. Qed.

(* ---------------------------------------------------------------- % mod remainder *)
Lemma sql_mod_sqlite vr lits m : str_in m ["%"; "mod"; "remainder"] = true -> documented_sql vr DSqlite m lits anyargs.
Proof. intros M args r _ H. apply str_in_In in M. simpl in M.
  assert (spec_method mf mf2 m = spec_mod) as S by (destruct M as [<-|[<-|[<-|[]]]]; reflexivity). rewrite S in H.
  assert (forall a b, fmt vr DSqlite m [a; b] = Some (QParen (QBin BMod a b))) as F by (intros; destruct M as [<-|[<-|[<-|[]]]]; reflexivity).
  arity2 H args. unfold sql_eval, sql_eval_on. cbn [atoms_from]. rewrite F. clear F S M.
  destruct a as [ | | |q| | | ], b as [ | | |q0| | | ]; cbn in H; try discriminate H; try (inversion H; subst; finish).
  destruct (Qis_int q) eqn:Ip; [|discriminate H]. destruct (Qis_int q0) eqn:Iq; [|discriminate H].
  destruct (Qle_bool 0 q) eqn:Lp; [|discriminate H]. destruct (Qlt_bool 0 q0) eqn:Lq; [|discriminate H].
  cbn in H. inversion H; subst; clear H. cbn.
  assert (Qle_bool 0 q0 = true) as Lq'. { apply Qle_bool_iff. apply Qlt_bool_true in Lq. lra. }
  rewrite (qtrunc_nonneg _ Lp), (qtrunc_nonneg _ Lq').
  pose proof (Qfloor_pos_int _ Iq (Qlt_bool_true _ _ Lq)) as Pos.
  destruct (Z.eqb (Qfloor q0) 0) eqn:Z0; [apply Z.eqb_eq in Z0; lia|].
  rewrite (rem_is_mod _ _ Iq Lp Lq). eexists; split; [reflexivity | apply sv_eqv_refl]. Qed.
Lemma sql_mod_pg vr lits m : str_in m ["%"; "mod"] = true -> documented_sql vr DPg m lits anyargs.
Proof. intros M args r _ H. apply str_in_In in M. simpl in M.
  assert (spec_method mf mf2 m = spec_mod) as S by (destruct M as [<-|[<-|[]]]; reflexivity). rewrite S in H.
  assert (forall a b, fmt vr DPg m [a; b] = Some (QFun "MOD" [a; b])) as F by (intros; destruct M as [<-|[<-|[]]]; reflexivity).
  arity2 H args. unfold sql_eval, sql_eval_on. cbn [atoms_from]. rewrite F. clear F S M.
  destruct a as [ | | |q| | | ], b as [ | | |q0| | | ]; cbn in H; try discriminate H; try (inversion H; subst; finish).
  destruct (Qis_int q) eqn:Ip; [|discriminate H]. destruct (Qis_int q0) eqn:Iq; [|discriminate H].
  destruct (Qle_bool 0 q) eqn:Lp; [|discriminate H]. destruct (Qlt_bool 0 q0) eqn:Lq; [|discriminate H].
  cbn in H. inversion H; subst; clear H. cbn. rewrite Ip, Iq.
  destruct (Qeq_bool q0 0) eqn:Z0; [exfalso; q_lra|]. cbn.
  rewrite (rem_is_mod _ _ Iq Lp Lq). eexists; split; [reflexivity | apply sv_eqv_refl]. Qed.
Lemma sql_remainder_pg vr lits : documented_sql vr DPg "remainder" lits anyargs.
Proof. intros args r _ H. change (spec_method mf mf2 "remainder") with spec_mod in H. arity2 H args.
  destruct a as [ | | |q| | | ], b as [ | | |q0| | | ]; cbn in H; try discriminate H; try (inversion H; subst; finish).
  destruct (Qis_int q) eqn:Ip; [|discriminate H]. destruct (Qis_int q0) eqn:Iq; [|discriminate H].
  destruct (Qle_bool 0 q) eqn:Lp; [|discriminate H]. destruct (Qlt_bool 0 q0) eqn:Lq; [|discriminate H].
  cbn in H. inversion H; subst; clear H. cbn.
  destruct (Qeq_bool (1 * q0) 0) eqn:Z0; [exfalso; q_lra|]. cbn.
  eexists; split; [reflexivity|]. apply sv_eqv_num. unfold qmodZ.
  rewrite <- (floor_formula_is_mod _ _ Ip Iq Lq). unfold qfloor.
  assert (q / (1 * q0) == q / q0)%Q as E. { apply Qlt_bool_true in Lq. field. lra. }
  rewrite (Qfloor_comp _ _ E). reflexivity. Qed.
(* ---------------------------------------------------------------- unary numeric methods *)
(* abs / sign: PostgreSQL always; SQLite on finite and missing arguments, and on every argument once repaired *)
Lemma sql_abs_pg vr lits : documented_sql vr DPg "abs" lits anyargs.
Proof. intros args r _ H. change (spec_method mf mf2 "abs") with spec_abs in H. arity1 H args. destruct a; solve_val H. Qed.
Lemma sql_sign_pg vr lits : documented_sql vr DPg "sign" lits anyargs.
Proof. intros args r _ H. change (spec_method mf mf2 "sign") with spec_sign in H. arity1 H args. destruct a; solve_val H. Qed.
Lemma sql_abs_sqlite vr lits : documented_sql vr DSqlite "abs" lits (fun l => fix_abs_sign vr || no_inf l).
Proof. intros args r G H. change (spec_method mf mf2 "abs") with spec_abs in H. arity1 H args.
  unfold sql_eval, sql_eval_on. cbn. destruct (fix_abs_sign vr); destruct a; cbn in G; try discriminate G; solve_val H. Qed.
Lemma sql_sign_sqlite vr lits : documented_sql vr DSqlite "sign" lits (fun l => fix_abs_sign vr || no_inf l).
Proof. intros args r G H. change (spec_method mf mf2 "sign") with spec_sign in H. arity1 H args.
  unfold sql_eval, sql_eval_on. cbn. destruct (fix_abs_sign vr); destruct a; cbn in G; try discriminate G; solve_val H. Qed.
Lemma sql_floor vr d lits : documented_sql vr d "floor" lits anyargs.
Proof. intros args r _ H. change (spec_method mf mf2 "floor") with spec_floor in H. arity1 H args. destruct d, a; solve_val H. Qed.
Lemma sql_ceil vr d lits : documented_sql vr d "ceil" lits anyargs.
Proof. intros args r _ H. change (spec_method mf mf2 "ceil") with spec_ceil in H. arity1 H args. destruct d, a; solve_val H. Qed.
Lemma sql_round vr d lits : documented_sql vr d "round" lits anyargs.
Proof. intros args r _ H. change (spec_method mf mf2 "round") with spec_round in H. arity1 H args.
  destruct a as [ | | |q| | | ]; cbn in H; try discriminate H; try (inversion H; subst; destruct d; finish).
  destruct (qtie q) eqn:T; [discriminate H|]. inversion H; subst; clear H.
  destruct d; cbn; eexists; (split; [reflexivity|]).
  - apply sv_eqv_num. apply round_half_away_nearest. exact T.
  - rewrite (round_half_even_nearest _ T). apply sv_eqv_refl. Qed.
(* ---------------------------------------------------------------- maximum / minimum / fmax / fmin *)
(* shipped: the two template shapes are exchanged, so each of the four is right exactly when no operand is missing;
   repaired: right on every argument *)
Lemma sql_maximum vr d lits : documented_sql vr d "maximum" lits (fun l => fix_maxmin vr || no_missing l).
Proof. intros args r G H. change (spec_method mf mf2 "maximum") with spec_maximum in H. arity2 H args.
  unfold sql_eval, sql_eval_on. cbn. destruct (fix_maxmin vr); destruct d, a, b; cbn in G; try discriminate G; solve_val H. Qed.
Lemma sql_minimum vr d lits : documented_sql vr d "minimum" lits (fun l => fix_maxmin vr || no_missing l).
Proof. intros args r G H. change (spec_method mf mf2 "minimum") with spec_minimum in H. arity2 H args.
  unfold sql_eval, sql_eval_on. cbn. destruct (fix_maxmin vr); destruct d, a, b; cbn in G; try discriminate G; solve_val H. Qed.
Lemma sql_fmax vr d lits : documented_sql vr d "fmax" lits (fun l => fix_maxmin vr || no_missing l).
Proof. intros args r G H. change (spec_method mf mf2 "fmax") with spec_fmax in H. arity2 H args.
  unfold sql_eval, sql_eval_on. cbn. destruct (fix_maxmin vr); destruct d, a, b; cbn in G; try discriminate G; solve_val H. Qed.
Lemma sql_fmin vr d lits : documented_sql vr d "fmin" lits (fun l => fix_maxmin vr || no_missing l).
Proof. intros args r G H. change (spec_method mf mf2 "fmin") with spec_fmin in H. arity2 H args.
  unfold sql_eval, sql_eval_on. cbn. destruct (fix_maxmin vr); destruct d, a, b; cbn in G; try discriminate G; solve_val H. Qed.

(* ---------------------------------------------------------------- if_else / where / coalesce *)
Lemma sql_if_else vr d lits : documented_sql vr d "if_else" lits anyargs.
Proof. intros args r _ H. change (spec_method mf mf2 "if_else") with spec_if_else in H. arity3 H args.
  destruct a as [ | |x| | | | ]; try discriminate H; [|destruct x]; inversion H; subst; clear H; destruct d; cbn; finish. Qed.
Lemma sql_where vr d lits : documented_sql vr d "where" lits anyargs.
Proof. intros args r _ H. change (spec_method mf mf2 "where") with spec_where in H. arity3 H args.
  destruct a as [ | |x| | | | ]; try discriminate H; [|destruct x]; inversion H; subst; clear H; destruct d; cbn; finish. Qed.
Lemma fnn1 v : first_non_null [v] = v.
Proof. destruct v; reflexivity. Qed.
Lemma sql_coalesce vr d lits : documented_sql vr d "coalesce" lits anyargs.
Proof. intros args r _ H. change (spec_method mf mf2 "coalesce") with spec_coalesce in H. arity2 H args.
  assert (sql_eval mf mf2 vr d "coalesce" lits [a; b] = Some (first_non_null [enc d a; enc d b])) as E by reflexivity.
  rewrite E. clear E.
  destruct a; cbn in H; try discriminate H; inversion H; subst; clear H.
  - replace (enc d SNull) with SNull by (destruct d; reflexivity).
    change (first_non_null [SNull; enc d r]) with (first_non_null [enc d r]). rewrite fnn1. finish.
  - destruct d, b0; cbn; finish.
  - destruct d; cbn; finish.
  - destruct d; cbn; finish.
  - destruct d; cbn; finish.
  - destruct d; cbn; finish. Qed.

(* ---------------------------------------------------------------- is_null / is_nan / is_inf / is_bad *)
Lemma sql_is_null vr d lits : documented_sql vr d "is_null" lits anyargs.
Proof. intros args r _ H. change (spec_method mf mf2 "is_null") with spec_is_null in H. arity1 H args.
  destruct d, a; try destruct b; solve_val H. Qed.
Lemma sql_is_nan_sqlite vr lits : documented_sql vr DSqlite "is_nan" lits anyargs.
Proof. intros args r _ H. change (spec_method mf mf2 "is_nan") with spec_is_nan in H. arity1 H args.
  destruct a; solve_val H. Qed.
(* PostgreSQL: the generic template answers FALSE for NULL, and an uploaded NaN is NULL: claimed for arguments other than
   a distinguishable NaN *)
Lemma sql_is_nan_pg vr lits : documented_sql vr DPg "is_nan" lits no_nan.
Proof. intros args r G H. change (spec_method mf mf2 "is_nan") with spec_is_nan in H. arity1 H args.
  destruct a; cbn in G; try discriminate G; solve_val H. Qed.
Lemma sql_is_inf vr d lits : documented_sql vr d "is_inf" lits anyargs.
Proof. intros args r _ H. change (spec_method mf mf2 "is_inf") with spec_is_inf in H. arity1 H args.
  destruct d, a; solve_val H. Qed.
Lemma sql_is_bad vr d lits : documented_sql vr d "is_bad" lits anyargs.
Proof. intros args r _ H. change (spec_method mf mf2 "is_bad") with spec_is_bad in H. arity1 H args.
  destruct d, a; solve_val H. Qed.

(* ---------------------------------------------------------------- strings, casts *)
Lemma sql_concat vr d lits : documented_sql vr d "concat" lits anyargs.
Proof. intros args r _ H. change (spec_method mf mf2 "concat") with spec_concat in H. arity2 H args.
  destruct a, b; try discriminate H. inversion H; subst. destruct d; cbn; finish. Qed.
Lemma sql_as_str vr d lits : documented_sql vr d "as_str" lits anyargs.
Proof. intros args r _ H. change (spec_method mf mf2 "as_str") with spec_as_str in H. arity1 H args.
  destruct a; try discriminate H; inversion H; subst; destruct d; cbn; finish. Qed.
Lemma sql_as_int64 vr d lits : documented_sql vr d "as_int64" lits anyargs.
Proof. intros args r _ H. change (spec_method mf mf2 "as_int64") with spec_as_int64 in H. arity1 H args.
  destruct a as [ | | |q| | | ]; try discriminate H. cbn in H. destruct (Qis_int q) eqn:I; [|discriminate H].
  inversion H; subst; clear H. destruct d; cbn; (eexists; split; [reflexivity|]); apply sv_eqv_num.
  - apply qtrunc_int. exact I.
  - assert (qtie q = false) as T.
    { unfold qtie, qfloor. apply Qis_int_eq in I. destruct (Qeq_bool (q - inject_Z (Qfloor q)) (1 # 2)) eqn:E; [|reflexivity].
      exfalso. q_props. lra. }
    rewrite (round_half_even_nearest _ T). unfold qround_nearest, qfloor.
    apply Qis_int_eq in I. rewrite I at 2. apply inject_Z_injective.
    apply Qfloor_unique; [rewrite <- I; lra | rewrite inject_Z_succ, <- I; lra]. Qed.
(* ---------------------------------------------------------------- transcendental functions: the same symbol on the same argument *)
Definition pg_math_names : list string := ["cos"; "cosh"; "exp"; "log"; "log10"; "sin"; "sinh"; "sqrt"; "tanh"].
(* a method rendered as the one-argument engine function F, which computes the shared symbol `name` on its domain *)
Lemma sql_math_shape vr d lits name F :
  spec_method mf mf2 name = spec_math mf name ->
  (forall a, fmt vr d name [a] = Some (QFun F [a])) ->
  (forall v, fun_sem mf mf2 d vr F [v] =
     match d with
     | DSqlite => wrap1 v (fun q => if math_dom name q then option_map SNum (mf name q) else None)
     | DPg => nullprop1 v (fun x => match x with XFin q => if math_dom name q then option_map SNum (mf name q) else None | _ => None end)
     end) ->
  documented_sql vr d name lits anyargs.
Proof. intros S F0 E args r _ H. rewrite S in H. arity1 H args.
  unfold sql_eval, sql_eval_on. cbn [atoms_from]. rewrite F0. cbn [sem map all_some option_map]. rewrite E.
  destruct d, a; cbn in H; try discriminate H; cbn;
    try (destruct (math_dom name q); [|discriminate H]; destruct (mf name q); [|discriminate H]);
    inversion H; subst; finish. Qed.
Lemma sql_math_sqlite vr lits name : str_in name math_names = true -> documented_sql vr DSqlite name lits anyargs.
Proof. intros I. apply str_in_In in I. simpl in I.
  repeat (destruct I as [<-|I]; [eapply sql_math_shape; intros; reflexivity|]). destruct I. Qed.
Lemma sql_math_pg vr lits name : str_in name pg_math_names = true -> documented_sql vr DPg name lits anyargs.
Proof. intros I. apply str_in_In in I. simpl in I.
  repeat (destruct I as [<-|I]; [eapply sql_math_shape; intros; reflexivity|]). destruct I. Qed.
End SQL.
