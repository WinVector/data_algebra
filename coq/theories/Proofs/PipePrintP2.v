(* Proofs/PipePrintP2.v -- C12, character level, part 2: the lexer model `lexg` does not depend on its fuel, and
   what it does on each kind of token the expression printer writes. *)
From Coq Require Import List Bool String Ascii NArith Arith Lia ZifyBool DecimalString DecimalN DecimalFacts Decimal.
Import ListNotations.
From DA Require Import Model.PyExpr Model.ExprPrint Model.PipePrintStr Proofs.PipePrintP1.
Local Open Scope string_scope.
Local Open Scope bool_scope.
Local Open Scope list_scope.

Lemma lex_body_ext (F : ffmt) (rec1 rec2 : string -> option (list tok)) (s : string) :
  (forall t, String.length t < String.length s -> rec1 t = rec2 t) -> lex_body F rec1 s = lex_body F rec2 s.
Proof. intros H. destruct s as [|c r]; [reflexivity|].
  assert (Hs : forall t, shorter t (String c r) = true -> rec1 t = rec2 t).
  { intros t Ht. apply H. unfold shorter in Ht. apply Nat.ltb_lt in Ht. exact Ht. }
  unfold lex_body. destruct (is_ws c).
  { apply H. cbn [String.length]. lia. }
  destruct (is_alpha_ c).
  { destruct (span is_idchar (String c r)) as [w rest]. destruct (starts_with is_quote rest); [reflexivity|].
    destruct (shorter rest (String c r)) eqn:E; [|reflexivity]. rewrite (Hs _ E). reflexivity. }
  destruct (is_digit c).
  { destruct (lex_number F (String c r)) as [[t rest]|]; [|reflexivity].
    destruct (shorter rest (String c r)) eqn:E; [|reflexivity]. rewrite (Hs _ E). reflexivity. }
  destruct (is_quote c).
  { destruct (scan_go c SNorm r) as [[v rest]|]; [|reflexivity].
    destruct ((match v with EmptyString => true | _ => false end) && starts_with (Ascii.eqb c) rest); [reflexivity|].
    destruct (shorter rest (String c r)) eqn:E; [|reflexivity]. rewrite (Hs _ E). reflexivity. }
  destruct (sym_match (String c r)) as [[sy rest]|]; [|reflexivity].
  destruct (shorter rest (String c r)) eqn:E; [|reflexivity]. rewrite (Hs _ E). reflexivity. Qed.

Lemma lex_fuel_irrel (F : ffmt) : forall (n m : nat) (s : string),
  String.length s < n -> String.length s < m -> lex_fuel F n s = lex_fuel F m s.
Proof. induction n as [|n IH]; intros m s Hn Hm; [lia|]. destruct m as [|m]; [lia|]. cbn [lex_fuel].
  apply lex_body_ext. intros t Ht. apply IH; lia. Qed.

Lemma lexg_unfold : forall F s, lexg F s = lex_body F (lexg F) s.
Proof. intros F s. unfold lexg at 1. cbn [lex_fuel]. apply lex_body_ext. intros t Ht. unfold lexg.
  apply lex_fuel_irrel; lia. Qed.

Lemma oapp_nil {A} (o : option (list A)) : oapp [] o = o.
Proof. destruct o; reflexivity. Qed.
Lemma oapp_cons {A} (x : A) (l : list A) (o : option (list A)) : oapp (x :: l) o = ocons x (oapp l o).
Proof. destruct o; reflexivity. Qed.
Lemma oapp_app {A} (l1 l2 : list A) (o : option (list A)) : oapp (l1 ++ l2) o = oapp l1 (oapp l2 o).
Proof. destruct o; cbn; [rewrite app_assoc|]; reflexivity. Qed.
Lemma oapp_one {A} (x : A) (o : option (list A)) : oapp [x] o = ocons x o.
Proof. destruct o; reflexivity. Qed.

(* ------------------------------------------------------------------ the branches of lex_body *)
Lemma lexg_nil (F : ffmt) : lexg F EmptyString = Some [].
Proof. reflexivity. Qed.

Lemma lexg_ws (F : ffmt) (c : ascii) (r : string) : is_ws c = true -> lexg F (String c r) = lexg F r.
Proof. intros H. rewrite lexg_unfold. unfold lex_body. rewrite H. reflexivity. Qed.

Lemma lexg_space (F : ffmt) (r : string) : lexg F (String " " r) = lexg F r.
Proof. apply lexg_ws. reflexivity. Qed.

Lemma lexg_word (F : ffmt) (c : ascii) (r w rest : string) :
  is_ws c = false -> is_alpha_ c = true -> span is_idchar (String c r) = (w, rest) ->
  starts_with is_quote rest = false -> shorter rest (String c r) = true ->
  lexg F (String c r) = ocons (classify w) (lexg F rest).
Proof. intros H1 H2 H3 H4 H5. rewrite lexg_unfold. unfold lex_body. rewrite H1, H2, H3, H4, H5. reflexivity. Qed.

Lemma lexg_num (F : ffmt) (c : ascii) (r : string) (t : tok) (rest : string) :
  is_ws c = false -> is_alpha_ c = false -> is_digit c = true -> lex_number F (String c r) = Some (t, rest) ->
  shorter rest (String c r) = true -> lexg F (String c r) = ocons t (lexg F rest).
Proof. intros H1 H2 H3 H4 H5. rewrite lexg_unfold. unfold lex_body. rewrite H1, H2, H3, H4, H5. reflexivity. Qed.

Lemma lexg_quoted (F : ffmt) (c : ascii) (r v rest : string) :
  is_ws c = false -> is_alpha_ c = false -> is_digit c = false -> is_quote c = true ->
  scan_go c SNorm r = Some (v, rest) ->
  (match v with EmptyString => true | _ => false end) && starts_with (Ascii.eqb c) rest = false ->
  shorter rest (String c r) = true -> lexg F (String c r) = ocons (TStr v) (lexg F rest).
Proof. intros H1 H2 H3 H4 H5 H6 H7. rewrite lexg_unfold. unfold lex_body. rewrite H1, H2, H3, H4, H5, H6, H7. reflexivity. Qed.

(* the characters with which no word, number or string literal starts: they start an operator terminal or nothing *)
Definition punct (c : ascii) : bool := negb (is_ws c || is_alpha_ c || is_digit c || is_quote c).

Lemma lexg_symb (F : ffmt) (c : ascii) (r sy rest : string) :
  punct c = true -> sym_match (String c r) = Some (sy, rest) -> shorter rest (String c r) = true ->
  lexg F (String c r) = ocons (TSym sy) (lexg F rest).
Proof. unfold punct. intros H H5 H6. apply negb_true_iff in H. apply orb_false_elim in H as [H H4].
  apply orb_false_elim in H as [H H3]. apply orb_false_elim in H as [H1 H2].
  rewrite lexg_unfold. unfold lex_body. rewrite H1, H2, H3, H4, H5, H6. reflexivity. Qed.

Lemma is_alpha_code (c : ascii) : is_alpha_ c = in_range 65 90 c || in_range 97 122 c || (code c =? 95)%N.
Proof. unfold is_alpha_. rewrite eqb_code. reflexivity. Qed.
Lemma is_ws_code (c : ascii) : is_ws c = (code c =? 32)%N || (code c =? 9)%N || (code c =? 12)%N.
Proof. unfold is_ws. rewrite !eqb_code. reflexivity. Qed.
Lemma is_quote_code (c : ascii) : is_quote c = (code c =? 39)%N || (code c =? 34)%N.
Proof. unfold is_quote. rewrite !eqb_code. reflexivity. Qed.
Lemma is_e_code (c : ascii) : is_e c = (code c =? 101)%N || (code c =? 69)%N.
Proof. unfold is_e. rewrite !eqb_code. reflexivity. Qed.

Lemma alpha_class (c : ascii) : is_alpha_ c = true -> is_ws c = false /\ is_digit c = false /\ is_quote c = false.
Proof. rewrite is_alpha_code, is_ws_code, is_quote_code. unfold is_digit, in_range. lia. Qed.

Lemma digit_class (c : ascii) : is_digit c = true -> is_ws c = false /\ is_alpha_ c = false /\ is_quote c = false.
Proof. rewrite is_alpha_code, is_ws_code, is_quote_code. unfold is_digit, in_range. lia. Qed.

Lemma quote_class (c : ascii) : is_quote c = true -> is_ws c = false /\ is_alpha_ c = false /\ is_digit c = false.
Proof. rewrite is_alpha_code, is_ws_code, is_quote_code. unfold is_digit, in_range. lia. Qed.

Lemma not_idchar_class (c : ascii) : is_idchar c = false ->
  is_alpha_ c = false /\ is_digit c = false /\ is_e c = false.
Proof. unfold is_idchar. rewrite is_alpha_code, is_e_code. unfold is_digit, in_range. lia. Qed.

Lemma smem_In (s : string) (l : list string) : smem s l = true -> In s l.
Proof. unfold smem. intros H. apply existsb_exists in H as [x [Hx E]]. apply String.eqb_eq in E. subst. exact Hx. Qed.

Lemma smem_forallb (p : string -> bool) (l : list string) (s : string) : forallb p l = true -> smem s l = true -> p s = true.
Proof. intros T H. rewrite forallb_forall in T. apply T, smem_In, H. Qed.

Lemma delim_start_In (c : ascii) (r : string) : delim_start (String c r) = true -> In c [" "; ")"; ","; "]"; "}"; ":"]%char.
Proof. intros H. apply smem_In in H. unfold s1 in H. cbn [In] in *.
  repeat (destruct H as [H|H]; [injection H as <-; tauto|]). destruct H. Qed.

Lemma delim_start_cons (c : ascii) (r : string) :
  In c [" "; ")"; ","; "]"; "}"; ":"]%char -> delim_start (String c r) = true.
Proof. intros H. cbn [In] in H. repeat (destruct H as [<-|H]; [reflexivity|]). destruct H. Qed.

Lemma delim_start_spec (rest : string) : delim_start rest = true ->
  starts_with is_idchar rest = false /\ starts_with is_quote rest = false
  /\ starts_with (Ascii.eqb "."%char) rest = false.
Proof. destruct rest as [|c r]; [intros _; repeat split; reflexivity|]. intros H. apply delim_start_In in H. cbn [In] in H.
  repeat (destruct H as [<-|H]; [repeat split; reflexivity|]). destruct H. Qed.

Lemma span_app (p : ascii -> bool) (w rest : string) :
  all_chars p w = true -> starts_with p rest = false -> span p (w +++ rest) = (w, rest).
Proof. intros Hw Hr. induction w as [|c w IH].
  - cbn [String.append]. destruct rest as [|c r]; [reflexivity|]. cbn [starts_with] in Hr. cbn [span]. rewrite Hr. reflexivity.
  - cbn [all_chars] in Hw. apply andb_prop in Hw as [Hc Hw]. cbn [String.append span]. rewrite Hc, (IH Hw). reflexivity. Qed.

Lemma shorter_app (w rest : string) : w <> EmptyString -> shorter rest (w +++ rest) = true.
Proof. intros H. unfold shorter. apply Nat.ltb_lt. rewrite slen_app. destruct w as [|c w]; [congruence|]. cbn [String.length]. lia. Qed.

Lemma lexg_word_app (F : ffmt) (w rest : string) :
  starts_with is_alpha_ w = true -> all_chars is_idchar w = true ->
  starts_with is_idchar rest = false -> starts_with is_quote rest = false ->
  lexg F (w +++ rest) = ocons (classify w) (lexg F rest).
Proof. intros H1 H2 H3 H4. destruct w as [|c w]; [discriminate H1|]. cbn [starts_with] in H1.
  destruct (alpha_class c H1) as [Hw _].
  change (String c w +++ rest) with (String c (w +++ rest)).
  apply lexg_word; [exact Hw|exact H1| |exact H4|].
  - change (String c (w +++ rest)) with (String c w +++ rest). apply span_app; assumption.
  - change (String c (w +++ rest)) with (String c w +++ rest). apply shorter_app. discriminate. Qed.

Lemma ident_ok_spec (w : string) : ident_ok w = true ->
  starts_with is_alpha_ w = true /\ all_chars is_idchar w = true /\ smem w keywords = false.
Proof. unfold ident_ok. intros H. apply andb_prop in H as [H H3]. apply andb_prop in H as [H1 H2].
  apply negb_true_iff in H3. tauto. Qed.

Lemma lexg_ident (F : ffmt) (w rest : string) :
  ident_ok w = true -> starts_with is_idchar rest = false -> starts_with is_quote rest = false ->
  lexg F (w +++ rest) = ocons (TName w) (lexg F rest).
Proof. intros H H3 H4. apply ident_ok_spec in H as [H1 [H2 Hk]].
  rewrite (lexg_word_app F w rest H1 H2 H3 H4). unfold classify. rewrite Hk. reflexivity. Qed.

Lemma lexg_keyword (F : ffmt) (w rest : string) :
  smem w keywords = true -> starts_with is_alpha_ w = true -> all_chars is_idchar w = true ->
  starts_with is_idchar rest = false -> starts_with is_quote rest = false ->
  lexg F (w +++ rest) = ocons (TSym w) (lexg F rest).
Proof. intros Hk H1 H2 H3 H4. rewrite (lexg_word_app F w rest H1 H2 H3 H4). unfold classify. rewrite Hk. reflexivity. Qed.

Lemma digits_of_uint (d : uint) : all_chars is_digit (NilEmpty.string_of_uint d) = true.
Proof. induction d as [|d IH|d IH|d IH|d IH|d IH|d IH|d IH|d IH|d IH|d IH];
  cbn [NilEmpty.string_of_uint all_chars]; [reflexivity|..]; rewrite IH; reflexivity. Qed.

Lemma nzhead_not_D0 (d u : uint) : nzhead d <> D0 u.
Proof. induction d as [|d IH|d IH|d IH|d IH|d IH|d IH|d IH|d IH|d IH|d IH]; cbn [nzhead]; try discriminate. exact IH. Qed.

Lemma dec_ok_unorm (d : uint) : unorm d = d -> dec_ok (NilEmpty.string_of_uint d) = true.
Proof. intros H. destruct d as [|d|d|d|d|d|d|d|d|d|d]; try reflexivity.
  - exfalso. exact (unorm_nonnil Nil H).
  - rewrite unorm_D0 in H. destruct (uint_eq_dec (nzhead d) Nil) as [E|E].
    + apply unorm_0 in E. rewrite E in H. injection H as <-. reflexivity.
    + rewrite (unorm_nzhead d E) in H. exfalso. exact (nzhead_not_D0 d d H). Qed.

Lemma to_uint_unorm (n : N) : unorm (N.to_uint n) = N.to_uint n.
Proof. rewrite <- (DecimalN.Unsigned.to_of (N.to_uint n)). rewrite DecimalN.Unsigned.of_to. reflexivity. Qed.

Lemma dec_of_N_digits (n : N) : all_chars is_digit (dec_of_N n) = true.
Proof. apply digits_of_uint. Qed.

Lemma dec_of_N_ok (n : N) : dec_ok (dec_of_N n) = true.
Proof. apply dec_ok_unorm. apply to_uint_unorm. Qed.

Lemma dec_of_N_starts (n : N) : starts_with is_digit (dec_of_N n) = true.
Proof. pose proof (dec_of_N_digits n) as H. pose proof (dec_of_N_ok n) as H0.
  destruct (dec_of_N n) as [|c d]; [discriminate H0|]. cbn [all_chars] in H. apply andb_prop in H as [H _]. exact H. Qed.

Lemma N_of_dec_of_N (n : N) : N_of_dec (dec_of_N n) = Some n.
Proof. unfold N_of_dec, dec_of_N. rewrite NilEmpty.usu. cbn [option_map]. rewrite DecimalN.Unsigned.of_to. reflexivity. Qed.

(* the side condition on what follows the number: not an identifier character (hence no digit, e, E) and not "." *)
Lemma lex_number_dec (F : ffmt) (n : N) (rest : string) :
  starts_with is_idchar rest = false -> starts_with (Ascii.eqb "."%char) rest = false ->
  lex_number F (dec_of_N n +++ rest) = Some (TInt n, rest).
Proof. intros H1 H2. unfold lex_number.
  assert (Hd : starts_with is_digit rest = false).
  { destruct rest as [|c r]; [reflexivity|]. cbn [starts_with] in *. apply not_idchar_class in H1. tauto. }
  rewrite (span_app is_digit (dec_of_N n) rest (dec_of_N_digits n) Hd).
  rewrite (dec_of_N_ok n), (N_of_dec_of_N n).
  destruct rest as [|c r]; [reflexivity|]. cbn [starts_with] in H1, H2.
  rewrite Ascii.eqb_sym, H2. cbn [exp_part]. destruct (not_idchar_class c H1) as [_ [_ He]]. rewrite He.
  cbn [starts_with]. rewrite H1, H2. reflexivity. Qed.

Lemma lexg_num_app (F : ffmt) (w : string) (t : tok) (rest : string) :
  starts_with is_digit w = true -> lex_number F (w +++ rest) = Some (t, rest) -> lexg F (w +++ rest) = ocons t (lexg F rest).
Proof. intros Hd L. destruct w as [|c d]; [discriminate Hd|]. cbn [starts_with] in Hd. destruct (digit_class c Hd) as [Hw [Ha _]].
  apply lexg_num; try assumption. apply (shorter_app (String c d)). discriminate. Qed.

Lemma lexg_dec (F : ffmt) (n : N) (rest : string) :
  starts_with is_idchar rest = false -> starts_with (Ascii.eqb "."%char) rest = false ->
  lexg F (dec_of_N n +++ rest) = ocons (TInt n) (lexg F rest).
Proof. intros H1 H2. apply lexg_num_app; [apply dec_of_N_starts|apply lex_number_dec; assumption]. Qed.

Lemma lexg_float (F : ffmt) (m : QArith_base.Q) (rest : string) : float_lex_ok F m -> delim_start rest = true ->
  lexg F (frepr F m +++ rest) = ocons (TFloat (Some m)) (lexg F rest).
Proof. intros [Hd HL] Hr. apply lexg_num_app; [exact Hd|exact (HL rest Hr)]. Qed.

Lemma lexg_repr (F : ffmt) (np : N -> bool) (s rest : string) : starts_with is_quote rest = false ->
  lexg F (py_repr np s +++ rest) = ocons (TStr s) (lexg F rest).
Proof. intros Hr. unfold py_repr. cbv zeta. pose proof (pick_quote_is_quote s) as Hq. remember (pick_quote s) as q eqn:Eq. clear Eq.
  cbn [String.append]. rewrite PyStr.str_append_assoc. cbn [s1 String.append].
  destruct (quote_class q Hq) as [Hw [Ha Hd]].
  apply lexg_quoted; try assumption.
  - apply scan_go_esc. exact Hq.
  - destruct rest as [|c r]; [apply andb_false_r|]. cbn [starts_with] in *.
    destruct (Ascii.eqb_spec q c) as [<-|N1]; [congruence|apply andb_false_r].
  - unfold shorter. apply Nat.ltb_lt. cbn [String.length]. rewrite slen_app. cbn [String.length]. clear. lia. Qed.

Definition sym_tok (op : string) : bool :=
  match String.length op with 1 => smem op symbols1 | 2 => smem op symbols2 | 3 => smem op symbols3 | _ => false end.

(* c occurs in no operator terminal of two or three characters: an operator text followed by c ends before it *)
Definition stops (c : ascii) : bool := forallb (fun t => negb (has_char c t)) (symbols2 ++ symbols3).

Lemma has_char_app (c : ascii) (p r : string) : has_char c (p +++ String c r) = true.
Proof. induction p as [|x p IH]; cbn [String.append has_char]; [rewrite Ascii.eqb_refl; reflexivity|]. rewrite IH. apply orb_true_r. Qed.

Lemma stops_not_sym (c : ascii) (t : string) : stops c = true -> has_char c t = true ->
  smem t symbols2 = false /\ smem t symbols3 = false.
Proof. intros Hs Hc. unfold stops in Hs. rewrite forallb_forall in Hs.
  assert (N : forall l, incl l (symbols2 ++ symbols3) -> smem t l = false).
  { intros l Hl. destruct (smem t l) eqn:E; [|reflexivity]. apply smem_In, Hl, Hs in E. rewrite Hc in E. discriminate E. }
  split; apply N; [apply incl_appl|apply incl_appr]; apply incl_refl. Qed.

(* longest match: the text up to c is an operator, and nothing longer is, since c would be part of it *)
Lemma sym_match_stop (op : string) (c : ascii) (rest : string) : sym_tok op = true -> stops c = true ->
  sym_match (op +++ String c rest) = Some (op, String c rest).
Proof. intros Ho Hc.
  assert (N : forall p r t, t = p +++ String c r -> smem t symbols2 = false /\ smem t symbols3 = false).
  { intros p r t ->. exact (stops_not_sym c _ Hc (has_char_app c p r)). }
  destruct op as [|a [|b [|d [|e op]]]]; try discriminate Ho; cbn [sym_tok String.length] in Ho;
    cbn [String.append sym_match]; unfold s1.
  - destruct (N (String a "") "" (String a (String c "")) eq_refl) as [N2 _]. destruct rest as [|x r].
    + rewrite N2, Ho. reflexivity.
    + destruct (N (String a "") (String x "") (String a (String c (String x ""))) eq_refl) as [_ N3]. rewrite N3, N2, Ho. reflexivity.
  - destruct (N (String a (String b "")) "" (String a (String b (String c ""))) eq_refl) as [_ N3]. rewrite N3, Ho. reflexivity.
  - rewrite Ho. reflexivity. Qed.

Lemma sym_tok_punct (op : string) : sym_tok op = true -> starts_with punct op = true.
Proof. intros H. apply (smem_forallb (starts_with punct) (symbols1 ++ symbols2 ++ symbols3) op eq_refl).
  unfold sym_tok in H. unfold smem in *. rewrite !existsb_app.
  destruct (String.length op) as [|[|[|[|n]]]]; try discriminate H; rewrite H; rewrite ?orb_true_r; reflexivity. Qed.

Lemma lexg_sym (F : ffmt) (op : string) (c : ascii) (rest : string) : sym_tok op = true -> stops c = true ->
  lexg F (op +++ String c rest) = ocons (TSym op) (lexg F (String c rest)).
Proof. intros Ho Hc. pose proof (sym_match_stop op c rest Ho Hc) as M. apply sym_tok_punct in Ho.
  destruct op as [|a r]; [discriminate Ho|]. apply lexg_symb; [exact Ho|exact M|]. apply (shorter_app (String a r)). discriminate. Qed.

Lemma all_chars_has (p : ascii -> bool) (x : ascii) (t : string) : all_chars p t = true -> has_char x t = true -> p x = true.
Proof. induction t as [|y t IH]; [discriminate|]. cbn [all_chars has_char]. intros A H. apply andb_prop in A as [A1 A2].
  apply orb_prop in H as [H|H]; [apply Ascii.eqb_eq in H; subst y; exact A1|exact (IH A2 H)]. Qed.

(* no operator terminal of two or three characters contains a letter, a digit or "_" (checked on the tables) *)
Lemma idchar_stops (x : ascii) : is_idchar x = true -> stops x = true.
Proof. intros H. apply forallb_forall. intros t Ht. destruct (has_char x t) eqn:E; [|reflexivity].
  assert (T : forallb (all_chars (fun c => negb (is_idchar c))) (symbols2 ++ symbols3) = true) by reflexivity.
  rewrite forallb_forall in T. pose proof (all_chars_has _ x t (T t Ht) E) as A. cbv beta in A. rewrite H in A. discriminate A. Qed.

Lemma op_tok_sym (op : string) : smem op sym_texts = true -> op_tok op = TSym op.
Proof. intros H. unfold op_tok. unfold smem in H. rewrite H. reflexivity. Qed.

Definition word_tok (op : string) : bool := smem op keywords && starts_with is_alpha_ op && all_chars is_idchar op.

Lemma lexg_op (F : ffmt) (op : string) (c : ascii) (rest : string) :
  smem op sym_texts = true -> (c = " "%char \/ c = "("%char) ->
  lexg F (op +++ String c rest) = ocons (op_tok op) (lexg F (String c rest)).
Proof. intros H Hc. rewrite (op_tok_sym op H).
  pose proof (smem_forallb (fun t => sym_tok t || word_tok t) sym_texts op eq_refl H) as T. apply orb_prop in T as [T|T].
  - apply lexg_sym; [exact T|]. destruct Hc as [-> | ->]; reflexivity.
  - unfold word_tok in T. apply andb_prop in T as [T T3]. apply andb_prop in T as [T1 T2].
    apply lexg_keyword; try assumption; destruct Hc as [-> | ->]; reflexivity. Qed.

(* an identifier is never one of the operator texts *)
Lemma ident_not_sym (op : string) : ident_ok op = true -> smem op sym_texts = false.
Proof. intros H. destruct (smem op sym_texts) eqn:E; [|reflexivity].
  pose proof (smem_forallb (fun t => negb (ident_ok t)) sym_texts op eq_refl E) as T. cbv beta in T. rewrite H in T. discriminate T. Qed.

Lemma op_tok_ident (op : string) : ident_ok op = true -> op_tok op = TName op.
Proof. intros H. apply ident_not_sym in H. unfold op_tok. unfold smem in H. rewrite H. reflexivity. Qed.

Definition brackets : list ascii := ["("; ")"; "["; "]"; "{"; "}"]%char.

(* whatever follows: no multi-character operator terminal starts with a bracket *)
Lemma lexg_bracket (F : ffmt) (c : ascii) (rest : string) : In c brackets ->
  lexg F (String c rest) = ocons (TSym (s1 c)) (lexg F rest).
Proof. intros H. unfold brackets in H. cbn [In] in H.
  repeat (destruct H as [H|H]; [subst c; apply lexg_symb;
    [reflexivity|destruct rest as [|x [|y r]]; vm_compute; reflexivity
    |unfold shorter; apply Nat.ltb_lt; cbn [String.length]; lia]|]).
  destruct H. Qed.

(* "," and ":" followed by a space (the space is skipped) *)
Lemma lexg_comma_space (F : ffmt) (rest : string) : lexg F (String "," (String " " rest)) = ocons (TSym ",") (lexg F rest).
Proof. rewrite <- (lexg_space F rest). apply (lexg_sym F "," " " rest); reflexivity. Qed.

Lemma lexg_colon_space (F : ffmt) (rest : string) : lexg F (String ":" (String " " rest)) = ocons (TSym ":") (lexg F rest).
Proof. rewrite <- (lexg_space F rest). apply (lexg_sym F ":" " " rest); reflexivity. Qed.

Lemma lexg_dot (F : ffmt) (x : ascii) (r : string) : is_alpha_ x = true ->
  lexg F (String "." (String x r)) = ocons (TSym ".") (lexg F (String x r)).
Proof. intros H. apply (lexg_sym F "." x r); [reflexivity|]. apply idchar_stops. unfold is_idchar. rewrite H. reflexivity. Qed.

(* "-" followed by a digit or a letter (the sign of a negative constant) *)
Lemma lexg_minus (F : ffmt) (x : ascii) (r : string) : is_idchar x = true ->
  lexg F (String "-" (String x r)) = ocons (TSym "-") (lexg F (String x r)).
Proof. intros H. apply (lexg_sym F "-" x r); [reflexivity|]. apply idchar_stops, H. Qed.

Print Assumptions lexg_unfold.
Print Assumptions lexg_ident.
Print Assumptions lexg_dec.
Print Assumptions lexg_float.
Print Assumptions lexg_repr.
Print Assumptions lexg_op.
Print Assumptions lexg_bracket.
Print Assumptions lexg_dot.
Print Assumptions lexg_minus.
