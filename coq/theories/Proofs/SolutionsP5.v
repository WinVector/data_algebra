(* C21, part 5: rank_to_average computes rank_avg_spec. *)
From Coq Require Import List QArith String Lia Permutation.
Import ListNotations.
From DA Require Import Base.PyRT Base.Val Model.Sem Model.Solutions Proofs.SemBasicP Proofs.SemOrderP
  Proofs.SolutionsP1 Proofs.SolutionsP3 Proofs.SolutionsP4 Proofs.ListP Proofs.TabP.
Local Open Scope string_scope.
Local Open Scope list_scope.

Lemma set_nth_app r : forall j v s, set_nth (List.length r + j) v (r ++ s) = r ++ set_nth j v s.
Proof. induction r as [|x r IH]; intros j v s; simpl; [reflexivity|]. rewrite IH. reflexivity. Qed.
Lemma set_cell_snoc cs r k x v : ~ In k cs -> List.length r = List.length cs -> set_cell (cs ++ [k]) (r ++ [x]) k v = r ++ [v].
Proof. intros N L. unfold set_cell. rewrite (index_of_app_r _ _ _ N). simpl. destruct (eq_dec k k); [|congruence]. simpl.
  rewrite <- L, set_nth_app. reflexivity. Qed.

Section Rank.
  Variables (fl : flavor) (ob pb : list string) (rank tb : string) (t : table).
  Hypothesis V : rank_valid ob pb rank tb t = true.
  Let cs := cols t.
  Let rs := rows t.
  Let U := tag_from 0 rs.

  Lemma rank_facts :
    ~ In rank cs /\ ~ In tb cs /\ rank <> tb /\ (forall c, In c ob -> In c cs) /\ (forall c, In c pb -> In c cs) /\ NoDup cs
    /\ (forall r, In r rs -> List.length r = List.length cs).
  Proof. unfold rank_valid in V.
    apply andb_prop in V as [[[[[[V1 V2]%andb_prop V3]%andb_prop V4]%andb_prop V5]%andb_prop V6]%andb_prop V7].
    split; [apply negb_mem_notin; exact V1|]. split; [apply negb_mem_notin; exact V2|]. split; [apply seqb_neq; exact V3|].
    split; [apply subset_spec; exact V4|]. split; [apply subset_spec; exact V5|]. split; [apply nodupb_NoDup; exact V6|].
    exact (widthb_ok t V7). Qed.

  Lemma U_row ir : In ir U -> In (snd ir) rs /\ List.length (snd ir) = List.length cs.
  Proof. intros I. assert (In (snd ir) rs) as R by (eapply tag_from_In, I). split; [exact R|]. apply rank_facts, R. Qed.

  Section WithNb.
    Variable nb : nat -> nat.
    Hypothesis nb_inj : forall i j, (i < List.length rs)%nat -> (j < List.length rs)%nat -> nb i = nb j -> i = j.

    (* the table after step 1 (_row_number into tb) is the tie-broken table of SolutionsP4 with no further cells *)
    Definition F1 (ir : nat * list val) : list val := snd ir ++ [vnat (nb (fst ir))].
    Definition cs1 : list string := cs ++ [tb].
    Definition t1 : table := mktable cs1 (map F1 U).
    Definition sp : nat * list val -> nat * list val -> bool := in_part cs pb.
    Definition le12 : nat * list val -> nat * list val -> bool := tb_le fl cs ob nb.
    Definition N2 (x : nat * list val) : nat := List.length (filter (fun y => sp x y && le12 y x) U).

    Lemma F1_len ir : In ir U -> List.length (F1 ir) = List.length cs1.
    Proof. apply (tb_row_len cs [] tb rs (fun _ => []) nb); [apply rank_facts|reflexivity]. Qed.
    Lemma F1_get_old ir c : In ir U -> In c cs -> get cs1 (F1 ir) c = get cs (snd ir) c.
    Proof. apply (tb_row_old cs [] tb rs (fun _ => []) nb), rank_facts. Qed.

    (* ---- step 2: cumsum of 1.0 ordered by (ob, tb) inside the partition: the number of rows at or before *)
    Definition w2 : window := mkwin pb (ob ++ [tb]) [].
    Definition e2 : expr := EOp "cumsum" [EConst (vnat 1)].
    Definition rk2 (ir : nat * list val) : val := lookup_pos (wpiece fl w2 t1 e2 (key_of cs1 pb (F1 ir))) (fst ir).
    Definition F2 (ir : nat * list val) : list val := F1 ir ++ [rk2 ir].
    Definition cs2 : list string := cs1 ++ [rank].
    Definition t2 : table := mktable cs2 (map F2 U).

    Lemma rank_notin_cs1 : ~ In rank cs1.
    Proof. destruct rank_facts as (Nr & _ & Nrt & _). unfold cs1. intros I. apply in_app_or in I as [I|[I|[]]]; [contradiction|congruence]. Qed.

    Lemma step2 : sem_wextend fl [(rank, e2)] w2 t1 = t2.
    Proof. apply wextend1_new, rank_notin_cs1. Qed.

    Lemma rk2_val ir : In ir U -> exists q, rk2 ir = qn q /\ q == inject_Z (Z.of_nat (N2 ir)).
    Proof. intros I. destruct rank_facts as (_ & Nt & _ & So & Sp & _ & W).
      assert (~ In tb (cs ++ [])) as Nt' by (rewrite app_nil_r; exact Nt).
      destruct (tb_cumsum fl cs ob pb [] tb rs (fun _ => []) nb W So Sp (fun _ => eq_refl) Nt' nb_inj (EConst (vnat 1)) (fun _ => 1) ir I) as [q [Hq Eq]].
      - intros y _. cbn [eval_expr]. rewrite vnat_eq. reflexivity.
      - exists q. split; [exact Hq|]. rewrite Eq, qsum_const, Qmult_1_r. reflexivity.
    Qed.

    (* ---- step 3: the mean of those numbers over the tie group *)
    Definition w3 : window := mkwin (pb ++ ob) [] [].
    Definition e3 : expr := EOp "mean" [ECol rank].
    Definition v3 (ir : nat * list val) : val :=
      agg_fn fl "mean" (map (fun y => eval_expr fl cs2 (snd y) (ECol rank)) (wpart cs2 w3 (rows t2) (key_of cs2 (pb ++ ob) (F2 ir)))).

    Lemma step3 : sem_wextend fl [(rank, e3)] w3 t2 = mktable cs2 (map (fun ir => F1 ir ++ [v3 ir]) U).
    Proof. rewrite wextend1. cbn [cols rows t2].
      assert (In rank cs2) as Ir by (unfold cs2; apply in_or_app; right; left; reflexivity).
      rewrite (add_end_old cs2 rank Ir). f_equal. unfold U at 1. rewrite tag_from_map_tag, map_map. apply map_ext_in. intros ir I. cbn [fst snd w_part w3].
      assert (In (fst ir, F2 ir) (tag_from 0 (rows t2))) as I2
        by (cbn [rows t2]; unfold U; rewrite tag_from_map_tag; apply in_map_iff; exists ir; split; [reflexivity|exact I]).
      pose proof (mean_value fl (pb ++ ob) t2 (ECol rank) (fst ir, F2 ir) I2) as MV. cbn [cols rows t2 fst snd] in MV. unfold e3, w3. rewrite MV.
      unfold F2 at 1, cs2 at 1. rewrite (set_cell_snoc cs1 (F1 ir) rank _ _ rank_notin_cs1 (F1_len ir I)). reflexivity. Qed.

    (* ---- step 4: drop the tie breaker *)
    Lemma step4 : sem_drop_cols [tb] (mktable cs2 (map (fun ir => F1 ir ++ [v3 ir]) U)) = mktable (cs ++ [rank]) (map (fun ir => snd ir ++ [v3 ir]) U).
    Proof. destruct rank_facts as (Nr & Nt & Nrt & _ & _ & ND & _).
      unfold sem_drop_cols, sem_select_cols. cbn [cols rows].
      unfold cs2, cs1. rewrite (drop_mid_cols cs tb rank Nt Nrt). f_equal. rewrite map_map. apply map_ext_in. intros ir I.
      unfold F1. rewrite <- (app_assoc (snd ir)). apply drop_mid_row; [exact ND|exact Nr|exact Nrt|apply U_row, I].
    Qed.

    (* ---- the value is the documented one *)
    Lemma sp_cong x y z : sp x y = true -> sp y z = sp x z.
    Proof. unfold sp, in_part, same_part. intros E. symmetry. apply keys_eqv_cong_l, E. Qed.

    Lemma v3_spec ir : In ir U -> v3 ir = rank_avg_value fl cs pb ob rs (snd ir).
    Proof. intros I. destruct rank_facts as (_ & _ & _ & So & Sp & _).
      set (g := fun y : nat * list val => sp ir y && tied fl cs ob (snd y) (snd ir)).
      set (Gf := filter g U).
      assert (forall y, In y U -> List.length (F1 y) = List.length cs1) as L1 by (intros; apply F1_len; assumption).
      (* the tie group, as the window of step 3 sees it *)
      assert (wpart cs2 w3 (rows t2) (key_of cs2 (pb ++ ob) (F2 ir)) = map (fun y => (fst y, F2 y)) Gf) as WP.
      { unfold wpart. cbn [rows t2 w_part w3]. unfold U at 1. rewrite tag_from_map_tag, filter_map_comm. f_equal. apply filter_ext_in. intros y Iy. cbn [snd].
        assert (forall z, In z U -> key_of cs2 (pb ++ ob) (F2 z) = key_of cs pb (snd z) ++ key_of cs ob (snd z)) as K.
        { intros z Iz. rewrite <- key_of_app. unfold key_of. apply map_ext_in. intros c Ic. unfold cs2, F2.
          assert (In c cs) as Icc by (apply in_app_or in Ic as [Ic|Ic]; auto).
          rewrite get_app_l; [apply F1_get_old; assumption| unfold cs1; apply in_or_app; left; exact Icc | apply L1, Iz]. }
        rewrite !K by assumption. rewrite keys_eqv_app by (unfold key_of; rewrite !map_length; reflexivity).
        unfold g, sp, in_part, same_part. f_equal. rewrite tied_keys_eqv. apply keys_eqv_sym. }
      assert (In ir Gf) as IG.
      { apply filter_In. split; [exact I|]. unfold g, sp, in_part, same_part, tied. rewrite keys_eqv_refl, row_le_refl. reflexivity. }
      unfold v3. rewrite WP, map_map. cbn [snd eval_expr].
      assert (forall y, In y Gf -> get cs2 (F2 y) rank = rk2 y) as GR.
      { intros y Iy. apply filter_In in Iy as [Iy _]. unfold cs2, F2. rewrite (get_app_r cs1 _ _ _ rank rank_notin_cs1 (L1 y Iy)). apply get_head. }
      rewrite (map_ext_in _ rk2 Gf GR).
      rewrite (mean_of_nats fl rk2 N2 Gf); [|intros E; rewrite E in IG; destruct IG|intros y Iy; apply rk2_val; apply filter_In in Iy as [Iy _]; exact Iy].
      (* the counts *)
      set (r := snd ir).
      set (L := List.length (filter (fun r' => before fl cs ob r' r) (filter (same_part cs pb r) rs))).
      set (T := List.length (filter (fun r' => tied fl cs ob r' r) (filter (same_part cs pb r) rs))).
      assert (List.length Gf = T) as ET.
      { unfold T, Gf, g. rewrite filter_filter. unfold U. rewrite <- (filter_snd_length (fun r' => same_part cs pb r r' && tied fl cs ob r' r) rs 0). reflexivity. }
      assert (forall y, In y Gf -> N2 y = (L + List.length (filter (fun z => Nat.leb (nb (fst z)) (nb (fst y))) Gf))%nat) as EN.
      { intros y Iy. apply filter_In in Iy as [Iy Gy]. unfold g in Gy. apply andb_true_iff in Gy as [Sy Ty].
        unfold N2.
        rewrite (filter_ext_in _ (fun z => (sp ir z && before fl cs ob (snd z) r) || (g z && Nat.leb (nb (fst z)) (nb (fst y)))) U).
        - rewrite filter_length_or.
          + f_equal.
            * unfold L. rewrite filter_filter. unfold U. rewrite <- (filter_snd_length (fun r' => same_part cs pb r r' && before fl cs ob r' r) rs 0). reflexivity.
            * unfold Gf. rewrite filter_filter. reflexivity.
          + intros z _. unfold g, before, tied. fold r. destruct (sp ir z); [|reflexivity]. cbn [andb].
            destruct (row_le fl cs (okeys ob) (snd z) r); [|reflexivity]. cbn [andb].
            destruct (row_le fl cs (okeys ob) r (snd z)); reflexivity.
        - intros z Iz. rewrite (sp_cong ir y z Sy). unfold le12, tb_le, ob_le, g, before, tied. fold r.
          rewrite (tied_le_l fl cs ob r (snd y) (snd z) Ty), (tied_le_r fl cs ob r (snd y) (snd z) Ty).
          destruct (sp ir z); [|reflexivity]. cbn [andb].
          destruct (row_le fl cs (okeys ob) (snd z) r); [|reflexivity]. cbn [andb].
          destruct (row_le fl cs (okeys ob) r (snd z)); reflexivity. }
      rewrite (map_ext_in N2 _ Gf EN), list_sum_add_const, ET.
      assert (NoDup (map (fun z : nat * list val => nb (fst z)) Gf)) as NDG.
      { apply NoDup_map_inj_on; [apply NoDup_filter, tag_from_NoDup|].
        intros a b Ia Ib. apply filter_In in Ia as [Ia _]. apply filter_In in Ib as [Ib _]. apply (tag_same_nb rs nb a b nb_inj Ia Ib). }
      pose proof (count_le_sum (fun z : nat * list val => nb (fst z)) Gf NDG) as CS. rewrite ET in CS.
      pose proof (list_sum_seq L T) as SS.
      unfold rank_avg_value. fold r. fold L. fold T. unfold qmean.
      assert (T <> 0)%nat as T0 by (rewrite <- ET; destruct Gf; [destruct IG|discriminate]).
      destruct (map (fun p => inject_Z (Z.of_nat p)) (seq (S L) T)) as [|q0 ql] eqn:EM.
      { destruct T; [congruence|discriminate]. }
      rewrite <- EM. apply qn_ext. rewrite map_length, seq_length.
      rewrite (qsum_inject_nat (fun p => p) (seq (S L) T)), map_id.
      assert (T * L + list_sum (map (fun y => List.length (filter (fun z => Nat.leb (nb (fst z)) (nb (fst y))) Gf)) Gf) = list_sum (seq (S L) T))%nat as EQN by lia.
      rewrite EQN. reflexivity.
    Qed.

    Lemma rank_steps234 :
      sem_drop_cols [tb] (sem_wextend fl [(rank, e3)] w3 (sem_wextend fl [(rank, e2)] w2 t1)) = rank_avg_spec fl ob pb rank t.
    Proof. rewrite step2, step3, step4. unfold rank_avg_spec. fold cs rs. f_equal.
      transitivity (map (fun r => r ++ [rank_avg_value fl cs pb ob rs r]) (map snd U)); [|unfold U; rewrite tag_from_snd; reflexivity].
      rewrite map_map. apply map_ext_in. intros ir I. f_equal. f_equal. apply v3_spec, I. Qed.
  End WithNb.

  Theorem rank_table_correct :
    sem_drop_cols [tb] (sem_wextend fl [(rank, EOp "mean" [ECol rank])] (mkwin (pb ++ ob) [] [])
                         (sem_wextend fl [(rank, EOp "cumsum" [EConst (vnat 1)])] (mkwin pb (ob ++ [tb]) [])
                            (sem_wextend fl [(tb, EOp "_row_number" [])] (mkwin [] ob []) t)))
    = rank_avg_spec fl ob pb rank t.
  Proof. destruct rank_facts as (_ & Nt & _).
    destruct (row_number_value fl ob [] t tb Nt) as [nb [Inj E]]. rewrite E. apply (rank_steps234 nb Inj). Qed.
End Rank.

Theorem rank_to_average_correct (fl : flavor) (d : op) (ob pb : list string) (rank tb : string) (e : env) (t : table) :
  sem_gen fl d e = Some t -> rank_valid ob pb rank tb t = true ->
  exists out, sem_gen fl (rank_to_average_pipeline d ob pb rank tb) e = Some out /\ tbl_equiv out (rank_avg_spec fl ob pb rank t).
Proof. intros Hd V. exists (rank_avg_spec fl ob pb rank t). split; [|split; [reflexivity|apply Permutation_refl]].
  unfold rank_to_average_pipeline. cbn [sem_gen]. rewrite Hd. cbn [option_map]. f_equal. apply rank_table_correct, V. Qed.
