(* C11, part 2: pipeline equality (eop_eqb) is symmetric, reflexive (nan-free trees, or repaired code), and -- given that
   the forgotten fields agree -- implies that every field read by executors and SQL generation is the same (core). *)
From Coq Require Import List Bool QArith String .
Import ListNotations.
From DA Require Import Base.PyRT Base.Val Model.Sem Model.Equiv Proofs.EquivP1 Proofs.ListP.
Local Open Scope list_scope.

Ltac split_andb :=
  repeat match goal with
         | H : _ && _ = true |- _ => apply andb_true_iff in H; destruct H
         end.
Ltac eqb_to_eq :=
  repeat match goal with
         | H : eqb ?x ?y = true |- _ => apply (proj1 (eqb_true x y)) in H
         | H : String.eqb _ _ = true |- _ => apply String.eqb_eq in H
         | H : Bool.eqb _ _ = true |- _ => apply Bool.eqb_prop in H
         end.

Lemma nodupb_NoDup {A} `{EqDec A} (l : list A) : nodupb l = true <-> NoDup l.
Proof. induction l as [|x t IH]; simpl; [split; [constructor|reflexivity]|].
  rewrite andb_true_iff, negb_true_iff, mem_false, IH. split.
  - intros [N1 N2]. constructor; assumption.
  - intros N. inversion N; subst. split; assumption. Qed.

Lemma forallb_same_set {A} (f : A -> bool) l1 l2 : (forall x, In x l1 <-> In x l2) -> forallb f l1 = forallb f l2.
Proof. intros S. destruct (forallb f l1) eqn:E1, (forallb f l2) eqn:E2; try reflexivity.
  - rewrite forallb_forall in E1. apply forallb_false in E2. destruct E2 as [x [I F]]. rewrite E1 in F; [discriminate|]. apply S, I.
  - rewrite forallb_forall in E2. apply forallb_false in E1. destruct E1 as [x [I F]]. rewrite E2 in F; [discriminate|]. apply S, I. Qed.

Lemma subset_refl {A} `{EqDec A} (l : list A) : subset l l = true.
Proof. apply subset_spec. auto. Qed.
Lemma set_eqb_refl {A} `{EqDec A} (l : list A) : set_eqb l l = true.
Proof. unfold set_eqb. rewrite subset_refl. reflexivity. Qed.
Lemma set_eqb_sym {A} `{EqDec A} (a b : list A) : set_eqb a b = set_eqb b a.
Proof. unfold set_eqb. apply andb_comm. Qed.
Lemma set_eqb_spec {A} `{EqDec A} (a b : list A) : set_eqb a b = true <-> (forall x, In x a <-> In x b).
Proof. unfold set_eqb. rewrite andb_true_iff, !subset_spec. split.
  - intros [S1 S2] x. split; auto.
  - intros S. split; intros x; apply S. Qed.

(* ------------------------------------------------------------------ assignment dicts *)
Definition keys_test (q : quirks) (o1 o2 : list (string * pexpr)) : bool :=
  if q_ops_unordered q then set_eqb (map fst o1) (map fst o2) else eqb (map fst o1) (map fst o2).
Lemma ops_eq_unfold q o1 o2 :
  ops_eq q o1 o2 = keys_test q o1 o2 &&
    forallb (fun k => match dict_get o1 k, dict_get o2 k with Some e1, Some e2 => is_equal q e1 e2 | _, _ => false end) (map fst o1).
Proof. reflexivity. Qed.
Lemma keys_test_sym q o1 o2 : keys_test q o1 o2 = keys_test q o2 o1.
Proof. unfold keys_test. destruct (q_ops_unordered q); [apply set_eqb_sym|apply eqb_sym]. Qed.
Lemma keys_test_set q o1 o2 : keys_test q o1 o2 = true -> forall k, In k (map fst o1) <-> In k (map fst o2).
Proof. unfold keys_test. destruct (q_ops_unordered q); intros E.
  - apply set_eqb_spec, E.
  - apply (proj1 (eqb_true _ _)) in E. rewrite E. tauto. Qed.

Lemma ops_eq_sym q o1 o2 : ops_eq q o1 o2 = ops_eq q o2 o1.
Proof. rewrite !ops_eq_unfold, (keys_test_sym q o2 o1). destruct (keys_test q o1 o2) eqn:K; [|reflexivity]. simpl.
  rewrite (forallb_same_set _ (map fst o1) (map fst o2)) by (apply keys_test_set with (q := q), K).
  apply forallb_ext_in. intros k _. destruct (dict_get o1 k), (dict_get o2 k); try reflexivity. apply is_equal_sym. Qed.

Lemma ops_eq_refl q o : (nan_matters q = true -> forallb (fun ke => expr_nan_free (snd ke)) o = true) -> ops_eq q o o = true.
Proof. intros N. rewrite ops_eq_unfold. apply andb_true_iff. split.
  - unfold keys_test. destruct (q_ops_unordered q); [apply set_eqb_refl|apply eqb_refl].
  - apply forallb_forall. intros k Hk. destruct (dict_get o k) as [e|] eqn:G.
    + apply is_equal_refl. intros Q. specialize (N Q). rewrite forallb_forall in N.
      apply (N (k, e)). apply dict_get_In, G.
    + apply dict_get_None in G. contradiction. Qed.

(* with equal key lists and unique keys, the key-wise loop is a position-wise comparison *)
Lemma keywise_pointwise (f : pexpr -> pexpr -> bool) (d : bool) (o1 : list (string * pexpr)) : forall o2,
  map fst o1 = map fst o2 -> NoDup (map fst o1) ->
  forallb (fun k => match dict_get o1 k, dict_get o2 k with Some e1, Some e2 => f e1 e2 | _, _ => d end) (map fst o1) = true ->
  Forall2 (fun x y => fst x = fst y /\ f (snd x) (snd y) = true) o1 o2.
Proof. induction o1 as [|[k e1] t IH]; intros [|[k' e2] u] K N F; simpl in *; try discriminate; [constructor|].
  inversion K; subst k'. inversion N as [|? ? Nk Nt]; subst.
  apply andb_true_iff in F. destruct F as [F1 F2].
  destruct (eq_dec k k) as [_|C]; [|congruence]. constructor; [split; [reflexivity|exact F1]|].
  apply IH; [assumption|assumption|]. rewrite forallb_forall in F2 |- *. intros x Hx. specialize (F2 x Hx).
  destruct (eq_dec x k) as [->|_]; [contradiction|exact F2]. Qed.

Lemma ops_same_core q o1 o2 : NoDup (map fst o1) -> ops_eq q o1 o2 = true -> agree_ops q o1 o2 = true -> core_ops o1 = core_ops o2.
Proof. intros N E G. rewrite ops_eq_unfold in E. unfold agree_ops in G. split_andb.
  assert (map fst o1 = map fst o2) as K.
  { unfold keys_test in *. destruct (q_ops_unordered q); eqb_to_eq; assumption. }
  pose proof (keywise_pointwise (is_equal q) false o1 o2 K N ltac:(assumption)) as P1.
  pose proof (keywise_pointwise (agree_expr q) true o1 o2 K N ltac:(assumption)) as P2.
  clear - P1 P2. unfold core_ops. induction P1 as [|[k e1] [k' e2] t u [Hk He] _ IH]; [reflexivity|].
  inversion P2 as [|? ? ? ? [_ Ha] P2t]; subst. simpl in *. subst k'.
  rewrite (is_equal_core q e1 e2 He Ha), (IH P2t). reflexivity. Qed.

(* ------------------------------------------------------------------ rename maps *)
Lemma smap_eq_sym q m1 m2 : smap_eq q m1 m2 = smap_eq q m2 m1.
Proof. unfold smap_eq. destruct (q_maps_unordered q); [|apply eqb_sym].
  rewrite (set_eqb_sym (map fst m2)). destruct (set_eqb (map fst m1) (map fst m2)) eqn:K; [|reflexivity]. simpl.
  rewrite (forallb_same_set _ (map fst m1) (map fst m2)) by (apply set_eqb_spec, K).
  apply forallb_ext_in. intros k _. apply eqb_sym. Qed.
Lemma smap_eq_refl q m : smap_eq q m m = true.
Proof. unfold smap_eq. destruct (q_maps_unordered q); [|apply eqb_refl]. rewrite set_eqb_refl. simpl.
  apply forallb_forall. intros k _. apply eqb_refl. Qed.
(* equal maps have the same lookups *)
Lemma smap_eq_lookups q m1 m2 : smap_eq q m1 m2 = true -> forall k, dict_get m1 k = dict_get m2 k.
Proof. unfold smap_eq. destruct (q_maps_unordered q); intros E k; [|rewrite (proj1 (eqb_true _ _) E); reflexivity].
  apply andb_true_iff in E. destruct E as [K F]. pose proof (proj1 (set_eqb_spec _ _) K k) as KS.
  destruct (in_dec eq_dec k (map fst m1)) as [I|NI].
  - rewrite forallb_forall in F. exact (proj1 (eqb_true _ _) (F k I)).
  - assert (~ In k (map fst m2)) as NI2 by (intros I2; apply NI, KS, I2).
    apply dict_get_None in NI. apply dict_get_None in NI2. congruence. Qed.
Lemma smap_same q m1 m2 : smap_eq q m1 m2 = true -> (if q_maps_unordered q then eqb m1 m2 else true) = true -> m1 = m2.
Proof. unfold smap_eq. destruct (q_maps_unordered q); intros E G; [exact (proj1 (eqb_true _ _) G)|exact (proj1 (eqb_true _ _) E)]. Qed.

(* ------------------------------------------------------------------ record maps *)
Lemma opt_recspec_eqb_sym a b : opt_recspec_eqb a b = opt_recspec_eqb b a.
Proof. destruct a, b; simpl; try reflexivity. apply eqb_sym. Qed.
Lemma opt_recspec_eqb_eq a b : opt_recspec_eqb a b = true <-> a = b.
Proof. destruct a, b; simpl; split; intros E; try discriminate; try reflexivity.
  - apply (proj1 (eqb_true _ _)) in E. congruence.
  - inversion E. apply eqb_refl. Qed.
Lemma recmap_eqb_sym q a b : recmap_eqb q a b = recmap_eqb q b a.
Proof. unfold recmap_eqb. destruct a as [ia oa sa], b as [ib ob sb]; simpl.
  destruct ia as [x|], ib as [y|], oa as [u|], ob as [v|]; simpl; try reflexivity; unfold recspec_eqb;
    rewrite ?(eqb_sym y x), ?(eqb_sym v u); try reflexivity;
    destruct (q_recmap_out_skipped q); simpl; rewrite ?(eqb_sym v u); reflexivity. Qed.
Lemma recmap_eqb_refl q a : recmap_eqb q a a = true.
Proof. unfold recmap_eqb. destruct a as [ia oa sa]; simpl. rewrite !Bool.eqb_reflx. simpl.
  assert (forall o, opt_recspec_eqb o o = true) as R by (intros o; apply opt_recspec_eqb_eq; reflexivity).
  destruct ia as [x|]; simpl; unfold recspec_eqb; rewrite ?eqb_refl, ?R; simpl; try reflexivity;
    destruct (q_recmap_out_skipped q); rewrite ?R; reflexivity. Qed.
Lemma recmap_same_core q a b : recmap_eqb q a b = true -> agree_recmap q a b = true -> core_recmap a = core_recmap b.
Proof. unfold recmap_eqb, agree_recmap, core_recmap. destruct a as [ia oa sa], b as [ib ob sb]; simpl. intros E G. split_andb.
  destruct ia as [x|].
  - repeat match goal with H : opt_recspec_eqb _ _ = true |- _ => apply opt_recspec_eqb_eq in H end. congruence.
  - destruct ib; [discriminate|]. destruct (q_recmap_out_skipped q).
    + apply (proj1 (eqb_true _ _)) in G. congruence.
    + repeat match goal with H : opt_recspec_eqb _ _ = true |- _ => apply opt_recspec_eqb_eq in H end. congruence. Qed.

(* ------------------------------------------------------------------ symmetric *)
Lemma Bool_eqb_sym a b : Bool.eqb a b = Bool.eqb b a.
Proof. destruct a, b; reflexivity. Qed.

(* a conjunction of comparisons against the same conjunction with the arguments swapped: comparison by comparison *)
Ltac andb_congr := repeat match goal with |- _ && _ = _ && _ => apply (f_equal2 andb) end.

Lemma eop_eqb_sym q a : forall b, eop_eqb q a b = eop_eqb q b a.
Proof. induction a; intros b; destruct b; try reflexivity; cbn [eop_eqb].
  1: { rewrite (String.eqb_sym name), (eqb_sym tcols), (eqb_sym quals). reflexivity. }
  (* the same node class on both sides: every field comparison is symmetric, the sources by induction *)
  all: andb_congr; try apply eqb_sym; auto using String.eqb_sym, Bool_eqb_sym, ops_eq_sym, is_equal_sym, smap_eq_sym, recmap_eqb_sym. Qed.

(* ------------------------------------------------------------------ reflexive *)
Lemma guarded_andb (P : Prop) a b : (P -> a && b = true) -> (P -> a = true) /\ (P -> b = true).
Proof. intros H. split; intros p; destruct (andb_prop _ _ (H p)); assumption. Qed.

Lemma eop_eqb_refl q a : (nan_matters q = true -> nan_free a = true) -> eop_eqb q a a = true.
Proof. induction a; intros N; cbn [eop_eqb nan_free] in *;
    rewrite ?eqb_refl, ?String.eqb_refl, ?Bool.eqb_reflx, ?smap_eq_refl, ?recmap_eqb_refl; cbn [andb]; auto.
  1: { destruct (q_table_key_only q); reflexivity. }
  (* left: the nodes with expressions or two sources; each part is nan-free where the node is *)
  all: destruct (guarded_andb _ _ _ N) as [N1 N2].
  - rewrite (ops_eq_refl _ _ N1), (IHa N2). reflexivity.
  - rewrite (ops_eq_refl _ _ N1), (IHa N2). reflexivity.
  - rewrite (is_equal_refl _ _ N1), (IHa N2). reflexivity.
  - rewrite (IHa1 N1), (IHa2 N2). reflexivity.
  - rewrite (IHa1 N1), (IHa2 N2). reflexivity. Qed.

(* ------------------------------------------------------------------ same fields *)
Ltac nodups := repeat match goal with H : nodupb _ = true |- _ => apply nodupb_NoDup in H end.

Lemma eop_same_core q a : forall b, wfb a = true -> eop_eqb q a b = true -> agree q a b = true -> core a = core b.
Proof. induction a; intros b; destruct b; intros W E; try discriminate E; intros G; cbn [eop_eqb agree wfb core] in W, E, G |- *.
  1: { destruct (q_table_key_only q); split_andb; eqb_to_eq; subst; reflexivity. }
  (* the same node class: the compared fields are equal, and the sources have the same core by induction *)
  all: split_andb; eqb_to_eq; subst; f_equal; auto.
  (* left: assignments (extend, project), the row filter, rename maps (rename, map_columns), the record map *)
  - nodups. eapply ops_same_core; eassumption.
  - nodups. eapply ops_same_core; eassumption.
  - eapply is_equal_core; eassumption.
  - eapply smap_same; eassumption.
  - eapply smap_same; eassumption.
  - eapply recmap_same_core; eassumption. Qed.

(* with the repaired flags nothing is forgotten: the guard is vacuous *)
Lemma agree_ops_fixed o1 o2 : agree_ops q_fixed o1 o2 = true.
Proof. unfold agree_ops. simpl. apply forallb_forall. intros k _.
  destruct (dict_get o1 k), (dict_get o2 k); try reflexivity. apply agree_expr_fixed. Qed.
Lemma agree_fixed a : forall b, agree q_fixed a b = true.
Proof. induction a; intros b; destruct b; try reflexivity; cbn [agree q_maps_unordered q_table_key_only q_fixed];
    rewrite ?agree_ops_fixed, ?agree_expr_fixed, ?IHa, ?IHa1, ?IHa2; reflexivity. Qed.

Lemma eop_same_core_fixed a b : wfb a = true -> eop_eqb q_fixed a b = true -> core a = core b.
Proof. intros W E. apply (eop_same_core q_fixed a b W E). apply agree_fixed. Qed.
