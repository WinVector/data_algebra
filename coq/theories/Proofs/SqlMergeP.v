(* The SQL-level extend merge is an optimisation only: whenever the code's test passes (sql_merge = MYes m), the ONE merged
   SELECT denotes, column for column, what the extend's SELECT over the sub-query's SELECT denotes. *)
From Coq Require Import List Bool String .
Import ListNotations.
From DA Require Import Base.PyRT Model.NearSql Model.SqlMerge.

Lemma dict_get_fold_set {V} (g : string -> V) ks : forall (d : pydict string V) c,
  dict_get (fold_left (fun acc k => dict_set acc k (g k)) ks d) c = if mem c ks then Some (g c) else dict_get d c.
Proof. induction ks as [|k t IH]; intros d c; simpl; [reflexivity|].
  rewrite IH. destruct (eq_dec c k) as [->|n].
  - destruct (mem k t); [reflexivity|apply dict_get_set_same].
  - destruct (mem c t); [reflexivity|apply dict_get_set_other, n]. Qed.

Lemma dict_get_filter_keys {V} (p : string -> bool) (d : pydict string V) c :
  dict_get (filter (fun kv => p (fst kv)) d) c = if p c then dict_get d c else None.
Proof. induction d as [|[k v] t IH]; simpl; [destruct (p c); reflexivity|].
  destruct (p k) eqn:Pk; simpl.
  - destruct (eq_dec c k) as [->|n]; [rewrite Pk; reflexivity|exact IH].
  - rewrite IH. destruct (eq_dec c k) as [->|n]; [rewrite Pk; reflexivity|reflexivity]. Qed.

(* a term that is the column itself *)
Definition triv (tms : terms) (k : string) : Prop :=
  match dict_get tms k with Some (Some e) => String.eqb e k = true | _ => True end.

Lemma non_trivial_cons fl ki vi rest tms nt :
  non_trivial_terms fl ((ki, vi) :: rest) tms = Some nt ->
  exists l, non_trivial_terms fl rest tms = Some l /\ (nt = ki :: l \/ nt = l /\ triv tms ki).
Proof. simpl. unfold triv. destruct (f_merge_skips_missing fl && negb (dict_has tms ki)) eqn:Sk.
  - intros H. exists nt. split; [exact H|right; split; [reflexivity|]].
    apply andb_true_iff in Sk. destruct Sk as [_ Ms]. apply negb_true_iff, dict_has_false, dict_get_None in Ms.
    rewrite Ms. exact I.
  - destruct (non_trivial_terms fl rest tms) as [l|];
      [|destruct (if negb (subset vi [ki]) || negb (mem ki vi) then Some true else _) as [[|]|]; discriminate].
    intros H. exists l. split; [reflexivity|]. destruct (negb (subset vi [ki]) || negb (mem ki vi)).
    + injection H as <-. left; reflexivity.
    + destruct (dict_get tms ki) as [[e|]|]; try discriminate H; [destruct (String.eqb e ki)|]; injection H as <-; auto.
Qed.

Lemma non_trivial_in fl dep tms nt : non_trivial_terms fl dep tms = Some nt -> forall k, In k nt -> In k (map fst dep).
Proof. revert nt. induction dep as [|[ki vi] rest IH]; intros nt H k I.
  - injection H as <-. contradiction.
  - destruct (non_trivial_cons _ _ _ _ _ _ H) as (l & El & [->|[-> _]]); simpl.
    + destruct I as [<-|I]; [left; reflexivity|right; exact (IH l El k I)].
    + right. exact (IH l El k I). Qed.

Lemma non_trivial_out fl dep tms nt : non_trivial_terms fl dep tms = Some nt -> NoDup (map fst dep) ->
  forall k, In k (map fst dep) -> ~ In k nt -> triv tms k.
Proof. revert nt. induction dep as [|[ki vi] rest IH]; intros nt H N k I NI; [contradiction|].
  apply NoDup_cons_iff in N. destruct N as [_ N].
  destruct (non_trivial_cons _ _ _ _ _ _ H) as (l & El & [->|[-> Tk]]); destruct I as [<-|I].
  - exfalso. apply NI. left; reflexivity.
  - apply (IH l El N k I). intros J. apply NI. right; exact J.
  - exact Tk.
  - exact (IH l El N k I NI).
Qed.

(* the declared dependencies of an assigned column contain the columns its expression mentions AND the window's partition
   and order columns: what `deps_describe` needs of a windowed term, whose text reads them in its OVER clause *)
Lemma declared_deps_cover demand subops partition order k cols :
  dict_get subops k = Some cols ->
  forall c, In c (cols ++ partition ++ order) -> In c (deps_of (declared_deps demand subops partition order) k).
Proof.
  intros G c I. unfold deps_of, declared_deps. rewrite dict_get_app.
  assert (dict_get (map (fun k0 : string => (k0, [k0])) (filter (fun k0 => negb (mem k0 (map fst subops))) demand)) k = None) as ->.
  { apply dict_get_None. unfold dict_keys. rewrite map_map. simpl. rewrite map_id. intros J. apply filter_In in J.
    destruct J as [_ J]. apply negb_true_iff, mem_false in J. apply J. eapply dict_get_Some_keys. exact G. }
  rewrite (dict_get_map_val (fun e => e ++ partition ++ order)), G. simpl. exact I.
Qed.

Section P.
Variable V : Type.
Variable tsem : string -> (string -> option V) -> option V.
Notation term_val := (term_val tsem).
Notation select := (select tsem).

Lemma triv_val tms k (f : cframe V) : triv tms k -> term_val tms k f = f k.
Proof. unfold triv, SqlMerge.term_val. destruct (dict_get tms k) as [[e|]|]; try reflexivity. intros ->. reflexivity. Qed.

Theorem sql_merge_preserves fl n ts s ci sfx an ds k tms deps anno okey m (cols_i : list string) :
  sql_merge fl (NUnary n (Some ts) s ci sfx an true (Some ds) k) tms deps anno okey = MYes m ->
  NoDup (map fst deps) -> NoDup (map fst ds) ->
  (forall c, In c (map fst tms) -> In c (map fst deps)) ->          (* every term of the extend has a dependency entry *)
  (forall c, In c (map fst ts) -> In c (map fst ds)) ->              (* so has every term of the sub-query *)
  deps_describe tsem tms deps ->                                     (* the declared dependencies describe the extend's expressions *)
  (forall c, In c (map fst tms) -> triv tms c -> In c cols_i) ->     (* the sub-query is asked for the columns passed through ... *)
  (forall c d, In c (map fst tms) -> In d (deps_of deps c) -> In d cols_i) ->   (* ... and for the columns the expressions read *)
  exists tm dm an' k', m = NUnary n (Some tm) s ci [] an' true (Some dm) k' /\
    forall (f : cframe V) c, In c (map fst tms) -> term_val tm c f = term_val tms c (select ts cols_i f).
Proof.
  intros H Nd Nds Kd Ks DD Cv1 Cv2. unfold sql_merge in H.
  destruct sfx as [|x sfx']; [|discriminate].
  destruct (non_trivial_terms fl deps tms) as [our_nt|] eqn:Eo; [|discriminate].
  destruct (non_trivial_terms fl ds ts) as [sub_nt|] eqn:Es; [|discriminate].
  destruct (contention our_nt (needs deps our_nt) sub_nt (needs ds sub_nt)) as [|y l] eqn:Ec; [|discriminate].
  destruct (negb (forallb (fun k0 => dict_has tms k0) our_nt)) eqn:Ef; [discriminate|].
  injection H as <-. do 4 eexists. split; [reflexivity|].
  unfold contention in Ec. apply app_eq_nil in Ec. destruct Ec as [C1 Ec]. apply app_eq_nil in Ec. destruct Ec as [_ C3].
  assert (forall x, In x our_nt -> ~ In x sub_nt) as D1.
  { intros x I J. assert (In x (set_inter our_nt sub_nt)) as K by (apply In_set_inter; tauto). rewrite C1 in K. contradiction. }
  assert (forall x, In x sub_nt -> ~ In x (needs deps our_nt)) as D3.
  { intros x I J. assert (In x (set_inter sub_nt (needs deps our_nt))) as K by (apply In_set_inter; tauto). rewrite C3 in K. contradiction. }
  (* a column that is not a non-trivial term of the sub-query passes through it *)
  assert (forall d, ~ In d sub_nt -> triv ts d) as Tsub.
  { intros d Nd'. destruct (in_dec string_dec d (map fst ds)) as [I|I].
    - eapply non_trivial_out; eassumption.
    - unfold triv. assert (dict_get ts d = None) as -> by (apply dict_get_None; intros J; apply I, Ks, J). exact Logic.I. }
  intros f c Ic.
  assert (dict_get (merged_terms our_nt tms deps ts) c = if mem c our_nt then Some (oget tms c) else dict_get ts c) as Gm.
  { unfold merged_terms. rewrite (dict_get_filter_keys (fun x => mem x (map fst tms ++ map fst deps))).
    assert (mem c (map fst tms ++ map fst deps) = true) as -> by (apply mem_In, in_app_iff; left; exact Ic).
    apply dict_get_fold_set. }
  destruct (mem c our_nt) eqn:Mc.
  - (* one of the extend's own (non-trivial) terms: it now reads the sub-query's input directly *)
    apply mem_In in Mc.
    assert (SqlMerge.term_val tsem (merged_terms our_nt tms deps ts) c f = term_val tms c f) as ->.
    { unfold SqlMerge.term_val at 1 2. rewrite Gm. unfold oget. destruct (dict_get tms c) as [v|] eqn:G; [reflexivity|].
      apply dict_get_None in G. contradiction. }
    assert (forall d, In d (deps_of deps c) -> f d = select ts cols_i f d) as Agree.
    { intros d Id. unfold SqlMerge.select. assert (mem d cols_i = true) as -> by (apply mem_In; eapply Cv2; eassumption).
      symmetry. apply triv_val, Tsub. intros J. apply (D3 d J). unfold needs. apply in_flat_map. exists c. tauto. }
    unfold SqlMerge.term_val. destruct (dict_get tms c) as [[e|]|] eqn:G.
    + destruct (String.eqb e c) eqn:Ee.
      * unfold SqlMerge.select. assert (mem c cols_i = true) as ->.
        { apply mem_In, Cv1; [exact Ic|]. unfold triv. rewrite G. exact Ee. }
        symmetry. apply triv_val, Tsub, D1, Mc.
      * apply (DD c e G Ee). exact Agree.
    + unfold SqlMerge.select. assert (mem c cols_i = true) as ->.
      { apply mem_In, Cv1; [exact Ic|]. unfold triv. rewrite G. exact Logic.I. }
      symmetry. apply triv_val, Tsub, D1, Mc.
    + apply dict_get_None in G. contradiction.
  - (* a column the extend passes through: the merged SELECT keeps the sub-query's own term for it *)
    apply mem_false in Mc.
    assert (triv tms c) as Tc by (eapply non_trivial_out; try eassumption; apply Kd, Ic).
    rewrite (triv_val tms c _ Tc). unfold SqlMerge.select.
    assert (mem c cols_i = true) as -> by (apply mem_In, Cv1; assumption).
    unfold SqlMerge.term_val. rewrite Gm. reflexivity.
Qed.

(* which key the merged step carries: the inner one as the code stands, the outer one once repaired *)
Lemma sql_merge_key fl sub tms deps anno okey m :
  sql_merge fl sub tms deps anno okey = MYes m -> ops_key m = if f_merge_rekeys fl then okey else ops_key sub.
Proof. unfold sql_merge. destruct sub; try discriminate. destruct mergeable; try discriminate. destruct deps0; try discriminate.
  destruct sfx; try discriminate. destruct tms0; try discriminate.
  destruct (non_trivial_terms fl deps tms); try discriminate. destruct (non_trivial_terms fl d t); try discriminate.
  destruct (contention _ _ _ _); try discriminate. destruct (negb _); try discriminate.
  intros H. injection H as <-. simpl. reflexivity. Qed.
End P.
