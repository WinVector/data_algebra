(* C03, part 7: the natural_join step of the Polars executor model (inner / left / full with coalesced keys, the right
   join simulated by a left join with the operands swapped, suffixed right columns, left-first coalescing of shared
   columns, final select) against sem_join with SQL key matching, on the same operands, up to the order of the rows. *)
From Coq Require Import List Bool QArith String Permutation.
Import ListNotations.
From DA Require Import Base.PyRT Base.PyStr Base.Val Model.Sem Model.PolarsExec Proofs.SemOrderP Proofs.SemBasicP
  Proofs.PolarsP1 Proofs.PolarsP2 Proofs.PolarsP3 Proofs.PolarsP4 Proofs.PolarsP5 Proofs.ListP Proofs.TabP.
Local Open Scope string_scope.
Local Open Scope list_scope.

(* ------------------------------------------------------------------ cells of concatenated rows *)
Lemma get_map_map {A} (f : A -> string) (g : A -> val) l c : NoDup (map f l) -> In c l -> get (map f l) (map g l) (f c) = g c.
Proof.
  intros N I. induction l as [|x t IH]; [destruct I|]. simpl in N. inversion N as [|? ? Hx Nt]; subst.
  unfold get. simpl. destruct (eq_dec (f c) (f x)) as [E|n].
  - destruct I as [->|I]; [reflexivity|]. exfalso. apply Hx. rewrite <- E. apply in_map. exact I.
  - destruct I as [->|I]; [congruence|]. specialize (IH Nt I). unfold get in IH.
    destruct (index_of (f c) (map f t)); simpl; exact IH.
Qed.
Lemma ext_cols_present cs ks : (forall k, In k ks -> In k cs) -> ext_cols cs ks = cs.
Proof.
  unfold ext_cols. induction ks as [|k t IH]; simpl; intros H; [reflexivity|].
  unfold add_end at 2. assert (mem k cs = true) as M by (apply mem_In, H; left; reflexivity). rewrite M.
  apply IH. intros k0 I. apply H. right. exact I.
Qed.
Lemma NoDup_app_notin {A} (l1 l2 : list A) x : NoDup (l1 ++ l2) -> In x l2 -> ~ In x l1.
Proof.
  induction l1 as [|a t IH]; simpl; intros N I; [tauto|]. inversion N as [|? ? Ha Nt]; subst.
  intros [->|I1]; [apply Ha, in_or_app; right; exact I|]. exact (IH Nt I I1).
Qed.

Lemma filter_self_notin (l : list string) : filter (fun c => negb (mem c l)) l = [].
Proof.
  assert (forall m, (forall c, In c m -> In c l) -> filter (fun c => negb (mem c l)) m = []) as G.
  { induction m as [|x t IH]; simpl; intros H; [reflexivity|].
    assert (mem x l = true) as M by (apply mem_In, H; left; reflexivity). rewrite M. simpl. apply IH. intros c I. apply H. right. exact I. }
  apply G. auto.
Qed.

Lemma keys_match_nonnull kb c cs on r : keys_match false (key_of cs on r) kb = true -> In c on -> is_null (get cs r c) = false.
Proof.
  unfold keys_match. simpl. intros H I. apply andb_true_iff in H. destruct H as [H _]. apply negb_true_iff in H.
  destruct (is_null (get cs r c)) eqn:E; [|reflexivity].
  assert (existsb is_null (key_of cs on r) = true); [|congruence].
  apply existsb_exists. exists (get cs r c). split; [unfold key_of; apply in_map; exact I|exact E].
Qed.

Lemma index_of_nth c on i : index_of c on = Some i -> nth i on "" = c.
Proof. intros E. apply nth_error_nth. apply index_of_nth_error. exact E. Qed.

Lemma pl_when_bool b x y : pl_when (VBool b) x y = if b then x else y.
Proof. reflexivity. Qed.

(* rows of a with_columns whose expressions only read the row itself *)
Lemma rows_select_with_columns declared r xs (cell : list val -> string -> val) :
  (forall i row c, nth_error (rows r) i = Some row -> In c declared ->
     get (ext_cols (cols r) (map fst xs)) (wc_row r xs (i, row)) c = cell row c) ->
  rows (sem_select_cols declared (with_columns_if r xs)) = map (fun row => map (cell row) declared) (rows r).
Proof.
  intros H. destruct xs as [|kx tl].
  - cbn [with_columns_if]. rewrite rows_select. apply map_ext_in. intros row I. apply map_ext_in. intros c Ic.
    destruct (In_nth_error _ _ I) as [i N]. rewrite <- (H i row c N Ic).
    unfold wc_row, ext_cols. reflexivity.
  - cbn [with_columns_if]. rewrite rows_select, rows_with_columns, map_map. apply map_tag_from_rowwise.
    intros i row N. apply map_ext_in. intros c Ic. rewrite cols_with_columns. apply H; assumption.
Qed.

(* matched pairs, then (keepl) the left rows without a partner, then (keepr) the right rows without one; mk builds the
   output row from the two sides *)
Definition join_rows (matchp : list val -> list val -> bool) (mk : option (list val) -> option (list val) -> list val)
    (la lb : list (list val)) (keepl keepr : bool) : list (list val) :=
  flat_map (fun ra => flat_map (fun rb => if matchp ra rb then [mk (Some ra) (Some rb)] else []) lb) la ++
  (if keepl then flat_map (fun ra => if existsb (matchp ra) lb then [] else [mk (Some ra) None]) la else []) ++
  (if keepr then flat_map (fun rb => if existsb (fun ra => matchp ra rb) la then [] else [mk None (Some rb)]) lb else []).

Definition from (l : list (list val)) (o : option (list val)) : Prop := match o with Some r => In r l | None => True end.

Lemma join_rows_In matchp mk la lb kl kr x : In x (join_rows matchp mk la lb kl kr) ->
  exists oa ob, from la oa /\ from lb ob /\ x = mk oa ob.
Proof.
  unfold join_rows. rewrite !in_app_iff. intros [I|[I|I]].
  - apply in_flat_map in I. destruct I as [ra [Ia I]]. apply in_flat_map in I. destruct I as [rb [Ib I]].
    destruct (matchp ra rb); [|destruct I]. destruct I as [<-|[]]. exists (Some ra), (Some rb). auto.
  - destruct kl; [|destruct I]. apply in_flat_map in I. destruct I as [ra [Ia I]].
    destruct (existsb _ lb); [destruct I|]. destruct I as [<-|[]]. exists (Some ra), None. simpl. auto.
  - destruct kr; [|destruct I]. apply in_flat_map in I. destruct I as [rb [Ib I]].
    destruct (existsb _ la); [destruct I|]. destruct I as [<-|[]]. exists None, (Some rb). simpl. auto.
Qed.

Lemma map_join_rows F m m' mk mk' la lb kl kr :
  (forall ra rb, In ra la -> In rb lb -> m ra rb = m' ra rb) -> (forall oa ob, from la oa -> from lb ob -> F (mk oa ob) = mk' oa ob) ->
  map F (join_rows m mk la lb kl kr) = join_rows m' mk' la lb kl kr.
Proof.
  intros M H. unfold join_rows. rewrite !map_app. f_equal; [|f_equal].
  - rewrite map_flat_map. apply flat_map_ext_in. intros ra Ia. rewrite map_flat_map. apply flat_map_ext_in. intros rb Ib.
    rewrite M by assumption. destruct (m' ra rb); [|reflexivity]. cbn [map]. rewrite H by assumption. reflexivity.
  - destruct kl; [|reflexivity]. rewrite map_flat_map. apply flat_map_ext_in. intros ra Ia.
    rewrite (existsb_ext_in _ (m' ra)) by (intros rb Ib; apply M; assumption).
    destruct (existsb _ lb); [reflexivity|]. cbn [map]. rewrite H by (simpl; auto). reflexivity.
  - destruct kr; [|reflexivity]. rewrite map_flat_map. apply flat_map_ext_in. intros rb Ib.
    rewrite (existsb_ext_in _ (fun ra => m' ra rb)) by (intros ra Ia; apply M; assumption).
    destruct (existsb _ la); [reflexivity|]. cbn [map]. rewrite H by (simpl; auto). reflexivity.
Qed.

Lemma join_rows_swap m mk la lb kl kr :
  Permutation (join_rows m mk la lb kl kr) (join_rows (fun rb ra => m ra rb) (fun ob oa => mk oa ob) lb la kr kl).
Proof. unfold join_rows. apply Permutation_app; [apply flat_map_swap|apply Permutation_app_comm]. Qed.

(* a side of an output row of sem_join, and sem_join written with join_rows *)
Definition orow (cs : list string) (o : option (list val)) (c : string) : val :=
  match o with Some r => if mem c cs then get cs r c else VNull | None => VNull end.
Definition coal2 (x y : val) : val := if is_null x then y else x.

Lemma sem_join_rows nm on_a on_b jt a b :
  sem_join nm on_a on_b jt a b =
  mktable (cols a ++ filter (fun c => negb (mem c (cols a))) (cols b))
    (join_rows (fun ra rb => keys_match nm (key_of (cols a) on_a ra) (key_of (cols b) on_b rb))
       (fun oa ob => map (fun c => coal2 (orow (cols a) oa c) (orow (cols b) ob c)) (cols a ++ filter (fun c => negb (mem c (cols a))) (cols b)))
       (rows a) (rows b) (match jt with JLeft | JFull => true | _ => false end) (match jt with JRight | JFull => true | _ => false end)).
Proof. destruct jt; reflexivity. Qed.

(* pandas.merge matches null keys with null keys, SQL and Polars never: without such pairs the two joins coincide *)
Lemma sem_join_nm on_a on_b jt a b :
  (forall ra rb, In ra (rows a) -> In rb (rows b) ->
     keys_match true (key_of (cols a) on_a ra) (key_of (cols b) on_b rb) = keys_match false (key_of (cols a) on_a ra) (key_of (cols b) on_b rb)) ->
  sem_join true on_a on_b jt a b = sem_join false on_a on_b jt a b.
Proof.
  intros H. rewrite !sem_join_rows. f_equal. rewrite <- (map_id (join_rows _ _ _ _ _ _)) at 1.
  apply map_join_rows; [exact H|reflexivity].
Qed.

(* a side of a row of the frame pl_join returns: the row, or nulls *)
Definition full (cs : list string) (o : option (list val)) : list val :=
  match o with Some r => r | None => map (fun _ => VNull) cs end.

Lemma pl_join_ok how l_on r_on S a b r : pl_join how l_on r_on S a b = Ok r ->
  NoDup (cols a ++ map (suffixed (cols a) S) (cols b)) /\
  r = mktable (cols a ++ map (suffixed (cols a) S) (cols b))
        (join_rows (fun ra rb => keys_match false (key_of (cols a) l_on ra) (key_of (cols b) r_on rb))
           (fun oa ob => full (cols a) oa ++ full (cols b) ob) (rows a) (rows b)
           (match how with HInner => false | _ => true end) (match how with HFull => true | _ => false end)).
Proof.
  unfold pl_join. destruct (negb _) eqn:E; [discriminate|]. intros H. inversion H; subst r; clear H. split.
  - apply negb_false_iff in E. repeat (apply andb_true_iff in E; destruct E as [E _]). apply nodupb_NoDup, E.
  - destruct how; reflexivity.
Qed.

Lemma full_length t o : width_ok t -> from (rows t) o -> List.length (full (cols t) o) = List.length (cols t).
Proof. intros W F. destruct o as [r|]; [apply width_row; assumption|apply map_length]. Qed.

Lemma get_full t o c : In c (cols t) -> orow (cols t) o c = get (cols t) (full (cols t) o) c.
Proof.
  intros I. destruct o as [r|]; cbn [orow full].
  - apply mem_In in I. rewrite I. reflexivity.
  - symmetry. apply (get_map_in (fun _ => VNull) (cols t) c I).
Qed.
Lemma orow_notin cs o c : ~ In c cs -> orow cs o c = VNull.
Proof. intros N. destruct o; [|reflexivity]. cbn [orow]. apply mem_false in N. rewrite N. reflexivity. Qed.
Lemma full_cells t o : good t -> from (rows t) o -> full (cols t) o = map (fun c => get (cols t) (full (cols t) o) c) (cols t).
Proof. intros [ND W] F. symmetry. apply get_map_self; [exact ND|apply full_length; assumption]. Qed.

(* l, r: the operands as given to pl_join.  swap = false: l is the first source, shared columns prefer l (inner / left /
   full).  swap = true: l is the second source (the right join, simulated by a left join of b with a), shared columns
   prefer r. *)
Section Joined.
  Variables (l r : table) (S : string) (swap : bool) (coal : list string).
  Let cl := cols l. Let cr := cols r.
  Let out := cl ++ map (suffixed cl S) cr.
  Let xs := map (fun c => (c, CPlain (if swap then coalesce_left_first (sfx c S) c else coalesce_left_first c (sfx c S)))) coal.

  Hypothesis Gl : good l.
  Hypothesis Gr : good r.
  Hypothesis NDo : NoDup out.
  Hypothesis Hcoal : forall c, In c coal <-> In c cl /\ In c cr.

  Let cell (row : list val) (c : string) : val :=
    if mem c coal then (if swap then coal2 (get out row (sfx c S)) (get out row c) else coal2 (get out row c) (get out row (sfx c S)))
    else get out row c.

  Lemma joined_cell_wc R i row c : cols R = out -> nth_error (rows R) i = Some row -> List.length row = List.length out ->
    get (ext_cols (cols R) (map fst xs)) (wc_row R xs (i, row)) c = cell row c.
  Proof.
    intros CR N L. rewrite wc_row_get by (rewrite CR; exact L). unfold cell.
    assert (map fst xs = coal) as MF by (unfold xs; rewrite map_map; apply map_id).
    destruct (mem c coal) eqn:M.
    - apply mem_In in M. rewrite <- MF in M.
      destruct (last_for_In c xs M) as [ke E]. rewrite E. destruct (last_for_Some _ _ _ E) as [F Ik].
      unfold xs in Ik. apply in_map_iff in Ik. destruct Ik as [c0 [<- I0]]. cbn [fst snd] in *. subst c0.
      destruct swap; cbn [col_at coalesce_left_first plx_at]; rewrite CR, (nth_error_nth _ _ [] N); apply pl_when_bool.
    - rewrite last_for_None; [rewrite CR; reflexivity|]. rewrite MF. apply mem_false, M.
  Qed.

  Lemma joined_get_l ol X c : from (rows l) ol -> In c cl -> get out (full cl ol ++ X) c = orow cl ol c.
  Proof.
    intros F I. unfold out. rewrite get_app_l by first [exact I|apply full_length; [apply Gl|exact F]].
    symmetry. apply get_full; assumption.
  Qed.
  Lemma joined_get_r ol or c : from (rows l) ol -> from (rows r) or -> In c cr ->
    get out (full cl ol ++ full cr or) (suffixed cl S c) = orow cr or c.
  Proof.
    intros Fl Fr I. unfold out, cr. rewrite (full_cells r or Gr Fr).
    rewrite get_app_r; [|eapply NoDup_app_notin; [exact NDo|apply in_map; exact I]|apply full_length; [apply Gl|exact Fl]].
    rewrite (get_map_map (suffixed cl S) _ (cols r) c (NoDup_app_r _ _ NDo) I). symmetry. apply get_full; assumption.
  Qed.

  Lemma joined_cell ol or c : from (rows l) ol -> from (rows r) or -> In c cl \/ In c cr ->
    cell (full cl ol ++ full cr or) c =
    if swap then coal2 (orow cr or c) (orow cl ol c) else coal2 (orow cl ol c) (orow cr or c).
  Proof.
    intros Fl Fr Ic. unfold cell.
    destruct (mem c cl) eqn:Ml, (mem c cr) eqn:Mr.
    - apply mem_In in Ml, Mr. rewrite (proj2 (mem_In c coal) (proj2 (Hcoal c) (conj Ml Mr))).
      assert (sfx c S = suffixed cl S c) as -> by (unfold suffixed, sfx; apply mem_In in Ml; fold cl; rewrite Ml; reflexivity).
      rewrite (joined_get_l ol _ c Fl Ml), (joined_get_r ol or c Fl Fr Mr). reflexivity.
    - apply mem_In in Ml. apply mem_false in Mr.
      rewrite (proj2 (mem_false c coal)) by (intros I; apply Hcoal in I; tauto).
      rewrite (joined_get_l ol _ c Fl Ml), (orow_notin cr or c Mr). unfold coal2. destruct swap; [reflexivity|symmetry; apply null_self].
    - apply mem_In in Mr. pose proof Ml as Ml'. apply mem_false in Ml.
      rewrite (proj2 (mem_false c coal)) by (intros I; apply Hcoal in I; tauto).
      replace c with (suffixed cl S c) at 1 by (unfold suffixed; fold cl; rewrite Ml'; reflexivity).
      rewrite (joined_get_r ol or c Fl Fr Mr), (orow_notin cl ol c Ml). unfold coal2. destruct swap; [symmetry; apply null_self|reflexivity].
    - apply mem_false in Ml, Mr. tauto.
  Qed.

  Lemma joined_select how l_on r_on declared t2 : (forall c, In c declared -> In c cl \/ In c cr) ->
    rbind (pl_join how l_on r_on S l r) (fun R => pl_select declared (with_columns_if R xs)) = Ok t2 ->
    t2 = mktable declared
           (join_rows (fun rl rr => keys_match false (key_of cl l_on rl) (key_of cr r_on rr))
              (fun ol or => map (fun c => if swap then coal2 (orow cr or c) (orow cl ol c) else coal2 (orow cl ol c) (orow cr or c)) declared)
              (rows l) (rows r) (match how with HInner => false | _ => true end) (match how with HFull => true | _ => false end)).
  Proof.
    intros D H. apply rbind_ok in H. destruct H as [R [Hj Hs]]. apply pl_join_ok in Hj. destruct Hj as [_ ->].
    apply pl_select_ok in Hs. destruct Hs as [-> _]. fold cl cr out.
    set (R := mktable out _).
    assert (forall row, In row (rows R) -> exists ol or, from (rows l) ol /\ from (rows r) or /\ row = full cl ol ++ full cr or) as FR.
    { intros row I. apply (join_rows_In _ _ _ _ _ _ _ I). }
    assert (width_ok R) as WR.
    { apply Forall_forall. intros row I. destruct (FR row I) as [ol [or [Fl [Fr ->]]]]. cbn [cols R]. unfold out.
      rewrite !app_length, map_length. f_equal; apply full_length; try assumption; [apply Gl|apply Gr]. }
    transitivity (mktable declared (rows (sem_select_cols declared (with_columns_if R xs)))); [reflexivity|]. f_equal.
    rewrite (rows_select_with_columns declared R xs cell).
    2:{ intros i row c N Ic. apply joined_cell_wc; [reflexivity|exact N|]. apply (width_row R row WR). eapply nth_error_In; eassumption. }
    apply map_join_rows; [reflexivity|]. intros ol or Fl Fr. apply map_ext_in. intros c Ic. apply joined_cell; auto.
  Qed.
End Joined.

Lemma keys_match_false_sym ka kb : keys_match false ka kb = keys_match false kb ka.
Proof.
  unfold keys_match. simpl. rewrite (keys_eqv_sym kb ka). destruct (keys_eqv ka kb) eqn:E; [|rewrite !andb_false_r; reflexivity].
  rewrite (keys_eqv_null_same ka kb E). reflexivity.
Qed.
Lemma map_eq_In {A B} (f g : A -> B) l x : map f l = map g l -> In x l -> f x = g x.
Proof. induction l as [|y t IH]; simpl; intros E I; [destruct I|]. inversion E. destruct I as [->|I]; auto. Qed.

(* ------------------------------------------------------------------ the step *)
Lemma join_step_perm declared on_a on_b jt a b t2 :
  good a -> good b -> on_a <> [] ->
  declared = cols a ++ filter (fun c => negb (mem c (cols a))) (cols b) ->
  pl_join_step declared (cols a) (cols b) on_a on_b jt a b = Ok t2 ->
  cols t2 = declared /\ Permutation (rows t2) (rows (sem_join false on_a on_b jt a b)).
Proof.
  intros Ga Gb NE -> H. unfold pl_join_step in H. destruct on_a as [|k0 on_a0]; [congruence|]. cbv iota zeta in H.
  set (declared := cols a ++ filter (fun c => negb (mem c (cols a))) (cols b)) in *.
  assert (forall c, In c (filter (fun c => mem c (cols b)) (cols a)) <-> In c (cols a) /\ In c (cols b)) as HC.
  { intros c. rewrite filter_In, mem_In. reflexivity. }
  assert (forall c, In c declared -> In c (cols a) \/ In c (cols b)) as D.
  { intros c I. apply in_app_iff in I. destruct I as [I|I]; [auto|]. apply filter_In in I. tauto. }
  pose proof H as H0. destruct jt; apply rbind_ok in H0; destruct H0 as [R [Ej _]]; apply pl_join_ok in Ej; destruct Ej as [N _].
  1,2,4: rewrite (joined_select a b _ false _ Ga Gb N HC _ _ _ declared t2 D H), sem_join_rows;
    split; [reflexivity|apply Permutation_refl].
  (* right join: a left join of b with a, read with the operands exchanged *)
  rewrite (joined_select b a _ true _ Gb Ga N (fun c => iff_trans (HC c) (and_comm _ _)) _ _ _ declared t2 (fun c I => proj1 (or_comm _ _) (D c I)) H).
  rewrite sem_join_rows. split; [reflexivity|]. cbn [rows].
  eapply perm_trans; [|apply Permutation_sym, join_rows_swap].
  rewrite <- (map_id (join_rows _ _ (rows b) (rows a) _ _)) at 1. erewrite map_join_rows; [apply Permutation_refl| |reflexivity].
  intros rb ra _ _. apply keys_match_false_sym.
Qed.
