(* C18, part 3: windowed extend over a permuted input.
   window_value_at: the value a windowed extend gives to the row at position i depends only on the CONTENT r of that row and on
   the sorted partition of r: it is the j-th value of the window function over that sorted partition, j a position of r in it.
   With an order-insensitive function (group aggregate) or an order that is strict inside each partition, that value is the
   same whatever the order of the input rows. *)
From Coq Require Import List Bool Arith String Lia Permutation Sorted.
Import ListNotations.
From DA Require Import Base.PyRT Base.Val Model.Sem Model.PermGuard Proofs.SemBasicP Proofs.SemOrderP Proofs.PermP1 Proofs.ListP Proofs.TabP.
Local Open Scope list_scope.

(* ---------- sorting pairs on their second component commutes with projecting it *)
Section SortMap.
  Context {A B : Type} (le : B -> B -> bool).
  Lemma insert_sorted_map_snd (x : A * B) l :
    map snd (insert_sorted (fun a b => le (snd a) (snd b)) x l) = insert_sorted le (snd x) (map snd l).
  Proof. induction l as [|y t IH]; simpl; [reflexivity|]. destruct (le (snd x) (snd y)); simpl; [reflexivity|]. rewrite IH. reflexivity. Qed.
  Lemma stable_sort_map_snd (l : list (A * B)) :
    map snd (stable_sort (fun a b => le (snd a) (snd b)) l) = stable_sort le (map snd l).
  Proof. induction l as [|x t IH]; simpl; [reflexivity|]. rewrite insert_sorted_map_snd, IH. reflexivity. Qed.
End SortMap.

(* ---------- tagged rows *)

Lemma tag_from_In_nth rs : forall n i r, In (i, r) (tag_from n rs) -> exists j, i = (n + j)%nat /\ nth_error rs j = Some r.
Proof.
  induction rs as [|x t IH]; intros n i r; simpl; [tauto|]. intros [E|I].
  - inversion E; subst. exists 0%nat. split; [lia|reflexivity].
  - destruct (IH _ _ _ I) as [j [-> Hj]]. exists (S j). split; [lia|exact Hj].
Qed.

(* ---------- lookups by tag *)
Lemma lookup_pos_app l1 l2 i :
  lookup_pos (l1 ++ l2) i = match find (fun p : nat * val => Nat.eqb (fst p) i) l1 with Some p => snd p | None => lookup_pos l2 i end.
Proof. unfold lookup_pos. induction l1 as [|p t IH]; simpl; [reflexivity|]. destruct (Nat.eqb (fst p) i); [reflexivity|exact IH]. Qed.

Lemma find_tag_none (l : list (nat * val)) i : (forall p, In p l -> fst p <> i) -> find (fun p => Nat.eqb (fst p) i) l = None.
Proof.
  induction l as [|p t IH]; intros N; simpl; [reflexivity|].
  destruct (Nat.eqb (fst p) i) eqn:E; [apply Nat.eqb_eq in E; exfalso; apply (N p); [left; reflexivity|exact E]|].
  apply IH. intros q I. apply N. right. exact I.
Qed.

Lemma lookup_all_null (l : list (nat * val)) i : (forall p, In p l -> snd p = VNull) -> lookup_pos l i = VNull.
Proof. intros N. unfold lookup_pos. destruct (find _ l) as [p|] eqn:F; [|reflexivity]. apply find_some in F. apply N. tauto. Qed.

Lemma lookup_flat_map (G : list val -> list (nat * val)) groups i k0 :
  ForallOrdPairs (fun a b => keys_eqv a b = false) groups -> In k0 groups ->
  (forall k, In k groups -> keys_eqv k k0 = false -> forall p, In p (G k) -> fst p <> i) ->
  lookup_pos (flat_map G groups) i = lookup_pos (G k0) i.
Proof.
  induction 1 as [|a g Ha Hg IH]; intros I N; [destruct I|]. simpl. rewrite lookup_pos_app.
  rewrite Forall_forall in Ha. destruct I as [->|I].
  - assert (find (fun p : nat * val => Nat.eqb (fst p) i) (flat_map G g) = None) as F2.
    { apply find_tag_none. intros p Ip. apply in_flat_map in Ip. destruct Ip as [k [Ik Ipk]].
      apply (N k); [right; exact Ik| |exact Ipk]. rewrite keys_eqv_sym. apply Ha, Ik. }
    unfold lookup_pos. rewrite F2. destruct (find _ (G k0)); reflexivity.
  - rewrite (find_tag_none (G a) i).
    + apply IH; [exact I|]. intros k Ik. apply N. right. exact Ik.
    + apply N; [left; reflexivity|apply Ha, I].
Qed.

Lemma lookup_combine {B} (l : list (nat * B)) : forall vals i j x,
  NoDup (map fst l) -> nth_error l j = Some (i, x) -> lookup_pos (combine (map fst l) vals) i = nth j vals VNull.
Proof.
  induction l as [|[i0 x0] t IH]; intros vals i j x N E; [destruct j; discriminate|].
  destruct vals as [|v vs]; [destruct j; reflexivity|].
  simpl in N. inversion N as [|? ? Ni Nt]; subst. unfold lookup_pos. simpl.
  destruct j as [|j]; simpl in E.
  - inversion E; subst. rewrite Nat.eqb_refl. reflexivity.
  - assert (i0 <> i) as D.
    { intros ->. apply Ni. apply in_map_iff. exists (i, x). split; [reflexivity|]. eapply nth_error_In. exact E. }
    apply Nat.eqb_neq in D. rewrite D. apply (IH vs i j x Nt E).
Qed.

Lemma nth_map_const {A} (a : val) (l : list A) j : (j < List.length l)%nat -> nth j (map (fun _ => a) l) VNull = a.
Proof. revert j. induction l as [|x t IH]; intros [|j] L; simpl in *; try lia; [reflexivity|]. apply IH. lia. Qed.

(* ---------- the value of a window expression at one row *)
Lemma window_value_at fl w t e op arg extra i r :
  win_parts e = Some (op, arg, extra) -> nth_error (rows t) i = Some r ->
  exists j, nth_error (sorted_part fl (cols t) w (rows t) r) j = Some r /\
            lookup_pos (window_column fl w t e) i
            = nth j (win_fn fl op extra (map (arg_val fl (cols t) arg) (sorted_part fl (cols t) w (rows t) r))) VNull.
Proof.
  intros WP Hr. unfold window_column. rewrite WP.
  set (cs := cols t). set (pb := w_part w).
  set (le2 := fun a b : nat * list val => row_le fl cs (map (fun c => (c, mem c (w_rev w))) (w_order w)) (snd a) (snd b)).
  set (sorted := fun k : list val => stable_sort le2 (filter (fun ir : nat * list val => keys_eqv k (key_of cs pb (snd ir))) (tag_from 0 (rows t)))).
  set (ev := fun ir : nat * list val => match arg with Some a => eval_expr fl cs (snd ir) a | None => VBool true end).
  set (G := fun k : list val => combine (map fst (sorted k)) (win_fn fl op extra (map ev (sorted k)))).
  change (exists j, nth_error (sorted_part fl cs w (rows t) r) j = Some r /\
                    lookup_pos (flat_map G (distinct_keys (map (fun r0 => key_of cs pb r0) (rows t)))) i
                    = nth j (win_fn fl op extra (map (arg_val fl cs arg) (sorted_part fl cs w (rows t) r))) VNull).
  assert (In r (rows t)) as Ir by (eapply nth_error_In; exact Hr).
  destruct (distinct_keys_complete (map (fun r0 => key_of cs pb r0) (rows t)) (key_of cs pb r)) as [k0 [Ik0 E0]].
  { apply in_map_iff. exists r. split; [reflexivity|exact Ir]. }
  assert (forall k, Permutation (sorted k) (filter (fun ir : nat * list val => keys_eqv k (key_of cs pb (snd ir))) (tag_from 0 (rows t)))) as PS
      by (intros k; apply stable_sort_perm).
  rewrite (lookup_flat_map G _ i k0 (distinct_keys_pairwise _) Ik0).
  2:{ intros k Ik Nk p Ip Efst. unfold G in Ip. destruct p as [i1 v1]. simpl in Efst. subst i1.
      apply in_combine_l in Ip. apply in_map_iff in Ip. destruct Ip as [[i2 r2] [Ei Ip]]. simpl in Ei. subst i2.
      apply (Permutation_in _ (PS k)) in Ip. apply filter_In in Ip. destruct Ip as [It Ek]. simpl in Ek.
      apply tag_from_In_nth in It. destruct It as [j [Ej Hj]]. simpl in Ej. subst j.
      rewrite Hr in Hj. inversion Hj; subst r2.
      rewrite keys_eqv_sym in E0. rewrite (keys_eqv_trans _ _ _ Ek E0) in Nk. discriminate. }
  (* the row itself sits in the sorted partition of its key *)
  assert (In (i, r) (sorted k0)) as Is.
  { apply (Permutation_in _ (Permutation_sym (PS k0))). apply filter_In. split; [|exact E0].
    pose proof (tag_from_nth_error 0 _ _ _ Hr) as T. simpl in T. eapply nth_error_In. exact T. }
  destruct (In_nth_error _ _ Is) as [j Hj]. exists j.
  assert (map snd (sorted k0) = sorted_part fl cs w (rows t) r) as MS.
  { unfold sorted, le2. rewrite (stable_sort_map_snd (row_le fl cs (map (fun c => (c, mem c (w_rev w))) (w_order w)))).
    rewrite (filter_tag_snd (fun r2 => keys_eqv k0 (key_of cs pb r2))).
    unfold sorted_part, part_rows, okeys_of. f_equal. apply filter_ext_in. intros x _. apply keys_eqv_cong_l, E0. }
  split.
  - rewrite <- MS. apply (map_nth_error snd _ _ Hj).
  - unfold G. rewrite (lookup_combine (sorted k0) _ i j r); [|..|exact Hj].
    + f_equal. f_equal. rewrite <- MS, map_map. reflexivity.
    + apply (Permutation_NoDup (Permutation_map fst (Permutation_sym (PS k0)))).
      apply NoDup_map_filter. rewrite tag_from_fst. apply seq_NoDup.
Qed.

Lemma window_value_no_parts fl w t e i : win_parts e = None -> lookup_pos (window_column fl w t e) i = VNull.
Proof.
  intros WP. apply lookup_all_null. intros p Ip. unfold window_column in Ip. rewrite WP in Ip.
  apply in_flat_map in Ip. destruct Ip as [k [_ Ip]]. apply in_map_iff in Ip. destruct Ip as [ir [<- _]]. reflexivity.
Qed.

(* ---------- the guard: strict order inside each partition *)
Definition window_total (fl : flavor) (cs : list string) (w : window) (rs : list (list val)) : Prop :=
  forall r, In r rs -> NoDup (part_rows cs (w_part w) rs r) /\ total_on fl cs (okeys_of w) (part_rows cs (w_part w) rs r).

Lemma part_rows_perm cs pb rs rs' r : Permutation rs rs' -> Permutation (part_rows cs pb rs r) (part_rows cs pb rs' r).
Proof. intros P. apply perm_filter, P. Qed.

Lemma window_value_perm fl w t t' e i i' r :
  cols t = cols t' -> Permutation (rows t) (rows t') ->
  (expr_order_sensitive e = true -> window_total fl (cols t) w (rows t)) ->
  nth_error (rows t) i = Some r -> nth_error (rows t') i' = Some r ->
  lookup_pos (window_column fl w t e) i = lookup_pos (window_column fl w t' e) i'.
Proof.
  intros C P G Hr Hr'. unfold expr_order_sensitive in G.
  destruct (win_parts e) as [[[op arg] extra]|] eqn:WP; [|rewrite !window_value_no_parts; auto].
  destruct (window_value_at fl w t e op arg extra i r WP Hr) as [j [Hj ->]].
  destruct (window_value_at fl w t' e op arg extra i' r WP Hr') as [j' [Hj' ->]].
  rewrite <- C in *.
  assert (In r (rows t)) as Ir by (eapply nth_error_In; exact Hr).
  pose proof (part_rows_perm (cols t) (w_part w) _ _ r P) as PP.
  destruct (order_sensitive op) eqn:S.
  - destruct (G eq_refl r Ir) as [ND TO].
    assert (sorted_part fl (cols t) w (rows t) r = sorted_part fl (cols t) w (rows t') r) as ES.
    { unfold sorted_part. apply stable_sort_perm_invariant; [intros; apply row_le_total|intros; eapply row_le_trans; eassumption|exact PP|exact TO]. }
    rewrite <- ES in *.
    assert (NoDup (sorted_part fl (cols t) w (rows t) r)) as NS.
    { unfold sorted_part. apply (Permutation_NoDup (Permutation_sym (stable_sort_perm _ _))). exact ND. }
    assert (j = j') as ->; [|reflexivity].
    apply (proj1 (NoDup_nth_error _) NS); [apply nth_error_Some; congruence|congruence].
  - rewrite !win_fn_broadcast by exact S.
    rewrite !nth_map_const by (rewrite map_length; apply nth_error_Some; congruence).
    apply agg_fn_perm, Permutation_map. unfold sorted_part.
    eapply perm_trans; [apply stable_sort_perm|]. eapply perm_trans; [exact PP|]. apply Permutation_sym, stable_sort_perm.
Qed.

(* ---------- rows tagged with positions, mapped by a function that only looks at the content *)
Fixpoint pos_of (r : list val) (l : list (list val)) : option nat :=
  match l with [] => None | x :: t => if eq_dec r x then Some 0%nat else option_map S (pos_of r t) end.
Lemma pos_of_In r l : In r l -> exists i, pos_of r l = Some i /\ nth_error l i = Some r.
Proof.
  induction l as [|x t IH]; simpl; [tauto|]. intros I. destruct (eq_dec r x) as [->|N].
  - exists 0%nat. split; reflexivity.
  - destruct I as [E|I]; [congruence|]. destruct (IH I) as [i [E1 E2]]. exists (S i). rewrite E1. split; [reflexivity|exact E2].
Qed.

Lemma map_tag_eq {B} (f : nat * list val -> B) (g : list val -> B) rs : forall n,
  (forall i r, nth_error rs i = Some r -> f ((n + i)%nat, r) = g r) -> map f (tag_from n rs) = map g rs.
Proof.
  induction rs as [|x t IH]; intros n E; simpl; [reflexivity|]. f_equal.
  - rewrite <- (E 0%nat x eq_refl). rewrite Nat.add_0_r. reflexivity.
  - apply IH. intros i r Hi. rewrite <- (E (S i) r Hi). f_equal. f_equal. lia.
Qed.

Lemma map_tag_perm {B} (d : B) (f f' : nat * list val -> B) rs rs' :
  Permutation rs rs' ->
  (forall i i' r, nth_error rs i = Some r -> nth_error rs' i' = Some r -> f (i, r) = f' (i', r)) ->
  Permutation (map f (tag_from 0 rs)) (map f' (tag_from 0 rs')).
Proof.
  intros P E.
  set (g := fun r => match pos_of r rs with Some i => f (i, r) | None => d end).
  assert (map f (tag_from 0 rs) = map g rs) as E1.
  { apply map_tag_eq. intros i r Hi. simpl. unfold g.
    assert (In r rs) as Ir by (eapply nth_error_In; exact Hi).
    destruct (pos_of_In r rs Ir) as [i0 [-> H0]].
    assert (In r rs') as Ir' by (eapply Permutation_in; eassumption).
    destruct (In_nth_error _ _ Ir') as [i' Hi'].
    rewrite (E i i' r Hi Hi'), (E i0 i' r H0 Hi'). reflexivity. }
  assert (map f' (tag_from 0 rs') = map g rs') as E2.
  { apply map_tag_eq. intros i' r Hi'. simpl. unfold g.
    assert (In r rs) as Ir by (eapply Permutation_in; [apply Permutation_sym, P|eapply nth_error_In; exact Hi']).
    destruct (pos_of_In r rs Ir) as [i0 [-> H0]]. symmetry. apply E; assumption. }
  rewrite E1, E2. apply Permutation_map, P.
Qed.

(* ---------- windowed extend *)
Lemma wextend_perm fl ops w t t' :
  cols t = cols t' -> Permutation (rows t) (rows t') ->
  (ops_order_sensitive ops = true -> window_total fl (cols t) w (rows t)) ->
  cols (sem_wextend fl ops w t) = cols (sem_wextend fl ops w t')
  /\ Permutation (rows (sem_wextend fl ops w t)) (rows (sem_wextend fl ops w t')).
Proof.
  intros C P G. unfold sem_wextend. cbn [cols rows]. split; [rewrite C; reflexivity|].
  apply (map_tag_perm []); [exact P|]. intros i i' r Hi Hi'. cbn [fst snd]. f_equal.
  rewrite !fold_left_map_in. rewrite <- C. apply fold_left_ext_in.
  intros [row ccs] ke Ike. cbn [fst snd]. f_equal. f_equal.
  apply (window_value_perm fl w t t' (snd ke) i i' r C P); [|exact Hi|exact Hi'].
  intros S. apply G. unfold ops_order_sensitive. apply existsb_exists. exists ke. split; assumption.
Qed.
