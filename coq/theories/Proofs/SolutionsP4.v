(* C21, part 4: order lemmas (lexicographic orders, tie groups) and the counting identities behind rank_to_average. *)
From Coq Require Import List QArith String Lia.
Import ListNotations.
From DA Require Import Base.Val Model.Sem Model.Solutions Proofs.SemBasicP Proofs.SemOrderP Proofs.SolutionsP1 Proofs.SolutionsP3 Proofs.ListP Proofs.TabP.
Local Open Scope string_scope.
Local Open Scope list_scope.

Lemma row_le_ext fl cs cs' keys a b a' b' :
  (forall c, In c (map fst keys) -> get cs a c = get cs' a' c /\ get cs b c = get cs' b' c) ->
  row_le fl cs keys a b = row_le fl cs' keys a' b'.
Proof. induction keys as [|[c d] k IH]; intros H; simpl; [reflexivity|].
  destruct (H c (or_introl eq_refl)) as [-> ->]. rewrite IH; [reflexivity|]. intros c' I. apply H. right. exact I. Qed.
Lemma row_le_app fl cs k1 k2 a b :
  row_le fl cs (k1 ++ k2) a b = row_le fl cs k1 a b && (negb (row_le fl cs k1 b a) || row_le fl cs k2 a b).
Proof. induction k1 as [|[c d] k IH]; simpl; [reflexivity|].
  rewrite (v_eqv_sym (get cs b c) (get cs a c)). destruct (v_eqv (get cs a c) (get cs b c)) eqn:E; [exact IH|].
  destruct (v_le_dir (nulls_first fl d) d (get cs a c) (get cs b c)) eqn:X; [|reflexivity].
  destruct (v_le_dir (nulls_first fl d) d (get cs b c) (get cs a c)) eqn:Y; [|reflexivity].
  exfalso. eapply v_le_dir_antisym; eassumption. Qed.

(* tied in the ascending order on ob  =  equal keys on ob *)
Lemma tied_keys_eqv fl cs ob a b : tied fl cs ob a b = keys_eqv (key_of cs ob a) (key_of cs ob b).
Proof. unfold tied, okeys, key_of. induction ob as [|c ob IH]; simpl; [reflexivity|].
  rewrite (v_eqv_sym (get cs b c) (get cs a c)). destruct (v_eqv (get cs a c) (get cs b c)) eqn:E; [exact IH|]. simpl.
  destruct (v_le_dir _ false (get cs a c) (get cs b c)) eqn:X; [|reflexivity].
  destruct (v_le_dir _ false (get cs b c) (get cs a c)) eqn:Y; [|reflexivity].
  exfalso. eapply v_le_dir_antisym; eassumption. Qed.
Lemma keys_eqv_app a a' b b' : List.length a = List.length a' -> keys_eqv (a ++ b) (a' ++ b') = keys_eqv a a' && keys_eqv b b'.
Proof. revert a'. induction a as [|x a IH]; intros [|y a'] L; simpl in *; try discriminate; [reflexivity|].
  rewrite IH by lia. rewrite andb_assoc. reflexivity. Qed.
Lemma key_of_app cs k1 k2 r : key_of cs (k1 ++ k2) r = key_of cs k1 r ++ key_of cs k2 r.
Proof. apply map_app. Qed.
(* rows tied with x compare with any third row exactly as x does *)
Lemma tied_le_l fl cs ob x y z : tied fl cs ob y x = true -> row_le fl cs (okeys ob) z y = row_le fl cs (okeys ob) z x.
Proof. unfold tied. intros T. apply andb_true_iff in T as [T1 T2]. apply eq_true_iff_eq. split; intros H; eapply row_le_trans; eassumption. Qed.
Lemma tied_le_r fl cs ob x y z : tied fl cs ob y x = true -> row_le fl cs (okeys ob) y z = row_le fl cs (okeys ob) x z.
Proof. unfold tied. intros T. apply andb_true_iff in T as [T1 T2]. apply eq_true_iff_eq. split; intros H; eapply row_le_trans; eassumption. Qed.

(* the order on the naturals written by _row_number *)
Lemma vnat_key_le nf a b : (if v_eqv (vnat a) (vnat b) then true else v_le_dir nf false (vnat a) (vnat b)) = Nat.leb a b.
Proof. rewrite !vnat_eq. unfold v_eqv, v_le_dir, v_le, num_of.
  destruct (Qeq_bool (Z.of_nat a # 1) (Z.of_nat b # 1)) eqn:E.
  - apply Qeq_bool_iff in E. unfold Qeq in E. simpl in E. symmetry. apply Nat.leb_le. lia.
  - apply eq_true_iff_eq. rewrite Qle_bool_iff, Nat.leb_le. unfold Qle. simpl. lia. Qed.
Lemma vnat_eqv a b : v_eqv (vnat a) (vnat b) = Nat.eqb a b.
Proof. rewrite !vnat_eq. unfold v_eqv, num_of. apply eq_true_iff_eq. rewrite Qeq_bool_iff, Nat.eqb_eq. unfold Qeq. simpl. lia. Qed.

Lemma filter_length_or {A} (p q : A -> bool) l : (forall x, In x l -> p x && q x = false) ->
  List.length (filter (fun x => p x || q x) l) = (List.length (filter p l) + List.length (filter q l))%nat.
Proof. induction l as [|x t IH]; intros H; [reflexivity|]. pose proof (H x (or_introl eq_refl)) as Hx.
  assert (List.length (filter (fun x => p x || q x) t) = (List.length (filter p t) + List.length (filter q t))%nat) as E
    by (apply IH; intros y I; apply H; right; exact I).
  cbn [filter]. destruct (p x), (q x); cbn [orb andb List.length] in *; try discriminate; lia. Qed.
Lemma filter_snd_length (p : list val -> bool) rs n :
  List.length (filter (fun ir : nat * list val => p (snd ir)) (tag_from n rs)) = List.length (filter p rs).
Proof. revert n. induction rs as [|r t IH]; intros n; simpl; [reflexivity|]. destruct (p r); simpl; rewrite IH; reflexivity. Qed.

(* sum over a list of distinct naturals of the number of elements at or below each = T(T+1)/2 *)
Lemma list_sum_cons x l : list_sum (x :: l) = (x + list_sum l)%nat.
Proof. reflexivity. Qed.
Lemma count_le_aux {X} (nb : X -> nat) a (G H : list X) :
  list_sum (map (fun y => List.length (if Nat.leb (nb a) (nb y) then a :: filter (fun z => Nat.leb (nb z) (nb y)) G else filter (fun z => Nat.leb (nb z) (nb y)) G)) H)
  = (list_sum (map (fun y => List.length (filter (fun z => Nat.leb (nb z) (nb y)) G)) H) + List.length (filter (fun y => Nat.leb (nb a) (nb y)) H))%nat.
Proof. induction H as [|y H IHH]; [reflexivity|]. cbn [map app filter]. rewrite ?list_sum_cons. rewrite IHH. destruct (Nat.leb (nb a) (nb y)); cbn [List.length]; lia. Qed.
Lemma count_le_sum {X} (nb : X -> nat) (G : list X) : NoDup (map nb G) ->
  (2 * list_sum (map (fun y => List.length (filter (fun z => Nat.leb (nb z) (nb y)) G)) G) = List.length G * (List.length G + 1))%nat.
Proof. induction G as [|a G IH]; intros ND; [reflexivity|]. inversion ND as [|? ? Na ND']; subst. specialize (IH ND').
  cbn [map app filter List.length]. rewrite ?list_sum_cons. rewrite Nat.leb_refl. cbn [List.length].
  rewrite (count_le_aux nb a G G).
  assert (List.length (filter (fun z => Nat.leb (nb z) (nb a)) G) + List.length (filter (fun y => Nat.leb (nb a) (nb y)) G) = List.length G)%nat as E2.
  { clear IH ND ND'. induction G as [|y G IHG]; [reflexivity|]. cbn [filter].
    assert (nb y <> nb a) as Ny by (intros E; apply Na; left; exact E).
    assert (~ In (nb a) (map nb G)) as Na' by (intros I; apply Na; right; exact I). specialize (IHG Na').
    destruct (Nat.leb_spec (nb y) (nb a)), (Nat.leb_spec (nb a) (nb y)); cbn [List.length]; lia. }
  lia. Qed.
Lemma list_sum_seq L T : (2 * list_sum (seq (S L) T) = 2 * T * L + T * (T + 1))%nat.
Proof. revert L. induction T as [|T IH]; intros L; [reflexivity|]. cbn [seq app]. rewrite ?list_sum_cons. specialize (IH (S L)). lia. Qed.
Lemma qsum_inject_nat {X} (f : X -> nat) l : qsum (map (fun x => inject_Z (Z.of_nat (f x))) l) == inject_Z (Z.of_nat (list_sum (map f l))).
Proof. induction l as [|x t IH]; [reflexivity|]. cbn [map app]. rewrite ?list_sum_cons. rewrite qsum_cons, IH, Nat2Z.inj_add, inject_Z_plus. reflexivity. Qed.
Lemma list_sum_add_const {X} (f : X -> nat) c l : list_sum (map (fun x => c + f x)%nat l) = (List.length l * c + list_sum (map f l))%nat.
Proof. induction l as [|x t IH]; [reflexivity|]. cbn [map app List.length]. rewrite ?list_sum_cons. rewrite IH. lia. Qed.

(* mean of values that are (up to ==) the naturals f y *)
Lemma mean_of_nats {X} fl (v : X -> val) (f : X -> nat) (G : list X) :
  G <> [] -> (forall y, In y G -> exists q, v y = qn q /\ q == inject_Z (Z.of_nat (f y))) ->
  agg_fn fl "mean" (map v G) = qn (inject_Z (Z.of_nat (list_sum (map f G))) / inject_Z (Z.of_nat (List.length G))).
Proof. intros NE H.
  assert (exists l, nums (map v G) = l /\ List.length l = List.length G /\ qsum l == inject_Z (Z.of_nat (list_sum (map f G)))) as [l [El [Ll Sl]]].
  { clear NE. induction G as [|y G IH]; [exists []; repeat split; reflexivity|].
    destruct IH as [l [El [Ll Sl]]]; [intros z I; apply H; right; exact I|].
    destruct (H y (or_introl eq_refl)) as [q [Eq Qq]]. exists (Qred q :: l). cbn [map nums flat_map]. fold (nums (map v G)).
    rewrite Eq, El. cbn [num_of qn app]. repeat split; [cbn [List.length]; lia|].
    cbn [app]. rewrite ?list_sum_cons. rewrite qsum_cons, Sl, Qred_correct, Qq, Nat2Z.inj_add, inject_Z_plus. reflexivity. }
  unfold agg_fn. rewrite El. destruct l as [|x l]; [destruct G; [congruence|discriminate]|].
  apply qn_ext. rewrite Sl, Ll. reflexivity. Qed.

(* The rows of a table (columns cs), tagged with their positions; each is extended by the cells X r (columns ecs) and by a
   last cell (column tb) holding a number nb i that is different at every position i, as _row_number writes it.  In the
   window partitioned by pb and ordered by ob ++ [tb] no two rows are tied, so that cumsum at a row is the sum over the
   rows of its partition that are at or before it in that order. *)
Section TieBreak.
  Variables (fl : flavor) (cs ob pb ecs : list string) (tb : string) (rs : list (list val)) (X : list val -> list val) (nb : nat -> nat).
  Hypothesis W : forall r, In r rs -> List.length r = List.length cs.
  Hypothesis So : forall c, In c ob -> In c cs.
  Hypothesis Sp : forall c, In c pb -> In c cs.
  Hypothesis LX : forall r, List.length (X r) = List.length ecs.
  Hypothesis Ntb : ~ In tb (cs ++ ecs).
  Hypothesis nb_inj : forall i j, (i < List.length rs)%nat -> (j < List.length rs)%nat -> nb i = nb j -> i = j.
  Let U := tag_from 0 rs.

  Definition tb_row (ir : nat * list val) : list val := snd ir ++ X (snd ir) ++ [vnat (nb (fst ir))].
  Definition tb_cols : list string := cs ++ ecs ++ [tb].
  Definition tb_table : table := mktable tb_cols (map tb_row U).
  Definition tb_win : window := mkwin pb (ob ++ [tb]) [].
  Definition ob_le (a b : nat * list val) : bool := row_le fl cs (okeys ob) (snd a) (snd b).
  Definition tb_le (y x : nat * list val) : bool := ob_le y x && (negb (ob_le x y) || Nat.leb (nb (fst y)) (nb (fst x))).
  Definition in_part (a b : nat * list val) : bool := same_part cs pb (snd a) (snd b).

  Lemma tagged_width ir : In ir U -> List.length (snd ir) = List.length cs.
  Proof. intros I. eapply W, tag_from_In, I. Qed.
  Lemma tb_row_len ir : In ir U -> List.length (tb_row ir) = List.length tb_cols.
  Proof. intros I. unfold tb_row, tb_cols. rewrite !app_length, LX, (tagged_width ir I). reflexivity. Qed.
  Lemma tb_row_old ir c : In ir U -> In c cs -> get tb_cols (tb_row ir) c = get cs (snd ir) c.
  Proof. intros I Ic. apply get_app_l; [exact Ic|apply tagged_width, I]. Qed.
  Lemma tb_row_tb ir : In ir U -> get tb_cols (tb_row ir) tb = vnat (nb (fst ir)).
  Proof. intros I. unfold tb_cols, tb_row. rewrite !app_assoc, get_app_r; [apply get_head|exact Ntb|].
    rewrite !app_length, LX, (tagged_width ir I). reflexivity. Qed.
  Lemma tb_row_key ir ks : In ir U -> (forall c, In c ks -> In c cs) -> key_of tb_cols ks (tb_row ir) = key_of cs ks (snd ir).
  Proof. intros I S. apply map_ext_in. intros c Ic. apply tb_row_old; auto. Qed.
  Lemma tb_row_le a b : In a U -> In b U -> row_le fl tb_cols (okeys (ob ++ [tb])) (tb_row a) (tb_row b) = tb_le a b.
  Proof. intros Ia Ib. unfold okeys at 1. rewrite map_app, row_le_app. unfold tb_le. f_equal; [|f_equal; [f_equal|]].
    1,2: apply row_le_ext; intros c Ic; unfold okeys in Ic; rewrite map_map, map_id in Ic; split; apply tb_row_old; auto.
    cbn [okeys map row_le]. rewrite !tb_row_tb by assumption. apply vnat_key_le. Qed.
  Lemma tb_wpart k :
    wpart tb_cols tb_win (map tb_row U) k = map (fun ir => (fst ir, tb_row ir)) (filter (fun y => keys_eqv k (key_of cs pb (snd y))) U).
  Proof. unfold wpart, U. rewrite tag_from_map_tag, filter_map_comm. f_equal. apply filter_ext_in. intros y Iy. cbn [snd w_part tb_win].
    rewrite (tb_row_key y pb Iy Sp). reflexivity. Qed.

  (* h gives the number the summed expression evaluates to on an extended row *)
  Lemma tb_cumsum arg (h : list val -> Q) ir : In ir U ->
    (forall y, In y U -> num_of (eval_expr fl tb_cols (tb_row y) arg) = Some (h (tb_row y))) ->
    exists q, lookup_pos (wpiece fl tb_win tb_table (EOp "cumsum" [arg]) (key_of tb_cols pb (tb_row ir))) (fst ir) = qn q
              /\ q == qsum (map (fun y => h (tb_row y)) (filter (fun y => in_part ir y && tb_le y ir) U)).
  Proof. intros I NUM.
    assert (forall x y, wle fl tb_cols tb_win (fst x, tb_row x) (fst y, tb_row y) = row_le fl tb_cols (okeys (ob ++ [tb])) (tb_row x) (tb_row y)) as WL by reflexivity.
    destruct (cumsum_value fl tb_win tb_table arg (fun y => h (snd y)) (fst ir, tb_row ir)) as [q [Hq Eq]].
    - cbn [rows tb_table]. unfold U. rewrite tag_from_map_tag. apply (in_map (fun ir => (fst ir, tb_row ir))), I.
    - cbn [cols rows tb_table snd w_part tb_win]. rewrite tb_wpart. intros a b Ia Ib.
      apply in_map_iff in Ia as [a0 [<- Ia]]. apply in_map_iff in Ib as [b0 [<- Ib]]. apply filter_In in Ia as [Ia _]. apply filter_In in Ib as [Ib _].
      rewrite !WL, !tb_row_le by assumption. unfold tb_le. intros Lab Lba.
      apply andb_true_iff in Lab as [A1 A2]. apply andb_true_iff in Lba as [B1 B2]. rewrite B1 in A2. rewrite A1 in B2.
      apply Nat.leb_le in A2, B2. rewrite (tag_same_nb rs nb a0 b0 nb_inj Ia Ib) by lia. reflexivity.
    - cbn [cols rows tb_table snd w_part tb_win]. rewrite tb_wpart. intros y Iy.
      apply in_map_iff in Iy as [y0 [<- Iy]]. apply filter_In in Iy as [Iy _]. apply NUM, Iy.
    - exists q. split; [exact Hq|]. rewrite Eq. cbn [cols rows tb_table snd w_part tb_win].
      rewrite tb_wpart, filter_map_comm, map_map, filter_filter, (tb_row_key ir pb I Sp). cbn [snd].
      rewrite (filter_ext_in _ (fun y => in_part ir y && tb_le y ir) U); [reflexivity|].
      intros y Iy. rewrite WL, tb_row_le by assumption. reflexivity.
  Qed.
End TieBreak.
