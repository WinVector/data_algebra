(* SQLGEN: regression witness for extend_to_near_sql's window_vars (the seeded changes C01-m3 / C04-m3 / C09-m3 as a MODEL
   variant): the contention test of the SQL-level extend merge run with declared dependencies that lack the ORDER columns of
   the window.  t.extend({b: b * -1}).extend({r: a.cumsum()}, order_by=[b]): the variant folds the windowed extend into the
   extend below, so that ORDER BY b in the one merged SELECT reads the STORED b, not the redefined one. *)
From Coq Require Import List Bool QArith String.
Import ListNotations.
From DA Require Import Base.PyRT Base.Val Model.Sem Model.ColumnsUsed Model.SqlGen Model.SqlSem Proofs.SqlGenEx.
Local Open Scope string_scope.
Local Open Scope list_scope.

Definition rx_neg : expr := EOp "*" [ECol "b"; EConst (VNum (-1))].
Definition rx_cs : expr := EOp "cumsum" [ECol "a"].
Definition rx_w3 := mkwin [] ["b"] [].
Definition rx_p3_inner := OExtend rx_t [("b", rx_neg)] false no_window.
Definition rx_p3 := OExtend rx_p3_inner [("r", rx_cs)] true rx_w3.
(* the outer step's terms and declared dependencies as gen_extend writes them, window_vars left as a parameter *)
Definition rx_tms3 : terms := pass_terms ["a"; "b"] ++ [("r", ext_term true rx_w3 rx_cs)].
Definition rx_deps3 (window_vars : list string) : depmap :=
  [("a", ["a"]); ("b", ["b"]); ("r", set_union (py_set (cols_used rx_cs)) window_vars)].
Definition rx_col_r (t : option table) : option (list val) := option_map (fun t => map (fun r => get (cols t) r "r") (rows t)) t.

Lemma window_vars_regression :
  builder_ok rx_p3 = true /\
  rx_col_r (sem_gen fl_sqlite rx_p3 rx_env) = Some [VNum 9; VNum 3; VNum 8] /\
  match to_near d_sqlite rx_p3_inner (Some ["a"; "b"]) 0 with
  | Ok (sub, _) =>
      (* window_vars = partition_by only (order_by dropped): no contention is seen, the steps are merged, the result is wrong *)
      match try_sql_merge sub rx_tms3 (rx_deps3 (w_part rx_w3)) with
      | Some (Ok m) => rx_col_r (nsem fl_sqlite m rx_env) = Some [VNum 4; VNum 3; VNum 9]
      | _ => False
      end /\
      (* window_vars = partition_by + order_by (the code as it is): contention on b, no merge *)
      try_sql_merge sub rx_tms3 (rx_deps3 (set_union (w_part rx_w3) (w_order rx_w3))) = None
  | _ => False
  end /\
  match to_near d_sqlite rx_p3 None 0 with Ok (q, _) => nsem fl_sqlite q rx_env = sem_gen fl_sqlite rx_p3 rx_env | _ => False end.
Proof. split; [vm_compute; reflexivity|]. split; [vm_compute; reflexivity|]. split; [vm_compute; split; reflexivity|vm_compute; reflexivity]. Qed.
