(* Facts about the rows and columns of the reference semantics: index_of / get on appended, mapped and extended
   column lists, set_cell, rows determined by their cells, tag_from, the sum of a list of rationals; expr_ind2, and3 / or3 on
   non-null operands, stable_sort_short / stable_sort_true. *)
From Coq Require Import List Bool Arith QArith String Lia Permutation.
Import ListNotations.
From DA Require Import Base.PyRT Base.Val Model.Sem Proofs.ListP.
Local Open Scope list_scope.

(* induction over expressions whose arguments are a nested list *)
Lemma expr_ind2 (P : expr -> Prop) :
  (forall c, P (ECol c)) -> (forall v, P (EConst v)) -> (forall op args, Forall P args -> P (EOp op args)) -> forall e, P e.
Proof.
  intros Hc Hv Ho. fix IH 1. intros [c|v|op args]; [apply Hc|apply Hv|]. apply Ho.
  induction args as [|a t IHt]; [constructor|constructor; [apply IH|exact IHt]].
Qed.

Lemma eval_expr_EOp fl cs r op args : eval_expr fl cs r (EOp op args) = scalar_op fl op (map (eval_expr fl cs r) args).
Proof. reflexivity. Qed.

Lemma and3_nonnull a b : is_null a = false -> is_null b = false -> and3 a b = VBool (truth a && truth b).
Proof. intros Ha Hb. unfold and3. rewrite Ha, Hb. simpl. destruct (truth a), (truth b); reflexivity. Qed.
Lemma or3_nonnull a b : is_null a = false -> is_null b = false -> or3 a b = VBool (truth a || truth b).
Proof. intros Ha Hb. unfold or3. rewrite Ha, Hb. simpl. destruct (truth a), (truth b); reflexivity. Qed.

Lemma index_of_notin c cs : ~ In c cs -> index_of c cs = None.
Proof. intros N. apply index_of_None, mem_false, N. Qed.

Lemma index_of_app_r c cs ds : ~ In c cs -> index_of c (cs ++ ds) = option_map (fun i => (List.length cs + i)%nat) (index_of c ds).
Proof.
  induction cs as [|x t IH]; simpl; intros N.
  - destruct (index_of c ds); reflexivity.
  - destruct (eq_dec c x) as [->|n]; [exfalso; apply N; left; reflexivity|].
    rewrite IH by (intros I; apply N; right; exact I). destruct (index_of c ds); reflexivity.
Qed.

Lemma index_of_nth_NoDup cs i d : NoDup cs -> (i < List.length cs)%nat -> index_of (nth i cs d) cs = Some i.
Proof.
  intros N. revert i. induction N as [|x t Hx N IH]; intros i L; simpl in *; [lia|].
  destruct i as [|i].
  - destruct (eq_dec x x); [reflexivity|congruence].
  - destruct (eq_dec (nth i t d) x) as [E|n].
    + exfalso. apply Hx. rewrite <- E. apply nth_In. lia.
    + rewrite IH by lia. reflexivity.
Qed.

Lemma get_absent cs r c : ~ In c cs -> get cs r c = VNull.
Proof. intros N. unfold get. rewrite (index_of_notin _ _ N). reflexivity. Qed.

Lemma get_cons_other x t a q c : c <> x -> get (x :: t) (a :: q) c = get t q c.
Proof. intros N. unfold get. simpl. destruct (eq_dec c x); [congruence|]. destruct (index_of c t); reflexivity. Qed.

Lemma get_app_l cs ds r s c : In c cs -> List.length r = List.length cs -> get (cs ++ ds) (r ++ s) c = get cs r c.
Proof.
  intros I L. unfold get. destruct (index_of_In c cs I) as [i E]. rewrite (index_of_app_l _ _ _ _ E), E.
  apply app_nth1. rewrite L. eapply index_of_lt, E.
Qed.

Lemma get_app_r cs ds r s c : ~ In c cs -> List.length r = List.length cs -> get (cs ++ ds) (r ++ s) c = get ds s c.
Proof.
  intros N L. unfold get. rewrite (index_of_app_r _ _ _ N). destruct (index_of c ds) as [i|]; simpl; [|reflexivity].
  rewrite <- L. apply app_nth2_plus.
Qed.

Lemma get_map_cols (f : string -> val) cs c : get cs (map f cs) c = if mem c cs then f c else VNull.
Proof.
  unfold get. induction cs as [|x t IH]; simpl; [reflexivity|].
  destruct (eq_dec c x) as [->|n]; [reflexivity|].
  destruct (index_of c t) as [i|]; simpl in *; exact IH.
Qed.

Lemma get_map_in (f : string -> val) cs c : In c cs -> get cs (map f cs) c = f c.
Proof. intros I. rewrite get_map_cols. apply mem_In in I. rewrite I. reflexivity. Qed.

(* a row of the right width is determined by its cells *)
Lemma row_ext cs r1 r2 : NoDup cs -> List.length r1 = List.length cs -> List.length r2 = List.length cs ->
  (forall c, In c cs -> get cs r1 c = get cs r2 c) -> r1 = r2.
Proof.
  intros N. revert r1 r2. induction N as [|x t Nx Nt IH]; intros [|a q] [|b q'] L L' H; simpl in *; try discriminate; [reflexivity|].
  f_equal.
  - specialize (H x (or_introl eq_refl)). unfold get in H. simpl in H. destruct (eq_dec x x); [exact H|congruence].
  - apply IH; [congruence|congruence|]. intros c Hc. assert (c <> x) as Ne by (intros ->; exact (Nx Hc)).
    specialize (H c (or_intror Hc)). rewrite !get_cons_other in H by exact Ne. exact H.
Qed.
Lemma get_map_self cs (r : list val) : NoDup cs -> List.length r = List.length cs -> map (get cs r) cs = r.
Proof.
  intros N L. apply (row_ext cs); [exact N|rewrite map_length; reflexivity|exact L|].
  intros c I. rewrite get_map_cols. apply mem_In in I. rewrite I. reflexivity.
Qed.

Lemma table_eta t : mktable (cols t) (rows t) = t.
Proof. destruct t; reflexivity. Qed.

Lemma null_self v : (if is_null v then VNull else v) = v.
Proof. destruct v; reflexivity. Qed.

Lemma add_end_new {A} `{EqDec A} (l : list A) x : ~ In x l -> add_end l x = l ++ [x].
Proof. intros N. unfold add_end. apply mem_false in N. rewrite N. reflexivity. Qed.

Lemma add_end_old {A} `{EqDec A} (l : list A) x : In x l -> add_end l x = l.
Proof. intros I. unfold add_end. apply mem_In in I. rewrite I. reflexivity. Qed.

Lemma set_cell_new cs r k v : ~ In k cs -> set_cell cs r k v = r ++ [v].
Proof. intros N. unfold set_cell. rewrite (index_of_notin _ _ N). reflexivity. Qed.

Lemma set_cell_get ccs row k v c : List.length row = List.length ccs ->
  get (add_end ccs k) (set_cell ccs row k v) c = if eq_dec c k then v else get ccs row c.
Proof.
  intros L. destruct (mem k ccs) eqn:Mk.
  - apply mem_In in Mk. rewrite (add_end_old _ _ Mk). unfold set_cell, get. destruct (index_of_In k ccs Mk) as [i Ek]. rewrite Ek.
    destruct (eq_dec c k) as [->|n].
    + rewrite Ek. apply nth_set_nth_same. rewrite L. eapply index_of_lt, Ek.
    + destruct (index_of c ccs) as [j|] eqn:Ec; [|reflexivity].
      apply nth_set_nth_other. intros ->. apply index_of_nth_error in Ek, Ec. congruence.
  - apply mem_false in Mk. rewrite (add_end_new _ _ Mk), (set_cell_new _ _ _ _ Mk).
    destruct (eq_dec c k) as [->|n].
    + rewrite (get_app_r _ _ _ _ _ Mk L). unfold get. simpl. destruct (eq_dec k k); [reflexivity|congruence].
    + destruct (mem c ccs) eqn:Mc.
      * apply mem_In in Mc. apply get_app_l; assumption.
      * apply mem_false in Mc. rewrite (get_absent ccs row c Mc). apply get_absent.
        rewrite in_app_iff. simpl. intros [I|[E|[]]]; [exact (Mc I)|exact (n (eq_sym E))].
Qed.

Lemma NoDup_join_cols (ca cb : list string) : NoDup ca -> NoDup cb -> NoDup (ca ++ filter (fun c => negb (mem c ca)) cb).
Proof.
  intros Na Nb. apply NoDup_app_iff; repeat split; [exact Na|apply NoDup_filter; exact Nb|].
  intros x I F. apply filter_In in F. destruct F as [_ F]. apply negb_true_iff, mem_false in F. exact (F I).
Qed.

Lemma In_ext_cols cs ks c : In c (ext_cols cs ks) <-> In c cs \/ In c ks.
Proof. apply In_fold_add_end. Qed.

Lemma tag_from_fst rs n : map fst (tag_from n rs) = seq n (List.length rs).
Proof. revert n. induction rs as [|r t IH]; intros n; simpl; [reflexivity|]. rewrite IH. reflexivity. Qed.

Lemma tag_from_snd rs n : map snd (tag_from n rs) = rs.
Proof. revert n. induction rs as [|r t IH]; intros n; simpl; [reflexivity|]. rewrite IH. reflexivity. Qed.

Lemma tag_from_map_tag (F : nat * list val -> list val) rs n :
  tag_from n (map F (tag_from n rs)) = map (fun ir => (fst ir, F ir)) (tag_from n rs).
Proof. revert n. induction rs as [|r t IH]; intros n; simpl; [reflexivity|]. rewrite IH. reflexivity. Qed.

Lemma filter_tag_snd (P : list val -> bool) rs n : map snd (filter (fun ir => P (snd ir)) (tag_from n rs)) = filter P rs.
Proof. revert n. induction rs as [|r t IH]; intros n; simpl; [reflexivity|]. destruct (P r); simpl; rewrite IH; reflexivity. Qed.

Lemma stable_sort_short {A} (le : A -> A -> bool) l : (List.length l <= 1)%nat -> stable_sort le l = l.
Proof. destruct l as [|a [|b t]]; simpl; intros L; [reflexivity|reflexivity|lia]. Qed.

Lemma stable_sort_true {A} (le : A -> A -> bool) l : (forall a b, le a b = true) -> stable_sort le l = l.
Proof. intros T. induction l as [|x t IH]; simpl; [reflexivity|]. rewrite IH. destruct t; simpl; [reflexivity|]. rewrite T. reflexivity. Qed.

Lemma qn_ext x y : x == y -> qn x = qn y.
Proof. intros E. unfold qn. f_equal. apply Qred_complete, E. Qed.

Lemma qsum_acc l a : fold_left Qplus l a == a + qsum l.
Proof.
  unfold qsum. revert a. induction l as [|x t IH]; intros a; simpl; [ring|].
  rewrite IH. rewrite (IH (0 + x)). ring.
Qed.

Lemma qsum_cons x l : qsum (x :: l) == x + qsum l.
Proof. unfold qsum at 1. simpl. rewrite qsum_acc. ring. Qed.

Lemma qsum_perm l l' : Permutation l l' -> qsum l == qsum l'.
Proof.
  induction 1 as [|x l l' P IH|x y l|l l' l'' P1 IH1 P2 IH2].
  - reflexivity.
  - rewrite !qsum_cons, IH. reflexivity.
  - rewrite !qsum_cons. ring.
  - rewrite IH1. exact IH2.
Qed.

Lemma nums_perm vs vs' : Permutation vs vs' -> Permutation (nums vs) (nums vs').
Proof. apply Permutation_flat_map. Qed.
