(* Proofs about Model/ConnComp.v: an invariant of the merge loop, then the two statements of C23 at the end. *)
From Coq Require Import List Bool Arith Lia.
Import ListNotations.
From DA Require Import Base.PyRT Model.ConnComp.

Section ConnLemmas.
Context {V : Type}.
Implicit Types E : list (V * V).

Lemma conn_mono E E' u v : (forall e, In e E -> In e E') -> conn E u v -> conn E' u v.
Proof.
  intros S C. induction C as [v|a b I|a b C IH|a b c C1 IH1 C2 IH2].
  - apply conn_refl.
  - apply conn_edge. apply S. exact I.
  - apply conn_sym. exact IH.
  - eapply conn_trans; eassumption.
Qed.

Lemma conn_nil (u v : V) : conn (@nil (V * V)) u v <-> u = v.
Proof.
  split.
  - intros C. induction C as [v|a b I|a b C IH|a b c C1 IH1 C2 IH2].
    + reflexivity.
    + destruct I.
    + congruence.
    + congruence.
  - intros ->. apply conn_refl.
Qed.

Lemma conn_snoc E a b u v :
  conn (E ++ [(a, b)]) u v <->
  conn E u v \/ (conn E u a /\ conn E b v) \/ (conn E u b /\ conn E a v).
Proof.
  split.
  - (* the right-hand side is an equivalence relation in (u, v) that holds of every edge *)
    intros C. induction C as [v|x y I|x y C IH|x y z C1 IH1 C2 IH2].
    + left. apply conn_refl.
    + apply in_app_or in I. destruct I as [I|[[= <- <-]|[]]].
      * left. apply conn_edge. exact I.
      * right. left. split; apply conn_refl.
    + destruct IH as [P|[[P1 P2]|[P1 P2]]]; eauto 6 using conn_sym.
    + destruct IH1 as [P|[[P1 P2]|[P1 P2]]], IH2 as [Q|[[Q1 Q2]|[Q1 Q2]]]; eauto 6 using conn_trans.
  - assert (forall p q, conn E p q -> conn (E ++ [(a, b)]) p q) as M.
    { intros p q. apply conn_mono. intros e He. apply in_or_app. left. exact He. }
    assert (conn (E ++ [(a, b)]) a b) as Eab.
    { apply conn_edge. apply in_or_app. right. left. reflexivity. }
    intros [C|[[C1 C2]|[C1 C2]]].
    + apply M, C.
    + apply (conn_trans _ u a v); [apply M, C1|]. apply (conn_trans _ a b v); [exact Eab | apply M, C2].
    + apply (conn_trans _ u b v); [apply M, C1|]. apply (conn_trans _ b a v); [apply conn_sym, Eab | apply M, C2].
Qed.

Lemma conn_closed E (P : V -> Prop) u v :
  (forall a b, In (a, b) E -> P a /\ P b) -> conn E u v -> (P u <-> P v).
Proof.
  intros S C. induction C as [v|a b I|a b C IH|a b c C1 IH1 C2 IH2].
  - tauto.
  - destruct (S a b I). tauto.
  - tauto.
  - tauto.
Qed.
End ConnLemmas.

Section AllSome.
Context {A B : Type} (h : A -> option B).

Lemma all_some_ex (l : list A) :
  (forall x, In x l -> exists y, h x = Some y) -> exists res, all_some (map h l) = Some res.
Proof.
  induction l as [|x t IH]; intros Hl; simpl.
  - eexists. reflexivity.
  - destruct (Hl x (or_introl eq_refl)) as [y Hy]. rewrite Hy.
    destruct IH as [r Hr]; [intros z Hz; apply Hl; right; exact Hz|].
    rewrite Hr. eexists. reflexivity.
Qed.

Lemma all_some_nth (l : list A) : forall res, all_some (map h l) = Some res ->
  List.length res = List.length l /\
  forall i x, nth_error l i = Some x -> exists y, nth_error res i = Some y /\ h x = Some y.
Proof.
  induction l as [|x t IH]; intros res Hres; simpl in Hres.
  - injection Hres as <-. split; [reflexivity|]. intros [|i] x Hx; discriminate.
  - destruct (h x) as [y|] eqn:Hy; [|discriminate].
    destruct (all_some (map h t)) as [r|] eqn:Hr; [|discriminate].
    injection Hres as <-. destruct (IH r eq_refl) as [Hlen Hnth].
    split; [simpl; congruence|].
    intros [|i] z Hz; simpl in Hz.
    + injection Hz as <-. exists y. split; [reflexivity | exact Hy].
    + simpl. apply Hnth. exact Hz.
Qed.
End AllSome.

Section P.
Context {V : Type} `{EqDec V} (leb : V -> V -> bool) (TO : total_order leb).

Lemma vmin_cases (a b : V) : vmin leb a b = a \/ vmin leb a b = b.
Proof. unfold vmin. destruct (leb b a); [destruct (leb a b)|]; auto. Qed.

Lemma vmin_le (a b : V) : leb (vmin leb a b) a = true /\ leb (vmin leb a b) b = true.
Proof.
  unfold vmin. destruct (leb b a) eqn:Eba; [destruct (leb a b) eqn:Eab|].
  - split; [apply (leb_refl leb TO) | exact Eab].
  - split; [exact Eba | apply (leb_refl leb TO)].
  - split; [apply (leb_refl leb TO)|]. destruct (leb_total leb TO a b) as [L|L]; [exact L | congruence].
Qed.

(* ---- redirecting the donor's items ---- *)
Lemma get_redirect (l : list V) (m : nat) (c : pydict V nat) w :
  dict_get (fold_left (fun c k => dict_set c k m) l c) w = if mem w l then Some m else dict_get c w.
Proof.
  revert c. induction l as [|x t IH]; intros c; simpl; [reflexivity|].
  rewrite IH. destruct (eq_dec w x) as [->|n].
  - destruct (mem x t); [reflexivity | apply dict_get_set_same].
  - destruct (mem w t); [reflexivity | apply dict_get_set_other; exact n].
Qed.

Lemma get_store_set (st0 : pydict nat (V * list V)) m v c :
  dict_get (dict_set st0 m v) c = if Nat.eq_dec c m then Some v else dict_get st0 c.
Proof.
  destruct (Nat.eq_dec c m) as [->|n]; [apply dict_get_set_same | apply dict_get_set_other; exact n].
Qed.

(* ---- the invariant; R is the connectivity relation of the processed prefix ---- *)
Record Inv (K : list V) (R : V -> V -> Prop) (s : @st V) : Prop := {
  inv_keys : forall k, In k K -> exists a, dict_get (comp s) k = Some a;
  inv_store : forall k a, dict_get (comp s) k = Some a ->
      exists id items, dict_get (store s) a = Some (id, items);
  inv_items : forall u a id items, dict_get (comp s) u = Some a -> dict_get (store s) a = Some (id, items) ->
      forall w, In w items <-> dict_get (comp s) w = Some a;
  inv_id : forall u a id items, dict_get (comp s) u = Some a -> dict_get (store s) a = Some (id, items) ->
      In id items /\ forall w, In w items -> leb id w = true;
  inv_conn : forall u v a b, dict_get (comp s) u = Some a -> dict_get (comp s) v = Some b ->
      (a = b <-> R u v) }.

Lemma Inv_iff K R R' s : (forall u v, R u v <-> R' u v) -> Inv K R s -> Inv K R' s.
Proof.
  intros E [I1 I2 I3 I4 I5]. constructor; auto.
  intros u v a b Hu Hv. rewrite <- E. apply I5; assumption.
Qed.

Lemma Inv_merge K R s x y m d idm im idd itd :
  Inv K R s ->
  dict_get (comp s) x = Some m -> dict_get (comp s) y = Some d -> m <> d ->
  dict_get (store s) m = Some (idm, im) -> dict_get (store s) d = Some (idd, itd) ->
  Inv K (fun u v => R u v \/ (R u x /\ R y v) \/ (R u y /\ R x v))
    (mkst (fold_left (fun c k => dict_set c k m) itd (comp s))
          (dict_set (store s) m (vmin leb idm idd, set_union im itd))).
Proof.
  intros [I1 I2 I3 I4 I5] Hx Hy Hmd Sm Sd.
  assert (forall w, dict_get (fold_left (fun c k => dict_set c k m) itd (comp s)) w =
            match dict_get (comp s) w with
            | Some c => Some (if Nat.eq_dec c d then m else c)
            | None => None end) as G.
  { intros w. rewrite get_redirect. destruct (mem w itd) eqn:M.
    - apply mem_In in M. apply (I3 y d idd itd Hy Sd) in M. rewrite M.
      destruct (Nat.eq_dec d d); congruence.
    - apply mem_false in M. destruct (dict_get (comp s) w) as [c|] eqn:Cw; [|reflexivity].
      destruct (Nat.eq_dec c d) as [->|nd]; [|reflexivity].
      exfalso. apply M. apply (I3 y d idd itd Hy Sd). exact Cw. }
  pose proof (I3 x m idm im Hx Sm) as Im.
  pose proof (I3 y d idd itd Hy Sd) as Id.
  pose proof (I4 x m idm im Hx Sm) as [Jm1 Jm2].
  pose proof (I4 y d idd itd Hy Sd) as [Jd1 Jd2].
  constructor; simpl.
  - intros k Hk. destruct (I1 k Hk) as [a Ha]. rewrite G, Ha. eauto.
  - intros k a Hk. rewrite G in Hk.
    destruct (dict_get (comp s) k) as [c|] eqn:Ck; [|discriminate]. injection Hk as <-.
    rewrite get_store_set.
    destruct (Nat.eq_dec c d) as [->|nd].
    + destruct (Nat.eq_dec m m); [eauto | congruence].
    + destruct (Nat.eq_dec c m); [eauto|]. apply (I2 k c Ck).
  - intros u a id items Hu Hs w. rewrite G in Hu.
    destruct (dict_get (comp s) u) as [c|] eqn:Cu; [|discriminate]. injection Hu as <-.
    rewrite get_store_set in Hs. rewrite G.
    assert (forall cw, (Some cw = Some m \/ Some cw = Some d) <->
                       Some (if Nat.eq_dec cw d then m else cw) = Some m) as Key.
    { intros cw. destruct (Nat.eq_dec cw d) as [->|n]; intuition congruence. }
    assert ((id, items) = (vmin leb idm idd, set_union im itd) ->
            In w items <->
            match dict_get (comp s) w with
            | Some c0 => Some (if Nat.eq_dec c0 d then m else c0) | None => None end = Some m) as CaseM.
    { intros [= -> ->]. rewrite In_set_union, Im, Id.
      destruct (dict_get (comp s) w) as [cw|]; [apply Key|].
      split; [intros [?|?]; discriminate | discriminate]. }
    destruct (Nat.eq_dec c d) as [->|nd].
    + destruct (Nat.eq_dec m m) as [_|nn]; [|congruence]. apply CaseM. congruence.
    + destruct (Nat.eq_dec c m) as [->|nm]; [apply CaseM; congruence|].
      rewrite (I3 u c id items Cu Hs w).
      destruct (dict_get (comp s) w) as [cw|]; [|split; discriminate].
      destruct (Nat.eq_dec cw d) as [->|nd2]; split; intros; congruence.
  - intros u a id items Hu Hs. rewrite G in Hu.
    destruct (dict_get (comp s) u) as [c|] eqn:Cu; [|discriminate]. injection Hu as <-.
    rewrite get_store_set in Hs.
    assert ((id, items) = (vmin leb idm idd, set_union im itd) ->
            In id items /\ (forall w, In w items -> leb id w = true)) as CaseM.
    { intros [= -> ->]. destruct (vmin_le idm idd) as [L1 L2]. split.
      - rewrite In_set_union. destruct (vmin_cases idm idd) as [->| ->]; [left|right]; assumption.
      - intros w Hw. apply In_set_union in Hw. destruct Hw as [Hw|Hw].
        + apply (leb_trans leb TO _ idm); [exact L1 | apply Jm2, Hw].
        + apply (leb_trans leb TO _ idd); [exact L2 | apply Jd2, Hw]. }
    destruct (Nat.eq_dec c d) as [->|nd].
    + destruct (Nat.eq_dec m m) as [_|nn]; [|congruence]. apply CaseM. congruence.
    + destruct (Nat.eq_dec c m) as [->|nm]; [apply CaseM; congruence|].
      apply (I4 u c id items Cu Hs).
  - intros u v a b Hu Hv. rewrite G in Hu, Hv.
    destruct (dict_get (comp s) u) as [cu|] eqn:Cu; [|discriminate]. injection Hu as <-.
    destruct (dict_get (comp s) v) as [cv|] eqn:Cv; [|discriminate]. injection Hv as <-.
    rewrite <- (I5 u v cu cv Cu Cv), <- (I5 u x cu m Cu Hx), <- (I5 y v d cv Hy Cv),
            <- (I5 u y cu d Cu Hy), <- (I5 x v m cv Hx Cv).
    destruct (Nat.eq_dec cu d) as [->|], (Nat.eq_dec cv d) as [->|].
    + split; auto.
    + split; [intros <-; auto | intros [?|[[? ?]|[? ?]]]; congruence].
    + split; [intros ->; auto | intros [?|[[? ?]|[? ?]]]; congruence].
    + split; [auto | intros [?|[[? ?]|[? ?]]]; congruence].
Qed.

Lemma Inv_step K E s a b :
  Inv K (conn E) s -> In a K -> In b K -> Inv K (conn (E ++ [(a, b)])) (cc_step leb s (a, b)).
Proof.
  intros I Ha Hb. pose proof I as [I1 I2 I3 I4 I5].
  destruct (I1 a Ha) as [ca Ca]. destruct (I1 b Hb) as [cb Cb].
  destruct (I2 a ca Ca) as (ida & ia & Sa). destruct (I2 b cb Cb) as (idb & ib & Sb).
  unfold cc_step. rewrite Ca, Cb, Sa, Sb.
  destruct (eqb ida idb) eqn:Eq.
  - apply (proj1 (eqb_true ida idb)) in Eq. subst idb.
    assert (ca = cb) as Hab.
    { destruct (I4 a ca ida ia Ca Sa) as [Hin _]. destruct (I4 b cb ida ib Cb Sb) as [Hin' _].
      apply (I3 a ca ida ia Ca Sa) in Hin. apply (I3 b cb ida ib Cb Sb) in Hin'. congruence. }
    assert (conn E a b) as Cab by (apply (I5 a b ca cb Ca Cb); exact Hab).
    apply (Inv_iff K (conn E)); [|exact I].
    intros u v. rewrite conn_snoc. split; [tauto|].
    intros [C|[[C1 C2]|[C1 C2]]]; [exact C | |].
    + apply (conn_trans _ u a v); [exact C1|]. apply (conn_trans _ a b v); assumption.
    + apply (conn_trans _ u b v); [exact C1|]. apply (conn_trans _ b a v); [apply conn_sym|]; assumption.
  - assert (ca <> cb) as Hab.
    { intros Hc. rewrite Hc, Sb in Sa. assert (idb = ida) as Hid by congruence.
      rewrite Hid, eqb_refl in Eq. discriminate. }
    destruct (Nat.leb (List.length ib) (List.length ia)).
    + eapply Inv_iff; [|apply (Inv_merge K (conn E) s a b ca cb ida ia idb ib); auto].
      intros u v. symmetry. apply conn_snoc.
    + eapply Inv_iff; [|apply (Inv_merge K (conn E) s b a cb ca idb ib ida ia); auto].
      intros u v. rewrite conn_snoc. apply or_iff_compat_l, or_comm.
Qed.

Lemma Inv_fold K E2 : forall E1 s,
  (forall a b, In (a, b) E2 -> In a K /\ In b K) ->
  Inv K (conn E1) s -> Inv K (conn (E1 ++ E2)) (fold_left (cc_step leb) E2 s).
Proof.
  induction E2 as [|[a b] t IH]; intros E1 s HE I; simpl.
  - rewrite app_nil_r. exact I.
  - replace (E1 ++ (a, b) :: t) with ((E1 ++ [(a, b)]) ++ t) by (rewrite <- app_assoc; reflexivity).
    apply IH; [intros a' b' Hin; apply HE; right; exact Hin|].
    destruct (HE a b (or_introl eq_refl)) as [Ha Hb]. apply Inv_step; assumption.
Qed.

(* ---- initial state ---- *)
Lemma init_spec (ks : list V) : forall i,
  (forall k a, dict_get (comp (init_from i ks)) k = Some a ->
     i <= a /\ dict_get (store (init_from i ks)) a = Some (k, [k])) /\
  (forall k, In k ks -> exists a, dict_get (comp (init_from i ks)) k = Some a).
Proof.
  induction ks as [|k0 t IH]; intros i; simpl.
  - split; [intros k a Hk; discriminate | intros k []].
  - destruct (IH (S i)) as [IH1 IH2]. split.
    + intros k a Hk. destruct (eq_dec k k0) as [->|n].
      * injection Hk as <-. split; [lia|]. destruct (eq_dec i i) as [_|nn]; [reflexivity | congruence].
      * destruct (IH1 k a Hk) as [Hle Hs]. split; [lia|].
        destruct (eq_dec a i) as [->|_]; [lia | exact Hs].
    + intros k [->|Hin].
      * destruct (eq_dec k k) as [_|nn]; [eauto | congruence].
      * destruct (eq_dec k k0); [eauto | apply IH2, Hin].
Qed.

Lemma Inv_init (K : list V) : Inv K (conn []) (init_from 0 K).
Proof.
  destruct (init_spec K 0) as [S1 S2].
  constructor.
  - exact S2.
  - intros k a Hk. destruct (S1 k a Hk) as [_ Hs]. eauto.
  - intros u a id items Hu Hs w. destruct (S1 u a Hu) as [_ Hs']. rewrite Hs' in Hs.
    injection Hs as <- <-. split.
    + intros [->|[]]. exact Hu.
    + intros Hw. destruct (S1 w a Hw) as [_ Hs'']. rewrite Hs'' in Hs'. injection Hs' as ->. left. reflexivity.
  - intros u a id items Hu Hs. destruct (S1 u a Hu) as [_ Hs']. rewrite Hs' in Hs.
    injection Hs as <- <-. split; [left; reflexivity|].
    intros w [->|[]]. apply (leb_refl leb TO).
  - intros u v a b Hu Hv. rewrite conn_nil.
    destruct (S1 u a Hu) as [_ Su]. destruct (S1 v b Hv) as [_ Sv]. split.
    + intros ->. congruence.
    + intros ->. congruence.
Qed.

(* ---- final state ---- *)
Lemma edges_in_keys (f g : list V) a b : In (a, b) (combine f g) -> In a (cc_keys f g) /\ In b (cc_keys f g).
Proof.
  intros Hin. unfold cc_keys. rewrite !In_set_union, !In_py_set. split.
  - left. eapply in_combine_l. exact Hin.
  - right. eapply in_combine_r. exact Hin.
Qed.

Lemma Inv_final (f g : list V) :
  Inv (cc_keys f g) (conn (combine f g)) (fold_left (cc_step leb) (combine f g) (cc_init f g)).
Proof.
  apply (Inv_fold (cc_keys f g) (combine f g) [] (cc_init f g)).
  - apply edges_in_keys.
  - apply Inv_init.
Qed.

Lemma In_f_keys (f g : list V) v : In v f -> In v (cc_keys f g).
Proof. intros Hv. unfold cc_keys. rewrite In_set_union, In_py_set. left. exact Hv. Qed.

Lemma label_ex K R s v : Inv K R s -> In v K -> exists m, cc_label s v = Some m.
Proof.
  intros [I1 I2 _ _ _] Hv. destruct (I1 v Hv) as [a Ha]. destruct (I2 v a Ha) as (id & items & Hs).
  exists id. unfold cc_label. rewrite Ha, Hs. reflexivity.
Qed.

Lemma label_spec K E s v m :
  (forall a b, In (a, b) E -> In a K /\ In b K) ->
  Inv K (conn E) s -> In v K -> cc_label s v = Some m ->
  conn E v m /\ (forall u, conn E v u -> leb m u = true).
Proof.
  intros HE [I1 I2 I3 I4 I5] Hv Hl. unfold cc_label in Hl.
  destruct (dict_get (comp s) v) as [a|] eqn:Ca; [|discriminate].
  destruct (dict_get (store s) a) as [[id items]|] eqn:Sa; [|discriminate].
  injection Hl as ->.
  destruct (I4 v a m items Ca Sa) as [Hin Hle].
  split.
  - apply (I5 v m a a Ca); [|reflexivity]. apply (I3 v a m items Ca Sa). exact Hin.
  - intros u Cu.
    assert (In u K) as Hu by (apply (conn_closed E (fun z => In z K) v u HE Cu); exact Hv).
    destruct (I1 u Hu) as [b Cb].
    assert (a = b) as <- by (apply (I5 v u a b Ca Cb); exact Cu).
    apply Hle. apply (I3 v a m items Ca Sa). exact Cb.
Qed.

(* whatever list of labels the call returns: one label per edge, each connected to the edge's endpoint and least in
   that endpoint's component *)
Lemma cc_labels (f g : list V) res : connected_components leb f g = Some res ->
  List.length res = List.length f /\
  forall i v, nth_error f i = Some v ->
    exists m, nth_error res i = Some m /\ conn (combine f g) v m /\ (forall u, conn (combine f g) v u -> leb m u = true).
Proof.
  unfold connected_components. intros Hres.
  destruct (all_some_nth _ f res Hres) as [Hlen Hnth]. split; [exact Hlen|].
  intros i v Hv. destruct (Hnth i v Hv) as (m & Hm & Hl).
  exists m. split; [exact Hm|].
  apply (label_spec (cc_keys f g) (combine f g) _ v m (edges_in_keys f g) (Inv_final f g)); [|exact Hl].
  apply In_f_keys. eapply nth_error_In. exact Hv.
Qed.

(* every edge i is labelled by the least vertex of the connected component of its endpoints *)
Lemma cc_correct (f g : list V) : List.length f = List.length g ->
  exists res, connected_components leb f g = Some res /\ List.length res = List.length f /\
  forall i v, nth_error f i = Some v ->
    exists m, nth_error res i = Some m /\ conn (combine f g) v m /\ (forall u, conn (combine f g) v u -> leb m u = true).
Proof.
  intros _. destruct (all_some_ex (cc_label (fold_left (cc_step leb) (combine f g) (cc_init f g))) f) as [res Hres].
  { intros x Hx. apply (label_ex _ _ _ _ (Inv_final f g)). apply In_f_keys, Hx. }
  exists res. split; [exact Hres | apply cc_labels, Hres].
Qed.

(* two edges get the same label exactly when they lie in the same component: the least vertex of a component is unique *)
Lemma cc_same_label_iff (f g : list V) res : List.length f = List.length g ->
  connected_components leb f g = Some res ->
  forall i j vi vj mi mj, nth_error f i = Some vi -> nth_error f j = Some vj ->
    nth_error res i = Some mi -> nth_error res j = Some mj ->
    (mi = mj <-> conn (combine f g) vi vj).
Proof.
  intros _ Hres i j vi vj mi mj Hi Hj Ri Rj. destruct (cc_labels f g res Hres) as [_ L].
  destruct (L i vi Hi) as (mi' & Ri' & Ci & Li). destruct (L j vj Hj) as (mj' & Rj' & Cj & Lj).
  rewrite Ri in Ri'. injection Ri' as <-. rewrite Rj in Rj'. injection Rj' as <-.
  split.
  - intros <-. apply (conn_trans _ vi mi vj); [exact Ci | apply conn_sym, Cj].
  - intros C. apply (leb_antisym leb TO).
    + apply Li. apply (conn_trans _ vi vj mj); assumption.
    + apply Lj. apply (conn_trans _ vj vi mi); [apply conn_sym, C | exact Ci].
Qed.
End P.
