(* C17, part 6: RecordMap.transform / inverse on the three shapes of record map. *)
From Coq Require Import List Bool Arith String Lia Permutation.
Import ListNotations.
From DA Require Import Base.PyRT Base.Val Model.CData Proofs.CDataP1 Proofs.CDataP2 Proofs.CDataP4 Proofs.CDataP5 Proofs.ListP.

(* ------------------------------------------------------------------ columns of the results *)
Lemma r2b_result_cols S T B : spec_facts S -> rowrecs_to_blocks S T = Ok B -> Permutation (cols B) (block_columns S).
Proof. intros F. unfold rowrecs_to_blocks. cbv zeta. destruct (rows (select_cols (row_columns S) T)).
  - intros E. inversion E. reflexivity.
  - destruct (is_keyed _ _) as [[|]| |]; intros E; inversion E. simpl. apply r2b_cols_perm. exact F. Qed.

Lemma perm_subset (a b c : list string) : Permutation b c -> (forall x, In x a -> In x c) -> subset a b = true.
Proof. intros P I. apply subset_spec. intros x Hx. apply (Permutation_in _ (Permutation_sym P)). apply I. exact Hx. Qed.

(* ------------------------------------------------------------------ the constructors on strict block specifications *)
Lemma is_row_spec_false S : spec_facts S -> is_row_spec S = false.
Proof. intros F. unfold is_row_spec. apply Nat.leb_gt. pose proof (sf_two_rows S F). lia. Qed.

Lemma content_keys_nodupb S : spec_facts S -> nodupb (content_keys S) = true.
Proof. intros F. rewrite (content_keys_cnames S F). apply nodupb_NoDup. apply (sf_names_nodup S F). Qed.

Lemma mk_map_rows_to_blocks S : spec_facts S -> mk_map None (Some S) true = Some (mkmap None (Some S) true).
Proof. intros F. unfold mk_map. rewrite (sf_strict S F), (is_row_spec_false S F). reflexivity. Qed.

Lemma mk_map_blocks_to_rows S : spec_facts S -> mk_map (Some S) None true = Some (mkmap (Some S) None true).
Proof. intros F. unfold mk_map. rewrite (sf_strict S F), (is_row_spec_false S F). simpl. rewrite (content_keys_nodupb S F). reflexivity. Qed.

Lemma same_records_facts A B : same_records A B = true ->
  (forall c, In c (rs_keys A) <-> In c (rs_keys B)) /\ (forall c, In c (content_keys A) <-> In c (content_keys B)).
Proof. unfold same_records, set_eqb. rewrite !andb_true_iff, !subset_spec. intros [[a b] [c d]]. split; intros x; split; auto. Qed.

Lemma same_records_rc A B c : same_records A B = true -> (In c (row_columns A) <-> In c (row_columns B)).
Proof. intros SR. destruct (same_records_facts A B SR) as [RKe CKe]. rewrite !In_rc, (RKe c), (CKe c). reflexivity. Qed.

Lemma same_records_sym A B : same_records A B = true -> same_records B A = true.
Proof. unfold same_records, set_eqb. rewrite !andb_true_iff. tauto. Qed.

Lemma complete_blocks_sub S t : complete_blocks S t = true -> subset (block_columns S) (cols t) = true.
Proof. unfold complete_blocks. rewrite !andb_true_iff. tauto. Qed.

Lemma mk_map_blocks_to_blocks A B : spec_facts A -> spec_facts B -> same_records A B = true ->
  mk_map (Some A) (Some B) true = Some (mkmap (Some A) (Some B) true).
Proof. intros FA FB SR. unfold mk_map.
  rewrite (sf_strict A FA), (is_row_spec_false A FA), (sf_strict B FB), (is_row_spec_false B FB). simpl.
  rewrite (content_keys_nodupb A FA). simpl.
  unfold same_records, set_eqb in SR. rewrite !andb_true_iff in SR. destruct SR as [[a b] [c d]].
  rewrite b, d. simpl. unfold set_eqb. rewrite a, b. reflexivity. Qed.

(* ------------------------------------------------------------------ keyedness for another listing of the key columns *)
Lemma key_ok_cells cs r ks : key_ok (cells cs r ks) = true <-> forall c, In c ks -> non_null (get cs r c) && val_canon (get cs r c) = true.
Proof. unfold key_ok, cells. rewrite forallb_forall. split.
  - intros h c Hc. apply h. apply in_map. exact Hc.
  - intros h v Hv. apply in_map_iff in Hv. destruct Hv as [c [<- Hc]]. apply h. exact Hc. Qed.

Lemma NoDup_map_finer {A B C} (f : A -> B) (g : A -> C) l :
  (forall x y, In x l -> In y l -> f x = f y -> g x = g y) -> NoDup (map g l) -> NoDup (map f l).
Proof. intros h N. apply NoDup_map_inj_on; [eapply NoDup_map_inv; exact N|].
  intros x y Hx Hy E. eapply NoDup_map_inj; [exact N|exact Hx|exact Hy|]. apply h; assumption. Qed.

Lemma map_eq_pointwise {A B} (f g : A -> B) l : map f l = map g l -> forall a, In a l -> f a = g a.
Proof. induction l as [|x t IH]; simpl; intros E a Ha; [destruct Ha|]. inversion E. destruct Ha as [<-|Ha]; [assumption|apply IH; assumption]. Qed.

Lemma keyed_facts_perm_keys ks ks' t : keyed_facts ks t -> (forall c, In c ks' <-> In c ks) -> keyed_facts ks' t.
Proof. intros [a b c] E. constructor.
  - intros x Hx. apply a. apply E. exact Hx.
  - intros r Hr. apply key_ok_cells. intros x Hx. apply (proj1 (key_ok_cells _ _ _) (b r Hr)). apply E. exact Hx.
  - apply (NoDup_map_finer _ (fun r => cells (cols t) r ks)); [|exact c].
    intros x y _ _ Exy. unfold cells in *. apply map_ext_in. intros k Hk.
    apply (map_eq_pointwise _ _ _ Exy). apply E. exact Hk. Qed.

Lemma conforming_same_records A B X : same_records A B = true -> keyed_by (rs_keys A) X = true ->
  Permutation (cols X) (row_columns A) -> conforming_rows B X = true.
Proof. intros SR KX PX. destruct (same_records_facts A B SR) as [RKe _].
  unfold conforming_rows. apply andb_true_iff. split.
  - apply keyed_by_facts. apply (keyed_facts_perm_keys (rs_keys A)); [apply keyed_by_facts; exact KX|]. intros c. symmetry. apply RKe.
  - apply (perm_subset _ _ _ PX). intros c. apply same_records_rc. exact SR. Qed.

Lemma conforming_keyed_same B C X : same_records B C = true -> conforming_rows B X = true -> keyed_facts (rs_keys C) X.
Proof. intros SR CB. destruct (same_records_facts B C SR) as [RKe _].
  apply (keyed_facts_perm_keys (rs_keys B)); [apply conforming_keyed; exact CB|intros c; symmetry; apply RKe]. Qed.

(* ------------------------------------------------------------------ rowrecs_to_blocks only sees the selected rows, as a multiset *)
Lemma nodupb_perm {A} `{EqDec A} (a b : list A) : Permutation a b -> nodupb a = nodupb b.
Proof. intros P. destruct (nodupb a) eqn:Ea, (nodupb b) eqn:Eb; try reflexivity.
  - apply nodupb_NoDup in Ea. apply (Permutation_NoDup P) in Ea. apply nodupb_NoDup in Ea. congruence.
  - apply nodupb_NoDup in Eb. apply (Permutation_NoDup (Permutation_sym P)) in Eb. apply nodupb_NoDup in Eb. congruence. Qed.

Lemma is_keyed_perm ks t t' : cols t = cols t' -> Permutation (rows t) (rows t') -> is_keyed ks t = is_keyed ks t'.
Proof. intros Ec P. unfold is_keyed. rewrite <- Ec, (Permutation_length P).
  destruct (Nat.ltb _ 2); [reflexivity|]. destruct (subset ks (cols t)); [|reflexivity]. destruct ks as [|k0 ks']; [reflexivity|].
  set (kk := k0 :: ks').
  assert (P2 : Permutation (filter (forallb non_null) (map (fun r => cells (cols t) r kk) (rows t)))
                           (filter (forallb non_null) (map (fun r => cells (cols t) r kk) (rows t')))).
  { apply perm_filter. apply Permutation_map. exact P. }
  destruct (filter _ (map _ (rows t))) as [|a l] eqn:E1, (filter _ (map _ (rows t'))) as [|a' l'] eqn:E2; try reflexivity.
  - apply Permutation_nil in P2. discriminate.
  - apply Permutation_sym, Permutation_nil in P2. discriminate.
  - f_equal. apply nodupb_perm. exact P2. Qed.

Lemma r2b_cong S X X' B :
  Permutation (rows (select_cols (row_columns S) X)) (rows (select_cols (row_columns S) X')) ->
  rowrecs_to_blocks S X = Ok B ->
  exists B', rowrecs_to_blocks S X' = Ok B' /\ cols B' = cols B /\ Permutation (rows B') (rows B).
Proof. intros P. unfold rowrecs_to_blocks. cbv zeta.
  rewrite (is_keyed_perm (rs_keys S) (select_cols (row_columns S) X) (select_cols (row_columns S) X') eq_refl P).
  destruct (rows (select_cols (row_columns S) X)) as [|a l] eqn:E1, (rows (select_cols (row_columns S) X')) as [|a' l'] eqn:E2.
  - intros E. exists B. rewrite E. auto.
  - apply Permutation_nil in P. discriminate.
  - apply Permutation_sym, Permutation_nil in P. discriminate.
  - destruct (is_keyed _ _) as [[|]| |]; intros E; inversion E as [E']. clear E. subst B. eexists. split; [reflexivity|]. split; [reflexivity|]. cbn [rows].
    etransitivity; [apply sort_by_perm|]. etransitivity; [|apply Permutation_sym; apply sort_by_perm].
    apply perm_flat_map_ext. intros cr _. exact (Permutation_map _ (Permutation_sym P)). Qed.

Lemma tbl_eqv_rows_perm B B' t : cols B' = cols B -> Permutation (rows B') (rows B) -> tbl_eqv B t -> tbl_eqv B' t.
Proof. intros Ec P [a b]. split; [rewrite Ec; exact a|]. simpl. rewrite Ec. etransitivity; [apply Permutation_map; exact P|exact b]. Qed.

(* ------------------------------------------------------------------ transform on the three shapes *)
Lemma transform_steps m t x z : subset (columns_needed m) (cols t) = true ->
  match rm_in m with Some i => blocks_to_rowrecs i t | None => Ok t end = Ok x ->
  match rm_out m with Some o => rowrecs_to_blocks o x | None => Ok x end = Ok z -> transform m t = Ok z.
Proof. intros Sub E1 E2. unfold transform. rewrite Sub, E1. exact E2. Qed.

Theorem recordmap_inverse_rows_to_blocks S t : strict_spec S = true -> conforming_rows S t = true ->
  exists m m' y z, mk_map None (Some S) true = Some m /\ inverse m = Some m' /\
    transform m t = Ok y /\ transform m' y = Ok z /\ tbl_eqv z (select_cols (row_columns S) t).
Proof. intros HS HC. pose proof (strict_spec_facts S HS) as F.
  destruct (roundtrip_rows S t HS HC) as [B [X [E1 [E2 EQ]]]].
  pose proof (conforming_sub S t HC) as Sub.
  exists (mkmap None (Some S) true), (mkmap (Some S) None true), B, X.
  split; [apply mk_map_rows_to_blocks; exact F|]. split; [unfold inverse; simpl; apply mk_map_blocks_to_rows; exact F|].
  split; [eapply transform_steps; [exact Sub|reflexivity|exact E1]|]. split; [|exact EQ].
  eapply transform_steps; [|exact E2|reflexivity].
  apply (perm_subset _ _ _ (r2b_result_cols S t B F E1)). auto. Qed.

Theorem recordmap_inverse_blocks_to_rows S t : strict_spec S = true -> complete_blocks S t = true ->
  exists m m' y z, mk_map (Some S) None true = Some m /\ inverse m = Some m' /\
    transform m t = Ok y /\ transform m' y = Ok z /\ tbl_eqv z (select_cols (block_columns S) t).
Proof. intros HS HC. pose proof (strict_spec_facts S HS) as F.
  destruct (roundtrip_blocks S t HS HC) as [X [B [E1 [PX [_ [E2 EQ]]]]]].
  pose proof (complete_blocks_sub S t HC) as Sub.
  exists (mkmap (Some S) None true), (mkmap None (Some S) true), X, B.
  split; [apply mk_map_blocks_to_rows; exact F|]. split; [unfold inverse; simpl; apply mk_map_rows_to_blocks; exact F|].
  split; [eapply transform_steps; [exact Sub|exact E1|reflexivity]|]. split; [|exact EQ].
  eapply transform_steps; [apply (perm_subset _ _ _ PX); auto|reflexivity|exact E2]. Qed.

Lemma tbl_eqv_select cs X' X : tbl_eqv X' X -> (forall c, In c cs -> In c (cols X)) ->
  Permutation (rows (select_cols cs X')) (rows (select_cols cs X)).
Proof. intros [_ PR] Sub. simpl in *. apply (Permutation_map (fun x => cells (cols X) x cs)) in PR. rewrite map_map in PR.
  rewrite (map_ext _ (fun r => cells (cols X') r cs)) in PR by (intros r; apply cells_cells; exact Sub). exact PR. Qed.

(* blocks -> rows (spec A) -> blocks (spec B), and back: the common core used by the inverse of a blocks->blocks map and by
   composition: after going to B-blocks and back to rows, rowrecs_to_blocks for any spec C over the same records gives what it
   gives on the rows directly *)
Lemma through_blocks_and_back B C X : strict_spec B = true -> same_records B C = true ->
  conforming_rows B X = true ->
  forall Z, rowrecs_to_blocks C X = Ok Z ->
  exists Y X2 Z2, rowrecs_to_blocks B X = Ok Y /\ Permutation (cols Y) (block_columns B) /\
    blocks_to_rowrecs B Y = Ok X2 /\ rowrecs_to_blocks C X2 = Ok Z2 /\ cols Z2 = cols Z /\ Permutation (rows Z2) (rows Z).
Proof. intros HB SR HC Z EZ. pose proof (strict_spec_facts B HB) as FB.
  destruct (roundtrip_rows B X HB HC) as [Y [X2 [E1 [E2 [PC PR]]]]].
  assert (rcCB : forall c, In c (row_columns C) -> In c (row_columns B)) by (intros c; apply same_records_rc; exact SR).
  destruct (r2b_cong C X X2 Z) as [Z2 [E3 [Ec Pr]]].
  - (* the selected rows agree *)
    apply Permutation_sym. etransitivity; [apply (tbl_eqv_select (row_columns C) X2 _ (conj PC PR) rcCB)|].
    simpl. rewrite map_map. apply Permutation_refl'. apply map_ext. intros r. apply cells_cells. exact rcCB.
  - exact EZ.
  - exists Y, X2, Z2. split; [exact E1|]. split; [apply (r2b_result_cols B X Y FB E1)|]. auto. Qed.

Theorem recordmap_inverse_blocks_to_blocks A B t :
  strict_spec A = true -> strict_spec B = true -> same_records A B = true -> complete_blocks A t = true ->
  exists m m' y z, mk_map (Some A) (Some B) true = Some m /\ inverse m = Some m' /\
    transform m t = Ok y /\ transform m' y = Ok z /\ tbl_eqv z (select_cols (block_columns A) t).
Proof. intros HA HB SR HC. pose proof (strict_spec_facts A HA) as FA. pose proof (strict_spec_facts B HB) as FB.
  destruct (roundtrip_blocks A t HA HC) as [X1 [B1 [E1 [PX [KX [E2 EQ]]]]]].
  pose proof (complete_blocks_sub A t HC) as Sub. pose proof (conforming_same_records A B X1 SR KX PX) as CB.
  destruct (through_blocks_and_back B A X1 HB (same_records_sym A B SR) CB B1 E2) as [Y [X2 [Z2 [F1 [PY [F2 [F3 [Ec Pr]]]]]]]].
  exists (mkmap (Some A) (Some B) true), (mkmap (Some B) (Some A) true), Y, Z2.
  split; [apply mk_map_blocks_to_blocks; assumption|].
  split; [unfold inverse; simpl; apply mk_map_blocks_to_blocks; [assumption|assumption|apply same_records_sym; exact SR]|].
  split; [eapply transform_steps; [exact Sub|exact E1|exact F1]|].
  split.
  - eapply transform_steps; [apply (perm_subset _ _ _ PY); auto|exact F2|exact F3].
  - apply (tbl_eqv_rows_perm B1 Z2); assumption. Qed.
