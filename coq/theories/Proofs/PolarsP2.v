(* C03, part 2: cells, rows and frames -- reading a cell after a sequence of column assignments, with_columns / select /
   filter on indexed rows; expressions only see the columns they mention; the temporary names are new. *)
From Coq Require Import List Bool Arith String Lia FinFun.
Import ListNotations.
From DA Require Import Base.PyRT Base.PyStr Base.Val Model.Sem Model.PolarsExec Proofs.SemBasicP Proofs.PolarsP1 Proofs.ListP Proofs.TabP.
Local Open Scope string_scope.
Local Open Scope list_scope.

(* ------------------------------------------------------------------ index_of / get *)

Lemma get_notin cs r c : ~ In c cs -> get cs r c = VNull.
Proof. exact (get_absent cs r c). Qed.

(* ------------------------------------------------------------------ a cell after a sequence of assignments *)
Fixpoint last_for {X : Type} (c : string) (l : list (string * X)) : option (string * X) :=
  match l with
  | [] => None
  | ke :: t => match last_for c t with Some y => Some y | None => if eq_dec c (fst ke) then Some ke else None end
  end.

Lemma last_for_map {X Y : Type} (g : string * X -> string * Y) c l : (forall ke, fst (g ke) = fst ke) ->
  last_for c (map g l) = option_map g (last_for c l).
Proof.
  intros G. induction l as [|ke t IH]; simpl; [reflexivity|]. rewrite IH. destruct (last_for c t); simpl; [reflexivity|].
  rewrite G. destruct (eq_dec c (fst ke)); reflexivity.
Qed.
Lemma last_for_app {X : Type} c (l1 l2 : list (string * X)) :
  last_for c (l1 ++ l2) = match last_for c l2 with Some y => Some y | None => last_for c l1 end.
Proof.
  induction l1 as [|ke t IH]; simpl; [destruct (last_for c l2); reflexivity|]. rewrite IH.
  destruct (last_for c l2); [reflexivity|]. reflexivity.
Qed.
Lemma last_for_None {X : Type} c (l : list (string * X)) : ~ In c (map fst l) -> last_for c l = None.
Proof.
  induction l as [|ke t IH]; simpl; intros N; [reflexivity|]. rewrite IH by tauto.
  destruct (eq_dec c (fst ke)) as [->|n]; [tauto|reflexivity].
Qed.
Lemma last_for_Some {X : Type} c (l : list (string * X)) ke : last_for c l = Some ke -> fst ke = c /\ In ke l.
Proof.
  induction l as [|a t IH]; simpl; [discriminate|]. destruct (last_for c t) as [y|].
  - intros E. inversion E; subst. destruct (IH eq_refl) as [A B]. auto.
  - destruct (eq_dec c (fst a)) as [->|n]; [|discriminate]. intros E. inversion E; subst. auto.
Qed.
Lemma last_for_In {X : Type} c (l : list (string * X)) : In c (map fst l) -> exists ke, last_for c l = Some ke.
Proof.
  induction l as [|a t IH]; simpl; [tauto|]. intros [E|I].
  - destruct (last_for c t) as [y|]; [eauto|]. destruct (eq_dec c (fst a)); [eauto|congruence].
  - destruct (IH I) as [ke E]. rewrite E. eauto.
Qed.

Section FoldGet.
  Context {X : Type} (F : string * X -> val).
  Let step := (fun (acc : list val * list string) (ke : string * X) =>
                 let '(row, ccs) := acc in (set_cell ccs row (fst ke) (F ke), add_end ccs (fst ke))).
  Lemma fold_cells_get_full l row ccs c : List.length row = List.length ccs ->
    get (ext_cols ccs (map fst l)) (fst (fold_left step l (row, ccs))) c =
    match last_for c l with Some ke => F ke | None => get ccs row c end.
  Proof.
    revert row ccs. induction l as [|ke t IH]; intros row ccs L; simpl; [reflexivity|].
    unfold ext_cols in *. simpl. rewrite IH by (apply set_cell_length; exact L).
    destruct (last_for c t); [reflexivity|]. rewrite set_cell_get by exact L.
    destruct (eq_dec c (fst ke)); reflexivity.
  Qed.
  Lemma fold_cells_len l row ccs : List.length row = List.length ccs ->
    List.length (fst (fold_left step l (row, ccs))) = List.length (ext_cols ccs (map fst l)).
  Proof. intros L. destruct (fold_cells_inv F l row ccs L) as [H1 H2]. fold step in H1, H2. rewrite <- H2. exact H1. Qed.
End FoldGet.

Lemma NoDup_ext_cols cs ks : NoDup cs -> NoDup (ext_cols cs ks).
Proof. apply NoDup_fold_add_end. Qed.

(* ------------------------------------------------------------------ indexed rows *)
Lemma nth_error_tag_from n rs i : nth_error (tag_from n rs) i = option_map (fun r => ((n + i)%nat, r)) (nth_error rs i).
Proof.
  revert n i. induction rs as [|x t IH]; intros n [|i]; simpl; try reflexivity.
  - rewrite Nat.add_0_r. reflexivity.
  - rewrite IH. destruct (nth_error t i); simpl; [|reflexivity]. f_equal. f_equal. lia.
Qed.

Lemma map_tag_from_rowwise {B} (f : nat * list val -> B) (h : list val -> B) rs :
  (forall i r, nth_error rs i = Some r -> f (i, r) = h r) -> map f (tag_from 0 rs) = map h rs.
Proof.
  assert (forall n rs', (forall i r, nth_error rs' i = Some r -> f ((n + i)%nat, r) = h r) -> map f (tag_from n rs') = map h rs') as G.
  { intros n rs'. revert n. induction rs' as [|x t IH]; intros n H; simpl; [reflexivity|]. f_equal.
    - rewrite <- (Nat.add_0_r n). apply H. reflexivity.
    - apply IH. intros i r E. replace (S n + i)%nat with (n + S i)%nat by lia. apply H. exact E. }
  intros H. apply G. exact H.
Qed.

Lemma filter_tag_from_rowwise (p : nat * list val -> bool) (q : list val -> bool) rs :
  (forall i r, nth_error rs i = Some r -> p (i, r) = q r) -> map snd (filter p (tag_from 0 rs)) = filter q rs.
Proof.
  assert (forall n rs', (forall i r, nth_error rs' i = Some r -> p ((n + i)%nat, r) = q r) -> map snd (filter p (tag_from n rs')) = filter q rs') as G.
  { intros n rs'. revert n. induction rs' as [|x t IH]; intros n H; simpl; [reflexivity|].
    rewrite <- (H 0%nat x eq_refl), Nat.add_0_r.
    assert (map snd (filter p (tag_from (S n) t)) = filter q t) as R.
    { apply IH. intros i r E. replace (S n + i)%nat with (n + S i)%nat by lia. apply H. exact E. }
    destruct (p (n, x)); simpl; rewrite R; reflexivity. }
  intros H. apply G. exact H.
Qed.

Lemma nth_error_nth' {A} (l : list A) i x d : nth_error l i = Some x -> nth i l d = x.
Proof. apply nth_error_nth. Qed.

Lemma map_nth_seq_id {A} (l : list A) d : map (fun j => nth j l d) (seq 0 (List.length l)) = l.
Proof. rewrite (map_nth_seq (fun x => x)). apply map_id. Qed.

Lemma map_nth_filter_seq (q : list val -> bool) rs :
  map (fun j => nth j rs []) (filter (fun j => q (nth j rs [])) (seq 0 (List.length rs))) = filter q rs.
Proof. rewrite <- filter_map_comm, map_nth_seq_id. reflexivity. Qed.

(* ------------------------------------------------------------------ expressions only see the columns they mention *)
Lemma eval_expr_cols_ext fl cs r cs' r' e :
  (forall c, In c (expr_cols e) -> get cs r c = get cs' r' c) -> eval_expr fl cs r e = eval_expr fl cs' r' e.
Proof.
  induction e as [c|v|op args IH] using expr_ind2; intros H.
  - simpl. apply H. left. reflexivity.
  - reflexivity.
  - rewrite !eval_expr_EOp. f_equal. apply map_ext_in. intros a I. rewrite Forall_forall in IH. apply IH; [exact I|].
    intros c Ic. apply H. rewrite expr_cols_op. apply in_flat_map. exists a. auto.
Qed.

Lemma expr_nulls_ok_cols_ext sens cs r cs' r' e :
  (forall c, In c (expr_cols e) -> get cs r c = get cs' r' c) -> expr_nulls_ok sens cs r e = expr_nulls_ok sens cs' r' e.
Proof.
  induction e as [c|v|op args IH] using expr_ind2; intros H; try reflexivity.
  rewrite !expr_nulls_ok_op. rewrite Forall_forall in IH.
  assert (forall a, In a args -> forall c, In c (expr_cols a) -> get cs r c = get cs' r' c) as HA.
  { intros a I c Ic. apply H. rewrite expr_cols_op. apply in_flat_map. exists a. auto. }
  f_equal.
  - apply forallb_ext_in. intros a I. apply IH; [exact I|]. apply HA. exact I.
  - destruct (sens op); [|reflexivity]. apply forallb_ext_in. intros a I.
    rewrite (eval_expr_cols_ext fl_pandas cs r cs' r' a); [reflexivity|]. apply HA. exact I.
Qed.

Lemma nulls_ok3_cols_ext cs r cs' r' e :
  (forall c, In c (expr_cols e) -> get cs r c = get cs' r' c) -> nulls_ok3 cs r e -> nulls_ok3 cs' r' e.
Proof.
  intros H [A B]. unfold nulls_ok3.
  rewrite <- !(expr_nulls_ok_cols_ext _ cs r cs' r' e H). auto.
Qed.

(* ------------------------------------------------------------------ vocabulary expressions need no temporary column *)
Lemma vocab_nodes e : expr_vocab e = true -> forall on, In on (expr_nodes e) -> scalar_vocab (fst on) (snd on) = true.
Proof.
  induction e as [c|v|op args IH] using expr_ind2; intros V on I; [destruct I|destruct I|].
  rewrite expr_vocab_op in V. apply andb_true_iff in V. destruct V as [V1 V2].
  rewrite expr_nodes_op in I. destruct I as [<-|I]; [exact V1|].
  apply in_flat_map in I. destruct I as [a [Ia Io]]. rewrite Forall_forall in IH. apply (IH a Ia); [|exact Io].
  rewrite forallb_forall in V2. auto.
Qed.

(* the vocabulary shares no name with the methods that ask for a temporary column: checked on the three tables *)
Lemma scalar_vocab_no_temp op n : scalar_vocab op n = true ->
  (Nat.eqb n 0 || mem op ["size"; "_size"; "count"; "_count"; "cumcount"; "_cumcount"]) = false /\ eqb op "coalesce0" = false.
Proof.
  intros V.
  set (other := fun o => negb (mem o ["size"; "_size"; "count"; "_count"; "cumcount"; "_cumcount"]) && negb (eqb o "coalesce0")).
  assert (n <> 0%nat /\ other op = true) as [N T].
  { destruct n as [|[|[|[|n]]]]; cbn [scalar_vocab] in V; try discriminate; (split; [discriminate|]);
      apply mem_In in V; revert op V; apply forallb_forall; reflexivity. }
  apply andb_true_iff in T. destruct T as [T1 T2]. apply negb_true_iff in T1, T2.
  apply Nat.eqb_neq in N. rewrite N, T1, T2. auto.
Qed.

Lemma vocab_no_temps e : expr_vocab e = true -> needs_one e = false /\ needs_zero e = false.
Proof.
  intros V. pose proof (vocab_nodes e V) as H.
  split; apply existsb_false; intros on I; apply (scalar_vocab_no_temp _ _ (H on I)).
Qed.

Lemma req_temps_vocab z o es : forallb expr_vocab es = true -> req_temps z o es = [].
Proof.
  intros V. rewrite forallb_forall in V. unfold req_temps.
  rewrite !existsb_false; [reflexivity| |]; intros e I; apply (vocab_no_temps e (V e I)).
Qed.

(* ------------------------------------------------------------------ with_columns on indexed rows *)
Definition wc_row (t : table) (xs : list (string * colx)) (ir : nat * list val) : list val :=
  fst (fold_left (fun acc kx => let '(row, ccs) := acc in
                                (set_cell ccs row (fst kx) (col_at t (snd kx) (fst ir)), add_end ccs (fst kx))) xs (snd ir, cols t)).
Lemma rows_with_columns t xs : rows (pl_with_columns t xs) = map (wc_row t xs) (tag_from 0 (rows t)).
Proof. reflexivity. Qed.
Lemma cols_with_columns t xs : cols (pl_with_columns t xs) = ext_cols (cols t) (map fst xs).
Proof. reflexivity. Qed.
Lemma wc_row_get t xs i r c : List.length r = List.length (cols t) ->
  get (ext_cols (cols t) (map fst xs)) (wc_row t xs (i, r)) c =
  match last_for c xs with Some kx => col_at t (snd kx) i | None => get (cols t) r c end.
Proof. intros L. unfold wc_row. cbn [fst snd]. apply (fold_cells_get_full (fun kx => col_at t (snd kx) i)). exact L. Qed.
Lemma wc_row_len t xs i r : List.length r = List.length (cols t) ->
  List.length (wc_row t xs (i, r)) = List.length (ext_cols (cols t) (map fst xs)).
Proof. intros L. unfold wc_row. cbn [fst snd]. apply (fold_cells_len (fun kx => col_at t (snd kx) i)). exact L. Qed.

Lemma width_with_columns t xs : width_ok t -> width_ok (pl_with_columns t xs).
Proof.
  unfold width_ok. rewrite rows_with_columns, cols_with_columns, !Forall_forall. intros W r I.
  apply in_map_iff in I. destruct I as [[i r0] [<- I]]. apply wc_row_len. apply W. apply tag_from_In in I. exact I.
Qed.

(* rows of a table after select *)
Lemma rows_select cs t : rows (sem_select_cols cs t) = map (fun r => map (get (cols t) r) cs) (rows t).
Proof. reflexivity. Qed.

(* ------------------------------------------------------------------ scratch names are chosen away from the names in use *)
Fixpoint pre_us (k : nat) (b : string) : string := match k with O => b | S k' => pre_us k' ("_" ++ b)%string end.
Lemma pre_us_length k b : String.length (pre_us k b) = (k + String.length b)%nat.
Proof. revert b. induction k as [|k IH]; intros b; simpl; [reflexivity|]. rewrite IH. simpl. lia. Qed.

Lemma unused_in_all taken fuel b : In (unused_name fuel b taken) taken -> forall k, (k <= fuel)%nat -> In (pre_us k b) taken.
Proof.
  revert b. induction fuel as [|f IH]; intros b H k L; cbn [unused_name] in H.
  - assert (k = 0%nat) as -> by lia. simpl. destruct (mem b taken); exact H.
  - destruct (mem b taken) eqn:M.
    + destruct k as [|k]; [simpl; apply mem_In; exact M|]. simpl. apply IH; [exact H|lia].
    + apply mem_false in M. contradiction.
Qed.

Lemma fresh_not_in base taken : ~ In (fresh base taken) taken.
Proof.
  unfold fresh. intros H. pose proof (unused_in_all taken _ base H) as A.
  set (n := List.length taken) in *.
  set (cands := map (fun k => pre_us k base) (seq 0 (S (S n)))).
  assert (NoDup cands) as ND.
  { apply (NoDup_map_inv String.length). unfold cands. rewrite map_map.
    rewrite (map_ext _ (fun k => (k + String.length base)%nat)) by (intros k; apply pre_us_length).
    apply Injective_map_NoDup; [|apply seq_NoDup]. intros x y E. lia. }
  assert (incl cands taken) as IN.
  { intros c I. unfold cands in I. apply in_map_iff in I. destruct I as [k [<- Ik]]. apply in_seq in Ik. apply A. lia. }
  pose proof (NoDup_incl_length ND IN) as L. unfold cands in L. rewrite map_length, seq_length in L. fold n in L. lia.
Qed.
Lemma fresh_not_in_sub base taken sub : (forall c, In c sub -> In c taken) -> ~ In (fresh base taken) sub.
Proof. intros S I. apply (fresh_not_in base taken). apply S. exact I. Qed.
