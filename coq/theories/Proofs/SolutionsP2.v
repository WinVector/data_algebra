(* C21, part 2: replicate_rows_query computes replicate_spec. *)
From Coq Require Import List Bool Arith String Lia Permutation.
Import ListNotations.
From DA Require Import Base.PyRT Base.Val Model.Sem Model.Solutions Proofs.SolutionsP1 Proofs.ListP Proofs.TabP.
Local Open Scope string_scope.
Local Open Scope list_scope.

Definition pname (p : nat) : string := String.append "p" (dec_of_nat p).
Lemma pname_inj a b : pname a = pname b -> a = b.
Proof. unfold pname. intros H. apply dec_of_nat_inj. eapply append_inj_l, H. Qed.

Section Replicate.
  Variable pw : nat -> nat.
  Variables (P maxc : nat).
  Hypothesis pw_ok : forall n, (1 <= n <= maxc)%nat -> (n <= 2 ^ pw n)%nat /\ (pw n <= P)%nat.

  Lemma xscalar_concat fl a b : xscalar pw fl "concat" [VStr a; b] = match nat_of_val b with Some n => VStr (String.append a (dec_of_nat n)) | None => VNull end.
  Proof. reflexivity. Qed.
  Lemma xscalar_ceil fl a : xscalar pw fl "ceil_log2" [a] = match nat_of_val a with Some n => if Nat.leb 1 n then vnat (pw n) else VNull | None => VNull end.
  Proof. reflexivity. Qed.
  Lemma xscalar_lt fl a b : xscalar pw fl "<" [a; b] = compare_vals fl CLt a b.
  Proof. reflexivity. Qed.
  Lemma norm_power cnt : norm_expr (power_expr cnt) = EOp "concat" [EConst (VStr "p"); EOp "ceil_log2" [ECol cnt]].
  Proof. reflexivity. Qed.

  Lemma eval_power fl cs r cnt c : nat_of_val (get cs r cnt) = Some c -> (1 <= c)%nat ->
    eval_x pw fl cs r (power_expr cnt) = VStr (pname (pw c)).
  Proof. intros H L. unfold eval_x. rewrite norm_power. cbn [eval_n]. rewrite xscalar_ceil, H.
    destruct (Nat.leb_spec 1 c); [|lia]. rewrite xscalar_concat, nat_of_val_vnat. reflexivity. Qed.

  Lemma count_frame_select seqc : seqc <> power_col ->
    sem_select_cols [power_col; seqc] (count_frame seqc P) = count_frame seqc P.
  Proof. intros N. unfold sem_select_cols, count_frame. cbn [cols rows]. f_equal.
    rewrite <- (map_id (count_frame_rows P)) at 2. apply map_ext_in. intros r I.
    unfold count_frame_rows in I. apply in_flat_map in I as [p [_ I]]. apply in_map_iff in I as [i [<- _]].
    cbn [map]. rewrite get_head, (get_tail seqc power_col) by exact N. rewrite get_head. reflexivity. Qed.

  Section Table.
    Variables (fl : flavor) (cnt seqc : string) (t : table).
    Hypothesis V : replicate_valid cnt seqc maxc t = true.

    Let cs := cols t.
    Lemma rep_facts :
      In cnt cs /\ ~ In seqc cs /\ ~ In power_col cs /\ seqc <> power_col /\ NoDup cs
      /\ (forall r, In r (rows t) -> List.length r = List.length cs /\ exists c, nat_of_val (get cs r cnt) = Some c /\ (1 <= c <= maxc)%nat).
    Proof. unfold replicate_valid in V.
      apply andb_prop in V as [[[[[[V1 V2]%andb_prop V3]%andb_prop V4]%andb_prop V5]%andb_prop V6]%andb_prop V7].
      split; [apply mem_In; exact V1|]. split; [apply negb_mem_notin; exact V2|]. split; [apply negb_mem_notin; exact V3|].
      split; [apply seqb_neq; exact V4|]. split; [apply nodupb_NoDup; exact V5|].
      intros r I. split.
      - apply (widthb_ok t V6), I.
      - eapply forallb_forall in V7; [|exact I]. fold cs in V7.
        destruct (nat_of_val (get cs r cnt)) as [c|]; [|discriminate]. exists c. split; [reflexivity|].
        apply andb_true_iff in V7 as [F1 F2]. apply Nat.leb_le in F1, F2. lia.
    Qed.

    Definition kof (r : list val) : nat := match nat_of_val (get cs r cnt) with Some c => pw c | None => 0%nat end.

    (* step 1: the extend adds the key of the power table to use *)
    Lemma rep_step1 :
      sem_extend_x pw fl [(power_col, power_expr cnt)] t = mktable (cs ++ [power_col]) (map (fun r => r ++ [VStr (pname (kof r))]) (rows t)).
    Proof. destruct rep_facts as (_ & _ & Np & _ & _ & RW).
      unfold sem_extend_x. cbn [map fst]. unfold ext_cols. cbn [fold_left]. fold cs. rewrite (add_end_new cs power_col Np). f_equal.
      apply map_ext_in. intros r I. destruct (RW r I) as (L & c & Hc & Bc).
      unfold extend_row_x. cbn [fold_left fst snd]. fold cs. rewrite (set_cell_new cs r power_col _ Np).
      rewrite (eval_power fl cs r cnt c Hc) by lia. unfold kof. rewrite Hc. reflexivity. Qed.

    (* step 2: the inner join with the count frame: row r meets the 2^k rows of its power table *)
    Lemma rep_step2 nm :
      sem_join nm [power_col] [power_col] JInner
               (mktable (cs ++ [power_col]) (map (fun r => r ++ [VStr (pname (kof r))]) (rows t))) (count_frame seqc P)
      = mktable ((cs ++ [power_col]) ++ [seqc])
                (flat_map (fun r => map (fun i => r ++ [VStr (pname (kof r)); vnat i]) (seq 0 (2 ^ kof r))) (rows t)).
    Proof. destruct rep_facts as (_ & Ns & Np & Nsp & ND & RW).
      unfold sem_join. cbn [cols rows count_frame].
      assert (filter (fun c => negb (mem c (cs ++ [power_col]))) [power_col; seqc] = [seqc]) as F.
      { cbn [filter]. rewrite !mem_app.
        assert (mem power_col [power_col] = true) as M1 by (apply mem_In; left; reflexivity).
        assert (mem seqc cs = false) as M2 by (apply mem_false; exact Ns).
        assert (mem seqc [power_col] = false) as M3 by (apply mem_false; intros [E|[]]; congruence).
        rewrite M1, M2, M3, orb_true_r. reflexivity. }
      rewrite F. f_equal. rewrite !app_nil_r. rewrite flat_map_map. apply flat_map_ext_in. intros r I.
      destruct (RW r I) as (L & c & Hc & Bc). destruct (pw_ok c Bc) as [_ KP].
      assert (kof r = pw c) as K by (unfold kof; rewrite Hc; reflexivity).
      assert (key_of (cs ++ [power_col]) [power_col] (r ++ [VStr (pname (kof r))]) = [VStr (pname (kof r))]) as KA
        by (unfold key_of; cbn [map]; rewrite (get_app_r cs [power_col] r _ power_col Np L), get_head; reflexivity).
      assert (forall p i, key_of [power_col; seqc] [power_col] [VStr (pname p); vnat i] = [VStr (pname p)]) as KB
        by (intros p i; unfold key_of; cbn [map]; rewrite get_head; reflexivity).
      unfold count_frame_rows. rewrite flat_map_flat_map.
      rewrite (flat_map_single _ (kof r) (seq 0 (S P))); [|apply seq_NoDup|apply in_seq; lia|].
      - rewrite flat_map_map, <- flat_map_singleton. apply flat_map_ext_in. intros i _.
        fold (pname (kof r)). rewrite KA, KB. unfold keys_match. cbn [existsb is_null keys_eqv v_eqv]. rewrite String.eqb_refl, orb_true_r. cbn [andb negb orb].
        f_equal. rewrite !map_app. cbn [map]. rewrite <- app_assoc. cbn [app]. f_equal; [|f_equal; [|f_equal]].
        + transitivity (map (get cs r) cs); [|apply get_map_self; assumption]. apply map_ext_in. intros a Ia.
          assert (mem a (cs ++ [power_col]) = true) as M1 by (apply mem_In, in_or_app; left; exact Ia).
          assert (mem a [power_col; seqc] = false) as M2 by (apply mem_false; intros [E|[E|[]]]; subst a; contradiction).
          rewrite M1, M2, (get_app_l cs [power_col] r _ a Ia L). apply null_self.
        + assert (mem power_col (cs ++ [power_col]) = true) as M1 by (apply mem_In, in_or_app; right; left; reflexivity).
          rewrite M1, (get_app_r cs [power_col] r _ power_col Np L), get_head. reflexivity.
        + assert (mem seqc (cs ++ [power_col]) = false) as M1 by (apply mem_false; intros X; apply in_app_or in X as [X|[X|[]]]; [contradiction|congruence]).
          assert (mem seqc [power_col; seqc] = true) as M2 by (apply mem_In; right; left; reflexivity).
          rewrite M1, M2. cbn [is_null]. rewrite (get_tail seqc power_col) by exact Nsp. apply get_head.
      - intros p _ Npk. rewrite flat_map_map. apply flat_map_nil. intros i _.
        fold (pname p). rewrite KA, KB. unfold keys_match. cbn [keys_eqv v_eqv].
        assert (String.eqb (pname (kof r)) (pname p) = false) as NE by (apply String.eqb_neq; intros E; apply pname_inj in E; congruence).
        rewrite NE. cbn [andb]. rewrite andb_false_r. reflexivity.
    Qed.

    (* step 3: the filter seq < count keeps the first `count` of them *)
    Lemma rep_step3 :
      sem_select_rows_x pw fl (EOp "<" [ECol seqc; ECol cnt])
        (mktable ((cs ++ [power_col]) ++ [seqc])
                 (flat_map (fun r => map (fun i => r ++ [VStr (pname (kof r)); vnat i]) (seq 0 (2 ^ kof r))) (rows t)))
      = mktable ((cs ++ [power_col]) ++ [seqc])
                (flat_map (fun r => match nat_of_val (get cs r cnt) with
                                    | Some c => map (fun i => r ++ [VStr (pname (kof r)); vnat i]) (seq 0 c)
                                    | None => [] end) (rows t)).
    Proof. destruct rep_facts as (Ic & Ns & _ & Nsp & _ & RW).
      unfold sem_select_rows_x. cbn [cols rows]. f_equal. rewrite filter_flat_map. apply flat_map_ext_in. intros r I.
      destruct (RW r I) as (L & c & Hc & Bc). destruct (pw_ok c Bc) as [C2 _].
      assert (kof r = pw c) as K by (unfold kof; rewrite Hc; reflexivity).
      rewrite Hc, filter_map_comm. f_equal. rewrite K. rewrite <- (filter_ltb_seq c (2 ^ pw c) C2). apply filter_ext_in. intros i _.
      unfold eval_x. cbn [norm_expr ceil_log2_shape String.eqb Ascii.eqb Bool.eqb eval_n]. rewrite xscalar_lt.
      rewrite <- app_assoc. cbn [app].
      assert (get (cs ++ [power_col; seqc]) (r ++ [VStr (pname (pw c)); vnat i]) seqc = vnat i) as G1
        by (rewrite (get_app_r cs _ r _ seqc Ns L), (get_tail seqc power_col) by exact Nsp; apply get_head).
      assert (get (cs ++ [power_col; seqc]) (r ++ [VStr (pname (pw c)); vnat i]) cnt = get cs r cnt) as G2
        by (apply get_app_l; assumption).
      rewrite G1, G2. apply ltb_vnat. exact Hc.
    Qed.

    (* step 4: drop the power column *)
    Lemma rep_step4 :
      sem_drop_cols [power_col]
        (mktable ((cs ++ [power_col]) ++ [seqc])
                 (flat_map (fun r => match nat_of_val (get cs r cnt) with
                                     | Some c => map (fun i => r ++ [VStr (pname (kof r)); vnat i]) (seq 0 c)
                                     | None => [] end) (rows t)))
      = replicate_spec cnt seqc t.
    Proof. destruct rep_facts as (_ & Ns & Np & Nsp & ND & RW).
      unfold sem_drop_cols, sem_select_cols, replicate_spec. cbn [cols rows]. fold cs.
      rewrite (drop_mid_cols cs power_col seqc Np Nsp). f_equal. rewrite map_flat_map. apply flat_map_ext_in. intros r I.
      destruct (RW r I) as (L & c & Hc & Bc). rewrite Hc, map_map. apply map_ext. intros i. apply drop_mid_row; assumption.
    Qed.
  End Table.

  Theorem replicate_rows_correct (fl : flavor) (d : op) (cnt seqc jt : string) (e : env) (t : table) :
    sem_x pw fl d e = Some t ->
    dict_get e jt = Some (count_frame seqc P) ->
    replicate_valid cnt seqc maxc t = true ->
    exists out, sem_x pw fl (replicate_rows_pipeline d cnt seqc jt) e = Some out /\ tbl_equiv out (replicate_spec cnt seqc t).
  Proof.
    intros Hd Hj V. exists (replicate_spec cnt seqc t). split; [|split; [reflexivity|apply Permutation_refl]].
    destruct (rep_facts cnt seqc t V) as (Ic & Ns & Np & Nsp & ND & RW).
    unfold replicate_rows_pipeline. cbn [sem_x]. rewrite Hd, Hj. cbn [option_map]. f_equal.
    rewrite (count_frame_select seqc Nsp), (rep_step1 fl cnt seqc t V), (rep_step2 cnt seqc t V), (rep_step3 fl cnt seqc t V).
    apply (rep_step4 cnt seqc t V).
  Qed.
End Replicate.
