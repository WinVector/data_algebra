(* C18, part 5: the Pandas executor model on inputs that are BOTH row-permuted and re-labelled. *)
From Coq Require Import List Bool String Permutation.
Import ListNotations.
From DA Require Import Base.PyRT Base.Val Model.Sem Model.PermGuard Model.PandasIndex Proofs.PermP4 Proofs.PandasIndexP.
Local Open Scope list_scope.

Theorem px_perm_reindex fl p e e' f :
  env_perm (strip e) (strip e') -> total_orders fl p (strip e) -> exact_group_keys fl p (strip e) ->
  px fl p e = Some f ->
  exists f', px fl p e' = Some f' /\ ix f' = default_ix (nrows f') /\ cols (tb f') = cols (tb f) /\ Permutation (rows (tb f)) (rows (tb f')).
Proof.
  intros EP TO XK H. pose proof (px_data fl p e f H) as S.
  destruct (sem_perm fl p (strip e) (strip e') (tb f) EP TO XK S) as [t' [S' [C P]]].
  destruct (px_defined fl p e' t' S') as [f' H']. exists f'. split; [exact H'|].
  split; [apply (px_default_index fl p e' f' H')|].
  pose proof (px_data fl p e' f' H') as S2. rewrite S' in S2. inversion S2; subst t'. split; assumption.
Qed.
