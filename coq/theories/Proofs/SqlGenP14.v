(* SQLGEN, part 14: the windowed extend step -- the requested columns it does not assign are passed, every assigned one is a
   window function evaluated OVER (PARTITION BY .. ORDER BY .. [DESC]) of the pruned input; the partition / order columns are
   requested from the source. *)
From Coq Require Import List Bool String.
Import ListNotations.
From DA Require Import Base.PyRT Base.Val Model.Sem Proofs.SemBasicP Model.ColumnsUsed Proofs.ColumnsUsedP1 Proofs.ColumnsUsedP2
  Proofs.ColumnsUsedP3 Proofs.ColumnsUsedP4 Proofs.ComposeP Model.SqlGen Model.SqlSem Proofs.SqlGenP1 Proofs.SqlGenP2 Proofs.SqlGenP3
  Proofs.SqlGenP4 Proofs.TabP Proofs.ListP.
Local Open Scope list_scope.

Section Win.
Variable fl : flavor.
Variable e : env.

Definition no_agg_term (t : tterm) : bool := negb (is_agg_term t).

Definition win_terms (origcols : list string) (subops : list (string * expr)) (w : window) : terms :=
  pass_terms origcols ++ map (fun ke => (fst ke, TmWin (snd ke) (w_part w) (map (fun c => (c, mem c (w_rev w))) (w_order w)))) subops.

(* what the requested terms of a windowed extend read is requested from its source *)
Lemma wextend_loc s ops w u1 :
  builder_ok (OExtend s ops true w) = true -> incl u1 (column_names (OExtend s ops true w)) ->
  let p := OExtend s ops true w in
  let subops := sub_ops u1 ops in
  let origcols := filter (fun k => negb (mem k (map fst subops))) u1 in
  forall k, In k u1 -> incl (item_cols (k, term_of (win_terms origcols subops w) k)) (cfs1 p u1).
Proof.
  intros BO Iu1 p subops origcols k Ik c Hc.
  destruct (bok_extend_full _ _ _ _ BO) as [BOs [Ic Nk]]. destruct (bok_extend _ _ _ _ BO) as [_ Dk]. destruct (bok_window _ _ _ _ BO) as [Ip [Io _]].
  pose proof (extend_request s ops true w u1 Dk k Ik) as Need.
  change (win_terms origcols subops w)
    with (ext_terms (fun x => TmWin x (w_part w) (map (fun c => (c, mem c (w_rev w))) (w_order w))) origcols subops) in Hc.
  unfold origcols, subops in Hc. rewrite (term_of_ext _ u1 ops k Nk Ik) in Hc.
  destruct (last_for k ops) as [ke|] eqn:L; unfold item_cols in Hc; cbn [fst snd] in Hc.
  - assert (map fst (map (fun c => (c, mem c (w_rev w))) (w_order w)) = w_order w) as EOK by (rewrite map_map; simpl; apply map_id).
    rewrite EOK in Hc. destruct (last_for_In _ _ _ L) as [Ike Ek]. apply Need; [exact Hc|].
    apply in_app_iff in Hc. destruct Hc as [Hc|Hc]; [exact (Ip c Hc)|]. apply in_app_iff in Hc. destruct Hc as [Hc|Hc]; [exact (Io c Hc)|].
    apply Ic. eapply cols_used_in_ops; eassumption.
  - destruct Hc as [<-|[]]. apply Need. pose proof (Iu1 k Ik) as X. simpl in X. apply In_ext_cols in X. destruct X as [X|X]; [exact X|].
    exfalso. apply (last_for_None _ _ L). exact X.
Qed.

Lemma node_wextend s ops w sub u u1 S nm dp :
  builder_ok (OExtend s ops true w) = true -> sem_gen fl s e = Some S -> NoDup u1 ->
  incl u u1 -> incl u1 (column_names (OExtend s ops true w)) -> sub_ops u1 ops <> [] ->
  let p := OExtend s ops true w in
  let subops := sub_ops u1 ops in
  let origcols := filter (fun k => negb (mem k (map fst subops))) u1 in
  NoDup (cfs1 p u1) -> Delivers fl e sub (cfs1 p u1) S ->
  Delivers fl e (TUnary nm (norm (win_terms origcols subops w)) sub (mk_tci (Some (cfs1 p u1)) false None) SfxNone true dp) u (sem_wextend fl ops w S).
Proof.
  intros BO ES Nu1 Iuu1 Iu1 NSub p subops origcols Nus D. set (us := cfs1 p u1) in *.
  destruct (bok_extend_full _ _ _ _ BO) as [BOs [Ic Nk]]. pose proof (sem_cols fl s e S ES) as EC.
  assert (forall K, incl K u1 -> sel K (sem_wextend fl ops w S) = sel K (sem_wextend fl ops w (sel us S))) as Hpr
    by (apply (prune_node fl e p s us u1 S (sem_wextend fl ops w) BO eq_refl Iu1 ES); try (simpl; rewrite ES; reflexivity); [auto|exact (cfs1_incl p s u1 BO eq_refl Iu1)]).
  set (f := fun x : expr => TmWin x (w_part w) (map (fun c => (c, mem c (w_rev w))) (w_order w))).
  change (win_terms origcols subops w) with (ext_terms f origcols subops).
  destruct (ext_split u1 ops Nu1 Nk) as [No [Nsub [Dj Hu]]]. fold subops in No, Nsub, Dj, Hu. fold origcols in No, Dj, Hu.
  set (tms := ext_terms f origcols subops).
  assert (forall kt, In kt tms -> is_agg_term (snd kt) = false) as NA by (apply (ext_terms_all f (fun t => is_agg_term t = false)); reflexivity).
  pose proof (ext_terms_nonempty f origcols subops NSub) as NT. fold tms in NT.
  assert (norm tms = Some tms) as ENorm by (destruct tms; [congruence|reflexivity]). rewrite ENorm.
  (* the cells of a windowed extend *)
  assert (forall A K, width_ok A -> K <> [] -> incl K u1 ->
            sql_select fl true (Some tms) (Some K) SfxNone A = Some (sel K (sem_wextend fl ops w A))) as Hsel.
  { intros A K WA NK IK. refine (eq_trans (rowwise_select fl true tms K SfxNone A (rowwise_nonagg tms NA) NK) _). f_equal.
    unfold sem_select_cols, sem_wextend. cbn [cols rows sfx_rows]. f_equal. rewrite map_map. apply map_ext_in. intros [i r] Iir. cbn [fst snd].
    apply map_ext_in. intros k Ik.
    assert (List.length r = List.length (cols A)) as L.
    { apply tag_from_In in Iir. simpl in Iir. unfold width_ok in WA. rewrite Forall_forall in WA. apply WA, Iir. }
    rewrite (wextend_get fl ops w A i r k L). unfold tms, origcols, subops. rewrite (term_of_ext f u1 ops k Nk (IK k Ik)). unfold win_item. cbn [fst snd].
    destruct (last_for k ops) as [ke|]; reflexivity. }
  apply (fresh_rowwise fl e sub us S nm tms SfxNone true dp u (sem_wextend fl ops w S)); try assumption.
  - unfold tms. rewrite ext_terms_keys. apply NoDup_app_iff; repeat split; assumption.
  - apply rowwise_nonagg, NA.
  - unfold tms. rewrite ext_terms_keys. intros k Ik. apply in_app_iff, Hu, Iuu1, Ik.
  - intros k Ik. simpl. apply In_ext_cols. rewrite EC. specialize (Iu1 k (Iuu1 k Ik)). simpl in Iu1. apply In_ext_cols in Iu1. exact Iu1.
  - intros K NK NDK IK. refine (eq_trans (Hsel (sel us S) K (width_select_cols _ _) NK (fun k Ik => Iuu1 k (IK k Ik))) _).
    f_equal. symmetry. apply Hpr. intros k Ik. apply Iuu1, IK, Ik.
  - intros k Ik. exact (wextend_loc s ops w u1 BO Iu1 k (Iuu1 k Ik)).
  - intros x [].
  - unfold sem_select_cols, sem_wextend. cbn [rows sfx_rows]. rewrite !map_length, tag_from_length. reflexivity.
Qed.

Lemma sel_wextend_unused ops w S K :
  width_ok S -> (forall k, In k K -> ~ In k (map fst ops)) -> sel K (sem_wextend fl ops w S) = sel K S.
Proof.
  intros W H. unfold sem_select_cols, sem_wextend. cbn [cols rows]. f_equal. rewrite map_map.
  rewrite <- (map_tag_from (fun r => map (get (cols S) r) K) 0 (rows S)).
  apply map_ext_in. intros [i r] Ir. cbn [fst snd]. apply map_ext_in. intros k Ik.
  assert (List.length r = List.length (cols S)) as L.
  { apply tag_from_In in Ir. simpl in Ir. unfold width_ok in W. rewrite Forall_forall in W. apply W, Ir. }
  rewrite (wextend_get fl ops w S i r k L). rewrite (last_for_not_key k ops (H k Ik)). reflexivity.
Qed.

End Win.

Lemma sub_ops_more u extra ops : (forall k, In k (map fst ops) -> ~ In k extra) ->
  sub_ops (set_union u extra) ops = sub_ops u ops.
Proof.
  intros D. unfold sub_ops. apply filter_ext_in. intros ke I.
  destruct (mem (fst ke) u) eqn:M.
  - apply mem_In. apply In_set_union. left. apply mem_In, M.
  - apply mem_false. intros X. apply In_set_union in X. destruct X as [X|X]; [apply mem_false in M; contradiction|].
    apply (D (fst ke)); [apply in_map, I|exact X].
Qed.
