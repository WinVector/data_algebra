(* C17, part 4: the two round trips of the record conversions. *)
From Coq Require Import List Bool String Permutation.
Import ListNotations.
From DA Require Import Base.PyRT Base.Val Model.CData Proofs.CDataP1 Proofs.CDataP2 Proofs.ListP Proofs.TabP.

(* ------------------------------------------------------------------ table equivalence: boolean = proposition *)
Lemma remove_one_perm {A} `{EqDec A} (x : A) l l' : remove_one x l = Some l' -> Permutation l (x :: l').
Proof. revert l'. induction l as [|y t IH]; intros l' E; simpl in E; [discriminate|].
  destruct (eq_dec x y) as [->|ne]; [inversion E; subst; reflexivity|].
  destruct (remove_one x t) as [t'|] eqn:R; simpl in E; [|discriminate]. inversion E; subst.
  rewrite (IH t' eq_refl). apply perm_swap. Qed.

Lemma remove_one_None {A} `{EqDec A} (x : A) l : remove_one x l = None -> ~ In x l.
Proof. induction l as [|y t IH]; simpl; intros E; [tauto|].
  destruct (eq_dec x y); [discriminate|]. destruct (remove_one x t); [discriminate|]. intros [e|i]; [congruence|]. apply IH; auto. Qed.

Lemma perm_eqb_spec {A} `{EqDec A} (a b : list A) : perm_eqb a b = true <-> Permutation a b.
Proof. revert b. induction a as [|x a IH]; intros b; simpl.
  - destruct b; split; intros h; try reflexivity; try discriminate. apply Permutation_nil in h. discriminate.
  - destruct (remove_one x b) as [b'|] eqn:R.
    + rewrite IH. apply remove_one_perm in R. split.
      * intros P. rewrite R. constructor. exact P.
      * intros P. rewrite R in P. apply Permutation_cons_inv in P. exact P.
    + split; [discriminate|]. intros P. exfalso. apply (remove_one_None x b R). apply (Permutation_in _ P). left. reflexivity. Qed.

Lemma table_eqvb_spec t1 t2 : table_eqvb t1 t2 = true <-> tbl_eqv t1 t2.
Proof. unfold table_eqvb, tbl_eqv. rewrite andb_true_iff, !perm_eqb_spec. reflexivity. Qed.

Lemma value_cols_nodup S : spec_facts S -> NoDup (value_cols S).
Proof. intros F. apply NoDup_filter. apply (sf_cc_nodup S F). Qed.

(* the block columns in the order rowrecs_to_blocks produces them *)
Lemma r2b_cols_perm S : spec_facts S -> Permutation (r2b_cols S) (block_columns S).
Proof. intros F. unfold r2b_cols, block_columns. apply Permutation_app_head.
  rewrite (perm_partition (fun c => mem c (rs_ctkeys S)) (cols (rs_ct S))). apply Permutation_app_tail.
  apply NoDup_Permutation.
  - apply (sf_ck_nodup S F).
  - apply NoDup_filter. apply (sf_cc_nodup S F).
  - intros c. rewrite filter_In, mem_In. split; [intros I; split; [apply (sf_ck_sub S F); exact I|exact I]|tauto]. Qed.

Lemma r2b_cols_In S c : spec_facts S -> (In c (r2b_cols S) <-> In c (block_columns S)).
Proof. intros F. split; apply Permutation_in; [|symmetry]; apply r2b_cols_perm; exact F. Qed.

Lemma r2b_cols_of_bc S c : spec_facts S -> In c (block_columns S) -> In c (r2b_cols S).
Proof. intros F. apply r2b_cols_In. exact F. Qed.

(* a block row laid out in the order RK ++ CK ++ VC, read back in the order RK ++ CC *)
Section BlockRow.
  Variable S : recspec.
  Hypothesis F : spec_facts S.
  Let RK := rs_keys S. Let CK := rs_ctkeys S. Let VC := value_cols S. Let bc := block_columns S.
  Variables (a k v : list val).
  Hypothesis La : List.length a = List.length RK.
  Hypothesis Lk : List.length k = List.length CK.
  Hypothesis Lv : List.length v = List.length VC.

  Lemma ck_in_bc c : In c CK -> In c bc.
  Proof. intros I. unfold bc, block_columns. apply in_app_iff. right. apply (sf_ck_sub S F). exact I. Qed.
  Lemma vc_in_bc c : In c VC -> In c bc.
  Proof. intros I. unfold bc, block_columns. apply in_app_iff. right. apply value_cols_In in I. tauto. Qed.
  Lemma rk_in_bc c : In c RK -> In c bc.
  Proof. intros I. unfold bc, block_columns. apply in_app_iff. left. exact I. Qed.

  Lemma blockrow_rk : cells bc (cells (r2b_cols S) (a ++ k ++ v) bc) RK = a.
  Proof. rewrite cells_cells by (intros c Hc; apply rk_in_bc; exact Hc).
    unfold r2b_cols. rewrite cells_app_l by (auto; exact La). apply cells_self; [exact La|apply (sf_rk_nodup S F)]. Qed.

  Lemma blockrow_ck : cells bc (cells (r2b_cols S) (a ++ k ++ v) bc) CK = k.
  Proof. rewrite cells_cells by (intros c Hc; apply ck_in_bc; exact Hc).
    unfold r2b_cols. rewrite cells_app_r; [|intros c Hc Hr; exact (sf_rk_ck S F c Hr Hc)|exact La].
    rewrite cells_app_l by (auto; exact Lk). apply cells_self; [exact Lk|apply (sf_ck_nodup S F)]. Qed.

  Lemma blockrow_vc : cells bc (cells (r2b_cols S) (a ++ k ++ v) bc) VC = v.
  Proof. rewrite cells_cells by (intros c Hc; apply vc_in_bc; exact Hc).
    unfold r2b_cols. rewrite cells_app_r; [|intros c Hc Hr; apply value_cols_In in Hc; exact (sf_rk_cc S F c Hr (proj1 Hc))|exact La].
    rewrite cells_app_r; [|intros c Hc Hr; apply value_cols_In in Hc; tauto|exact Lk].
    apply cells_self; [exact Lv|apply value_cols_nodup; exact F]. Qed.
End BlockRow.

(* a row-record laid out as RK ++ (names of G, row by row), read back by name *)
Section RowRecord.
  Variable S : recspec.
  Hypothesis F : spec_facts S.
  Variable G : list (list val).
  Hypothesis HG : Permutation G (rows (rs_ct S)).
  Variable a : list val.
  Variable V : list val -> list val.
  Hypothesis La : List.length a = List.length (rs_keys S).
  Hypothesis LV : forall cr, In cr G -> List.length (V cr) = List.length (nm S cr).
  Let cs := rs_keys S ++ List.concat (map (nm S) G).
  Let row := a ++ List.concat (map V G).

  Lemma rowrec_rk : cells cs row (rs_keys S) = a.
  Proof. unfold cs, row. rewrite cells_app_l by (auto; exact La). apply cells_self; [exact La|apply (sf_rk_nodup S F)]. Qed.

  Lemma rowrec_get cr n : In cr (rows (rs_ct S)) -> In n (nm S cr) -> get cs row n = get (nm S cr) (V cr) n.
  Proof. intros Hcr Hn. unfold cs, row.
    assert (HcrG : In cr G) by (apply (Permutation_in _ (Permutation_sym HG)); exact Hcr).
    rewrite get_app_r; [|intros Hr; apply (sf_rk_names S F n Hr); eapply nm_In_cnames; eassumption|exact La].
    apply get_concat; [exact HcrG|exact Hn|exact LV|].
    intros cr' Hcr' Hn'. apply (nm_disjoint S cr' cr n F); try assumption. apply (Permutation_in _ HG). exact Hcr'. Qed.

  Lemma rowrec_names cr : In cr (rows (rs_ct S)) -> cells cs row (nm S cr) = V cr.
  Proof. intros Hcr. transitivity (cells (nm S cr) (V cr) (nm S cr)).
    - apply map_ext_in. intros n Hn. apply rowrec_get; assumption.
    - apply cells_self; [apply LV; apply (Permutation_in _ (Permutation_sym HG)); exact Hcr|apply nm_NoDup; assumption]. Qed.

  Lemma rowrec_cols_perm : Permutation cs (row_columns S).
  Proof. unfold cs, row_columns. apply Permutation_app_head. rewrite (content_keys_cnames S F), <- flat_map_concat_map.
    rewrite HG. symmetry. apply cnames_perm. Qed.
End RowRecord.

Lemma row_columns_nodup S : spec_facts S -> NoDup (row_columns S).
Proof. intros F. unfold row_columns. apply NoDup_app_iff; repeat split; [apply (sf_rk_nodup S F)|rewrite (content_keys_cnames S F); apply (sf_names_nodup S F)|].
  intros c Hc. rewrite (content_keys_cnames S F). apply (sf_rk_names S F c Hc). Qed.

(* a table of row records RK ++ (names of G), one row per record *)
Lemma rowform_keyed S (F : spec_facts S) G (V : list val -> list val -> list val) recs rows' :
  NoDup recs -> (forall p, In p recs -> key_ok p = true) ->
  (forall p, In p recs -> List.length p = List.length (rs_keys S)) ->
  Permutation rows' (map (fun p => p ++ List.concat (map (V p) G)) recs) ->
  keyed_by (rs_keys S) (mktable (rs_keys S ++ List.concat (map (nm S) G)) rows') = true.
Proof. intros N Kok Len HP. apply keyed_by_facts.
  assert (RI : forall r, In r rows' -> exists p, In p recs /\ r = p ++ List.concat (map (V p) G)).
  { intros r Hr. apply (Permutation_in _ HP) in Hr. apply in_map_iff in Hr. destruct Hr as [p [E Hp]]. exists p. auto. }
  constructor.
  - intros c Hc. cbn [cols]. apply in_app_iff. left. exact Hc.
  - intros r Hr. destruct (RI r Hr) as [p [Hp ->]]. cbn [cols]. rewrite (rowrec_rk S F G p (V p) (Len p Hp)). apply Kok. exact Hp.
  - cbn [rows cols]. eapply Permutation_NoDup; [apply Permutation_map; apply Permutation_sym; exact HP|]. rewrite map_map.
    rewrite (map_ext_in _ (fun p => p)); [rewrite map_id; exact N|]. intros p Hp. apply (rowrec_rk S F G p (V p) (Len p Hp)). Qed.

(* ------------------------------------------------------------------ rows -> blocks -> rows *)
Lemma select_cols_self cs T x : In x (rows (select_cols cs T)) -> cells cs x cs = x.
Proof. simpl. intros Hx. apply in_map_iff in Hx. destruct Hx as [r [<- _]]. apply cells_cells. auto. Qed.

Lemma map_flat_map_transpose {A B C D} (g : C -> D) (f : A -> B -> C) (la : list A) (lb : list B) :
  Permutation (map g (flat_map (fun a => map (f a) lb) la)) (flat_map (fun b => map (fun a => g (f a b)) la) lb).
Proof. rewrite map_flat_map.
  rewrite (flat_map_ext _ (fun a => map (fun b => g (f a b)) lb)) by (intros a; apply map_map).
  apply perm_transpose with (f := fun a b => g (f a b)). Qed.

Theorem roundtrip_rows S T : strict_spec S = true -> conforming_rows S T = true ->
  exists B X, rowrecs_to_blocks S T = Ok B /\ blocks_to_rowrecs S B = Ok X /\ tbl_eqv X (select_cols (row_columns S) T).
Proof. intros HS HC. pose proof (strict_spec_facts S HS) as F.
  pose proof (conforming_keyed S T HC) as KF.
  set (rc := row_columns S). set (RK := rs_keys S). set (bc := block_columns S).
  destruct (rows T) as [|r0 rs0] eqn:ET.
  - exists (mktable bc []), (mktable rc []). split; [apply r2b_empty; exact ET|]. split; [apply b2r_empty; reflexivity|].
    split; [reflexivity|]. simpl. try rewrite ET. constructor.
  - assert (NE : rows T <> []) by (rewrite ET; discriminate). clear ET r0 rs0.
    set (dT := rows (select_cols rc T)).
    pose proof (keyed_facts_select RK rc T (rk_in_rc S) KF) as KS.
    rewrite (r2b_unfold S T NE (is_keyed_select_ok S T KF)). eexists.
    set (B := mktable (r2b_cols S) _).
    assert (Lrk : forall x, List.length (cells rc x RK) = List.length RK) by (intros; apply cells_length).
    assert (Lkap : forall cr, List.length (kap S cr) = List.length (rs_ctkeys S)) by (intros; apply cells_length).
    assert (Lnm : forall x cr, List.length (cells rc x (nm S cr)) = List.length (value_cols S)) by (intros; rewrite cells_length; apply nm_length).
    (* the blocks are complete: apply the characterisation of blocks_to_rowrecs *)
    destruct (b2r_char S F (list val) (fun x => cells rc x RK) (fun x cr => cells rc x (nm S cr))
                (fun x cr => cells (r2b_cols S) (r2b_row S cr x) bc) dT B) as [G [rows' [HG [EB HP]]]].
    + unfold B. simpl rows. simpl cols. fold dT. etransitivity; [apply Permutation_map; apply sort_by_perm|].
      apply map_flat_map_transpose.
    + unfold dT. simpl. destruct (rows T); [congruence|discriminate].
    + apply (kf_nodup _ _ KS).
    + apply (kf_ok _ _ KS).
    + intros x _. apply Lrk.
    + intros x cr _ _. unfold r2b_row. apply (blockrow_rk S F); auto.
    + intros x cr _ _. unfold r2b_row. apply (blockrow_ck S F); auto.
    + intros x cr _ _. unfold r2b_row. apply (blockrow_vc S F); auto.
    + exists (mktable (rs_keys S ++ List.concat (map (nm S) G)) rows'). split; [reflexivity|]. split; [exact EB|].
      split.
      * simpl. apply (rowrec_cols_perm S F G HG).
      * simpl. fold rc. fold dT.
        etransitivity; [apply Permutation_map; exact HP|]. rewrite map_map.
        rewrite (map_ext_in _ (fun x => x)); [rewrite map_id; reflexivity|].
        intros x Hx.
        assert (LV : forall cr, In cr G -> List.length (cells rc x (nm S cr)) = List.length (nm S cr)) by (intros; apply cells_length).
        (* cell by cell *)
        transitivity (cells rc x rc).
        { apply map_ext_in. intros c Hc. apply In_rc in Hc. destruct Hc as [Hc|Hc].
          - rewrite get_app_l; [|exact Hc|apply Lrk]. unfold cells. apply get_map_in. exact Hc.
          - rewrite (content_keys_cnames S F) in Hc. apply (Permutation_in _ (cnames_perm S)) in Hc.
            apply in_flat_map in Hc. destruct Hc as [cr [Hcr Hn]].
            rewrite (rowrec_get S F G HG (cells rc x RK) (fun cr => cells rc x (nm S cr)) (Lrk x) LV cr c Hcr Hn).
            unfold cells. apply get_map_in. exact Hn. }
        { apply (select_cols_self rc T). exact Hx. }
Qed.
