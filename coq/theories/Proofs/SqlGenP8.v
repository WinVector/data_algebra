(* SQLGEN, part 8: the statements of Props/SQLGEN.v for the fragment `stage1`, derived from the invariant. *)
From Coq Require Import List Bool String Permutation.
Import ListNotations.
From DA Require Import Base.PyRT Base.Val Model.Sem Proofs.SemBasicP Model.ColumnsUsed Proofs.ColumnsUsedP1 Proofs.ColumnsUsedP4
  Proofs.ComposeP Model.SqlGen Model.SqlSem Proofs.SqlGenP1 Proofs.SqlGenP2 Proofs.SqlGenP4 Proofs.SqlGenP6 Proofs.SqlGenP7.
Local Open Scope list_scope.

Lemma stage1_correct fl (e : env) d p usg ids q ids' :
  builder_ok p = true -> stage1 (d_allow_extend_merges d) (join_covered d fl) p = true -> wf_env e p ->
  NoDup (req p usg) -> incl (req p usg) (column_names p) ->
  to_near d p usg ids = Ok (q, ids') ->
  exists T, sem_gen fl p e = Some T /\
    forall C, C <> [] -> NoDup C -> incl C (req p usg) -> qsem fl e q (Some C) = Some (sel C T).
Proof.
  intros BO St WF Nu Iu H. unfold to_near in H.
  destruct (gen_stage1 fl e _ d p usg ids q ids' BO St WF Nu Iu H) as [T [ET [D _]]].
  exists T. split; [exact ET|]. intros C NC NDC IC.
  assert (incl C (tkeys q)) as ICk by (intros x Hx; apply (dv_incl _ _ _ _ _ D), IC, Hx).
  destruct (dv_sel _ _ _ _ _ D C NC NDC ICk) as [R [E1 [_ [E3 _]]]]. rewrite E1, (E3 IC). reflexivity.
Qed.

Lemma sel_width_id K R : cols R = K -> NoDup K -> width_ok R -> sel K R = R.
Proof. intros E N W. subst K. apply select_cols_id; assumption. Qed.

Lemma stage1_toplevel fl (e : env) d p ids q ids' :
  builder_ok p = true -> stage1 (d_allow_extend_merges d) (join_covered d fl) p = true -> wf_env e p ->
  to_near d p None ids = Ok (q, ids') ->
  exists T R, sem_gen fl p e = Some T /\ nsem fl q e = Some R /\
    sel (column_names p) R = T /\ incl (column_names p) (cols R) /\ NoDup (cols R) /\
    Permutation (rows (sel (column_names p) R)) (rows T).
Proof.
  intros BO St WF H. unfold to_near in H.
  pose proof (builder_ok_nodup p BO) as Np.
  destruct (gen_stage1 fl e _ d p None ids q ids' BO St WF Np (incl_refl _) H) as [T [ET [D _]]]. cbn [req] in D.
  pose proof (stage1_cols_nonempty _ _ p BO St) as NE.
  assert (tkeys q <> []) as NK.
  { destruct (column_names p) as [|c0 t] eqn:E; [congruence|]. intros X. pose proof (dv_incl _ _ _ _ _ D c0 (or_introl eq_refl)) as I. rewrite X in I. destruct I. }
  destruct (dv_sel _ _ _ _ _ D (tkeys q) NK (dv_nodup _ _ _ _ _ D) (incl_refl _)) as [R [E1 [_ [_ E4]]]].
  exists T, R. split; [exact ET|]. unfold nsem. rewrite (qsem_none_own fl e q NK). split; [exact E1|].
  assert (sel (column_names p) R = T) as ER.
  { rewrite (E4 (column_names p) Np (dv_incl _ _ _ _ _ D) (incl_refl _)).
    apply sel_width_id; [exact (sem_cols fl p e T ET)|exact Np|exact (sem_rows_width fl p e T ET)]. }
  assert (cols R = tkeys q) as EC.
  { clear - E1 NK. destruct q as [n0 ts|nm l s ci sfx mg dp|nm l s1 c1 j s2 c2 on]; simpl in *.
    - destruct (dict_get e n0); [|discriminate]. destruct ts as [ts|]; [|congruence]. destruct ts; [congruence|]. injection E1 as <-. reflexivity.
    - destruct l as [l|]; [|congruence]. destruct (if by_name s ci then _ else _) as [t|]; [|discriminate].
      unfold sql_select in E1. rewrite (select_keys_some true l (map fst l) NK) in E1.
      destruct sfx; repeat (match type of E1 with context [if ?b then _ else _] => destruct b end); try discriminate; injection E1 as <-; reflexivity.
    - destruct l as [l|]; [|congruence]. destruct (if by_name s1 c1 then _ else _) as [t1|]; [|discriminate]. destruct (if by_name s2 c2 then _ else _) as [t2|]; [|discriminate].
      destruct j.
      + unfold sql_join_select in E1. rewrite (select_keys_some false l (map fst l) NK) in E1. destruct (ambiguous _ _ _); [discriminate|]. injection E1 as <-. reflexivity.
      + destruct (union_all t1 t2); [|discriminate]. unfold sql_select in E1. rewrite (select_keys_some false l (map fst l) NK) in E1.
        repeat (match type of E1 with context [if ?b then _ else _] => destruct b end); try discriminate; injection E1 as <-; reflexivity. }
  split; [exact ER|]. split; [rewrite EC; exact (dv_incl _ _ _ _ _ D)|]. split; [rewrite EC; exact (dv_nodup _ _ _ _ _ D)|].
  rewrite ER. apply Permutation_refl.
Qed.

Lemma stage1_row_count fl (e : env) d p usg ids q ids' :
  builder_ok p = true -> stage1 (d_allow_extend_merges d) (join_covered d fl) p = true -> wf_env e p ->
  NoDup (req p usg) -> incl (req p usg) (column_names p) ->
  to_near d p usg ids = Ok (q, ids') ->
  exists T R, sem_gen fl p e = Some T /\ qsem fl e q (Some []) = Some R /\ List.length (rows R) = List.length (rows T).
Proof.
  intros BO St WF Nu Iu H. unfold to_near in H.
  destruct (gen_stage1 fl e _ d p usg ids q ids' BO St WF Nu Iu H) as [T [ET [D _]]].
  destruct (dv_nil _ _ _ _ _ D) as [R [E1 E2]]. exists T, R. split; [exact ET|]. split; [exact E1|].
  apply (f_equal (fun t => List.length (rows t))) in E2. simpl in E2. rewrite !map_length in E2. exact E2.
Qed.
