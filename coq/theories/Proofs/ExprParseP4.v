(* Proofs/ExprParseP4.v -- C13, part 1 (end): one lemma per kind of node, and walk_meaning for every tree by
   induction on its size. *)
From Coq Require Import List Bool String Arith Lia.
Import ListNotations.
From DA Require Import Model.PyExpr Model.ExprParse Model.ExprSem Proofs.ExprParseP1 Proofs.ExprParseP2.
Local Open Scope string_scope.
Local Open Scope bool_scope.
Local Open Scope list_scope.

Lemma pn_funccall fsem cs vs gvs avs : py_node fsem "funccall" cs vs gvs avs =
  match cs with
  | [carrier; a] =>
      match carrier,
            (match a with
             | LNone => Some []
             | LNode ad _ => if ad ==s "arguments" then match avs with Some l => all_some l | None => None end else None
             | LTok _ => None
             end) with
      | LNode cd ccs, Some avals =>
          if cd ==s "getattr" then
            match ccs, gvs with
            | [_; LTok (TName m)], Some [Some self; _] =>
                if plain_method m (List.length avals) && negb (is_builtin_op m) then fsem m (self :: avals) else None
            | _, _ => None
            end
          else if cd ==s "var" then
            match ccs with
            | [LTok (TName f)] => if is_builtin_op f then None else fsem f avals
            | _ => None
            end
          else None
      | _, _ => None
      end
  | _ => None
  end.
Proof. reflexivity. Qed.

(* the kinds of node that have a Python meaning here, grouped as the case lemmas below take them *)
Lemma py_kinds fsem d cs vs g a v : py_node fsem d cs vs g a = Some v ->
  In d ["const_true"; "const_false"; "const_none"] \/ In d ["number"; "string"; "var"] \/ In d ["or_test"; "and_test"]
  \/ d = "not" \/ d = "comparison" \/ In d ["arith_expr"; "term"] \/ d = "factor" \/ d = "power" \/ d = "funccall".
Proof. unfold py_node. intros H.
  apply if_Some_inv in H as [E|H]; [apply String.eqb_eq in E; subst; simpl; tauto|].
  apply if_Some_inv in H as [E|H]; [apply String.eqb_eq in E; subst; simpl; tauto|].
  apply if_Some_inv in H as [E|H]; [apply String.eqb_eq in E; subst; simpl; tauto|].
  apply if_Some_inv in H as [E|H]; [apply mem_str_In in E; tauto|].
  apply if_Some_inv in H as [E|H]; [apply mem_str_In in E; tauto|].
  apply if_Some_inv in H as [E|H]; [apply String.eqb_eq in E; tauto|].
  apply if_Some_inv in H as [E|H]; [apply String.eqb_eq in E; tauto|].
  apply if_Some_inv in H as [E|H]; [apply mem_str_In in E; tauto|].
  apply if_Some_inv in H as [E|H]; [apply String.eqb_eq in E; tauto|].
  apply if_Some_inv in H as [E|H]; [apply String.eqb_eq in E; tauto|].
  apply if_Some_inv in H as [E|H]; [apply String.eqb_eq in E; tauto|discriminate H]. Qed.

Section Meaning.
Variables (c : cfg) (dd : list string) (fsem : fsem_t) (en : env).
Notation agrees := (agrees c dd fsem en).
Notation W := (walk c dd).
Notation P := (py_meaning fsem en).
Notation E := (eval fsem en).

(* ---- one lemma per kind of node; `cs` are the children, IHc the induction hypothesis for them *)
Lemma case_const d cs e v : In d ["const_true"; "const_false"; "const_none"] ->
  W (LNode d cs) = Ok e -> P (LNode d cs) = Some v -> E e = Some v.
Proof. intros Hd Hw Hp. simpl in Hd. destruct Hd as [<-|[<-|[<-|[]]]]; cbn in Hw, Hp; inversion Hw; inversion Hp; reflexivity. Qed.

Lemma case_var d cs e v : In d ["number"; "string"; "var"] -> (forall x, In x cs -> agrees x) ->
  W (LNode d cs) = Ok e -> P (LNode d cs) = Some v -> E e = Some v.
Proof. intros Hd IHc Hw Hp. rewrite walk_node_eq, (wn_var _ _ _ _ _ _ Hd) in Hw. rewrite py_node_eq in Hp.
  assert (Hp' : match map P cs with [x] => x | _ => None end = Some v).
  { simpl in Hd. destruct Hd as [<-|[<-|[<-|[]]]]; exact Hp. }
  destruct cs as [|c0 [|c1 cs]]; simpl in Hp'; try discriminate Hp'.
  simpl in Hw. apply (IHc c0); [left; reflexivity|exact Hw|exact Hp']. Qed.

Lemma case_bool (is_or : bool) cs e v : (forall x, In x cs -> agrees x) ->
  W (LNode (if is_or then "or_test" else "and_test") cs) = Ok e ->
  P (LNode (if is_or then "or_test" else "and_test") cs) = Some v -> E e = Some v.
Proof. intros IHc Hw Hp. rewrite walk_node_eq, wn_bool in Hw. rewrite py_node_eq in Hp.
  assert (Hp' : (if Nat.ltb (List.length cs) 2 then None
                 else match all_some (map P cs) with
                      | Some (x :: t) => option_map PBool (fold_bool (if is_or then orb else andb) (as_bool x) t)
                      | _ => None end) = Some v).
  { destruct is_or; exact Hp. }
  clear Hp. destruct (Nat.ltb (List.length cs) 2); [discriminate Hw|].
  destruct (all_ok (map W cs)) as [args|] eqn:A; [|discriminate Hw].
  destruct (all_some (map P cs)) as [[|v0 t]|] eqn:S; try discriminate Hp'.
  apply mk_expr_Ok in Hw. subst e.
  rewrite (eval_EOp _ _ _ _ _ _ _ _ (children_agree c dd fsem en cs args (v0 :: t) IHc A S)).
  destruct is_or; exact Hp'. Qed.

Lemma case_not cs e v : (forall x, In x cs -> agrees x) ->
  W (LNode "not" cs) = Ok e -> P (LNode "not" cs) = Some v -> E e = Some v.
Proof. intros IHc Hw Hp. rewrite walk_node_eq, wn_not in Hw. rewrite py_node_eq in Hp.
  change (match map P cs with [Some (PBool b)] => Some (PBool (negb b)) | _ => None end = Some v) in Hp.
  destruct cs as [|c0 [|c1 cs]]; simpl in Hp, Hw; try discriminate Hp.
  2:{ destruct (P c0) as [[|b| | | |]|]; discriminate Hp. }
  destruct (P c0) as [[|b| | | |]|] eqn:P0; try discriminate Hp. inversion Hp; subst v.
  destruct (W c0) as [lft|] eqn:W0; [|discriminate Hw].
  apply (call_method_bin c "__eq__" "==" true false true) in Hw; [|reflexivity]. subst e.
  assert (H0 : E lft = Some (PBool b)). { apply (IHc c0); [left; reflexivity|exact W0|exact P0]. }
  rewrite (eval_bin fsem en "==" true false None lft (EVal (PBool false)) (PBool b) (PBool false) H0 eq_refl).
  destruct b; reflexivity. Qed.

Lemma case_comparison cs e v : (forall x, In x cs -> agrees x) ->
  W (LNode "comparison" cs) = Ok e -> P (LNode "comparison" cs) = Some v -> E e = Some v.
Proof. intros IHc Hw Hp. rewrite walk_node_eq, wn_comparison in Hw. rewrite py_node_eq in Hp.
  change ((if Nat.ltb (List.length cs) 3 || Nat.even (List.length cs) then None
           else match evens (map P cs) with
                | Some x :: t => option_map PBool (py_chain_cmp x (map tok_text (odds cs)) t)
                | _ => None end) = Some v) in Hp.
  destruct (Nat.ltb (List.length cs) 3 || Nat.even (List.length cs)) eqn:L; [discriminate Hp|].
  apply orb_false_elim in L as [L3 Lev].
  (* the walker rejects chains, so exactly one operator is left *)
  destruct (Nat.ltb 3 (List.length cs)) eqn:Hn; [discriminate Hw|].
  apply Nat.ltb_ge in L3. apply Nat.ltb_ge in Hn.
  destruct cs as [|c0 [|o [|c1 [|x cs]]]]; simpl in L3, Hn; try lia. clear L3 Hn Lev.
  cbn [map evens odds nth] in Hw, Hp.
  destruct (P c0) as [v0|] eqn:P0; [|discriminate Hp].
  cbn [py_chain_cmp] in Hp. destruct (tok_text o) as [os|] eqn:To; [|discriminate Hp].
  destruct (P c1) as [v1|] eqn:P1; [|discriminate Hp].
  destruct (cmp os v0 v1) as [b|] eqn:Cm; [|discriminate Hp]. simpl in Hp. inversion Hp; subst v. clear Hp.
  cbn [chain_fold] in Hw.
  destruct (W c0) as [a0|] eqn:W0; [|discriminate Hw]. destruct (W c1) as [a1|] eqn:W1; [|discriminate Hw].
  destruct (cmp_ops_walk os (cmp_Some_op _ _ _ _ Cm)) as [o' [Hf Hev]].
  apply (call_method_bin _ _ _ _ _ _ _ _ _ Hf) in Hw. subst e.
  assert (H0 : E a0 = Some v0). { apply (IHc c0); [left; reflexivity|exact W0|exact P0]. }
  assert (H1 : E a1 = Some v1). { apply (IHc c1); [right; right; left; reflexivity|exact W1|exact P1]. }
  rewrite (eval_bin _ _ _ _ _ _ _ _ v0 v1 H0 H1), Hev, Cm. simpl. rewrite andb_true_r. reflexivity. Qed.

Lemma case_arith d cs e v : In d ["arith_expr"; "term"] -> (forall x, In x cs -> agrees x) ->
  W (LNode d cs) = Ok e -> P (LNode d cs) = Some v -> E e = Some v.
Proof. intros Hd IHc Hw Hp. rewrite walk_node_eq, (wn_arith _ _ _ _ _ _ Hd) in Hw. rewrite py_node_eq in Hp.
  assert (Hp' : (if Nat.ltb (List.length cs) 3 || Nat.even (List.length cs) then None
                 else match evens (map P cs) with
                      | Some x :: t => py_chain_arith (Some x) (map tok_text (odds cs)) t
                      | _ => None end) = Some v).
  { simpl in Hd. destruct Hd as [<-|[<-|[]]]; exact Hp. }
  clear Hp. destruct (Nat.ltb (List.length cs) 3 || Nat.even (List.length cs)) eqn:L; [discriminate Hp'|].
  apply orb_false_elim in L as [L3 _]. destruct (length_3_inv _ L3) as [c0 [o1 [cs' [-> _]]]]. clear L3.
  rewrite !evens_map in Hw. rewrite !evens_map in Hp'. rewrite evens_cons2 in Hw. rewrite evens_cons2 in Hp'.
  cbn [map nth] in Hw, Hp'.
  destruct (P c0) as [v0|] eqn:P0; [|discriminate Hp'].
  assert (IHe : forall x, In x (evens cs') -> agrees x).
  { intros x Hx. apply IHc. right. right. apply evens_In. exact Hx. }
  destruct (W c0) as [a0|] eqn:W0.
  2:{ destruct (kopsel _); [discriminate Hw|exfalso; eapply chain_fold_Err; exact Hw]. }
  assert (H0 : E a0 = Some v0). { apply (IHc c0); [left; reflexivity|exact W0|exact P0]. }
  destruct (kopsel (map tok_text (odds (c0 :: o1 :: cs')))) as [o|] eqn:K.
  - (* k-ary + or * *)
    destruct (kopsel_spec _ _ K) as [Hall Hm].
    cbn [all_ok] in Hw. destruct (all_ok (map W (evens cs'))) as [args|] eqn:A; [|discriminate Hw].
    apply mk_expr_Ok in Hw. subst e.
    destruct (py_chain_all_same o _ _ _ _ Hall Hp') as [rest [Hrest Hf]].
    assert (S : all_some (map P (evens cs')) = Some rest). { rewrite Hrest. apply all_some_map_Some. }
    pose proof (children_agree c dd fsem en _ _ _ IHe A S) as HA.
    rewrite (eval_EOp _ _ _ _ _ _ _ (v0 :: rest)); [|simpl; rewrite H0, HA; reflexivity].
    apply mem_str_In in Hm. simpl in Hm. destruct Hm as [<-|[<-|[]]]; exact Hf.
  - (* left to right *)
    exact (chain_arith_agree c dd fsem en _ _ _ _ _ _ IHe H0 Hw Hp'). Qed.

Lemma case_factor cs e v : (forall x, In x cs -> agrees x) ->
  W (LNode "factor" cs) = Ok e -> P (LNode "factor" cs) = Some v -> E e = Some v.
Proof. intros IHc Hw Hp. rewrite walk_node_eq, wn_factor in Hw. rewrite py_node_eq in Hp.
  change (match cs, map P cs with
          | [o; _], [_; Some v1] =>
              match tok_text o with
              | Some op => if op ==s "-" then neg_num v1 else if op ==s "+" then pos_num v1 else None
              | None => None end
          | _, _ => None end = Some v) in Hp.
  destruct cs as [|o [|c1 [|x cs]]]; try discriminate Hp. cbn [map] in Hw, Hp.
  destruct (P c1) as [v1|] eqn:P1; [|discriminate Hp].
  destruct (tok_text o) as [op|] eqn:To; [|discriminate Hp].
  destruct (W c1) as [rgt|] eqn:W1; [|discriminate Hw].
  assert (H1 : E rgt = Some v1). { apply (IHc c1); [right; left; reflexivity|exact W1|exact P1]. }
  destruct (op ==s "-") eqn:Em.
  - apply String.eqb_eq in Em. subst op. change (remap factor_remap "-") with "__neg__" in Hw.
    destruct (call_neg _ _ _ Hw) as [[x [x' [-> [Hn ->]]]]|[_ ->]].
    + simpl in H1. inversion H1; subst x. apply neg_num_py_neg in Hp. rewrite Hp in Hn. inversion Hn. reflexivity.
    + rewrite (eval_EOp _ _ _ _ _ _ _ [v1]); [exact Hp|simpl; rewrite H1; reflexivity].
  - destruct (op ==s "+") eqn:Ep; [|cbv iota in Hp; discriminate Hp]. apply String.eqb_eq in Ep. subst op.
    change (remap factor_remap "+") with "__pos__" in Hw. apply call_pos in Hw. subst e.
    destruct v1; simpl in Hp; try discriminate Hp; inversion Hp; subst; exact H1. Qed.

Lemma case_power cs e v : (forall x, In x cs -> agrees x) ->
  W (LNode "power" cs) = Ok e -> P (LNode "power" cs) = Some v -> E e = Some v.
Proof. intros IHc Hw Hp. rewrite walk_node_eq, wn_power in Hw. rewrite py_node_eq in Hp.
  change (match map P cs with [Some b; Some x] => arith "**" b x | _ => None end = Some v) in Hp.
  destruct cs as [|c0 [|c1 [|x cs]]]; cbn [map] in Hp; try discriminate Hp.
  1:{ destruct (P c0); discriminate Hp. }
  2:{ destruct (P c0); [destruct (P c1)|]; discriminate Hp. }
  destruct (P c0) as [v0|] eqn:P0; [|discriminate Hp]. destruct (P c1) as [v1|] eqn:P1; [|discriminate Hp].
  cbn [map List.length Nat.ltb Nat.leb all_ok] in Hw.
  destruct (W c0) as [a0|] eqn:W0; [|discriminate Hw]. destruct (W c1) as [a1|] eqn:W1; [|discriminate Hw].
  cbn [pow_fold] in Hw.
  destruct (call_method c "__pow__" a0 [a1]) as [e1|] eqn:Cm; [|discriminate Hw]. inversion Hw; subst e1. clear Hw.
  apply (call_method_bin c "__pow__" "**" true false true) in Cm; [|reflexivity]. subst e.
  assert (H0 : E a0 = Some v0). { apply (IHc c0); [left; reflexivity|exact W0|exact P0]. }
  assert (H1 : E a1 = Some v1). { apply (IHc c1); [right; left; reflexivity|exact W1|exact P1]. }
  rewrite (eval_bin _ _ _ _ _ _ _ _ v0 v1 H0 H1). exact Hp. Qed.

(* ---- calls: the argument list `a` of a funccall node, walked and evaluated *)
Lemma args_agree a al avals :
  (forall ad acs x, a = LNode ad acs -> In x acs -> agrees x) ->
  call_args [a] (match a with LNode _ acs => Some (map W acs) | _ => None end) = Ok al ->
  (match a with
   | LNone => Some []
   | LNode ad _ =>
       if ad ==s "arguments"
       then match (match a with LNode _ acs => Some (map P acs) | _ => None end) with Some l => all_some l | None => None end
       else None
   | LTok _ => None
   end) = Some avals ->
  all_some (map E al) = Some avals.
Proof. intros IH Hw Hp. destruct a as [t|ad acs|]; [discriminate Hp| |].
  - simpl in Hw. destruct (ad ==s "arguments"); [|discriminate Hp].
    apply (children_agree c dd fsem en acs); [intros x Hx; exact (IH ad acs x eq_refl Hx)|exact Hw|exact Hp].
  - simpl in Hw. inversion Hw; inversion Hp; subst. reflexivity. Qed.

Lemma case_funccall cs e v :
  (forall gd gcs x, In (LNode gd gcs) cs -> In x gcs -> agrees x) ->
  W (LNode "funccall" cs) = Ok e -> P (LNode "funccall" cs) = Some v -> E e = Some v.
Proof. intros IHg Hw Hp. rewrite walk_node_eq, wn_funccall in Hw. rewrite py_node_eq, pn_funccall in Hp.
  destruct cs as [|carrier [|a [|x cs]]]; try discriminate Hp.
  destruct carrier as [t|cd ccs|]; try discriminate Hp.
  cbn [List.length Nat.ltb Nat.leb] in Hw.
  match type of Hp with match ?A with Some _ => _ | None => _ end = _ => destruct A as [avals|] eqn:PA; [|discriminate Hp] end.
  assert (HA : forall al, call_args [a] (match a with LNode _ acs => Some (map W acs) | _ => None end) = Ok al ->
               all_some (map E al) = Some avals).
  { intros al WA. apply (args_agree a al avals); [|exact WA|exact PA].
    intros ad acs z Ha Hz. apply (IHg ad acs z); [right; left; exact Ha|exact Hz]. }
  destruct (cd ==s "getattr") eqn:Eg.
  - (* method call *)
    destruct ccs as [|o [|nm [|y ccs]]]; try discriminate Hp.
    2:{ destruct nm as [[m| | | | |]| |]; discriminate Hp. }
    destruct nm as [[m| | | | |]| |]; try discriminate Hp.
    cbn [map] in Hw, Hp.
    destruct (P o) as [selfv|] eqn:Po; [|discriminate Hp].
    destruct (plain_method m (List.length avals) && negb (is_builtin_op m)) eqn:Pl; [|discriminate Hp].
    apply andb_prop in Pl as [Pl Nb].
    destruct (W o) as [selfe|] eqn:Wo; [|discriminate Hw].
    cbn [tok_text] in Hw.
    match type of Hw with match ?A with Ok _ => _ | Err => _ end = _ => destruct A as [al|] eqn:WA; [|discriminate Hw] end.
    specialize (HA al eq_refl).
    destruct (is_dunder m); [discriminate Hw|].
    (* as many walked arguments as values *)
    pose proof (f_equal (@List.length _) (all_some_inv _ _ HA)) as HL. rewrite !map_length in HL.
    rewrite <- HL in Pl. destruct (plain_call _ _ _ _ _ Pl Hw) as [i [me ->]].
    assert (Hs : E selfe = Some selfv). { apply (IHg cd [o; LTok (TName m)] o); [left; reflexivity|left; reflexivity|exact Wo|exact Po]. }
    rewrite (eval_EOp _ _ _ _ _ _ _ (selfv :: avals)); [|simpl; rewrite Hs, HA; reflexivity].
    unfold eval_op. rewrite Nb. exact Hp.
  - (* function call *)
    destruct (cd ==s "var") eqn:Ev; [|discriminate Hp]. cbn [negb] in Hw.
    destruct ccs as [|h [|y ccs]]; try discriminate Hp.
    2:{ destruct h as [[f| | | | |]| |]; discriminate Hp. }
    destruct h as [[f| | | | |]| |]; try discriminate Hp.
    destruct (is_builtin_op f) eqn:Nb; [discriminate Hp|].
    cbn [tok_text] in Hw.
    match type of Hw with match ?A with Ok _ => _ | Err => _ end = _ => destruct A as [al|] eqn:WA; [|discriminate Hw] end.
    apply mk_expr_Ok in Hw. subst e.
    rewrite (eval_EOp _ _ _ _ _ _ _ avals (HA al eq_refl)). unfold eval_op. rewrite Nb. exact Hp. Qed.

Lemma walk_meaning_size : forall n t, lsize t < n -> agrees t.
Proof. induction n as [|n IHn]; intros t Hs; [lia|].
  destruct t as [tk|d cs|]; [apply agrees_tok| |intros e v Hw; discriminate Hw].
  assert (IHc : forall x, In x cs -> agrees x).
  { intros x Hx. apply IHn. pose proof (lsize_child d cs x Hx). lia. }
  assert (IHg : forall gd gcs x, In (LNode gd gcs) cs -> In x gcs -> agrees x).
  { intros gd gcs x Hg Hx. apply IHn.
    pose proof (lsize_child d cs _ Hg). pose proof (lsize_child gd gcs x Hx). lia. }
  intros e v Hw Hp. pose proof Hp as Hk. rewrite py_node_eq in Hk. apply py_kinds in Hk.
  destruct Hk as [Hk|[Hk|[Hk|[->|[->|[Hk|[->|[->| ->]]]]]]]].
  - exact (case_const d cs e v Hk Hw Hp).
  - exact (case_var d cs e v Hk IHc Hw Hp).
  - simpl in Hk. destruct Hk as [<-|[<-|[]]]; [exact (case_bool true cs e v IHc Hw Hp)|exact (case_bool false cs e v IHc Hw Hp)].
  - exact (case_not cs e v IHc Hw Hp).
  - exact (case_comparison cs e v IHc Hw Hp).
  - exact (case_arith d cs e v Hk IHc Hw Hp).
  - exact (case_factor cs e v IHc Hw Hp).
  - exact (case_power cs e v IHc Hw Hp).
  - exact (case_funccall cs e v IHg Hw Hp). Qed.

Theorem walk_meaning t e v :
  walk c dd t = Ok e -> py_meaning fsem en t = Some v -> eval fsem en e = Some v.
Proof. exact (walk_meaning_size (S (lsize t)) t (Nat.lt_succ_diag_r _) e v). Qed.

Theorem parse_tree_meaning t e v :
  parse_tree c dd t = Ok e -> py_meaning fsem en t = Some v -> eval fsem en e = Some v.
Proof. unfold parse_tree. intros H. destruct (walk c dd t) as [e'|] eqn:Wt; [|discriminate H].
  destruct (is_term e'); [|discriminate H]. inversion H; subst. apply walk_meaning; assumption. Qed.

End Meaning.
