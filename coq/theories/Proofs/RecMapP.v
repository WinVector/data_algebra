(* Proofs about the token model of record-map SQL and concat_rows labels (Model/RecMapSql.v): every line the model emits
   reads back, keyword by keyword and hole by hole, to exactly the user strings that were put in. *)
From Coq Require Import List Bool Arith Ascii String .
Import ListNotations.
From DA Require Import Base.PyRT Base.PyStr Model.Lex Model.PyVal Gen.G_Quote Gen.G_ValueToSql Proofs.QuoteP Proofs.ValueP Model.RecMapSql.
Local Open Scope string_scope.

Lemma strip_prefix_app (p s : string) : strip_prefix p (p ++ s) = Some s.
Proof. induction p as [|c p IH]; [destruct s; reflexivity|]. cbn [append strip_prefix]. rewrite Ascii.eqb_refl. exact IH. Qed.

Lemma quote_ok_space (q : ascii) : quote_ok q = true -> Ascii.eqb " " q = false.
Proof. unfold quote_ok. intros H. apply orb_true_iff in H. destruct H as [H|H]; apply Ascii.eqb_eq in H; subst; reflexivity. Qed.

(* what the text after a literal looks like *)
Lemma follows_ok_text (d : dialect) (q : ascii) (r : line) (b : string) :
  quote_ok q = true -> follows_ok d r = true -> render_line d r = Some b -> starts_with_char q b = false /\ ends_token b = true.
Proof.
  intros Hq Hf Hr. destruct r as [|t r'].
  - injection Hr as <-. split; reflexivity.
  - destruct t as [k| | |]; try discriminate Hf. cbn [follows_ok] in Hf. cbn [render_line render_tok] in Hr.
    destruct (render_line d r') as [b'|]; [|discriminate]. injection Hr as <-.
    destruct (kw_text d k) as [|c t0]; [discriminate|]. cbn [starts_with_space] in Hf. apply Ascii.eqb_eq in Hf. subst c.
    cbn [append starts_with_char ends_token]. rewrite (quote_ok_space q Hq). split; reflexivity.
Qed.

Inductive tok_item : tok -> item -> Prop :=
  | TI_kw (k : kw) : tok_item (Kw k) (IKw k)
  | TI_id (n : string) : tok_item (Id (PStr n)) (IId n)
  | TI_lit (s : string) : tok_item (Lit s) (ILit s)
  | TI_val (v : pyval) (sv : sqlval) : same_value v sv -> tok_item (Val v) (IVal sv).

(* admissible hole contents: values are scalars; in the backslash family no string carries a backslash (listed finding) *)
Definition tok_ok (d : dialect) (t : tok) : Prop :=
  match t with
  | Val v => scalar_ok v /\ (d_fam d = Backslash -> no_backslash v)
  | Lit s => d_fam d = Backslash -> has_char (Ascii.eqb "\"%char) s = false
  | _ => True
  end.

Lemma render_line_reads_back (d : dialect) (l : line) : forall text : string,
  quote_ok (d_sq d) = true -> Forall (tok_ok d) l -> good d l = true -> render_line d l = Some text ->
  exists items, read_shape d (map shape_of l) text = Some (items, "") /\ Forall2 tok_item l items.
Proof.
  induction l as [|t r IH]; intros text Hq Hok Hg Hr.
  - injection Hr as <-. exists []. split; [reflexivity | constructor].
  - cbn [render_line] in Hr. destruct (render_tok d t) as [a|] eqn:Ea; [|discriminate].
    destruct (render_line d r) as [b|] eqn:Eb; [|discriminate]. injection Hr as <-.
    inversion Hok as [|t0 r0 Hok1 Hok2]; subst.
    assert (Hg2 : good d r = true) by (destruct t; cbn [good] in Hg; try exact Hg; apply andb_true_iff in Hg; apply Hg).
    destruct (IH b Hq Hok2 Hg2 eq_refl) as (items & Ritems & F).
    destruct t as [k|v|s|v].
    + injection Ea as <-. exists (IKw k :: items). split; [|constructor; [constructor | exact F]].
      cbn [map shape_of read_shape]. rewrite strip_prefix_app. cbn [option_map]. rewrite Ritems. reflexivity.
    + destruct v as [ |n| | | | | | | | ]; try discriminate Ea. cbn [render_tok] in Ea.
      exists (IId n :: items). split; [|constructor; [constructor | exact F]].
      cbn [map shape_of read_shape]. rewrite (quote_identifier_roundtrip (d_iq d) n a b Ea). cbn [option_map fst snd].
      rewrite Ritems. reflexivity.
    + injection Ea as <-. cbn [good] in Hg. apply andb_true_iff in Hg. destruct Hg as [Hf _].
      destruct (follows_ok_text d (d_sq d) r b Hq Hf Eb) as [Hs He].
      assert (R : read_string_lit (d_fam d) (d_sq d) (quote_string (q1 (d_sq d)) s ++ b) = Some (s, b)).
      { cbn [tok_ok] in Hok1. destruct (d_fam d); [apply quote_string_roundtrip_std, Hs|].
        apply quote_string_roundtrip_bs_partial; [apply quote_ok_not_backslash, Hq | exact (Hok1 eq_refl) | exact Hs]. }
      exists (ILit s :: items). split; [|constructor; [constructor | exact F]].
      cbn [map shape_of read_shape]. rewrite R. cbn [option_map fst snd]. rewrite Ritems. reflexivity.
    + injection Ea as <-. cbn [good] in Hg. apply andb_true_iff in Hg. destruct Hg as [Hf _].
      destruct (follows_ok_text d (d_sq d) r b Hq Hf Eb) as [Hs He].
      cbn [tok_ok] in Hok1. destruct Hok1 as [Hsc Hnb].
      destruct (value_to_sql_reads_back (d_fam d) (d_sq d) v b Hq Hsc Hnb He Hs) as (sv & R & S).
      exists (IVal sv :: items). split; [|constructor; [constructor; exact S | exact F]].
      cbn [map shape_of read_shape]. rewrite R. cbn [option_map fst snd]. rewrite Ritems. reflexivity.
Qed.

(* ---------------------------------------------------------------- every emitted line is `good`, for every control table *)
(* good2: every literal token has a following space-keyword INSIDE the list (so it stays good whatever is appended) *)
Definition follows_ok2 (d : dialect) (r : line) : bool :=
  match r with Kw k :: _ => starts_with_space (kw_text d k) | _ => false end.
Fixpoint good2 (d : dialect) (l : line) : bool :=
  match l with
  | [] => true
  | Lit _ :: r => follows_ok2 d r && good2 d r
  | Val _ :: r => follows_ok2 d r && good2 d r
  | _ :: r => good2 d r
  end.

Lemma good2_good (d : dialect) (l : line) : good2 d l = true -> good d l = true.
Proof.
  induction l as [|t r IH]; [reflexivity|]. destruct t; cbn [good2 good]; intros H; try (apply IH, H);
    apply andb_true_iff in H; destruct H as [H1 H2]; rewrite (IH H2), andb_true_r; destruct r as [|[]]; try discriminate; exact H1.
Qed.

Lemma good2_app (d : dialect) (a b : line) : good2 d a = true -> good2 d b = true -> good2 d (a ++ b)%list = true.
Proof.
  intros Ha Hb. induction a as [|t r IH]; [exact Hb|]. cbn [List.app].
  destruct t; cbn [good2] in *; try (apply IH, Ha);
    apply andb_true_iff in Ha; destruct Ha as [H1 H2]; rewrite (IH H2), andb_true_r; destruct r as [|[]]; try discriminate; exact H1.
Qed.

Lemma good2_flat_map {A : Type} (d : dialect) (f : A -> line) (l : list A) :
  (forall x, good2 d (f x) = true) -> good2 d (flat_map f l) = true.
Proof. intros H. induction l as [|x l IH]; [reflexivity|]. cbn [flat_map]. apply good2_app; [apply H | exact IH]. Qed.

Lemma good2_join_toks (d : dialect) (sep : line) (parts : list line) :
  good2 d sep = true -> Forall (fun p => good2 d p = true) parts -> good2 d (join_toks sep parts) = true.
Proof.
  intros Hs H. induction H as [|p r Hp Hr IH]; [reflexivity|]. cbn [join_toks]. destruct r as [|p2 r2]; [exact Hp|].
  apply good2_app; [exact Hp|]. apply good2_app; [exact Hs | exact IH].
Qed.

Lemma good2_list_join (d : dialect) (j : line) (ls : list line) :
  good2 d j = true -> Forall (fun p => good2 d p = true) ls -> Forall (fun p => good2 d p = true) (list_join j ls).
Proof.
  intros Hj H. induction H as [|p r Hp Hr IH]; [constructor|]. cbn [list_join]. destruct r as [|p2 r2].
  - constructor; [exact Hp | constructor].
  - constructor; [|exact IH]. cbn [good2]. apply good2_app; assumption.
Qed.

Lemma Forall_map_good2 {A : Type} (d : dialect) (f : A -> line) (l : list A) :
  (forall x, good2 d (f x) = true) -> Forall (fun p => good2 d p = true) (map f l).
Proof. intros H. induction l; constructor; auto. Qed.

Lemma r2b_case_stmt_good2 (d : dialect) (cc : string * list pyval) : good2 d (r2b_case_stmt cc) = true.
Proof.
  unfold r2b_case_stmt. apply good2_app; [reflexivity|]. apply good2_app; [|reflexivity].
  apply good2_flat_map. intros cell. destruct (cell_isnull cell); reflexivity.
Qed.

Lemma q_row_good2 (d : dialect) (rs : recspec) (i : nat) : good2 d (q_row rs i) = true.
Proof.
  unfold q_row. apply good2_app; [reflexivity|]. apply good2_app; [|reflexivity].
  apply good2_join_toks; [reflexivity|]. apply Forall_map_good2. intros cc. reflexivity.
Qed.

Lemma table_values_good2 (d : dialect) (rs : recspec) : Forall (fun p => good2 d p = true) (table_values rs).
Proof.
  unfold table_values. apply Forall_app. split; [repeat constructor|]. apply Forall_app. split; [|repeat constructor].
  apply Forall_map_good2. intros i. cbn [good2]. apply good2_app; [destruct (Nat.ltb i 1); reflexivity | apply q_row_good2].
Qed.

Lemma b2r_max_stmt_good2 (d : dialect) (rs : recspec) (i : nat) (vc : string) (cell : pyval) : good2 d (b2r_max_stmt rs i vc cell) = true.
Proof.
  unfold b2r_max_stmt. apply good2_app; [reflexivity|]. apply good2_app; [|reflexivity].
  apply good2_join_toks; [reflexivity|]. apply Forall_map_good2. intros cc. reflexivity.
Qed.

Lemma b2r_scan_good2 (d : dialect) (rs : recspec) (items : list (nat * (string * list pyval))) :
  forall seen, Forall (fun p => good2 d p = true) (b2r_scan rs items seen).
Proof.
  induction items as [|[i [vc cells]] r IH]; intros seen; [constructor|]. cbn [b2r_scan].
  destruct (negb (existsb (pyval_eqb_str (nth i cells PNone)) seen) && negb (cell_isnull (nth i cells PNone))).
  - constructor; [apply b2r_max_stmt_good2 | apply IH].
  - apply IH.
Qed.

Definition all_good2 (d : dialect) (p : list line * list line) : Prop :=
  Forall (fun l => good2 d l = true) (fst p) /\ Forall (fun l => good2 d l = true) (snd p).

Lemma emit_r2b_good2 (d : dialect) (rs : recspec) : all_good2 d (emit_r2b rs).
Proof.
  unfold all_good2, emit_r2b. cbn [fst snd]. split.
  - apply Forall_app. split; [|repeat constructor]. apply good2_list_join; [reflexivity|].
    unfold r2b_col_stmts. repeat (apply Forall_app; split); try (apply Forall_map_good2; intros c; reflexivity).
    apply Forall_map_good2. apply r2b_case_stmt_good2.
  - repeat (apply Forall_app; split); try (repeat constructor; fail).
    + apply good2_list_join; [reflexivity | apply table_values_good2].
    + apply good2_list_join; [reflexivity|]. unfold r2b_control_cols.
      apply Forall_app; split; apply Forall_map_good2; intros c; reflexivity.
Qed.

Lemma emit_b2r_good2 (d : dialect) (rs : recspec) : all_good2 d (emit_b2r rs).
Proof.
  unfold all_good2, emit_b2r. destruct (Nat.eqb (nrows rs) 1); cbn [fst snd]; split.
  - apply Forall_app. split; [|repeat constructor]. apply good2_list_join; [reflexivity|].
    apply Forall_app; split; apply Forall_map_good2; intros c; reflexivity.
  - repeat constructor.
  - apply Forall_app. split; [|repeat constructor]. apply good2_list_join; [reflexivity|].
    apply Forall_app; split; [apply Forall_map_good2; intros c; reflexivity | apply b2r_scan_good2].
  - repeat (apply Forall_app; split); try (repeat constructor; fail);
      (apply good2_list_join; [reflexivity | apply Forall_map_good2; intros c; reflexivity]).
Qed.

(* the statement used by Props/C14.v: whatever the control table, every emitted line that renders reads back to its holes *)
Definition lines_of (p : list line * list line) : list line := (fst p ++ snd p)%list.

Lemma recordmap_lines_read_back (d : dialect) (rs : recspec) (l : line) (text : string) :
  quote_ok (d_sq d) = true ->
  In l (lines_of (emit_r2b rs) ++ lines_of (emit_b2r rs))%list -> Forall (tok_ok d) l -> render_line d l = Some text ->
  exists items, read_shape d (map shape_of l) text = Some (items, "") /\ Forall2 tok_item l items.
Proof.
  intros Hq Hin Hok Hr. apply render_line_reads_back; try assumption. apply good2_good.
  destruct (emit_r2b_good2 d rs) as [A1 A2]. destruct (emit_b2r_good2 d rs) as [B1 B2].
  unfold lines_of in Hin. rewrite !in_app_iff in Hin. rewrite Forall_forall in A1, A2, B1, B2.
  destruct Hin as [[H|H]|[H|H]]; auto.
Qed.

(* concat_rows labels: ANY string reads back verbatim in the standard family; without a backslash elsewhere *)
Lemma concat_label_reads_back (d : dialect) (name rest : string) :
  quote_ok (d_sq d) = true -> (d_fam d = Backslash -> has_char (Ascii.eqb "\"%char) name = false) ->
  ends_token rest = true -> starts_with_char (d_sq d) rest = false ->
  read_value (d_fam d) (d_sq d) (concat_label_sql d name ++ rest) = Some (SStr name, rest).
Proof.
  intros Hq Hb Hr Hs. unfold concat_label_sql, concat_label_term.
  destruct (value_to_sql_reads_back (d_fam d) (d_sq d) (PValue (PStr name)) rest Hq I Hb Hr Hs) as (sv & R & S).
  inversion S as [ | | | | | |x sv0 S1]; subst. inversion S1; subst. exact R.
Qed.

(* by construction of the token model: a user string reaches the text only through the three quoting functions *)
Lemma tokens_render_through_quoting (d : dialect) :
  (forall k, render_tok d (Kw k) = Some (kw_text d k)) /\
  (forall n, render_tok d (Id (PStr n)) = quote_identifier (q1 (d_iq d)) n) /\
  (forall s, render_tok d (Lit s) = Some (quote_string (q1 (d_sq d)) s)) /\
  (forall v, render_tok d (Val v) = Some (value_to_sql (q1 (d_sq d)) v)).
Proof. repeat split. Qed.
