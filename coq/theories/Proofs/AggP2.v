(* C05 -- aggregates and window functions on Pandas and Polars; assembly over the catalogue's index sets; at the end, the SQL
   theorems of ScalarP4 for the code as it is (Model/ScalarCurrent.v) *)
From Coq Require Import List Bool Qround Qabs String Lqa.
Import ListNotations.
From DA Require Import Model.Scalar Model.SqlTemplates Model.ScalarBackends Model.ScalarCatalog Model.AggModels Model.ScalarIndex Model.AggIndex
  Proofs.ScalarP0 Proofs.AggP.
Local Open Scope string_scope.
Local Open Scope list_scope.

Lemma all_fin_map l qs : all_fin l = Some qs -> l = map SNum qs.
Proof. revert qs. induction l as [|v t IH]; intros qs H; [inversion H; reflexivity|].
  destruct v; try discriminate H. cbn in H. destruct (all_fin t) eqn:E; [|discriminate H]. cbn in H. inversion H; subst.
  cbn. rewrite (IH _ eq_refl). reflexivity. Qed.
Lemma positions_iota n (l : list sval) : positions n l = iota n (List.length l).
Proof. revert n. induction l as [|v t IH]; intros n; [reflexivity|]. cbn. rewrite IH. reflexivity. Qed.
Lemma rev_head_last (qs : list Q) x : match rev (x :: qs) with [] => x | y :: _ => y end = last (x :: qs) x.
Proof. revert x. induction qs as [|y t IH]; intros x; [reflexivity|].
  change (last (x :: y :: t) x) with (last (y :: t) x).
  assert (forall d1 d2, last (y :: t) d1 = last (y :: t) d2) as LD. { clear. revert y. induction t as [|z t IH]; intros y d1 d2; [reflexivity|]. apply (IH z). }
  rewrite (LD x y). rewrite <- (IH y). cbn [rev]. destruct (rev t ++ [y]) eqn:E; [destruct (rev t); discriminate E|]. reflexivity. Qed.

Lemma last_map_snum (qs : list Q) x d : last (map SNum (x :: qs)) d = SNum (last (x :: qs) x).
Proof. revert x. induction qs as [|y t IH]; intros x; [reflexivity|].
  change (last (map SNum (x :: y :: t)) d) with (last (map SNum (y :: t)) d). rewrite (IH y).
  change (last (x :: y :: t) x) with (last (y :: t) x).
  assert (forall d1 d2, last (y :: t) d1 = last (y :: t) d2) as LD. { clear. revert y. induction t as [|z t IH]; intros y d1 d2; [reflexivity|]. apply (IH z). }
  rewrite (LD x y). reflexivity. Qed.
Lemma pd_last_head qs x : match rev (map SNum (x :: qs)) with [] => SNull | y :: _ => y end = SNum (last (x :: qs) x).
Proof. rewrite <- map_rev. pose proof (rev_head_last qs x) as RL.
  destruct (rev (x :: qs)) as [|y ys] eqn:R; [cbn [rev] in R; destruct (rev qs); discriminate R|]. cbn [map]. rewrite RL. reflexivity. Qed.

Definition agg1_methods : list string :=
  ["sum"; "mean"; "max"; "min"; "median"; "var"; "std"; "count"; "size"; "_size"; "any"; "all"; "nunique"; "any_value"].

Section AggFrames.
Variable mf : string -> Q -> option Q.

Definition pd1_ok (m : string) : Prop :=
  forall vals r, vals <> [] -> spec_agg mf m vals = Some r -> exists v, pd_agg1 mf m vals = Some v /\ sv_eqv v r.
Definition pl1_ok (m : string) : Prop :=
  forall vals r, vals <> [] -> spec_agg mf m vals = Some r -> forall v, pl_agg1 mf m vals = Some v -> sv_eqv v r.

Lemma pd_present m k f g : (forall l, spec_agg mf m l = agg_present k f l) ->
  (forall l, pd_agg1 mf m l = match all_fin (np_present l) with Some qs => g qs | None => None end) -> computes k f g -> pd1_ok m.
Proof. intros S E C vals r NE H. rewrite S in H. destruct (agg_present_inv _ _ _ _ H) as [qs [F [L Ef]]].
  rewrite E. unfold np_present. fold (present vals). rewrite F. exact (C qs r L Ef). Qed.

Lemma pd_simple m : In m agg1_methods -> pd1_ok m.
Proof. intros I. cbn in I. repeat (destruct I as [<-|I]; [ | ]); try contradiction.
  - eapply pd_present; [reflexivity | reflexivity | apply computes_same].
  - eapply pd_present; [reflexivity | reflexivity | apply computes_nonempty].
  - eapply pd_present; [reflexivity | reflexivity | apply computes_fold].
  - eapply pd_present; [reflexivity | reflexivity | apply computes_fold].
  - eapply pd_present; [reflexivity | reflexivity | apply computes_nonempty].
  - eapply pd_present; [reflexivity | reflexivity | apply computes_var].
  - eapply pd_present; [reflexivity | reflexivity | apply computes_std].
  - intros vals r NE [= <-]. eexists; split; [reflexivity | apply sv_eqv_refl].
  - intros vals r NE [= <-]. eexists; split; [reflexivity | apply sv_eqv_refl].
  - intros vals r NE [= <-]. eexists; split; [reflexivity | apply sv_eqv_refl].
  - intros vals r NE H. change (spec_agg mf "any" vals) with (match all_bool vals with Some (b :: bs) => Some (SBool (existsb (fun x => x) (b :: bs))) | _ => None end) in H.
    unfold pd_agg1. cbn. destruct (all_bool vals) as [[|b bs]|]; try discriminate H. inversion H; subst. eexists; split; [reflexivity | apply sv_eqv_refl].
  - intros vals r NE H. change (spec_agg mf "all" vals) with (match all_bool vals with Some (b :: bs) => Some (SBool (forallb (fun x => x) (b :: bs))) | _ => None end) in H.
    unfold pd_agg1. cbn. destruct (all_bool vals) as [[|b bs]|]; try discriminate H. inversion H; subst. eexists; split; [reflexivity | apply sv_eqv_refl].
  - intros vals r NE H. change (spec_agg mf "nunique" vals) with (match all_fin vals with Some qs => Some (nat_sv (List.length (qdistinct qs))) | None => None end) in H.
    destruct (all_fin vals) as [qs|] eqn:F; [|discriminate H]. inversion H; subst.
    unfold pd_agg1. cbn. destruct (all_fin_no_missing _ _ F) as [P _]. unfold np_present. fold (present vals). rewrite P, F. eexists; split; [reflexivity | apply sv_eqv_refl].
  - eapply pd_present; [reflexivity | reflexivity | apply computes_any_first]. Qed.

Lemma sql_present_of_present vals qs : all_fin (present vals) = Some qs -> no_nan vals = true -> all_fin (sql_present vals) = Some qs.
Proof. revert qs. induction vals as [|v t IH]; intros qs H N; [exact H|]. cbn in N. apply andb_true_iff in N. destruct N as [Nv N].
  destruct v; try discriminate Nv; try discriminate H; unfold present, sql_present in *; cbn in *.
  - apply IH; assumption.
  - destruct (all_fin (filter (fun v => negb (missing v)) t)) eqn:E; [|discriminate H]. cbn in H. inversion H; subst. rewrite (IH _ eq_refl N). reflexivity. Qed.
(* Polars aggregates skip nulls; a distinguishable NaN inside a group is not modelled (guard no_nan) *)
Definition pl1_ok_nonan (m : string) : Prop :=
  forall vals r, vals <> [] -> no_nan vals = true -> spec_agg mf m vals = Some r -> forall v, pl_agg1 mf m vals = Some v -> sv_eqv v r.
Lemma pl_present m k f g : (forall l, spec_agg mf m l = agg_present k f l) ->
  (forall l, pl_agg1 mf m l = match all_fin (sql_present l) with Some qs => g qs | None => None end) -> computes k f g -> pl1_ok_nonan m.
Proof. intros S E C vals r NE NN H v P. rewrite S in H. destruct (agg_present_inv _ _ _ _ H) as [qs [F [L Ef]]].
  rewrite E, (sql_present_of_present _ _ F NN) in P. destruct (C qs r L Ef) as [v' [Eg Q]]. rewrite Eg in P. injection P as <-. exact Q. Qed.

Lemma pl_simple m : In m agg1_methods -> pl1_ok_nonan m.
Proof. intros I. cbn in I. repeat (destruct I as [<-|I]; [ | ]); try contradiction.
  - eapply pl_present; [reflexivity | reflexivity | apply computes_same].
  - eapply pl_present; [reflexivity | reflexivity | apply computes_nonempty].
  - eapply pl_present; [reflexivity | reflexivity | apply computes_fold].
  - eapply pl_present; [reflexivity | reflexivity | apply computes_fold].
  - eapply pl_present; [reflexivity | reflexivity | apply computes_nonempty].
  - eapply pl_present; [reflexivity | reflexivity | apply computes_var].
  - eapply pl_present; [reflexivity | reflexivity | apply computes_std].
  - intros vals r NE NN [= <-] v [= <-]. apply sv_eqv_refl.
  - intros vals r NE NN [= <-] v [= <-]. apply sv_eqv_refl.
  - intros vals r NE NN [= <-] v [= <-]. apply sv_eqv_refl.
  - intros vals r NE NN H v P. change (spec_agg mf "any" vals) with (match all_bool vals with Some (b :: bs) => Some (SBool (existsb (fun x => x) (b :: bs))) | _ => None end) in H.
    unfold pl_agg1 in P. cbn in P. destruct (all_bool vals) as [[|b bs]|]; try discriminate H. inversion H; inversion P; subst. apply sv_eqv_refl.
  - intros vals r NE NN H v P. change (spec_agg mf "all" vals) with (match all_bool vals with Some (b :: bs) => Some (SBool (forallb (fun x => x) (b :: bs))) | _ => None end) in H.
    unfold pl_agg1 in P. cbn in P. destruct (all_bool vals) as [[|b bs]|]; try discriminate H. inversion H; inversion P; subst. apply sv_eqv_refl.
  - intros vals r NE NN H v P. change (spec_agg mf "nunique" vals) with (match all_fin vals with Some qs => Some (nat_sv (List.length (qdistinct qs))) | None => None end) in H.
    destruct (all_fin vals) as [qs|] eqn:F; [|discriminate H]. inversion H; subst.
    unfold pl_agg1 in P. cbn in P. destruct (all_fin_no_missing _ _ F) as [_ SP]. rewrite SP, F in P.
    inversion P; subst. apply sv_eqv_refl.
  - eapply pl_present; [reflexivity | reflexivity | apply computes_any_fold, qmin2_pick]. Qed.

(* ---------------------------------------------------------------- window functions on the frame executors *)
Lemma pd_window_ok m : m <> "cumcount" ->
  forall vals r, spec_win m vals = Some r -> exists r', pd_window m vals = Some r' /\ svl_eqv r' r.
Proof. intros NC vals r H. unfold spec_win in H.
  destruct (lookup m spec_win_table) as [f|] eqn:LK; [|discriminate H]. cbn in LK.
  repeat match type of LK with (if ?c then _ else _) = _ => destruct c eqn:? end; try discriminate LK;
    repeat match goal with E : String.eqb _ _ = true |- _ => apply String.eqb_eq in E; subst m end; inversion LK; subst f; clear LK.
  - (* cumsum *) exists r. split; [exact H | apply svl_eqv_refl].
  - exists r. split; [exact H | apply svl_eqv_refl].
  - exists r. split; [exact H | apply svl_eqv_refl].
  - exists r. split; [exact H | apply svl_eqv_refl].
  - congruence.
  - (* _row_number *) inversion H; subst. exists (positions 1 vals). split; [reflexivity|]. rewrite positions_iota. apply svl_eqv_refl.
  - (* shift *) destruct vals; inversion H; subst; eexists; (split; [reflexivity | apply svl_eqv_refl]).
  - (* first *) destruct (all_fin vals) as [[|x t]|] eqn:F; try discriminate H. inversion H; subst.
    eexists; split; [reflexivity|]. destruct (all_fin_no_missing _ _ F) as [P _]. unfold np_present. fold (present vals). rewrite P.
    rewrite (all_fin_map _ _ F). cbn [map]. apply svl_eqv_refl.
  - (* last *) destruct (all_fin vals) as [[|x t]|] eqn:F; try discriminate H. inversion H; subst.
    eexists; split; [reflexivity|]. destruct (all_fin_no_missing _ _ F) as [P _]. unfold np_present. fold (present vals). rewrite P.
    rewrite (all_fin_map _ _ F). rewrite pd_last_head. apply svl_eqv_refl.
  - exists r. split; [exact H | apply svl_eqv_refl].
  - exists r. split; [exact H | apply svl_eqv_refl].
  - exists r. split; [exact H | apply svl_eqv_refl]. Qed.
Lemma pl_window_ok m vals r r' : spec_win m vals = Some r -> pl_window m vals = Some r' -> svl_eqv r' r.
Proof. intros H P. unfold pl_window in P.
  repeat match type of P with (if ?c then _ else _) = _ => destruct c eqn:? end; try discriminate P;
    repeat match goal with E : String.eqb _ _ = true |- _ => apply String.eqb_eq in E; subst m end.
  - destruct vals; inversion H; inversion P; subst; apply svl_eqv_refl.
  - change (spec_win "first" vals) with (match all_fin vals with Some (x :: t) => Some (map (fun _ => SNum x) vals) | _ => None end) in H.
    destruct (all_fin vals) as [[|x t]|] eqn:F; try discriminate H. inversion H; inversion P; subst.
    destruct (all_fin_no_missing _ _ F) as [_ SP]. rewrite SP.
    rewrite (all_fin_map _ _ F). cbn [map]. apply svl_eqv_refl.
  - change (spec_win "last" vals) with (match all_fin vals with Some (x :: t) => Some (map (fun _ => SNum (last (x :: t) x)) vals) | _ => None end) in H.
    destruct (all_fin vals) as [[|x t]|] eqn:F; try discriminate H. inversion H; inversion P; subst.
    destruct (all_fin_no_missing _ _ F) as [_ SP]. rewrite SP.
    rewrite (all_fin_map _ _ F). rewrite (last_map_snum t x SNull). apply svl_eqv_refl.
  - change (spec_win "rank" vals) with (match all_fin vals with Some qs => if qnodup qs then Some (map (fun x => SNum (qrank qs x)) qs) else None | None => None end) in H.
    rewrite H in P. inversion P; subst. apply svl_eqv_refl.
  - inversion H; inversion P; subst. apply svl_eqv_refl.
  - inversion H; inversion P; subst. apply svl_eqv_refl. Qed.
End AggFrames.

(* ================================================================== assembly over the catalogue *)
(* An index set is a fixed table: that each of its entries is one of the methods proved above is checked by evaluation,
   once per set; the theorems then only look at the few names of the covering lists. *)
Definition covered (simple : list string) (win : string -> bool) (cm : acls * string) : bool :=
  match fst cm with CWindow => win (snd cm) | _ => str_in (snd cm) simple end.
Lemma covered_In simple win l c m : forallb (covered simple win) l = true -> In (c, m) l ->
  match c with CWindow => win m = true | _ => In m simple end.
Proof. intros A I. rewrite forallb_forall in A. specialize (A _ I). destruct c; [apply str_in_In, A..|exact A]. Qed.

Section AggTop.
Variable mf : string -> Q -> option Q.
Variable mf2 : string -> Q -> Q -> option Q.

Create HintDb agg_doc discriminated.
Hint Resolve sql_sum_ok sql_mean_ok sql_max_ok sql_min_ok sql_median_ok sql_var_ok sql_std_ok sql_nunique_ok sql_count_ok sql_size_ok
  sql_any_ok sql_all_ok sql_any_value_ok or_introl or_intror eq_refl : agg_doc.

Definition sql_methods (d : dialect) : list string :=
  filter (fun m => match d with DSqlite => true | DPg => negb (String.eqb m "median") end) agg1_methods.
Definition sql_windows : list string := ["_row_number"; "shift"; "cumsum"; "cummax"; "cummin"].
Lemma sql_agg1 vr d m : In m (sql_methods d) -> agg1_ok mf mf2 vr d m.
Proof. destruct d; cbn; intros I; repeat destruct I as [<-|I]; try contradiction; auto with agg_doc nocore. Qed.

Theorem sql_agg_supported_documented vr d c m :
  In (c, m) (supported_agg_sql d) ->
  forall vals r, vals <> [] -> spec_cls mf c m vals = Some r ->
    exists r', agg_sql mf mf2 vr d c m vals = Some r' /\ svl_eqv r' r.
Proof. intros I.
  assert (forallb (covered (sql_methods d) (fun m => str_in m sql_windows)) (supported_agg_sql d) = true) as A by (destruct d; vm_compute; reflexivity).
  pose proof (covered_In _ _ _ c m A I) as J. destruct c.
  - apply lift_project, sql_agg1, J.
  - apply lift_group, sql_agg1, J.
  - apply str_in_In in J. destruct J as [<-|[<-|[<-|[<-|[<-|[]]]]]].
    + apply sql_row_number_ok.
    + apply sql_shift_ok.
    + apply sql_cumsum_ok.
    + apply sql_cummax_ok.
    + apply sql_cummin_ok. Qed.

Lemma pd_lift c m : c <> CWindow -> pd1_ok mf m ->
  forall vals r, vals <> [] -> spec_cls mf c m vals = Some r -> exists r', agg_pd mf c m vals = Some r' /\ svl_eqv r' r.
Proof. intros NW A vals r NE H. unfold spec_cls in H.
  destruct c; [ | | congruence];
  (destruct (spec_agg mf m vals) as [r0|] eqn:S; [|discriminate H]; inversion H; subst;
   destruct (A vals r0 NE S) as [v [E Q]]; unfold agg_pd; rewrite E; eexists; (split; [reflexivity|])).
  - constructor; [exact Q | constructor].
  - apply svl_eqv_const. exact Q. Qed.
Theorem pandas_agg_supported_documented c m :
  In (c, m) supported_agg_pandas -> pd_agg_guard c m = true ->
  forall vals r, vals <> [] -> spec_cls mf c m vals = Some r ->
    exists r', agg_pd mf c m vals = Some r' /\ svl_eqv r' r.
Proof. intros I G.
  assert (forallb (covered agg1_methods (fun _ => true)) supported_agg_pandas = true) as A by (vm_compute; reflexivity).
  pose proof (covered_In _ _ _ c m A I) as J. destruct c.
  - apply pd_lift; [discriminate | apply pd_simple, J].
  - apply pd_lift; [discriminate | apply pd_simple, J].
  - intros vals r NE H. apply pd_window_ok; [|exact H]. intros ->. discriminate G. Qed.

Lemma pl_lift c m : c <> CWindow -> pl1_ok_nonan mf m ->
  forall vals r, vals <> [] -> no_nan vals = true -> spec_cls mf c m vals = Some r ->
    forall r', agg_pl mf c m vals = Some r' -> svl_eqv r' r.
Proof. intros NW A vals r NE NN H r' P. unfold spec_cls in H. unfold agg_pl in P.
  destruct c; [ | | congruence];
  (destruct (spec_agg mf m vals) as [r0|] eqn:S; [|discriminate H]; injection H as <-;
   destruct (pl_agg1 mf m vals) as [v|] eqn:E; [|discriminate P]; injection P as <-;
   pose proof (A vals r0 NE NN S v E) as Q).
  - constructor; [exact Q | constructor].
  - apply svl_eqv_const, Q. Qed.
Theorem polars_agg_catalogued_documented c m :
  In (c, m) supported_agg_polars ->
  forall vals r, vals <> [] -> no_nan vals = true -> spec_cls mf c m vals = Some r ->
    forall r', agg_pl mf c m vals = Some r' -> svl_eqv r' r.
Proof. intros I.
  assert (forallb (covered agg1_methods (fun _ => true)) supported_agg_polars = true) as A by (vm_compute; reflexivity).
  pose proof (covered_In _ _ _ c m A I) as J. destruct c.
  - apply pl_lift; [discriminate | apply pl_simple, J].
  - apply pl_lift; [discriminate | apply pl_simple, J].
  - intros vals r NE NN H r' P. eapply pl_window_ok; eassumption. Qed.

(* the Pandas executor's cumcount is the 0-based position of the row, not the number of present cells so far *)
Lemma pandas_cumcount_refuted :
  exists vals r r', spec_cls mf CWindow "cumcount" vals = Some r /\ agg_pd mf CWindow "cumcount" vals = Some r' /\ svl_eqvb r' r = false.
Proof. exists [SNum 5], [SNum 1], [SNum 0]. repeat split; reflexivity. Qed.
End AggTop.

(* ================================================================== the current code: no guard is left for the repaired templates *)
From DA Require Import Model.ScalarCurrent Proofs.ScalarP4.
Lemma sql_guard_current d m args : pg_is_nan_guard d m args = true -> sql_guard current d m args = true.
Proof. unfold pg_is_nan_guard, sql_guard, current. cbn [fix_maxmin fix_trimstr fix_abs_sign orb].
  destruct (str_in m ["maximum"; "minimum"; "fmax"; "fmin"]); [reflexivity|]. destruct (String.eqb m "trimstr"); [reflexivity|].
  destruct (str_in m ["abs"; "sign"]); [destruct d; reflexivity|]. intros H; exact H. Qed.
Theorem sql_supported_documented_current mf mf2 d m lits :
  In (m, lits) (supported_sql d) ->
  forall args r, pg_is_nan_guard d m args = true -> spec_method mf mf2 m args = Some r ->
    exists r', sql_eval mf mf2 current d m lits args = Some r' /\ sv_eqv r' r.
Proof. intros I args r G H. eapply sql_supported_documented; [exact I | apply sql_guard_current; exact G | exact H]. Qed.
Lemma pg_is_nan_of_nan_refuted_current mf mf2 :
  exists args r r', spec_method mf mf2 "is_nan" args = Some r /\ sql_eval mf mf2 current DPg "is_nan" [false] args = Some r' /\ differs r' r.
Proof. exact (pg_is_nan_of_nan_refuted mf mf2 current). Qed.
Theorem sql_supported_documented_current_any_literals mf mf2 d m lits0 :
  In (m, lits0) (supported_sql d) -> str_in m literal_arg_methods = false ->
  forall lits args r, pg_is_nan_guard d m args = true -> spec_method mf mf2 m args = Some r ->
    exists r', sql_eval mf mf2 current d m lits args = Some r' /\ sv_eqv r' r.
Proof. intros I NL lits args r G H. eapply sql_supported_documented_any_literals; [exact I | exact NL | apply sql_guard_current; exact G | exact H]. Qed.
