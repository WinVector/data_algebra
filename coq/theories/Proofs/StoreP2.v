(* C19, part 2: repeatability.  The frame an evaluation returns has exactly the content given by the pure function
   `pcontent` of the CONTENTS of the caller's frames (and the evaluation fails exactly when `pcontent` does); together
   with part 1 (caller frames unchanged) a second evaluation returns the same content. *)
From Coq Require Import List Bool String .
Import ListNotations.
From DA Require Import Model.Store Proofs.StoreP1.
Local Open Scope list_scope.

(* ------------------------------------------------------------------ total-correctness weakest precondition *)
Definition wp {A} (m : M A) (s : store) (Q : A -> store -> Prop) : Prop :=
  exists a s' evs, m s = Some (a, s', evs) /\ Q a s'.
Notation holds F := (fun (l : loc) (s' : store) => get s' l = Some F).

Lemma wp_ret {A} (a : A) s (Q : A -> store -> Prop) : Q a s -> wp (ret a) s Q.
Proof. intros H. exists a, s, []. split; [reflexivity|exact H]. Qed.
Lemma wp_bind {A B} (m : M A) (k : A -> M B) s (Q : B -> store -> Prop) : wp m s (fun a s1 => wp (k a) s1 Q) -> wp (bind m k) s Q.
Proof. intros (a & s1 & e1 & R1 & (b & s2 & e2 & R2 & H)). exists b, s2, (e1 ++ e2). split; [|exact H].
  unfold bind. rewrite R1, R2. reflexivity. Qed.
Lemma wp_holds (m : M loc) s F (Q : loc -> store -> Prop) :
  wp m s (holds F) -> (forall l s', get s' l = Some F -> Q l s') -> wp m s Q.
Proof. intros (a & s' & e & R & H) I. exists a, s', e. auto. Qed.

(* The primitives are specified without naming the store they produce: a write at l yields some s' that `keeps` the other
   cells of s, an allocation some s' that `grows` s by a cell no known cell lives at.  The stores of a symbolic run stay
   variables and the known cells are hypotheses `get s x = Some fx`, so a lookup is an assumption. *)
Definition keeps (s s' : store) (l : loc) : Prop := forall x fx, x <> l -> get s x = Some fx -> get s' x = Some fx.
Definition grows (s s' : store) (l : loc) : Prop := forall x fx, get s x = Some fx -> x <> l /\ get s' x = Some fx.

Lemma wp_rd k l s f (Q : frame -> store -> Prop) : get s l = Some f -> Q f s -> wp (rd k l) s Q.
Proof. intros G H. exists f, s, [ERead k l]. split; [|exact H]. unfold rd. rewrite G. reflexivity. Qed.
Lemma wp_wr k l ws u s f (Q : unit -> store -> Prop) : get s l = Some f ->
  (forall s', keeps s s' l -> get s' l = Some (u f) -> Q tt s') -> wp (wr k l ws u) s Q.
Proof. intros G H. exists tt, (upd s l (u f)), (map (EWrite k l) ws). split; [unfold wr; rewrite G; reflexivity|].
  apply H; [|eapply lookup_update_same, G]. intros x fx N. apply get_upd_other, N. Qed.
Lemma wp_new k f s (Q : loc -> store -> Prop) :
  (forall l s', grows s s' l -> get s' l = Some f -> Q l s') -> wp (new k f) s Q.
Proof. intros H. exists (fresh s), (push s f), [EAlloc k (fresh s)]. split; [reflexivity|].
  apply H; [|apply get_push_same]. intros x fx G. split; [eapply neq_fresh_r, G|apply get_push_old, G]. Qed.
Lemma wp_derive k l g s f (Q : loc -> store -> Prop) : get s l = Some f ->
  (forall l' s', grows s s' l' -> get s' l' = Some (g f) -> Q l' s') -> wp (derive k l g) s Q.
Proof. intros G H. unfold derive. apply wp_bind. eapply wp_rd; [exact G|]. apply wp_new, H. Qed.
Lemma wp_derive2 k l1 l2 g s f1 f2 (Q : loc -> store -> Prop) : get s l1 = Some f1 -> get s l2 = Some f2 ->
  (forall l' s', grows s s' l' -> get s' l' = Some (g f1 f2) -> Q l' s') -> wp (derive2 k l1 l2 g) s Q.
Proof. intros G1 G2 H. unfold derive2. apply wp_bind. eapply wp_rd; [exact G1|]. apply wp_bind. eapply wp_rd; [exact G2|]. apply wp_new, H. Qed.

(* after a primitive turned s into s' (K : keeps s s' l or grows s s' l): restate every known cell of s for s'; an
   allocation also leaves the fact that the cell is not the new one, which is what a later write next to it asks for *)
Ltac neq := first [assumption | apply not_eq_sym; assumption].
Ltac carry s K :=
  repeat match goal with G : get s _ = Some _ |- _ =>
    lazymatch type of K with
    | keeps _ _ _ => first [apply K in G; [|neq] | clear G]
    | grows _ _ _ => apply K in G; destruct G as [? G]
    end end;
  clear K.

(* symbolic execution: one rule per constructor; a sub-program with a lemma of its own in the hint database `sp` (or an
   induction hypothesis) is passed by that lemma, and only its result is known afterwards *)
Create HintDb sp.
#[local] Hint Resolve not_eq_sym : sp.
Ltac run :=
  cbv beta;
  lazymatch goal with
  | |- wp (ret _) _ _ => apply wp_ret; run
  | |- wp (bind _ _) _ _ => apply wp_bind; run
  | |- wp (rd _ _) _ _ => eapply wp_rd; [eassumption | run]
  | |- wp (wr _ _ _ _) ?s _ => eapply wp_wr; [eassumption | intros ?s' ?K ?G; carry s K; run]
  | |- wp (new _ _) ?s _ => apply wp_new; intros ?l ?s' ?K ?G; carry s K; run
  | |- wp (derive _ _ _) ?s _ => eapply wp_derive; [eassumption | intros ?l ?s' ?K ?G; carry s K; run]
  | |- wp (derive2 _ _ _ _) ?s _ => eapply wp_derive2; [eassumption | eassumption | intros ?l ?s' ?K ?G; carry s K; run]
  | |- wp (if ?b then _ else _) _ _ => destruct b; run
  | |- wp (match ?x with _ => _ end) _ _ => destruct x; run
  | |- wp _ _ _ => eapply wp_holds; [solve [eauto with sp] | intros ?l ?s' ?G; run]
  | |- get _ _ = Some _ => eassumption
  end.

(* No proof below looks inside a tag or a scratch column name.  Naming every string literal of the goal by a variable
   first keeps these long terms out of each later goal and out of the proof term, where they would be checked again at
   every step. *)
Ltac name_strings := repeat match goal with |- context [String ?a ?r] => generalize (String a r); intro end.

(* ------------------------------------------------------------------ every step stores the content its pure function gives *)
Lemma sp_add_cols k res nf s fr fn : res <> nf -> get s res = Some fr -> get s nf = Some fn ->
  wp (add_cols k res nf) s (holds (c_add_cols fr fn)).
Proof. intros N G1 G2. unfold add_cols, c_add_cols, c_trim. name_strings. run. Qed.
Lemma sp_coalesce sx cs : forall l s f, get s l = Some f -> wp (coalesce_loop sx cs l) s (holds (c_coalesce sx cs f)).
Proof. induction cs as [|c t IH]; intros l s f G; simpl; run. Qed.
Lemma sp_b2r mc nm x s f : get s x = Some f -> wp (b2r mc nm x) s (holds (c_b2r mc nm f)).
Proof. intros G. unfold b2r, c_b2r. name_strings. run. Qed.
Lemma sp_r2b oc nr y s f : get s y = Some f -> wp (r2b oc nr y) s (holds (c_r2b oc nr f)).
Proof. intros G. unfold r2b, c_r2b. name_strings. run. Qed.
#[local] Hint Resolve sp_add_cols sp_coalesce sp_b2r sp_r2b : sp.

Lemma sp_extend tag outs win res s f : get s res = Some f ->
  wp (step_extend tag outs win false res) s (holds (c_extend tag outs win f)).
Proof. intros G. unfold step_extend, c_extend, c_window, c_extend_empty. name_strings. run. Qed.
Lemma sp_project tag gb outs consts nr res s f : get s res = Some f ->
  wp (step_project tag gb outs consts nr res) s (holds (c_project tag gb outs consts nr f)).
Proof. intros G. unfold step_project, c_project. name_strings. run. Qed.
Lemma sp_select_rows tag nr res s f : get s res = Some f ->
  wp (step_select_rows tag nr res) s (holds (c_select_rows tag nr f)).
Proof. intros G. unfold step_select_rows, c_select_rows. run. Qed.
Lemma sp_order_rows by_ rev limit res s f : get s res = Some f ->
  wp (step_order_rows by_ rev limit res) s (holds (c_order_rows by_ rev limit f)).
Proof. intros G. unfold step_order_rows, c_order_rows, c_order_sorted. name_strings. run. Qed.
Lemma sp_map_cols m dels res s f : get s res = Some f ->
  wp (step_map_cols m dels res) s (holds (c_map_cols m dels f)).
Proof. intros G. unfold step_map_cols, c_map_cols. run. Qed.
Lemma sp_join on_a on_b jt nk nr left right s fl fr : left <> right -> get s left = Some fl -> get s right = Some fr ->
  wp (step_join on_a on_b jt nk nr left right) s (holds (c_join on_a on_b jt nk nr fl fr)).
Proof. intros N G1 G2. unfold step_join, c_join. name_strings. run. Qed.
Lemma sp_concat idcol left right s fl fr : left <> right -> get s left = Some fl -> get s right = Some fr ->
  wp (step_concat idcol left right) s (holds (c_concat idcol fl fr)).
Proof. intros N G1 G2. unfold step_concat, c_concat, c_idcol. name_strings. run. Qed.
Lemma sp_convert hi ho mc oc nm nr res s f : get s res = Some f ->
  wp (step_convert hi ho mc oc nm nr res) s (holds (c_convert hi ho mc oc nm nr f)).
Proof. intros G. unfold step_convert, c_convert. name_strings. run. Qed.

(* ------------------------------------------------------------------ whole pipelines *)
Definition env_ok (s : store) (env : env_locs) : Prop := forall n l, In (n, l) env -> In l (dom s).

Lemma envf_get_frames_of s env n : envf_get (frames_of s env) n = match env_get env n with Some l => get s l | None => None end.
Proof. induction env as [|[k l] t IH]; simpl; [reflexivity|]. destruct (String.eqb k n); auto. Qed.
Lemma frames_of_ext s s' env : env_ok s env -> (forall l, In l (dom s) -> get s' l = get s l) -> frames_of s' env = frames_of s env.
Proof. intros OK G. unfold frames_of. apply map_ext_in. intros [n l] H. simpl. f_equal. apply G. exact (OK n l H). Qed.
Lemma env_ok_ext s s' env : env_ok s env -> incl (dom s) (dom s') -> env_ok s' env.
Proof. intros OK I n l H. apply I. exact (OK n l H). Qed.

Lemma bind_none {A B} (m : M A) (k : A -> M B) s : m s = None -> bind m k s = None.
Proof. intros H. unfold bind. rewrite H. reflexivity. Qed.

(* result of a run: success with the given content, or failure *)
Definition agrees (r : option frame) (m : M loc) (s : store) : Prop :=
  match r with Some F => wp m s (holds F) | None => m s = None end.

Lemma agrees_unary (g : frame -> frame) (m : M loc) (k : loc -> M loc) s r :
  agrees r m s -> (forall l s1 f, get s1 l = Some f -> wp (k l) s1 (holds (g f))) -> agrees (option_map g r) (bind m k) s.
Proof. destruct r as [F|]; simpl; intros H K.
  - apply wp_bind. eapply wp_holds; [exact H|]. exact (fun l s1 => K l s1 F).
  - apply bind_none, H. Qed.

Section Exec.
Variable env : env_locs.

Lemma agrees_table name cols (body : loc -> M loc) (c : frame -> frame) s :
  (forall l0 f0, get s l0 = Some f0 -> wp (body l0) s (holds (c f0))) ->
  agrees (match envf_get (frames_of s env) name with
          | Some f0 => if subset cols (f_cols f0) then Some (c f0) else None
          | None => None
          end)
         (match env_get env name with
          | None => fail
          | Some l0 => bind (rd KTable l0) (fun f0 => if subset cols (f_cols f0) then body l0 else fail)
          end) s.
Proof. intros B. rewrite envf_get_frames_of. destruct (env_get env name) as [l0|]; [|reflexivity].
  destruct (get s l0) as [f0|] eqn:G0; [destruct (subset cols (f_cols f0)) eqn:S|]; simpl.
  - apply wp_bind. eapply wp_rd; [exact G0|]. cbv beta. rewrite S. apply B, G0.
  - unfold bind, rd. rewrite G0, S. reflexivity.
  - unfold bind, rd. rewrite G0. reflexivity. Qed.

(* an executor `ex` that only writes what it allocated, and the content function `ct` claimed for it *)
Section Executor.
Variables (ex : op -> M loc) (ct : env_frames -> op -> option frame).
Hypothesis Own : forall s p, owned s (ex p) (notin s).

(* the second source runs in the store the first one left behind: the caller's frames are unchanged there, so its
   content is still the one computed from s, and it leaves the first result alone *)
Lemma agrees_binary (g : frame -> frame -> frame) p1 p2 (k : loc -> loc -> M loc) s :
  env_ok s env -> agrees (ct (frames_of s env) p1) (ex p1) s ->
  (forall s1, env_ok s1 env -> agrees (ct (frames_of s1 env) p2) (ex p2) s1) ->
  (forall l1 l2 s2 f1 f2, l1 <> l2 -> get s2 l1 = Some f1 -> get s2 l2 = Some f2 -> wp (k l1 l2) s2 (holds (g f1 f2))) ->
  agrees (omap2 g (ct (frames_of s env) p1) (ct (frames_of s env) p2)) (bind (ex p1) (fun la => bind (ex p2) (k la))) s.
Proof. intros OK Ha Hb K. destruct (ct (frames_of s env) p1) as [Fa|]; simpl in *; [|apply bind_none, Ha].
  destruct Ha as (la & s1 & e1 & Ra & Ga).
  destruct (owned_run _ _ _ _ _ (Own s p1) Ra) as (_ & Keep1 & Inc & _).
  specialize (Hb s1 (env_ok_ext _ _ _ OK Inc)). rewrite (frames_of_ext s s1 env OK Keep1) in Hb.
  destruct (ct (frames_of s env) p2) as [Fb|]; simpl in *; [|unfold bind; rewrite Ra, Hb; reflexivity].
  destruct Hb as (lb & s2 & e2 & Rb & Gb).
  destruct (owned_run _ _ _ _ _ (Own s1 p2) Rb) as (_ & Keep & _ & Nb).
  pose proof (lookup_in_dom _ _ _ Ga) as Ia.
  destruct (K la lb s2 Fa Fb) as (r & s3 & e3 & Rk & Gr); [intros ->; exact (Nb Ia) | rewrite (Keep la Ia); exact Ga | exact Gb |].
  exists r, s3, (e1 ++ (e2 ++ e3)). split; [|exact Gr]. unfold bind. rewrite Ra, Rb, Rk. reflexivity. Qed.

(* a second run, from the store the first one left behind, returns the same content *)
Lemma repeatable p s : env_ok s env -> (forall s', env_ok s' env -> agrees (ct (frames_of s' env) p) (ex p) s') ->
  forall l1 s1 e1, ex p s = Some (l1, s1, e1) ->
  exists l2 s2 e2 F, ex p s1 = Some (l2, s2, e2) /\ get s1 l1 = Some F /\ get s2 l2 = Some F.
Proof. intros OK Agr l1 s1 e1 R1.
  destruct (owned_run _ _ _ _ _ (Own s p) R1) as (_ & Keep & Inc & _).
  pose proof (Agr s OK) as A0. pose proof (Agr s1 (env_ok_ext _ _ _ OK Inc)) as A1.
  rewrite (frames_of_ext s s1 env OK Keep) in A1.
  destruct (ct (frames_of s env) p) as [F|]; simpl in *; [|rewrite A0 in R1; discriminate].
  destruct A0 as (l & s' & e & R & G). rewrite R1 in R. injection R as <- <- <-.
  destruct A1 as (l2 & s2 & e2 & R2 & G2). exists l2, s2, e2, F. auto. Qed.
End Executor.

#[local] Hint Resolve sp_extend sp_project sp_select_rows sp_order_rows sp_map_cols sp_join sp_concat sp_convert : sp.

Lemma pexec_agrees p : no_random p = true -> forall s, env_ok s env -> agrees (pcontent (frames_of s env) p) (pexec env p) s.
Proof. induction p; simpl; intros NR s OK; try apply andb_prop in NR as [R1 R2].
  - apply agrees_table. intros. unfold c_table. run.
  - apply negb_true_iff in R1. subst random. apply agrees_unary; auto with sp.
  - apply agrees_unary; auto with sp.
  - apply agrees_unary; auto with sp.
  - apply agrees_unary; auto. intros. unfold step_select_cols. run.
  - apply agrees_unary; auto. intros. unfold step_drop_cols. run.
  - apply agrees_unary; auto with sp.
  - apply agrees_unary; auto with sp.
  - apply agrees_unary; auto. intros. unfold step_rename. run.
  - apply (agrees_binary (pexec env) pcontent (fun s p => own_pexec s env p)); auto with sp.
  - apply (agrees_binary (pexec env) pcontent (fun s p => own_pexec s env p)); auto with sp.
  - apply agrees_unary; auto with sp.
Qed.

Lemma plexec_agrees p : forall s, env_ok s env -> agrees (plcontent (frames_of s env) p) (plexec env p) s.
Proof. induction p; simpl; intros s OK;
  try (apply agrees_unary; [apply IHp; auto|]; intros; unfold pl_convert; run);
  try (apply (agrees_binary (plexec env) plcontent (fun s p => own_plexec s env p)); auto; intros; unfold pl_join, pl_c_join; run).
  apply agrees_table. intros. name_strings. run.
Qed.
End Exec.

(* ------------------------------------------------------------------ repeatability *)
Lemma pexec_repeatable s p env s1 l1 e1 : no_random p = true -> env_ok s env -> pexec_st s p env = Some (s1, l1, e1) ->
  exists s2 l2 e2 F, pexec_st s1 p env = Some (s2, l2, e2) /\ get s1 l1 = Some F /\ get s2 l2 = Some F.
Proof. intros NR OK. unfold pexec_st. destruct (pexec env p s) as [[[l0 s0] e0]|] eqn:R; [|discriminate]. intros [= <- <- <-].
  destruct (repeatable env (pexec env) pcontent (fun s p => own_pexec s env p) p s OK (pexec_agrees env p NR) _ _ _ R)
    as (l2 & s2 & e2 & F & R2 & G).
  exists s2, l2, e2, F. rewrite R2. auto. Qed.

Lemma plexec_repeatable s p env s1 l1 e1 : env_ok s env -> plexec_st s p env = Some (s1, l1, e1) ->
  exists s2 l2 e2 F, plexec_st s1 p env = Some (s2, l2, e2) /\ get s1 l1 = Some F /\ get s2 l2 = Some F.
Proof. intros OK. unfold plexec_st. destruct (plexec env p s) as [[[l0 s0] e0]|] eqn:R; [|discriminate]. intros [= <- <- <-].
  destruct (repeatable env (plexec env) plcontent (fun s p => own_plexec s env p) p s OK (plexec_agrees env p) _ _ _ R)
    as (l2 & s2 & e2 & F & R2 & G).
  exists s2, l2, e2, F. rewrite R2. auto. Qed.
