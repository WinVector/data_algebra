(* C21, part 3: what a windowed extend with ONE assignment computes, row by row (Model/Sem.v sem_wextend):
   the value of row i is found in the piece of the row's own partition (window_lookup); for cumsum over a strictly
   ordered partition it is the sum over the rows at or before it (cumsum_value); for _row_number the values are
   distinct naturals (row_number_value); for an unordered aggregate it is the aggregate of the partition. *)
From Coq Require Import List QArith String Lia Permutation Sorted.
Import ListNotations.
From DA Require Import Base.PyRT Base.Val Model.Sem Model.Solutions Proofs.SemBasicP Proofs.SemOrderP Proofs.SolutionsP1 Proofs.ListP Proofs.TabP.
Local Open Scope string_scope.
Local Open Scope list_scope.

Lemma qsum_nil : qsum [] == 0.
Proof. reflexivity. Qed.
Lemma qsum_app a b : qsum (a ++ b) == qsum a + qsum b.
Proof. induction a as [|x t IH]; simpl; [rewrite qsum_nil; ring|]. rewrite !qsum_cons, IH. ring. Qed.
Lemma qsum_ext {A} (f g : A -> Q) l : (forall x, In x l -> f x == g x) -> qsum (map f l) == qsum (map g l).
Proof. induction l as [|x t IH]; intros H; simpl; [reflexivity|]. rewrite !qsum_cons, (H x (or_introl eq_refl)), IH; [reflexivity|].
  intros y I. apply H. right. exact I. Qed.
Lemma qsum_const {A} (l : list A) c : qsum (map (fun _ => c) l) == inject_Z (Z.of_nat (List.length l)) * c.
Proof. induction l as [|x t IH]; [simpl; rewrite qsum_nil; ring|]. cbn [map List.length]. rewrite qsum_cons, IH, Nat2Z.inj_succ. unfold Z.succ. rewrite inject_Z_plus. ring. Qed.

Lemma tag_from_In_iff rs : forall n i r, In (i, r) (tag_from n rs) <-> (n <= i)%nat /\ nth_error rs (i - n) = Some r.
Proof. induction rs as [|x t IH]; intros n i r; simpl.
  - split; [tauto|]. intros [_ H]. destruct (i - n)%nat; discriminate.
  - rewrite IH. split.
    + intros [E|[L H]]; [inversion E; subst; split; [lia|]; rewrite Nat.sub_diag; reflexivity|].
      split; [lia|]. replace (i - n)%nat with (S (i - S n)) by lia. exact H.
    + intros [L H]. destruct (Nat.eq_dec i n) as [->|N]; [left; rewrite Nat.sub_diag in H; inversion H; reflexivity|].
      right. split; [lia|]. replace (i - n)%nat with (S (i - S n)) in H by lia. exact H. Qed.
Lemma tag0_In rs i r : In (i, r) (tag_from 0 rs) <-> nth_error rs i = Some r.
Proof. rewrite tag_from_In_iff, Nat.sub_0_r. split; [tauto|]. intros H. split; [lia|exact H]. Qed.
Lemma tag_from_NoDup_fst n rs : NoDup (map fst (tag_from n rs)).
Proof. rewrite tag_from_fst. apply seq_NoDup. Qed.
Lemma tag_from_map {B} (F : nat * list val -> B) rs : forall n,
  map F (tag_from n rs) = map F (tag_from n rs).
Proof. reflexivity. Qed.
Lemma tag_same_fst rs a b : In a (tag_from 0 rs) -> In b (tag_from 0 rs) -> fst a = fst b -> a = b.
Proof. destruct a as [i r], b as [j s]. rewrite !tag0_In. simpl. intros H1 H2 ->. congruence. Qed.
Lemma tag_from_NoDup n rs : NoDup (tag_from n rs).
Proof. apply (NoDup_map_inv fst), tag_from_NoDup_fst. Qed.
Lemma tag_same_nb rs (nb : nat -> nat) a b :
  (forall i j, (i < List.length rs)%nat -> (j < List.length rs)%nat -> nb i = nb j -> i = j) ->
  In a (tag_from 0 rs) -> In b (tag_from 0 rs) -> nb (fst a) = nb (fst b) -> a = b.
Proof. intros Inj Ia Ib E. apply (tag_same_fst rs a b Ia Ib). destruct a as [i r], b as [j s]. apply tag0_In in Ia, Ib.
  apply Inj; [| |exact E]; apply nth_error_Some; simpl; congruence. Qed.

Lemma find_none_all {A} (f : A -> bool) l : (forall x, In x l -> f x = false) -> find f l = None.
Proof. induction l as [|x t IH]; simpl; intros H; [reflexivity|]. rewrite (H x (or_introl eq_refl)). apply IH. intros y I. apply H. right. exact I. Qed.
Lemma in_combine_fst {A B} (l : list A) (l' : list B) p : In p (combine l l') -> In (fst p) l.
Proof. destruct p as [a b]. apply in_combine_l. Qed.

Definition wle (fl : flavor) (cs : list string) (w : window) (a b : nat * list val) : bool :=
  row_le fl cs (map (fun c => (c, mem c (w_rev w))) (w_order w)) (snd a) (snd b).
Definition wpart (cs : list string) (w : window) (rs : list (list val)) (k : list val) : list (nat * list val) :=
  filter (fun ir => keys_eqv k (key_of cs (w_part w) (snd ir))) (tag_from 0 rs).
Definition wsorted (fl : flavor) (w : window) (t : table) (k : list val) : list (nat * list val) :=
  stable_sort (wle fl (cols t) w) (wpart (cols t) w (rows t) k).
Definition wpiece (fl : flavor) (w : window) (t : table) (e : expr) (k : list val) : list (nat * val) :=
  let sorted := wsorted fl w t k in
  match win_parts e with
  | Some (op, arg, extra) =>
      let vs := map (fun ir => match arg with Some a => eval_expr fl (cols t) (snd ir) a | None => VBool true end) sorted in
      combine (map fst sorted) (win_fn fl op extra vs)
  | None => map (fun ir => (fst ir, VNull)) sorted
  end.
Lemma window_column_pieces fl w t e :
  window_column fl w t e = flat_map (wpiece fl w t e) (distinct_keys (map (fun r => key_of (cols t) (w_part w) r) (rows t))).
Proof. reflexivity. Qed.

Lemma wle_total fl cs w a b : wle fl cs w a b = true \/ wle fl cs w b a = true.
Proof. apply row_le_total. Qed.
Lemma wle_trans fl cs w a b c : wle fl cs w a b = true -> wle fl cs w b c = true -> wle fl cs w a c = true.
Proof. apply row_le_trans. Qed.
Lemma wsorted_sorted fl w t k : StronglySorted (fun a b => wle fl (cols t) w a b = true) (wsorted fl w t k).
Proof. apply stable_sort_sorted; [apply wle_total|apply wle_trans]. Qed.
Lemma wpart_In cs w rs k ir : In ir (wpart cs w rs k) <-> In ir (tag_from 0 rs) /\ keys_eqv k (key_of cs (w_part w) (snd ir)) = true.
Proof. apply filter_In. Qed.
Lemma wsorted_In fl w t k ir : In ir (wsorted fl w t k) <-> In ir (tag_from 0 (rows t)) /\ keys_eqv k (key_of (cols t) (w_part w) (snd ir)) = true.
Proof. rewrite <- wpart_In. split; intros H; eapply Permutation_in; try exact H; [apply stable_sort_perm | apply Permutation_sym, stable_sort_perm]. Qed.
Lemma wsorted_NoDup_fst fl w t k : NoDup (map fst (wsorted fl w t k)).
Proof. eapply Permutation_NoDup; [apply Permutation_map, Permutation_sym, stable_sort_perm|].
  unfold wpart. generalize (tag_from_NoDup_fst 0 (rows t)). generalize (tag_from 0 (rows t)). intros l.
  induction l as [|x l IH]; simpl; intros ND; [constructor|]. inversion ND as [|? ? N ND']; subst.
  destruct (keys_eqv k _); [|apply IH, ND']. simpl. constructor; [|apply IH, ND'].
  intros I. apply N. apply in_map_iff in I as [y [E I]]. apply filter_In in I as [I _]. apply in_map_iff. exists y. split; assumption. Qed.

Lemma wpiece_index fl w t e k p : In p (wpiece fl w t e k) ->
  exists r, nth_error (rows t) (fst p) = Some r /\ keys_eqv k (key_of (cols t) (w_part w) r) = true.
Proof. unfold wpiece. intros H.
  assert (In (fst p) (map fst (wsorted fl w t k))) as I.
  { destruct (win_parts e) as [[[op arg] extra]|]; [eapply in_combine_fst, H|].
    apply in_map_iff in H as [ir [<- I]]. simpl. apply in_map. exact I. }
  apply in_map_iff in I as [[i r] [E I]]. simpl in E. subst i. apply wsorted_In in I as [I K]. apply tag0_In in I. exists r. split; assumption. Qed.
Lemma wpiece_ext fl w t e k k' : keys_eqv k k' = true -> wpiece fl w t e k = wpiece fl w t e k'.
Proof. intros E. unfold wpiece, wsorted, wpart.
  rewrite (filter_ext _ (fun ir => keys_eqv k' (key_of (cols t) (w_part w) (snd ir)))); [reflexivity|].
  intros ir. apply keys_eqv_cong_l, E. Qed.

(* the value of row i is looked up in the piece of its own partition *)
Lemma window_lookup fl w t e i r : nth_error (rows t) i = Some r ->
  lookup_pos (window_column fl w t e) i = lookup_pos (wpiece fl w t e (key_of (cols t) (w_part w) r)) i.
Proof.
  intros Hr. rewrite window_column_pieces. unfold lookup_pos. set (f := fun p : nat * val => Nat.eqb (fst p) i).
  set (kr := key_of (cols t) (w_part w) r).
  assert (forall g, keys_eqv g kr = false -> find f (wpiece fl w t e g) = None) as NoneP.
  { intros g Ng. apply find_none_all. intros p Ip. unfold f. apply Nat.eqb_neq. intros Ei.
    destruct (wpiece_index _ _ _ _ _ _ Ip) as [r' [Hr' K]]. rewrite Ei, Hr in Hr'. inversion Hr'; subst r'. fold kr in K. congruence. }
  (* the pieces of the keys equal to kr are the piece of kr, the other pieces do not hold position i *)
  assert (forall G, find f (flat_map (wpiece fl w t e) G)
                    = if existsb (fun g => keys_eqv g kr) G then find f (wpiece fl w t e kr) else None) as Main.
  { induction G as [|g G IH]; [reflexivity|]. cbn [flat_map existsb]. rewrite find_app, IH. destruct (keys_eqv g kr) eqn:Eg.
    - rewrite (wpiece_ext fl w t e g kr Eg). destruct (find f (wpiece fl w t e kr)); [reflexivity|]. destruct (existsb _ G); reflexivity.
    - rewrite (NoneP g Eg). reflexivity. }
  rewrite Main.
  destruct (distinct_keys_complete (map (fun r => key_of (cols t) (w_part w) r) (rows t)) kr) as [k0 [I0 E0]].
  { apply in_map_iff. exists r. split; [reflexivity|]. eapply nth_error_In, Hr. }
  rewrite (proj2 (existsb_exists _ _)); [reflexivity|]. exists k0. split; assumption.
Qed.

Lemma wextend1 fl k e w t :
  sem_wextend fl [(k, e)] w t =
  mktable (add_end (cols t) k)
          (map (fun ir => set_cell (cols t) (snd ir) k (lookup_pos (wpiece fl w t e (key_of (cols t) (w_part w) (snd ir))) (fst ir)))
               (tag_from 0 (rows t))).
Proof. unfold sem_wextend. cbn [map fst snd fold_left]. unfold ext_cols. cbn [fold_left]. f_equal.
  apply map_ext_in. intros [i r] I. cbn [fst snd]. f_equal. apply window_lookup. apply tag0_In, I. Qed.
(* the same on a table whose rows were computed from tagged rows, when the assigned column is new *)
Lemma wextend1_new fl k e w cs (F : nat * list val -> list val) rs : ~ In k cs ->
  sem_wextend fl [(k, e)] w (mktable cs (map F (tag_from 0 rs))) =
  mktable (cs ++ [k])
          (map (fun ir => F ir ++ [lookup_pos (wpiece fl w (mktable cs (map F (tag_from 0 rs))) e (key_of cs (w_part w) (F ir))) (fst ir)])
               (tag_from 0 rs)).
Proof. intros N. rewrite wextend1. cbn [cols rows]. rewrite (add_end_new cs k N), tag_from_map_tag, map_map. f_equal.
  apply map_ext. intros ir. apply set_cell_new, N. Qed.

Fixpoint idx (i : nat) (l : list nat) : nat := match l with [] => 0%nat | x :: t => if Nat.eqb x i then 0%nat else S (idx i t) end.
Lemma idx_inj i j l : In i l -> In j l -> idx i l = idx j l -> i = j.
Proof. induction l as [|x t IH]; simpl; intros Ii Ij E; [destruct Ii|].
  destruct (Nat.eqb_spec x i), (Nat.eqb_spec x j); try congruence.
  destruct Ii as [|Ii]; [congruence|]. destruct Ij as [|Ij]; [congruence|]. apply IH; auto. Qed.
Lemma lookup_number_from l (vs : list val) i : forall k, List.length vs = List.length l -> In i l ->
  lookup_pos (combine l (number_from k vs)) i = vnat (k + idx i l).
Proof. unfold lookup_pos. revert vs. induction l as [|x t IH]; intros [|v vs] k L I; simpl in *; try discriminate; [destruct I|].
  destruct (Nat.eqb_spec x i) as [E|N]; [simpl; rewrite Nat.add_0_r; reflexivity|].
  destruct I as [|I]; [congruence|]. rewrite (IH vs (S k)) by (auto; lia). f_equal. lia. Qed.

Lemma key_of_nil cs r : key_of cs [] r = [].
Proof. reflexivity. Qed.
Lemma row_number_value fl ob rev t k : ~ In k (cols t) ->
  exists nb : nat -> nat,
    (forall i j, (i < List.length (rows t))%nat -> (j < List.length (rows t))%nat -> nb i = nb j -> i = j) /\
    sem_wextend fl [(k, EOp "_row_number" [])] (mkwin [] ob rev) t =
    mktable (cols t ++ [k]) (map (fun ir => snd ir ++ [vnat (nb (fst ir))]) (tag_from 0 (rows t))).
Proof. intros Nk.
  set (w := mkwin [] ob rev). set (srt := wsorted fl w t []).
  exists (fun i => (1 + idx i (map fst srt))%nat).
  assert (forall i, (i < List.length (rows t))%nat -> In i (map fst srt)) as Iin.
  { intros i L. destruct (nth_error (rows t) i) as [r|] eqn:E; [|apply nth_error_None in E; lia].
    apply in_map_iff. exists (i, r). split; [reflexivity|]. apply wsorted_In. split; [apply tag0_In, E|reflexivity]. }
  split.
  - intros i j Li Lj E. apply (idx_inj i j (map fst srt)); auto; lia.
  - rewrite wextend1, (add_end_new _ k Nk). f_equal. apply map_ext_in. intros [i r] I. cbn [fst snd]. rewrite (set_cell_new _ _ k _ Nk). do 2 f_equal.
    cbn [w_part w]. rewrite key_of_nil. unfold wpiece. cbn [win_parts]. fold srt. unfold win_fn.
    cbn [String.eqb Ascii.eqb Bool.eqb]. apply lookup_number_from; [rewrite !map_length; reflexivity|].
    apply Iin. apply tag0_In in I. apply nth_error_Some. congruence.
Qed.

Definition acc0 (acc : option Q) : Q := match acc with Some a => a | None => 0 end.
Lemma running_sum_sorted (c : bool) (le : nat * list val -> nat * list val -> bool) (g : nat * list val -> val) (h : nat * list val -> Q) :
  forall (sorted : list (nat * list val)) (acc : option Q) (x : nat * list val),
  StronglySorted (fun a b => le a b = true) sorted ->
  (forall a b, In a sorted -> In b sorted -> le a b = true -> le b a = true -> a = b) ->
  (forall a, le a a = true) ->
  NoDup (map fst sorted) ->
  (forall y, In y sorted -> num_of (g y) = Some (h y)) ->
  In x sorted ->
  exists q, lookup_pos (combine (map fst sorted) (running c Qplus acc (map g sorted))) (fst x) = qn q
            /\ q == acc0 acc + qsum (map h (filter (fun y => le y x) sorted)).
Proof.
  induction sorted as [|a t IH]; intros acc x SS AS RF ND NUM I; [destruct I|].
  inversion SS as [|? ? SSt Fa]; subst. inversion ND as [|? ? Na NDt]; subst. rewrite Forall_forall in Fa.
  cbn [map running]. rewrite (NUM a (or_introl eq_refl)).
  set (a0 := match acc with None => h a | Some y => y + h a end).
  assert (a0 == acc0 acc + h a) as Ea0 by (unfold a0, acc0; destruct acc; ring).
  cbn [combine]. unfold lookup_pos. cbn [find fst].
  destruct (Nat.eqb_spec (fst a) (fst x)) as [E|N].
  - assert (x = a) as ->.
    { destruct I as [<-|I]; [reflexivity|]. exfalso. apply Na. rewrite E. apply in_map, I. }
    exists a0. split; [reflexivity|]. cbn [filter]. rewrite RF. cbn [map].
    rewrite filter_none, qsum_cons; [cbn [map]; rewrite qsum_nil, Ea0; ring|].
    intros y Iy. destruct (le y a) eqn:Ly; [|reflexivity]. exfalso. apply Na.
    rewrite (AS a y (or_introl eq_refl) (or_intror Iy) (Fa y Iy) Ly). apply in_map, Iy.
  - destruct I as [<-|I]; [congruence|].
    destruct (IH (Some a0) x SSt) as [q [Hq Eq]]; auto.
    { intros u v Iu Iv. apply AS; right; assumption. }
    { intros y Iy. apply NUM. right. exact Iy. }
    exists q. split; [exact Hq|]. cbn [filter]. rewrite (Fa x I). cbn [map]. rewrite qsum_cons, Eq. unfold acc0 at 1. rewrite Ea0. ring.
Qed.

(* value of cumsum(arg) for the row ir of a table, when its partition is strictly ordered by the window's order *)
Lemma cumsum_value fl w t arg (h : nat * list val -> Q) ir :
  let kr := key_of (cols t) (w_part w) (snd ir) in
  In ir (tag_from 0 (rows t)) ->
  (forall a b, In a (wpart (cols t) w (rows t) kr) -> In b (wpart (cols t) w (rows t) kr) ->
               wle fl (cols t) w a b = true -> wle fl (cols t) w b a = true -> a = b) ->
  (forall y, In y (wpart (cols t) w (rows t) kr) -> num_of (eval_expr fl (cols t) (snd y) arg) = Some (h y)) ->
  exists q, lookup_pos (wpiece fl w t (EOp "cumsum" [arg]) kr) (fst ir) = qn q
            /\ q == qsum (map h (filter (fun y => wle fl (cols t) w y ir) (wpart (cols t) w (rows t) kr))).
Proof.
  intros kr I AS NUM. unfold wpiece. cbn [win_parts flat_map]. unfold win_fn. cbn [String.eqb Ascii.eqb Bool.eqb].
  set (srt := wsorted fl w t kr).
  assert (forall y, In y srt <-> In y (wpart (cols t) w (rows t) kr)) as SI.
  { intros y. split; intros H; eapply Permutation_in; try exact H; [apply stable_sort_perm|apply Permutation_sym, stable_sort_perm]. }
  destruct (running_sum_sorted (f_running_carry fl) (wle fl (cols t) w) (fun y => eval_expr fl (cols t) (snd y) arg) h srt None ir) as [q [Hq Eq]].
  - apply wsorted_sorted.
  - intros a b Ia Ib. apply AS; apply SI; assumption.
  - intros a. destruct (wle_total fl (cols t) w a a); assumption.
  - apply wsorted_NoDup_fst.
  - intros y Iy. apply NUM, SI, Iy.
  - apply SI, wpart_In. split; [exact I|apply keys_eqv_refl].
  - exists q. split; [exact Hq|]. rewrite Eq. unfold acc0. rewrite Qplus_0_l. apply qsum_perm, Permutation_map, perm_filter, stable_sort_perm.
Qed.

Lemma lookup_const l v i : In i l -> lookup_pos (combine l (map (fun _ : nat => v) l)) i = v.
Proof. unfold lookup_pos. induction l as [|x t IH]; simpl; intros I; [destruct I|].
  destruct (Nat.eqb_spec x i); [reflexivity|]. destruct I as [|I]; [congruence|]. apply IH, I. Qed.
Lemma mean_value fl pb t arg ir :
  let w := mkwin pb [] [] in
  let kr := key_of (cols t) pb (snd ir) in
  In ir (tag_from 0 (rows t)) ->
  lookup_pos (wpiece fl w t (EOp "mean" [arg]) kr) (fst ir)
  = agg_fn fl "mean" (map (fun y => eval_expr fl (cols t) (snd y) arg) (wpart (cols t) w (rows t) kr)).
Proof.
  intros w kr I. unfold wpiece. cbn [win_parts flat_map]. unfold win_fn. cbn [String.eqb Ascii.eqb Bool.eqb].
  unfold wsorted. rewrite stable_sort_true by reflexivity.
  set (part := wpart (cols t) w (rows t) kr).
  assert (forall (vs : list val) (v : val) (l : list nat), List.length vs = List.length l -> map (fun _ : val => v) vs = map (fun _ : nat => v) l) as MC.
  { induction vs as [|a vs IHv]; intros v [|b l] L; simpl in *; try discriminate; [reflexivity|]. f_equal. apply IHv. lia. }
  rewrite (MC _ _ (map fst part)) by (rewrite !map_length; reflexivity).
  apply lookup_const. apply in_map_iff. exists ir. split; [reflexivity|]. apply wpart_In. split; [exact I|apply keys_eqv_refl].
Qed.
