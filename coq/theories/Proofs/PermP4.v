(* C18, part 4: pipelines.  sem_perm: under the premises `total_orders` and `exact_group_keys`, evaluating a pipeline on
   row-permuted inputs gives the same columns and a permutation of the rows -- for every pipeline, flavour and environment
   (induction over the pipeline; per-operator lemmas: SemOrderP, PermP2 project, PermP3 windowed extend).
   Also: order_rows at pipeline level, the computable checks of Model/PermGuard.v imply the premises, and witnesses that
   each premise is needed. *)
From Coq Require Import List Bool QArith String Permutation Sorted.
Import ListNotations.
From DA Require Import Base.PyRT Base.Val Model.Sem Model.PermGuard Proofs.SemBasicP Proofs.SemOrderP Proofs.PermP1 Proofs.PermP2 Proofs.PermP3.
Local Open Scope string_scope.
Local Open Scope list_scope.

(* same table names, same columns, rows a permutation *)
Definition env_perm (e e' : env) : Prop :=
  forall n, match dict_get e n, dict_get e' n with
            | Some t, Some t' => cols t = cols t' /\ Permutation (rows t) (rows t')
            | None, None => True
            | _, _ => False
            end.

(* every windowed extend running an order-sensitive function orders the rows of each partition of its ACTUAL input strictly
   (a missing order_by ties every pair of rows, so it is not total as soon as a partition has two rows); every order_rows
   carrying a limit is total on its actual input.  Nothing is asked of order_rows without limit, of windows running group
   aggregates, or of any other step. *)
Fixpoint total_orders (fl : flavor) (p : op) (e : env) : Prop :=
  match p with
  | OTable _ _ => True
  | OExtend s ops wd w =>
      total_orders fl s e /\
      (wd = true -> ops_order_sensitive ops = true -> forall t, sem_gen fl s e = Some t -> window_total fl (cols t) w (rows t))
  | OProject s _ _ | OSelectRows s _ | OSelectCols s _ | ODropCols s _ | ORename s _ | OMapCols s _ _ => total_orders fl s e
  | OOrder s cs rev lim =>
      total_orders fl s e /\
      (lim <> None -> forall t, sem_gen fl s e = Some t -> total_on fl (cols t) (map (fun c => (c, mem c rev)) cs) (rows t))
  | OJoin a b _ _ _ | OConcat a b _ _ _ => total_orders fl a e /\ total_orders fl b e
  end.

(* group-key values that are equivalent are identical, at every project (see PermP2: only the label of a group depends on it) *)
Fixpoint exact_group_keys (fl : flavor) (p : op) (e : env) : Prop :=
  match p with
  | OTable _ _ => True
  | OProject s _ gb => exact_group_keys fl s e /\ (forall t, sem_gen fl s e = Some t -> keys_exact (cols t) gb (rows t))
  | OExtend s _ _ _ | OSelectRows s _ | OSelectCols s _ | ODropCols s _ | ORename s _ | OMapCols s _ _ | OOrder s _ _ _ => exact_group_keys fl s e
  | OJoin a b _ _ _ | OConcat a b _ _ _ => exact_group_keys fl a e /\ exact_group_keys fl b e
  end.

Lemma order_perm fl cs rev lim t t' :
  cols t = cols t' -> Permutation (rows t) (rows t') ->
  (lim <> None -> total_on fl (cols t) (map (fun c => (c, mem c rev)) cs) (rows t)) ->
  Permutation (rows (sem_order fl cs rev lim t)) (rows (sem_order fl cs rev lim t')).
Proof.
  intros C P T. destruct lim as [n|].
  - rewrite (order_rows_input_order_irrelevant fl cs rev (Some n) t t' C P); [apply Permutation_refl|]. apply T. discriminate.
  - eapply perm_trans; [apply order_rows_is_permutation|]. eapply perm_trans; [exact P|]. apply Permutation_sym, order_rows_is_permutation.
Qed.

(* a node with one source: the source by induction, the node by its own lemma, on the table the source actually denotes *)
Lemma sem_perm_unary fl s e e' (f : table -> table) t :
  (forall t0, sem_gen fl s e = Some t0 -> exists t0', sem_gen fl s e' = Some t0' /\ cols t0' = cols t0 /\ Permutation (rows t0) (rows t0')) ->
  (forall t0 t0', sem_gen fl s e = Some t0 -> cols t0 = cols t0' -> Permutation (rows t0) (rows t0') ->
     cols (f t0) = cols (f t0') /\ Permutation (rows (f t0)) (rows (f t0'))) ->
  option_map f (sem_gen fl s e) = Some t ->
  exists t', option_map f (sem_gen fl s e') = Some t' /\ cols t' = cols t /\ Permutation (rows t) (rows t').
Proof.
  intros IH F H. destruct (sem_gen fl s e) as [t0|]; [|discriminate]. destruct (IH t0 eq_refl) as [t0' [-> [C P]]].
  inversion H; subst t. eexists. split; [reflexivity|].
  destruct (F t0 t0' eq_refl (eq_sym C) P) as [C2 P2]. split; [symmetry; exact C2|exact P2].
Qed.

Theorem sem_perm fl p : forall e e' t,
  env_perm e e' -> total_orders fl p e -> exact_group_keys fl p e -> sem_gen fl p e = Some t ->
  exists t', sem_gen fl p e' = Some t' /\ cols t' = cols t /\ Permutation (rows t) (rows t').
Proof.
  induction p as [n cs|s IH ops wd w|s IH ops gb|s IH x|s IH cs|s IH cs|s IH m|s IH m dels|s IH cs rev lim|a IHa b IHb on_a on_b jt|a IHa b IHb idc an bn];
    intros e e' t EP TO XK H; cbn [sem_gen] in *; cbn [total_orders exact_group_keys] in TO, XK.
  - specialize (EP n). destruct (dict_get e n) as [t0|]; [|discriminate]. destruct (dict_get e' n) as [t0'|]; [|contradiction].
    destruct EP as [C P]. inversion H; subst t. eexists. split; [reflexivity|]. split; [reflexivity|].
    apply select_cols_perm; assumption.
  - destruct TO as [TO G]. apply (sem_perm_unary fl s e e' _ t (fun t0 => IH e e' t0 EP TO XK)); [|exact H].
    intros t0 t0' E0 C P. destruct wd; [|apply extend_perm; assumption].
    apply wextend_perm; [exact C|exact P|]. intros S. apply (G eq_refl S t0 E0).
  - destruct XK as [XK G]. apply (sem_perm_unary fl s e e' _ t (fun t0 => IH e e' t0 EP TO XK)); [|exact H].
    intros t0 t0' E0 C P. apply project_perm; [exact C|exact P|apply G, E0].
  - apply (sem_perm_unary fl s e e' _ t (fun t0 => IH e e' t0 EP TO XK)); [|exact H].
    intros t0 t0' _ C P. split; [exact C|apply select_rows_perm; assumption].
  - apply (sem_perm_unary fl s e e' _ t (fun t0 => IH e e' t0 EP TO XK)); [|exact H].
    intros t0 t0' _ C P. split; [reflexivity|apply select_cols_perm; assumption].
  - apply (sem_perm_unary fl s e e' _ t (fun t0 => IH e e' t0 EP TO XK)); [|exact H].
    intros t0 t0' _ C P. unfold sem_drop_cols. rewrite <- C. split; [reflexivity|apply select_cols_perm; assumption].
  - apply (sem_perm_unary fl s e e' _ t (fun t0 => IH e e' t0 EP TO XK)); [|exact H].
    intros t0 t0' _ C P. cbn [sem_rename cols rows]. rewrite C. split; [reflexivity|exact P].
  - apply (sem_perm_unary fl s e e' _ t (fun t0 => IH e e' t0 EP TO XK)); [|exact H].
    intros t0 t0' _ C P. unfold sem_drop_cols. cbn [sem_rename cols]. rewrite <- C. split; [reflexivity|].
    apply (select_cols_perm _ (sem_rename m t0) (sem_rename m t0')); [cbn [sem_rename cols]; rewrite C; reflexivity|exact P].
  - destruct TO as [TO G]. apply (sem_perm_unary fl s e e' _ t (fun t0 => IH e e' t0 EP TO XK)); [|exact H].
    intros t0 t0' E0 C P. split; [exact C|]. apply order_perm; [exact C|exact P|]. intros N. apply (G N t0 E0).
  - destruct TO as [TOa TOb]. destruct XK as [XKa XKb].
    destruct (sem_gen fl a e) as [ta|] eqn:Ea; [|discriminate]. destruct (sem_gen fl b e) as [tb|] eqn:Eb; [|discriminate].
    destruct (IHa e e' ta EP TOa XKa Ea) as [ta' [Ea' [Ca Pa]]]. destruct (IHb e e' tb EP TOb XKb Eb) as [tb' [Eb' [Cb Pb]]].
    rewrite Ea', Eb'. inversion H; subst t. eexists. split; [reflexivity|]. split.
    + unfold sem_join. cbn [cols]. rewrite Ca, Cb. reflexivity.
    + apply join_perm; try assumption; symmetry; assumption.
  - destruct TO as [TOa TOb]. destruct XK as [XKa XKb].
    destruct (sem_gen fl a e) as [ta|] eqn:Ea; [|discriminate]. destruct (sem_gen fl b e) as [tb|] eqn:Eb; [|discriminate].
    destruct (IHa e e' ta EP TOa XKa Ea) as [ta' [Ea' [Ca Pa]]]. destruct (IHb e e' tb EP TOb XKb Eb) as [tb' [Eb' [Cb Pb]]].
    rewrite Ea', Eb'. inversion H; subst t. eexists. split; [reflexivity|]. split.
    + unfold sem_concat. rewrite Ca. destruct idc; reflexivity.
    + apply concat_perm; try assumption; symmetry; assumption.
Qed.

(* ---------- order_rows at pipeline level *)
Definition order_keys (cs rev : list string) : list (string * bool) := map (fun c => (c, mem c rev)) cs.

Lemma pipeline_order_sorted fl s cs rev lim e t :
  sem_gen fl (OOrder s cs rev lim) e = Some t ->
  StronglySorted (fun r1 r2 => row_le fl (cols t) (order_keys cs rev) r1 r2 = true) (rows t).
Proof.
  cbn [sem_gen]. destruct (sem_gen fl s e) as [u|]; [|discriminate]. cbn [option_map]. intros H. inversion H; subst t.
  rewrite order_rows_keeps_columns. apply order_rows_sorted.
Qed.

Lemma pipeline_order_permutation fl s cs rev e u t :
  sem_gen fl s e = Some u -> sem_gen fl (OOrder s cs rev None) e = Some t -> cols t = cols u /\ Permutation (rows t) (rows u).
Proof.
  intros Hu. cbn [sem_gen]. rewrite Hu. cbn [option_map]. intros H. inversion H; subst t.
  split; [reflexivity|apply order_rows_is_permutation].
Qed.

Lemma pipeline_order_limit_prefix fl s cs rev n e t :
  sem_gen fl (OOrder s cs rev (Some n)) e = Some t ->
  exists full, sem_gen fl (OOrder s cs rev None) e = Some full /\ cols t = cols full /\ rows t = firstn n (rows full).
Proof.
  cbn [sem_gen]. destruct (sem_gen fl s e) as [u|]; [|discriminate]. cbn [option_map]. intros H. inversion H; subst t.
  eexists. split; [reflexivity|]. split; [reflexivity|apply order_rows_limit].
Qed.

(* with a total order, the ordered (and limited) result is THE SAME LIST for every row order of the inputs *)
Lemma pipeline_order_total_exact fl s cs rev lim e e' t :
  env_perm e e' -> total_orders fl s e -> exact_group_keys fl s e ->
  (forall u, sem_gen fl s e = Some u -> total_on fl (cols u) (order_keys cs rev) (rows u)) ->
  sem_gen fl (OOrder s cs rev lim) e = Some t -> sem_gen fl (OOrder s cs rev lim) e' = Some t.
Proof.
  intros EP TO XK T. cbn [sem_gen]. destruct (sem_gen fl s e) as [u|] eqn:Eu; [|discriminate].
  destruct (sem_perm fl s e e' u EP TO XK Eu) as [u' [Eu' [C P]]]. rewrite Eu'. cbn [option_map]. intros H. inversion H; subst t.
  f_equal. symmetry. apply order_rows_input_order_irrelevant; [symmetry; exact C|exact P|apply (T u eq_refl)].
Qed.

(* ---------- the computable checks imply the premises *)
Lemma nodup_b_sound l : nodup_b l = true -> NoDup l.
Proof.
  induction l as [|x t IH]; simpl; intros H; [constructor|]. apply andb_true_iff in H. destruct H as [H1 H2].
  constructor; [|apply IH, H2]. apply negb_true_iff in H1. apply mem_false in H1. exact H1.
Qed.
Lemma total_on_b_sound fl cs keys rs : total_on_b fl cs keys rs = true -> total_on fl cs keys rs.
Proof.
  unfold total_on_b, total_on. intros H r1 r2 I1 I2 L1 L2. rewrite forallb_forall in H. specialize (H r1 I1).
  rewrite forallb_forall in H. specialize (H r2 I2). rewrite L1, L2 in H. simpl in H. exact (proj1 (eqb_true _ _) H).
Qed.
Lemma window_total_b_sound fl cs w rs : window_total_b fl cs w rs = true -> window_total fl cs w rs.
Proof.
  unfold window_total_b, window_total. intros H r I. rewrite forallb_forall in H. specialize (H r I). cbv zeta in H.
  apply andb_true_iff in H. destruct H as [H1 H2]. split; [apply nodup_b_sound, H1|apply total_on_b_sound, H2].
Qed.
Lemma keys_exact_b_sound cs gb rs : keys_exact_b cs gb rs = true -> keys_exact cs gb rs.
Proof.
  unfold keys_exact_b, keys_exact. intros H r1 r2 I1 I2 E. rewrite forallb_forall in H. specialize (H r1 I1).
  rewrite forallb_forall in H. specialize (H r2 I2). rewrite E in H. simpl in H. exact (proj1 (eqb_true _ _) H).
Qed.

Lemma total_orders_b_sound fl p e : total_orders_b fl p e = true -> total_orders fl p e.
Proof.
  induction p; cbn [total_orders_b total_orders]; intros H; try exact I; try (apply IHp; exact H).
  - apply andb_true_iff in H. destruct H as [H1 H2]. split; [apply IHp, H1|]. intros -> S t E.
    rewrite S in H2. cbn [andb] in H2. unfold on_input in H2. rewrite E in H2. apply window_total_b_sound, H2.
  - apply andb_true_iff in H. destruct H as [H1 H2]. split; [apply IHp, H1|]. intros N t E.
    destruct limit as [n|]; [|congruence]. unfold on_input in H2. rewrite E in H2. apply total_on_b_sound, H2.
  - apply andb_true_iff in H. destruct H as [H1 H2]. split; [apply IHp1, H1|apply IHp2, H2].
  - apply andb_true_iff in H. destruct H as [H1 H2]. split; [apply IHp1, H1|apply IHp2, H2].
Qed.
Lemma exact_keys_b_sound fl p e : exact_keys_b fl p e = true -> exact_group_keys fl p e.
Proof.
  induction p; cbn [exact_keys_b exact_group_keys]; intros H; try exact I; try (apply IHp; exact H).
  - apply andb_true_iff in H. destruct H as [H1 H2]. split; [apply IHp, H1|]. intros t E.
    unfold on_input in H2. rewrite E in H2. apply keys_exact_b_sound, H2.
  - apply andb_true_iff in H. destruct H as [H1 H2]. split; [apply IHp1, H1|apply IHp2, H2].
  - apply andb_true_iff in H. destruct H as [H1 H2]. split; [apply IHp1, H1|apply IHp2, H2].
Qed.
Lemma perm_guard_b_sound fl p e : perm_guard_b fl p e = true -> total_orders fl p e /\ exact_group_keys fl p e.
Proof.
  unfold perm_guard_b. intros H. apply andb_true_iff in H. destruct H as [H1 H2].
  split; [apply total_orders_b_sound, H1|apply exact_keys_b_sound, H2].
Qed.

(* env_perm from a decidable description: the same names in the same order, equal columns, rows a permutation *)
Lemma env_perm_cons n t t' e e' : cols t = cols t' -> Permutation (rows t) (rows t') -> env_perm e e' -> env_perm ((n, t) :: e) ((n, t') :: e').
Proof. intros C P EP m. simpl. destruct (eq_dec m n); [split; assumption|apply EP]. Qed.
Lemma env_perm_nil : env_perm [] [].
Proof. intros n. exact I. Qed.

(* ---------- each premise is needed: concrete witnesses in the reference semantics *)
Definition q (z : Z) : val := VNum (Qred (z # 1)).
Definition wit_tab (rs : list (list val)) : env := [("d", mktable ["k"; "a"] rs)].
Definition wit_rows : list (list val) := [[q 1; q 1]; [q 1; q 2]].
Definition wit_rows' : list (list val) := [[q 1; q 2]; [q 1; q 1]].

Lemma wit_env_perm : env_perm (wit_tab wit_rows) (wit_tab wit_rows').
Proof. apply env_perm_cons; [reflexivity|apply perm_swap|apply env_perm_nil]. Qed.

(* a cumulative sum ordered by a column with ties: the permuted input gives different rows *)
Definition wit_window : op := OExtend (OTable "d" ["k"; "a"]) [("c", EOp "cumsum" [ECol "a"])] true (mkwin [] ["k"] []).
Lemma window_order_needed :
  exists fl p e e' t t', env_perm e e' /\ exact_group_keys fl p e /\ sem_gen fl p e = Some t /\ sem_gen fl p e' = Some t' /\ ~ Permutation (rows t) (rows t').
Proof.
  exists fl_pandas, wit_window, (wit_tab wit_rows), (wit_tab wit_rows').
  eexists. eexists. split; [exact wit_env_perm|]. split; [exact I|]. split; [vm_compute; reflexivity|]. split; [vm_compute; reflexivity|].
  intros P. apply (Permutation_in [q 1; q 1; q 1]) in P; [|vm_compute; left; reflexivity].
  vm_compute in P. destruct P as [P|[P|[]]]; discriminate P.
Qed.

(* order_rows with a limit under an order with ties: the permuted input keeps a different row *)
Definition wit_limit : op := OOrder (OTable "d" ["k"; "a"]) ["k"] [] (Some 1%nat).
Lemma limit_order_needed :
  exists fl p e e' t t', env_perm e e' /\ exact_group_keys fl p e /\ sem_gen fl p e = Some t /\ sem_gen fl p e' = Some t' /\ ~ Permutation (rows t) (rows t').
Proof.
  exists fl_sqlite, wit_limit, (wit_tab wit_rows), (wit_tab wit_rows').
  eexists. eexists. split; [exact wit_env_perm|]. split; [exact I|]. split; [vm_compute; reflexivity|]. split; [vm_compute; reflexivity|].
  intros P. apply (Permutation_in [q 1; q 1]) in P; [|vm_compute; left; reflexivity].
  vm_compute in P. destruct P as [P|[]]; discriminate P.
Qed.

(* a group key column mixing True and 1: the group is the same, its label is the first representation met *)
Definition wit_mixed : list (list val) := [[VBool true; q 1]; [q 1; q 2]].
Definition wit_mixed' : list (list val) := [[q 1; q 2]; [VBool true; q 1]].
Definition wit_project : op := OProject (OTable "d" ["k"; "a"]) [("s", EOp "sum" [ECol "a"])] ["k"].
Lemma exact_keys_needed :
  exists fl p e e' t t', env_perm e e' /\ total_orders fl p e /\ sem_gen fl p e = Some t /\ sem_gen fl p e' = Some t' /\ ~ Permutation (rows t) (rows t').
Proof.
  exists fl_pandas, wit_project, (wit_tab wit_mixed), (wit_tab wit_mixed').
  eexists. eexists. split; [apply env_perm_cons; [reflexivity|apply perm_swap|apply env_perm_nil]|].
  split; [exact I|]. split; [vm_compute; reflexivity|]. split; [vm_compute; reflexivity|].
  intros P. apply (Permutation_in [VBool true; q 3]) in P; [|vm_compute; left; reflexivity].
  vm_compute in P. destruct P as [P|[]]; discriminate P.
Qed.

(* ---------- a concrete non-trivial instance used by the Examples of Props/C18.v *)
Definition ex_rows : list (list val) := [[q 1; q 5; q 0]; [q 1; q 2; q 1]; [q 2; VNull; q 2]; [q 1; q 2; q 3]].
Definition ex_rows' : list (list val) := [[q 2; VNull; q 2]; [q 1; q 2; q 3]; [q 1; q 5; q 0]; [q 1; q 2; q 1]].
Definition ex_env (rs : list (list val)) : env := [("d", mktable ["k"; "a"; "u"] rs)].
(* cumulative sum per k ordered by the unique column u (descending), a group count, then the 3 rows with the largest u *)
Definition ex_pipe : op :=
  OOrder (OExtend (OExtend (OTable "d" ["k"; "a"; "u"]) [("c", EOp "cumsum" [ECol "a"])] true (mkwin ["k"] ["u"] ["u"]))
                  [("n", EOp "count" [ECol "a"])] true (mkwin ["k"] [] []))
         ["u"] ["u"] (Some 3%nat).
