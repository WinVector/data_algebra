(* C07 -- proofs about Model/Compose.v, part 5: composition under the SET boundary test of act_on / DataOpArrow.act_on.
   When the replacement produces the leaf's columns in another ORDER, composed pipeline and sequential application give the same
   table up to column order (tab_eqv: same column set, same rows in order, every row the same function from names to values).
   Every operator of Model/Sem.v respects tab_eqv (it is ColumnsUsedP2.agree with every column asked for); same_set, tab_eqv and
   these congruences also serve the proofs about the builders and the executors. *)
From Coq Require Import List Bool String .
Import ListNotations.
From DA Require Proofs.ColumnsUsedP3.
From DA Require Import Base.PyRT Base.Val Model.Sem Proofs.SemBasicP Model.Compose Proofs.ComposeP Proofs.ComposeP2 Proofs.ComposeP3 Proofs.ComposeP4 Proofs.ListP Proofs.TabP.
Local Open Scope list_scope.

Definition row_eqv (c1 c2 : list string) (r1 r2 : list val) : Prop := forall c, get c1 r1 c = get c2 r2 c.
Definition same_set (l1 l2 : list string) : Prop := forall c, In c l1 <-> In c l2.
Definition tab_eqv (t1 t2 : table) : Prop :=
  same_set (cols t1) (cols t2) /\ Forall2 (row_eqv (cols t1) (cols t2)) (rows t1) (rows t2).
Definition otab_eqv (o1 o2 : option table) : Prop :=
  match o1, o2 with Some a, Some b => tab_eqv a b | None, None => True | _, _ => False end.

Lemma Forall2_refl {A} (R : A -> A -> Prop) l : (forall x, R x x) -> Forall2 R l l.
Proof. intros H. induction l; constructor; auto. Qed.

Lemma Forall2_weaken {A B} (R S : A -> B -> Prop) l1 l2 : (forall a b, R a b -> S a b) -> Forall2 R l1 l2 -> Forall2 S l1 l2.
Proof. intros H F. induction F; constructor; auto. Qed.

Lemma Forall2_firstn {A B} (R : A -> B -> Prop) n l1 l2 : Forall2 R l1 l2 -> Forall2 R (firstn n l1) (firstn n l2).
Proof. intros F. revert n. induction F; intros [|n]; simpl; constructor; auto. Qed.

Lemma mem_same_set (l1 l2 : list string) c : same_set l1 l2 -> mem c l1 = mem c l2.
Proof.
  intros S. destruct (mem c l1) eqn:E.
  - symmetry. apply mem_In. apply S. apply (proj1 (mem_In _ _)). exact E.
  - symmetry. apply mem_false. intros I. apply S in I. apply (proj2 (mem_In _ _)) in I. congruence.
Qed.

Fixpoint expr_ind2 (P : expr -> Prop) (Hc : forall c, P (ECol c)) (Hv : forall v, P (EConst v))
  (Ho : forall o args, Forall P args -> P (EOp o args)) (e : expr) : P e :=
  match e with
  | ECol c => Hc c
  | EConst v => Hv v
  | EOp o args => Ho o args ((fix go (l : list expr) : Forall P l :=
                                match l with [] => Forall_nil _ | a :: t => Forall_cons _ (expr_ind2 P Hc Hv Ho a) (go t) end) args)
  end.

Lemma eval_expr_eqv fl c1 c2 r1 r2 e : row_eqv c1 c2 r1 r2 -> eval_expr fl c1 r1 e = eval_expr fl c2 r2 e.
Proof. intros R. apply ColumnsUsedP1.eval_expr_local. intros x _. apply R. Qed.

Lemma key_of_eqv c1 c2 r1 r2 ks : row_eqv c1 c2 r1 r2 -> key_of c1 ks r1 = key_of c2 ks r2.
Proof. intros R. unfold key_of. apply map_ext. intros c. apply R. Qed.

Lemma row_le_eqv fl c1 c2 keys r1 r2 r1' r2' :
  row_eqv c1 c2 r1 r2 -> row_eqv c1 c2 r1' r2' -> row_le fl c1 keys r1 r1' = row_le fl c2 keys r2 r2'.
Proof.
  intros R R'. induction keys as [|[c d] t IH]; cbn [row_le]; [reflexivity|]. rewrite (R c), (R' c), IH. reflexivity.
Qed.

(* ------------------------------------------------------------------ tab_eqv is an equivalence-like relation *)
Lemma same_set_refl l : same_set l l.
Proof. intros c. tauto. Qed.
Lemma same_set_sym l1 l2 : same_set l1 l2 -> same_set l2 l1.
Proof. intros S c. symmetry. apply S. Qed.
Lemma same_set_trans l1 l2 l3 : same_set l1 l2 -> same_set l2 l3 -> same_set l1 l3.
Proof. intros S T c. rewrite (S c). apply T. Qed.
Lemma same_set_map (f : string -> string) l1 l2 : same_set l1 l2 -> same_set (map f l1) (map f l2).
Proof. intros S c. rewrite !in_map_iff. split; intros [x [E I]]; exists x; (split; [exact E|apply S; exact I]). Qed.
Lemma same_set_app a1 a2 b1 b2 : same_set a1 a2 -> same_set b1 b2 -> same_set (a1 ++ b1) (a2 ++ b2).
Proof. intros S T c. rewrite !in_app_iff, (S c), (T c). tauto. Qed.
Lemma tab_eqv_refl t : tab_eqv t t.
Proof. split; [apply same_set_refl|]. apply Forall2_refl. intros r c. reflexivity. Qed.
Lemma tab_eqv_trans t1 t2 t3 : tab_eqv t1 t2 -> tab_eqv t2 t3 -> tab_eqv t1 t3.
Proof.
  intros [S1 F1] [S2 F2]. split; [eapply same_set_trans; eassumption|].
  eapply Forall2_trans; [|exact F1|exact F2]. intros a b c R1 R2 x. rewrite (R1 x). apply R2.
Qed.
Lemma select_select cs1 cs2 t : (forall c, In c cs2 -> In c cs1) -> sem_select_cols cs2 (sem_select_cols cs1 t) = sem_select_cols cs2 t.
Proof.
  intros S. unfold sem_select_cols. cbn [cols rows]. f_equal. rewrite map_map. apply map_ext. intros r.
  apply map_ext_in. intros c I. rewrite get_map_cols. rewrite (proj2 (mem_In c cs1) (S c I)). reflexivity.
Qed.
Lemma otab_eqv_refl o : otab_eqv o o.
Proof. destruct o; simpl; [apply tab_eqv_refl|exact I]. Qed.

Lemma tab_eqv_agree u t1 t2 : tab_eqv t1 t2 -> ColumnsUsedP2.agree u t1 t2.
Proof.
  intros [S F]. split; [intros c I; apply S, I|]. split; [intros c _ I; apply S, I|].
  eapply Forall2_weaken; [|exact F]. intros r1 r2 R c _. apply R.
Qed.

(* ------------------------------------------------------------------ the operators respect tab_eqv *)
Lemma select_cols_eqv cs1 cs2 t1 t2 : same_set cs1 cs2 -> tab_eqv t1 t2 -> tab_eqv (sem_select_cols cs1 t1) (sem_select_cols cs2 t2).
Proof.
  intros S [Sc F]. split; [exact S|]. cbn [cols rows sem_select_cols].
  eapply ColumnsUsedP1.F2_map; [exact F|]. intros r1 r2 R c. rewrite !get_map_cols, (mem_same_set _ _ c S), (R c). reflexivity.
Qed.

Lemma same_set_filter (f : string -> bool) l1 l2 : same_set l1 l2 -> same_set (filter f l1) (filter f l2).
Proof. intros S c. rewrite !filter_In, (S c). tauto. Qed.

Lemma drop_cols_eqv ds t1 t2 : tab_eqv t1 t2 -> tab_eqv (sem_drop_cols ds t1) (sem_drop_cols ds t2).
Proof. intros E. unfold sem_drop_cols. apply select_cols_eqv; [apply same_set_filter; apply E|exact E]. Qed.

Lemma select_rows_eqv fl x t1 t2 : tab_eqv t1 t2 -> tab_eqv (sem_select_rows fl x t1) (sem_select_rows fl x t2).
Proof. intros E. apply ColumnsUsedP2.agree_all_columns. apply (ColumnsUsedP3.agree_select_rows fl x _ (cols t1)); [apply tab_eqv_agree, E| |]; auto. Qed.

Lemma order_eqv fl cs rv lim t1 t2 : tab_eqv t1 t2 -> tab_eqv (sem_order fl cs rv lim t1) (sem_order fl cs rv lim t2).
Proof. intros E. apply ColumnsUsedP2.agree_all_columns. apply (ColumnsUsedP3.agree_order fl cs rv lim _ (cols t1)); [apply tab_eqv_agree, E| |]; auto. Qed.

Lemma project_eqv fl ops gb t1 t2 : tab_eqv t1 t2 -> sem_project fl ops gb t1 = sem_project fl ops gb t2.
Proof.
  intros [Sc F]. unfold sem_project. f_equal.
  assert (map (key_of (cols t1) gb) (rows t1) = map (key_of (cols t2) gb) (rows t2)) as K.
  { eapply ColumnsUsedP1.F2_map_eq; [exact F|]. intros a b R. apply key_of_eqv. exact R. }
  rewrite K. apply map_ext. intros k. f_equal. apply map_ext. intros ke. unfold agg_value.
  destruct (agg_parts (snd ke)) as [[o arg]|]; [|reflexivity]. f_equal.
  eapply ColumnsUsedP1.F2_map_eq.
  - eapply ColumnsUsedP1.F2_filter; [exact F|]. intros a b R. rewrite (key_of_eqv _ _ _ _ gb R). reflexivity.
  - intros a b R. destruct arg as [x|]; [apply eval_expr_eqv; exact R|reflexivity].
Qed.

(* rename: the new names must not merge two columns (the builders reject such renamings) *)
Definition inj_on (f : string -> string) (l : list string) : Prop := forall x y, In x l -> In y l -> f x = f y -> x = y.

Lemma get_rename (f : string -> string) cs r c : In c cs -> inj_on f cs -> get (map f cs) r (f c) = get cs r c.
Proof.
  intros I J. unfold get. rewrite ColumnsUsedP1.index_of_map_inj; [reflexivity|]. intros x Ix E. apply J; assumption.
Qed.

Lemma rename_eqv m t1 t2 : inj_on (rename_col m) (cols t2) -> tab_eqv t1 t2 -> tab_eqv (sem_rename m t1) (sem_rename m t2).
Proof.
  intros J2 [Sc F].
  assert (inj_on (rename_col m) (cols t1)) as J1. { intros x y Ix Iy. apply J2; apply Sc; assumption. }
  split; cbn [cols rows sem_rename].
  - intros c. rewrite !in_map_iff. split; intros [x [E I]]; exists x; (split; [exact E|apply Sc; exact I]).
  - eapply Forall2_weaken; [|exact F]. intros r1 r2 R c.
    destruct (in_dec eq_dec c (map (rename_col m) (cols t1))) as [I|N].
    + apply in_map_iff in I. destruct I as [x [<- Ix]]. rewrite (get_rename _ _ _ _ Ix J1).
      rewrite (get_rename _ _ _ _ (proj1 (Sc x) Ix) J2). apply R.
    + rewrite (get_absent _ _ _ N). symmetry. apply get_absent. intros I. apply N.
      apply in_map_iff in I. destruct I as [x [E Ix]]. apply in_map_iff. exists x. split; [exact E|apply Sc; exact Ix].
Qed.

(* ------------------------------------------------------------------ reading a row after a sequence of cell assignments *)
Section FoldGet.
  Context {X : Type} (F : string * X -> val).
  Let step := (fun (acc : list val * list string) (ke : string * X) =>
                 let '(row, ccs) := acc in (set_cell ccs row (fst ke) (F ke), add_end ccs (fst ke))).
  (* the value assigned to column c by the LAST assignment to it *)
  Fixpoint last_assign (l : list (string * X)) (c : string) : option val :=
    match l with
    | [] => None
    | ke :: t => match last_assign t c with Some v => Some v | None => if eq_dec c (fst ke) then Some (F ke) else None end
    end.

  Lemma fold_get l row ccs c : List.length row = List.length ccs ->
    get (snd (fold_left step l (row, ccs))) (fst (fold_left step l (row, ccs))) c
    = match last_assign l c with Some v => v | None => get ccs row c end.
  Proof.
    revert row ccs. induction l as [|ke t IH]; intros row ccs L; cbn [fold_left last_assign]; [reflexivity|].
    unfold step at 2 4. rewrite IH by (apply set_cell_length; exact L).
    destruct (last_assign t c); [reflexivity|]. rewrite (set_cell_get _ _ _ _ _ L). destruct (eq_dec c (fst ke)); reflexivity.
  Qed.
End FoldGet.

Lemma same_set_ext_cols c1 c2 ks : same_set c1 c2 -> same_set (ext_cols c1 ks) (ext_cols c2 ks).
Proof. intros S c. unfold ext_cols. rewrite !In_fold_add_end, (S c). tauto. Qed.

Lemma Forall2_with_Forall {A B} (P : A -> Prop) (Q : B -> Prop) (R : A -> B -> Prop) l1 l2 :
  Forall P l1 -> Forall Q l2 -> Forall2 R l1 l2 -> Forall2 (fun a b => P a /\ Q b /\ R a b) l1 l2.
Proof.
  intros FP FQ F. induction F as [|a b l1 l2 Rab F IH]; [constructor|].
  inversion FP; subst. inversion FQ; subst. constructor; [tauto|apply IH; assumption].
Qed.

Lemma extend_row_get fl cs ops r c : List.length r = List.length cs ->
  get (ext_cols cs (map fst ops)) (extend_row fl cs ops r) c
  = match last_assign (fun ke => eval_expr fl cs r (snd ke)) ops c with Some v => v | None => get cs r c end.
Proof.
  intros L. unfold extend_row.
  destruct (fold_cells_inv (fun ke => eval_expr fl cs r (snd ke)) ops r cs L) as [_ H2]. rewrite <- H2.
  apply (fold_get (fun ke : string * expr => eval_expr fl cs r (snd ke))). exact L.
Qed.

Lemma extend_eqv fl ops t1 t2 : width_ok t1 -> width_ok t2 -> tab_eqv t1 t2 -> tab_eqv (sem_extend fl ops t1) (sem_extend fl ops t2).
Proof.
  intros W1 W2 E. apply ColumnsUsedP2.agree_all_columns. apply (ColumnsUsedP2.agree_extend fl ops _ (cols t1)); [exact W1|exact W2|apply tab_eqv_agree, E|].
  intros c _. destruct (ColumnsUsedP1.last_for c ops); auto.
Qed.

(* ------------------------------------------------------------------ windowed extend *)
Lemma tag_from_Forall2 (R : list val -> list val -> Prop) n l1 l2 :
  Forall2 R l1 l2 -> Forall2 (fun a b => fst a = fst b /\ R (snd a) (snd b)) (tag_from n l1) (tag_from n l2).
Proof. intros F. revert n. induction F as [|a b l1 l2 Rab F IH]; intros n; simpl; constructor; [split; [reflexivity|exact Rab]|apply IH]. Qed.

Lemma wextend_eqv fl ops w t1 t2 : width_ok t1 -> width_ok t2 -> tab_eqv t1 t2 -> tab_eqv (sem_wextend fl ops w t1) (sem_wextend fl ops w t2).
Proof.
  intros W1 W2 E. apply ColumnsUsedP2.agree_all_columns. apply (ColumnsUsedP2.agree_wextend fl ops w _ (cols t1)); [exact W1|exact W2|apply tab_eqv_agree, E|].
  intros c _. destruct (ColumnsUsedP1.last_for c ops); auto.
Qed.

(* ------------------------------------------------------------------ natural_join *)
Lemma join_eqv nm on_a on_b jt a1 a2 b1 b2 :
  tab_eqv a1 a2 -> tab_eqv b1 b2 -> tab_eqv (sem_join nm on_a on_b jt a1 b1) (sem_join nm on_a on_b jt a2 b2).
Proof.
  intros Ea Eb. apply ColumnsUsedP2.agree_all_columns.
  apply (ColumnsUsedP3.agree_join nm on_a on_b jt _ (cols a1) (cols b1)); [apply tab_eqv_agree, Ea|apply tab_eqv_agree, Eb| |]; auto.
Qed.

(* ------------------------------------------------------------------ concat_rows *)
Lemma concat_eqv idc an bn a1 a2 b1 b2 : width_ok a1 -> width_ok a2 ->
  tab_eqv a1 a2 -> tab_eqv b1 b2 -> tab_eqv (sem_concat idc an bn a1 b1) (sem_concat idc an bn a2 b2).
Proof.
  intros W1 W2 Ea Eb. apply ColumnsUsedP2.agree_all_columns.
  apply (ColumnsUsedP3.agree_concat idc an bn _ (cols a1) (cols b1)); [exact W1|exact W2|apply tab_eqv_agree, Ea|apply tab_eqv_agree, Eb| |]; auto.
Qed.

(* ------------------------------------------------------------------ the meaning of a substituted pipeline, up to column order *)
Lemma inj_on_NoDup_map (f : string -> string) l : NoDup (map f l) -> inj_on f l.
Proof. intros N x y. exact (ListP.NoDup_map_inj f l x y N). Qed.

Lemma otab_eqv_map (f g : table -> table) o1 o2 :
  otab_eqv o1 o2 -> (forall t1 t2, o1 = Some t1 -> o2 = Some t2 -> tab_eqv t1 t2 -> tab_eqv (f t1) (g t2)) ->
  otab_eqv (option_map f o1) (option_map g o2).
Proof. destruct o1, o2; simpl; intros E H; try contradiction; [apply H; auto|exact I]. Qed.

Lemma set_eqb_same_set (l1 l2 : list string) : set_eqb l1 l2 = true -> same_set l1 l2.
Proof. unfold set_eqb. rewrite andb_true_iff, !subset_spec. intros [S1 S2] c. split; [apply S1|apply S2]. Qed.

Theorem subst_sem_up_to_column_order fl m p e :
  boundary_sets_ok m p = true -> renames_okb p = true ->
  otab_eqv (sem_gen fl (subst m p) e) (sem_gen fl p (override fl e m)).
Proof.
  induction p; intros B R; cbn [boundary_sets_ok renames_okb] in B, R; cbn [subst sem_gen].
  1: { rewrite dict_get_override. revert B. destruct (dict_get m name) as [r|] eqn:E; intros B; [|apply otab_eqv_refl].
       destruct (sem_gen fl r e) as [t|] eqn:S; [|exact I]. cbn [otab_eqv].
       pose proof (sem_cols _ _ _ _ S) as C. apply set_eqb_same_set in B. rewrite <- C in B.
       split; [exact B|]. cbn [cols rows sem_select_cols]. rewrite <- (map_id (rows t)) at 1.
       eapply ColumnsUsedP1.F2_map; [apply Forall2_refl; intros r0; reflexivity|]. intros r1 r2 <- c.
       rewrite get_map_cols. destruct (mem c tcols) eqn:M; [reflexivity|]. apply get_absent. intros I. apply B in I. apply (proj2 (mem_In _ _)) in I. congruence. }
  (* the renaming nodes were checked not to merge two columns *)
  6-7: apply andb_true_iff in R; destruct R as [R J]; apply nodupb_NoDup, inj_on_NoDup_map in J.
  (* one source: equivalent by induction (t1, t2), and the node's operator respects the equivalence *)
  1-8: apply otab_eqv_map; [apply IHp; assumption|]; intros t1 t2 S1 S2 E.
  9-10: apply andb_true_iff in B; destruct B as [Ba Bb]; apply andb_true_iff in R; destruct R as [Ra Rb].
  9-10: specialize (IHp1 Ba Ra); specialize (IHp2 Bb Rb).
  9-10: destruct (sem_gen fl (subst m p1) e) as [ta1|] eqn:S1, (sem_gen fl p1 (override fl e m)) as [ta2|] eqn:S2; simpl in IHp1; try contradiction; [|exact I].
  9-10: destruct (sem_gen fl (subst m p2) e) as [tb1|], (sem_gen fl p2 (override fl e m)) as [tb2|]; simpl in IHp2; try contradiction; [|exact I].
  - pose proof (sem_rows_width _ _ _ _ S1) as W1. pose proof (sem_rows_width _ _ _ _ S2) as W2.
    destruct windowed; [apply wextend_eqv|apply extend_eqv]; assumption.
  - rewrite (project_eqv fl ops gb t1 t2 E). apply tab_eqv_refl.
  - apply select_rows_eqv. exact E.
  - apply select_cols_eqv; [apply same_set_refl|exact E].
  - apply drop_cols_eqv. exact E.
  - apply rename_eqv; [|exact E]. rewrite (sem_cols _ _ _ _ S2). exact J.
  - apply drop_cols_eqv. apply rename_eqv; [|exact E]. rewrite (sem_cols _ _ _ _ S2). exact J.
  - apply order_eqv. exact E.
  - apply join_eqv; assumption.
  - apply concat_eqv; try assumption; [exact (sem_rows_width _ _ _ _ S1)|exact (sem_rows_width _ _ _ _ S2)].
Qed.

Theorem replace_leaves_sem_up_to_column_order fl m p e :
  built_ok p = true -> boundary_sets_ok m p = true -> renames_okb p = true ->
  otab_eqv (sem_gen fl (replace_leaves m p) e) (sem_gen fl p (override fl e m)).
Proof. intros B1 B2 R. rewrite replace_leaves_subst by exact B1. apply subst_sem_up_to_column_order; assumption. Qed.

Lemma boundary_sets_single k a b cs : leaf_declares k cs b = true -> set_eqb (column_names a) cs = true -> boundary_sets_ok [(k, a)] b = true.
Proof.
  intros L S. induction b; cbn [leaf_declares boundary_sets_ok] in *; try (apply IHb; exact L).
  1: { rewrite dict_get_single. destruct (eq_dec name k); [|reflexivity]. apply (proj1 (eqb_true _ _)) in L. subst tcols. exact S. }
  all: apply andb_true_iff in L; destruct L as [La Lb]; rewrite (IHb1 La), (IHb2 Lb); reflexivity.
Qed.

(* a >> b as ViewRepresentation.act_on accepts it (equal column SETS): the composed pipeline is b run on a's result,
   up to column order *)
Theorem rshift_sequential_up_to_column_order fl k a b c e :
  only_table k b -> built_ok b = true -> renames_okb b = true -> rshift a b = Some c ->
  otab_eqv (sem_gen fl c e) (sem_gen fl b (env_set e k (sem_gen fl a e))).
Proof.
  intros O B R H. destruct (only_table_dict_get _ _ O) as [cs D]. rewrite (rshift_accepts_iff k a b cs O D) in H.
  destruct (tables_consistent (leaves b)) eqn:C; [|discriminate]. destruct (set_eqb (column_names a) cs) eqn:S; [|discriminate].
  cbn in H. inversion H; subst c. unfold compose_at. rewrite <- override_single.
  apply replace_leaves_sem_up_to_column_order; [exact B| |exact R].
  eapply boundary_sets_single; [apply consistent_declares; eassumption|exact S].
Qed.

(* instance: the witness of C07_set_boundary_exact_equality_refuted (not equal as tables) is equal up to column order *)
Lemma example_up_to_column_order :
  only_table "e" b_keep /\ built_ok b_keep = true /\ renames_okb b_keep = true /\
  exists c, rshift a_swapped b_keep = Some c /\
            otab_eqv (sem_gen fl_spec c env_d) (sem_gen fl_spec b_keep (env_set env_d "e" (sem_gen fl_spec a_swapped env_d))).
Proof.
  split; [intros n [<-|[]]; reflexivity|]. split; [reflexivity|]. split; [reflexivity|].
  eexists. split; [vm_compute; reflexivity|]. eapply rshift_sequential_up_to_column_order; try reflexivity.
  intros n [<-|[]]; reflexivity.
Qed.
