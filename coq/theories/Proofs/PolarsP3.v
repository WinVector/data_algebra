(* C03, part 3: the row-wise steps of the Polars executor model compute the Pandas-flavoured reference semantics on the
   same input: select_rows, concat_rows; the loop of an extend without a window (the step itself is in part 6). *)
From Coq Require Import List Bool String .
Import ListNotations.
From DA Require Import Base.PyRT Base.PyStr Base.Val Model.Sem Model.PolarsExec Proofs.SemBasicP Proofs.PolarsP1 Proofs.PolarsP2.
Local Open Scope string_scope.
Local Open Scope list_scope.

Definition good (t : table) : Prop := NoDup (cols t) /\ width_ok t.

Lemma width_row t r : width_ok t -> In r (rows t) -> List.length r = List.length (cols t).
Proof. unfold width_ok. rewrite Forall_forall. auto. Qed.

(* ------------------------------------------------------------------ select_rows *)
Lemma pl_filter_rowwise x t q :
  (forall i r, nth_error (rows t) i = Some r -> truth (plx_at (cols t) (rows t) i x) = q r) ->
  pl_filter x t = mktable (cols t) (filter q (rows t)).
Proof. intros H. unfold pl_filter. f_equal. apply filter_tag_from_rowwise. intros i r N. cbn [fst]. apply H. exact N. Qed.

(* a row filter only needs the TRUTH of the predicate: Polars' null (dropped) stands for Pandas' False (dropped) *)
Definition vrel (vpl vpd : val) : Prop := vpl = vpd \/ (vpl = VNull /\ vpd = VBool false).
Lemma vrel_truth a b : vrel a b -> truth a = truth b.
Proof. intros [->|[-> ->]]; reflexivity. Qed.
Lemma null_truth v : is_null v = true -> truth v = false.
Proof. destruct v; try discriminate. reflexivity. Qed.
(* and3 / or3 only look at is_null and truth of their arguments *)
Lemma vrel_and a a' b b' : vrel a a' -> vrel b b' -> vrel (and3 a b) (VBool (truth a' && truth b')).
Proof.
  intros Ra Rb. rewrite <- (vrel_truth _ _ Ra), <- (vrel_truth _ _ Rb). unfold vrel, and3.
  pose proof (null_truth a) as Na. pose proof (null_truth b) as Nb.
  destruct (is_null a), (truth a), (is_null b), (truth b); cbn [negb andb orb];
    try discriminate (Na eq_refl); try discriminate (Nb eq_refl); auto.
Qed.
Lemma vrel_or a a' b b' : vrel a a' -> vrel b b' -> vrel (or3 a b) (VBool (truth a' || truth b')).
Proof.
  intros Ra Rb. rewrite <- (vrel_truth _ _ Ra), <- (vrel_truth _ _ Rb). unfold vrel, or3.
  pose proof (null_truth a) as Na. pose proof (null_truth b) as Nb.
  destruct (is_null a), (truth a), (is_null b), (truth b); cbn [negb andb orb];
    try discriminate (Na eq_refl); try discriminate (Nb eq_refl); auto.
Qed.
Lemma vrel_cmp c a b : c <> CNe -> vrel (pl_cmp c a b) (compare_vals fl_pandas c a b).
Proof.
  intros N. destruct a, b; cbn [pl_cmp compare_vals f_cmp3 fl_pandas]; try (left; reflexivity); right; split; try reflexivity;
    destruct c; try reflexivity; congruence.
Qed.

Definition filter_ok3 (cs : list string) (r : list val) (e : expr) : Prop :=
  filter_nulls_ok is_cmp_op cs r e = true /\ filter_nulls_ok is_logic_op cs r e = true.
Definition filter_agrees (e : expr) : Prop :=
  exists x, (forall one ext, tr_expr one ext e = Ok x) /\
            forall cs rs i, filter_ok3 cs (nth i rs []) e -> vrel (plx_at cs rs i x) (eval_expr fl_pandas cs (nth i rs []) e).

(* the three cases of filter_nulls_ok: and / or descend, a comparison other than != checks its operands, everything
   else is checked as in a stored column *)
Lemma filter_ok3_logic cs r op a b : is_logic_op op = true ->
  filter_ok3 cs r (EOp op [a; b]) -> filter_ok3 cs r a /\ filter_ok3 cs r b.
Proof.
  intros Lg [G1 G2]. cbn [filter_nulls_ok] in G1, G2. rewrite Lg in G1, G2.
  apply andb_true_iff in G1, G2. unfold filter_ok3. tauto.
Qed.
Lemma filter_ok3_cmp cs r op a b : is_logic_op op = false -> is_cmp_op op && negb (eqb op "!=") = true ->
  filter_ok3 cs r (EOp op [a; b]) -> nulls_ok3 cs r a /\ nulls_ok3 cs r b.
Proof.
  intros Lg Cm [G1 G2]. cbn [filter_nulls_ok] in G1, G2. rewrite Lg, Cm in G1, G2.
  apply andb_true_iff in G1, G2. unfold nulls_ok3. tauto.
Qed.
Lemma filter_ok3_plain cs r e :
  match e with EOp op [_; _] => is_logic_op op = false /\ is_cmp_op op && negb (eqb op "!=") = false | _ => True end ->
  filter_ok3 cs r e -> nulls_ok3 cs r e.
Proof.
  intros Sh G. destruct e as [c|v|op [|a [|b [|c rest]]]]; try exact G.
  destruct Sh as [Lg Cm]. destruct G as [G1 G2]. cbn [filter_nulls_ok] in G1, G2. rewrite Lg, Cm in G1, G2. split; assumption.
Qed.

Lemma filter_agrees_plain e : expr_vocab e = true ->
  match e with EOp op [_; _] => is_logic_op op = false /\ is_cmp_op op && negb (eqb op "!=") = false | _ => True end ->
  filter_agrees e.
Proof.
  intros V Sh. destruct (tr_expr_sound e V) as [x [T E]]. exists x. split; [exact T|].
  intros cs rs i G. left. apply E. apply filter_ok3_plain; assumption.
Qed.

Lemma tr_filter_sound e : expr_vocab e = true -> filter_agrees e.
Proof.
  induction e as [c|v|op args IH] using TabP.expr_ind2; intros V; try (apply filter_agrees_plain; [exact V|exact I]).
  destruct args as [|a [|b [|c rest]]]; try (apply filter_agrees_plain; [exact V|exact I]).
  pose proof V as V0. rewrite expr_vocab_op in V. apply andb_true_iff in V. destruct V as [_ V]. cbn [forallb] in V.
  apply andb_true_iff in V. destruct V as [Va V]. apply andb_true_iff in V. destruct V as [Vb _].
  apply Forall_cons_iff in IH. destruct IH as [IHa IH]. apply Forall_cons_iff in IH. destruct IH as [IHb _].
  destruct (is_logic_op op) eqn:Lg; [|destruct (is_cmp_op op && negb (eqb op "!=")) eqn:Cm].
  - (* and / or: Kleene on Polars, truth values on Pandas; the operands are predicates again *)
    destruct (IHa Va) as [xa [Ta Ea]], (IHb Vb) as [xb [Tb Eb]].
    pose proof Lg as M. unfold is_logic_op in M. mem_cases M.
    all: eexists; (split; [intros one ext; rewrite tr_expr_op; cbn [tr_list]; rewrite Ta, Tb; reflexivity|]).
    all: intros cs rs i G; destruct (filter_ok3_logic _ _ _ _ _ Lg G) as [Ga Gb].
    all: rewrite TabP.eval_expr_EOp; cbn [map plx_at scalar_op f_logic3 fl_pandas].
    + apply vrel_and; auto.
    + apply vrel_or; auto.
  - (* a comparison other than !=: null on Polars where Pandas says False *)
    destruct (tr_expr_sound a Va) as [xa [Ta Ea]], (tr_expr_sound b Vb) as [xb [Tb Eb]].
    pose proof Cm as M. apply andb_true_iff in M. destruct M as [M Ne]. unfold is_cmp_op in M. mem_cases M; try discriminate Ne.
    all: eexists; (split; [intros one ext; rewrite tr_expr_op; cbn [tr_list]; rewrite Ta, Tb; reflexivity|]).
    all: intros cs rs i G; destruct (filter_ok3_cmp _ _ _ _ _ Lg Cm G) as [Ga Gb].
    all: rewrite TabP.eval_expr_EOp; cbn [map plx_at scalar_op]; rewrite (Ea cs rs i Ga), (Eb cs rs i Gb); apply vrel_cmp; discriminate.
  - apply filter_agrees_plain; [exact V0|]. split; assumption.
Qed.

Lemma select_rows_step_filter declared e t t2 :
  expr_vocab e = true -> (forall r, In r (rows t) -> filter_ok3 (cols t) r e) ->
  pl_select_rows_step declared e t = Ok t2 -> t2 = sem_select_rows fl_pandas e t.
Proof.
  intros V G H. unfold pl_select_rows_step in H. rewrite req_temps_vocab in H by (simpl; rewrite V; reflexivity).
  cbn [with_columns_if select_if] in H. destruct (tr_filter_sound e V) as [x [T E]]. rewrite T in H. cbn [rbind] in H.
  inversion H; subst. unfold sem_select_rows. apply pl_filter_rowwise. intros i r N.
  apply vrel_truth. rewrite <- (nth_error_nth _ _ [] N). apply E. rewrite (nth_error_nth _ _ [] N). apply G. eapply nth_error_In; eassumption.
Qed.

Lemma filter_nulls_ok_of_expr sens cs r e : expr_nulls_ok sens cs r e = true -> filter_nulls_ok sens cs r e = true.
Proof.
  induction e as [c|v|op args IH] using TabP.expr_ind2; intros H; try exact H.
  destruct args as [|a [|b [|c rest]]]; try exact H.
  pose proof H as H0. rewrite expr_nulls_ok_op in H0. apply andb_true_iff in H0. destruct H0 as [H0 _]. cbn [forallb] in H0.
  apply andb_true_iff in H0. destruct H0 as [Ha H0]. apply andb_true_iff in H0. destruct H0 as [Hb _].
  apply Forall_cons_iff in IH. destruct IH as [IHa IH]. apply Forall_cons_iff in IH. destruct IH as [IHb _].
  cbn [filter_nulls_ok]. destruct (is_logic_op op); [rewrite IHa, IHb by assumption; reflexivity|].
  destruct (is_cmp_op op && negb (eqb op "!=")); [rewrite Ha, Hb; reflexivity|exact H].
Qed.

Lemma select_rows_step_ok declared e t t2 :
  expr_vocab e = true -> (forall r, In r (rows t) -> nulls_ok3 (cols t) r e) ->
  pl_select_rows_step declared e t = Ok t2 -> t2 = sem_select_rows fl_pandas e t.
Proof.
  intros V G. apply select_rows_step_filter; [exact V|]. intros r I. destruct (G r I) as [A B].
  split; apply filter_nulls_ok_of_expr; assumption.
Qed.

(* ------------------------------------------------------------------ extend without a window *)
Definition tr_ok (e : expr) : plx := match tr_expr one_base true e with Ok x => x | _ => PLit VNull end.

Lemma fold_extend_false one pb ops temps acc names : forallb expr_vocab (map snd ops) = true ->
  fold_left (extend_fold_step one false pb) ops (Ok (temps, acc, names)) =
  Ok (temps, acc ++ map (fun ke => (fst ke, CPlain (tr_ok (snd ke)))) ops, names).
Proof.
  revert acc. induction ops as [|ke t IH]; intros acc V; [simpl; rewrite app_nil_r; reflexivity|].
  cbn [map forallb] in V. apply andb_true_iff in V. destruct V as [V1 V2].
  destruct (tr_expr_sound (snd ke) V1) as [x [T E]].
  assert (extend_fold_step one false pb (Ok (temps, acc, names)) ke = Ok (temps, acc ++ [(fst ke, CPlain x)], names)) as S1.
  { unfold extend_fold_step. cbn [rbind]. rewrite T. reflexivity. }
  cbn [fold_left map]. rewrite S1, IH by exact V2.
  rewrite <- app_assoc. cbn [app]. unfold tr_ok at 2. rewrite T. reflexivity.
Qed.

Lemma ext_cols_fresh cs c : ~ In c cs -> ext_cols cs [c] = cs ++ [c].
Proof. intros N. unfold ext_cols. simpl. unfold add_end. apply mem_false in N. rewrite N. reflexivity. Qed.

(* ------------------------------------------------------------------ concat_rows *)
Lemma wc_row_new_lit t c v i r : ~ In c (cols t) -> wc_row t [(c, CPlain (PLit v))] (i, r) = r ++ [v].
Proof.
  intros N. unfold wc_row. cbn [fold_left fst snd col_at plx_at]. unfold set_cell.
  apply mem_false in N. apply index_of_None in N. rewrite N. reflexivity.
Qed.

Lemma with_columns_new_lit t c v : ~ In c (cols t) ->
  pl_with_columns t [(c, CPlain (PLit v))] = mktable (cols t ++ [c]) (map (fun r => r ++ [v]) (rows t)).
Proof.
  intros N. unfold pl_with_columns. f_equal.
  - change (ext_cols (cols t) [c] = cols t ++ [c]). apply ext_cols_fresh. exact N.
  - apply map_tag_from_rowwise. intros i r _. apply (wc_row_new_lit t c v i r N).
Qed.

Lemma concat_step_ok ca idc an bn a b t2 :
  good a -> cols a = ca ->
  pl_concat_step ca idc an bn a b = Ok t2 -> t2 = sem_concat idc an bn a b.
Proof.
  intros [Na Wa] Ca H. subst ca. unfold pl_concat_step in H.
  destruct (match idc with Some c => mem c (cols a) | None => false end) eqn:Ei; [discriminate|].
  apply rbind_ok in H. destruct H as [a1 [Ha H]]. apply rbind_ok in H. destruct H as [b1 [Hb H]].
  apply pl_select_ok in Ha, Hb. destruct Ha as [-> _], Hb as [-> _].
  rewrite (select_self a Na Wa) in H. inversion H; subst. clear H.
  unfold sem_concat. destruct idc as [c|].
  - apply mem_false in Ei. rewrite (with_columns_new_lit a c _ Ei).
    rewrite with_columns_new_lit by exact Ei. reflexivity.
  - reflexivity.
Qed.
